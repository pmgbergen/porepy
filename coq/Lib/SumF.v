(* Finite sums  sum_{i<n} f i  over Q and their exchange law (used by C18, C16). *)
From Coq Require Import List ZArith QArith Arith Lia.
Local Open Scope Q_scope.

Fixpoint sumf (n : nat) (f : nat -> Q) : Q :=
  match n with O => 0 | S n' => f O + sumf n' (fun i => f (S i)) end.

Lemma sumf_ext : forall n f g, (forall i, (i < n)%nat -> f i == g i) -> sumf n f == sumf n g.
Proof.
  induction n as [|n IH]; intros f g H; cbn [sumf]; [reflexivity|].
  rewrite (H O) by lia. rewrite (IH (fun i => f (S i)) (fun i => g (S i))); [reflexivity|].
  intros i Hi. apply H. lia.
Qed.

Lemma sumf_zero : forall n, sumf n (fun _ => 0) == 0.
Proof. induction n as [|n IH]; cbn [sumf]; [reflexivity|]. rewrite IH. ring. Qed.

Lemma sumf_plus : forall n f g, sumf n (fun i => f i + g i) == sumf n f + sumf n g.
Proof.
  induction n as [|n IH]; intros f g; cbn [sumf]; [ring|].
  rewrite (IH (fun i => f (S i)) (fun i => g (S i))). ring.
Qed.

Lemma sumf_scal : forall n c f, sumf n (fun i => c * f i) == c * sumf n f.
Proof.
  induction n as [|n IH]; intros c f; cbn [sumf]; [ring|].
  rewrite (IH c (fun i => f (S i))). ring.
Qed.

Lemma sumf_scal_r : forall n c f, sumf n (fun i => f i * c) == sumf n f * c.
Proof.
  induction n as [|n IH]; intros c f; cbn [sumf]; [ring|].
  rewrite (IH c (fun i => f (S i))). ring.
Qed.

Lemma sumf_swap : forall n m (f : nat -> nat -> Q),
  sumf n (fun i => sumf m (fun j => f i j)) == sumf m (fun j => sumf n (fun i => f i j)).
Proof.
  induction n as [|n IH]; intros m f; cbn [sumf].
  - symmetry. apply sumf_zero.
  - rewrite (IH m (fun i j => f (S i) j)).
    rewrite <- (sumf_plus m (fun j => f O j) (fun j => sumf n (fun i => f (S i) j))).
    reflexivity.
Qed.

Lemma sumf_pick : forall n k (a : Q),
  sumf n (fun i => if Nat.eqb i k then a else 0) == if (k <? n)%nat then a else 0.
Proof.
  induction n as [|n IH]; intros k a; cbn [sumf]; [reflexivity|].
  destruct k as [|k]; cbn [Nat.eqb].
  - rewrite sumf_zero. apply Qplus_0_r.
  - rewrite (IH k a). apply Qplus_0_l.
Qed.
