(* Sparse rows over Q applied to states that depend linearly on parameters.
   Shared by the certificate-style checks (C15, C16, C18): a row applied to
   sum_m theta_m * basis_m  is  sum_m theta_m * (row . basis_m), exactly and with error
   bounds. *)
From Coq Require Import List ZArith QArith Qabs Bool Arith Lia Lqa.
Import ListNotations.
From PP Require Import Lib.ListFacts.
Local Open Scope Q_scope.

Definition row := list (nat * Q).      (* (column, value); duplicates are summed *)
Definition vec := nat -> Q.

Fixpoint rdot (r : row) (v : vec) : Q :=
  match r with [] => 0 | ja :: r' => snd ja * v (fst ja) + rdot r' v end.

(* sum of the absolute values of the terms of  r . v  (scale of the relative tolerance) *)
Fixpoint rabs (r : row) (v : vec) : Q :=
  match r with [] => 0 | ja :: r' => Qabs (snd ja * v (fst ja)) + rabs r' v end.

Fixpoint tsum (k : nat) (t : list Q) (f : nat -> Q) : Q :=
  match t with [] => 0 | x :: t' => x * f k + tsum (S k) t' f end.

Definition lin_state (basis : nat -> vec) (theta : list Q) : vec :=
  fun j => tsum 0 theta (fun m => basis m j).

Definition near (tol scale x y : Q) : bool := Qle_bool (Qabs (x - y)) (tol * (1 + scale)).

Lemma forallb_seq2 : forall (p : nat -> nat -> bool) n m,
  forallb (fun i => forallb (p i) (seq 0 m)) (seq 0 n) = true ->
  forall i j, (i < n)%nat -> (j < m)%nat -> p i j = true.
Proof.
  intros p n m H i j Hi Hj. exact (proj1 (forallb_seq _ _) (proj1 (forallb_seq _ _) H i Hi) j Hj).
Qed.

Lemma tsum_ext : forall t m f g,
  (forall k, (m <= k < m + length t)%nat -> f k == g k) -> tsum m t f == tsum m t g.
Proof.
  induction t as [|x t IH]; intros m f g H; cbn [tsum]; [reflexivity|].
  cbn [length] in H. rewrite (H m) by lia.
  rewrite (IH (S m) f g); [reflexivity|]. intros k Hk. apply H. lia.
Qed.

Lemma tsum_zero : forall t m, tsum m t (fun _ => 0) == 0.
Proof. induction t as [|x t IH]; intros m; cbn [tsum]; [reflexivity|]. rewrite IH. ring. Qed.

Lemma tsum_plus : forall t m f g,
  tsum m t (fun k => f k + g k) == tsum m t f + tsum m t g.
Proof. induction t as [|x t IH]; intros; cbn [tsum]; [ring|]. rewrite IH. ring. Qed.

Lemma tsum_minus : forall t m f g,
  tsum m t (fun k => f k - g k) == tsum m t f - tsum m t g.
Proof. induction t as [|x t IH]; intros; cbn [tsum]; [ring|]. rewrite IH. ring. Qed.

Lemma tsum_scal : forall t m c f, tsum m t (fun k => c * f k) == c * tsum m t f.
Proof. induction t as [|x t IH]; intros; cbn [tsum]; [ring|]. rewrite IH. ring. Qed.

Lemma tsum_abs_bound : forall t m h eps,
  (forall k, (m <= k < m + length t)%nat -> Qabs (h k) <= eps k) ->
  Qabs (tsum m t h) <= tsum m (map Qabs t) eps.
Proof.
  induction t as [|x t IH]; intros m h eps H; cbn [tsum map]; [apply Qle_refl|].
  cbn [length] in H.
  eapply Qle_trans; [apply Qabs_triangle|].
  rewrite Qabs_Qmult, !(Qmult_comm (Qabs x)).
  apply Qplus_le_compat.
  - apply Qmult_le_compat_r; [apply H; lia|apply Qabs_nonneg].
  - apply IH. intros k Hk. apply H. lia.
Qed.

Lemma rdot_lin : forall basis theta r,
  rdot r (lin_state basis theta) == tsum 0 theta (fun m => rdot r (basis m)).
Proof.
  intros basis theta. induction r as [|[j a] r IH]; cbn [rdot fst snd].
  - symmetry. apply tsum_zero.
  - rewrite (tsum_plus theta 0%nat (fun m => a * basis m j)), <- IH.
    unfold lin_state. rewrite tsum_scal. reflexivity.
Qed.

Lemma lin_exact : forall basis theta r g,
  (forall m, (m < length theta)%nat -> rdot r (basis m) == g m) ->
  rdot r (lin_state basis theta) == tsum 0 theta g.
Proof.
  intros basis theta r g H. rewrite rdot_lin. apply tsum_ext. intros k Hk. apply H. lia.
Qed.

Lemma lin_quant : forall basis theta r g eps,
  (forall m, (m < length theta)%nat -> Qabs (rdot r (basis m) - g m) <= eps m) ->
  Qabs (rdot r (lin_state basis theta) - tsum 0 theta g) <= tsum 0 (map Qabs theta) eps.
Proof.
  intros basis theta r g eps H.
  rewrite rdot_lin, <- tsum_minus.
  apply tsum_abs_bound. intros k Hk. apply H. lia.
Qed.

Lemma near_sound : forall tol scale x y,
  near tol scale x y = true -> Qabs (x - y) <= tol * (1 + scale).
Proof. intros tol scale x y H. apply Qle_bool_iff, H. Qed.

Lemma near_zero_exact : forall scale x y, near 0 scale x y = true -> x == y.
Proof. intros scale x y H. apply near_sound, Qabs_Qle_condition in H. lra. Qed.

(* the conjunct shared by the certificate checkers: every basis value of the row is near its
   target, so the row is within the accumulated tolerance on every linear state *)
Lemma near_lin_sound : forall tol basis g r theta,
  forallb (fun m => near tol (rabs r (basis m)) (rdot r (basis m)) (g m)) (seq 0 (length theta))
  = true ->
  Qabs (rdot r (lin_state basis theta) - tsum 0 theta g)
  <= tsum 0 (map Qabs theta) (fun m => tol * (1 + rabs r (basis m))).
Proof.
  intros tol basis g r theta H. apply lin_quant. intros m Hm.
  apply near_sound, (proj1 (forallb_seq _ _) H m Hm).
Qed.

(* rdot and rabs leave their sums unnormalised: on a row of float data (dyadic rationals with
   53-bit numerators) every addition multiplies the denominators, and evaluating a checker
   without the bytecode machine takes minutes.  rsums_red reduces after every step;
   the tests of a checker cannot tell the difference (Qle_bool_Qeq).
   Qplus_dl and Qle_bool_dl are Qplus and Qle_bool with the factors of their two products
   swapped: Z.mul recurses on its first factor, and the denominator of a float is a power of
   two, on which that recursion only shifts, whereas a 100-bit numerator in that place costs
   100 long additions. *)
Definition Qplus_dl (x y : Q) : Q :=
  (QDen y * Qnum x + QDen x * Qnum y) # (Qden x * Qden y).

Lemma Qplus_dl_eq : forall x y, Qplus_dl x y = x + y.
Proof.
  intros x y. unfold Qplus_dl, Qplus. rewrite (Z.mul_comm (QDen y)), (Z.mul_comm (QDen x)).
  reflexivity.
Qed.

Definition Qle_bool_dl (x y : Q) : bool := (QDen y * Qnum x <=? QDen x * Qnum y)%Z.

Lemma Qle_bool_dl_eq : forall x y, Qle_bool_dl x y = Qle_bool x y.
Proof.
  intros x y. unfold Qle_bool_dl, Qle_bool. rewrite (Z.mul_comm (QDen y)), (Z.mul_comm (QDen x)).
  reflexivity.
Qed.

Fixpoint rsums_red (r : row) (v : vec) : Q * Q :=
  match r with
  | [] => (0, 0)
  | ja :: r' =>
      let t := snd ja * v (fst ja) in let s := rsums_red r' v in
      (Qred (Qplus_dl t (fst s)), Qred (Qplus_dl (Qabs t) (snd s)))
  end.

Lemma rsums_red_eq : forall r v,
  fst (rsums_red r v) == rdot r v /\ snd (rsums_red r v) == rabs r v.
Proof.
  induction r as [|ja r IH]; intro v; cbn [rsums_red rdot rabs fst snd]; [split; reflexivity|].
  rewrite !Qred_correct, !Qplus_dl_eq, (proj1 (IH v)), (proj2 (IH v)). split; reflexivity.
Qed.

Lemma Qle_bool_Qeq : forall a a' b b', a == a' -> b == b' -> Qle_bool a b = Qle_bool a' b'.
Proof.
  intros a a' b b' Ha Hb. apply eq_true_iff_eq. rewrite !Qle_bool_iff, Ha, Hb. reflexivity.
Qed.

Lemma rdot_sub : forall r (x y : vec),
  rdot r (fun j => x j - y j) == rdot r x - rdot r y.
Proof. induction r as [|[j a] r IH]; intros; cbn [rdot fst snd]; [ring|]. rewrite IH. ring. Qed.

Lemma unique_solution : forall (A : list row) (n : nat) (x y : vec),
  (forall v : vec, (forall j, (n <= j)%nat -> v j == 0) -> (forall r, In r A -> rdot r v == 0) ->
                   forall j, (j < n)%nat -> v j == 0) ->
  (forall j, (n <= j)%nat -> x j == y j) ->
  (forall r, In r A -> rdot r x == rdot r y) ->
  forall j, (j < n)%nat -> x j == y j.
Proof.
  intros A n x y Hker Hbnd Hres j Hj.
  assert (E : x j - y j == 0).
  { apply (Hker (fun j => x j - y j)); [| |exact Hj].
    - intros j' Hj'. cbn beta. rewrite (Hbnd j' Hj'). ring.
    - intros r Hr. rewrite rdot_sub, (Hres r Hr). ring. }
  lra.
Qed.
