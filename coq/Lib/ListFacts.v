(* List facts that several properties use and the standard library of Coq 8.16 lacks. *)
From Coq Require Import List Arith Lia Sorted.
Import ListNotations.

Lemma nth_map_lt {A B} (f : A -> B) l i d d' :
  i < length l -> nth i (map f l) d' = f (nth i l d).
Proof. intro H. rewrite (nth_indep _ d' (f d)) by (rewrite map_length; exact H). apply map_nth. Qed.

Lemma nth_map_seq {A} (f : nat -> A) s n i d : i < n -> nth i (map f (seq s n)) d = f (s + i).
Proof.
  intro H. rewrite (nth_map_lt f _ i 0) by (rewrite seq_length; exact H).
  rewrite seq_nth by exact H. reflexivity.
Qed.

Lemma map_nth_seq {A} (l : list A) d : map (fun i => nth i l d) (seq 0 (length l)) = l.
Proof.
  induction l as [|a l IH]; [reflexivity|]. cbn [length seq map nth].
  rewrite <- seq_shift, map_map. cbn [nth]. rewrite IH. reflexivity.
Qed.

Lemma map_add_seq a s n : map (Nat.add a) (seq s n) = seq (a + s) n.
Proof.
  revert s. induction n as [|n IH]; intro s; [reflexivity|]. cbn [seq map].
  rewrite IH, Nat.add_succ_r. reflexivity.
Qed.

Lemma map_const {A B} (c : B) (l : list A) : map (fun _ => c) l = repeat c (length l).
Proof. induction l as [|a l IH]; [reflexivity|]. cbn. rewrite IH. reflexivity. Qed.

Lemma map_fst_combine {A B} (l : list A) : forall m : list B,
  length l = length m -> map fst (combine l m) = l.
Proof. induction l as [|a l IH]; intros [|b m] H; try discriminate H; cbn; [|rewrite IH]; auto. Qed.

Lemma map_snd_combine {A B} (l : list A) : forall m : list B,
  length l = length m -> map snd (combine l m) = m.
Proof. induction l as [|a l IH]; intros [|b m] H; try discriminate H; cbn; [|rewrite IH]; auto. Qed.

Lemma filter_all {A} (p : A -> bool) l : (forall x, In x l -> p x = true) -> filter p l = l.
Proof.
  induction l as [|a l IH]; intro H; [reflexivity|]. cbn [filter].
  rewrite (H a (in_eq _ _)), IH; [reflexivity|]. intros x Hx. apply H, in_cons, Hx.
Qed.

Lemma forallb_seq (p : nat -> bool) n :
  forallb p (seq 0 n) = true <-> forall i, i < n -> p i = true.
Proof.
  rewrite forallb_forall. split; intros H i Hi; apply H; [apply in_seq; lia|].
  apply in_seq in Hi. lia.
Qed.

Lemma flat_map_length_const {A B} (f : A -> list B) l n :
  (forall x, In x l -> length (f x) = n) -> length (flat_map f l) = length l * n.
Proof.
  induction l as [|a l IH]; intro H; [reflexivity|]. cbn [flat_map length].
  rewrite app_length, (H a (in_eq _ _)), IH; [reflexivity|]. intros x Hx. apply H, in_cons, Hx.
Qed.

Lemma SS_lt_NoDup l : StronglySorted lt l -> NoDup l.
Proof.
  induction 1 as [|a l _ IH Ha]; constructor; [|exact IH].
  intro Hin. rewrite Forall_forall in Ha. specialize (Ha a Hin). lia.
Qed.

Lemma StronglySorted_le_lt l : StronglySorted le l -> NoDup l -> StronglySorted lt l.
Proof.
  induction 1 as [|a l _ IH Ha]; intro Hn; constructor; inversion Hn as [|? ? Hna Hnl]; subst.
  - apply IH, Hnl.
  - rewrite Forall_forall in *. intros x Hx. specialize (Ha x Hx).
    assert (x <> a) by (intros ->; exact (Hna Hx)). lia.
Qed.
