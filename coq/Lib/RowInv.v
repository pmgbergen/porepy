(* Left-inverse certificates for square systems given by sparse rows over Q:
   if  N * A = d * I  (d <> 0) for the dense coefficient matrix A of the rows, then the only
   vector v (supported on the first n columns) with  row_i . v = 0  for all i is v = 0.
   Used by C16 and C18 to discharge the "trivial kernel" hypothesis on small instances. *)
From Coq Require Import List ZArith QArith Qabs Bool Arith Lia Lqa.
Import ListNotations.
From PP Require Import Lib.RowLin Lib.SumF.
Local Open Scope Q_scope.

Fixpoint coef (r : row) (j : nat) : Q :=
  match r with
  | [] => 0
  | ja :: r' => (if Nat.eqb (fst ja) j then snd ja else 0) + coef r' j
  end.

Definition dent (N : list (list Q)) (i j : nat) : Q := nth j (nth i N []) 0.

Definition inv_ok (n : nat) (rows : list row) (N : list (list Q)) (d : Q) : bool :=
  negb (Qeq_bool d 0) && (length rows =? n)
  && forallb (fun j => forallb (fun k =>
       Qeq_bool (sumf n (fun i => dent N j i * coef (nth i rows []) k))
                (if Nat.eqb j k then d else 0)) (seq 0 n)) (seq 0 n).

Lemma rdot_coef : forall n r (v : vec),
  (forall j, (n <= j)%nat -> v j == 0) ->
  rdot r v == sumf n (fun k => coef r k * v k).
Proof.
  intros n r v Hv. induction r as [|[j a] r IH]; cbn [rdot coef fst snd].
  - rewrite (sumf_ext n _ (fun _ => 0)) by (intros; ring). symmetry. apply sumf_zero.
  - rewrite (sumf_ext n _ (fun k => (if Nat.eqb k j then a * v j else 0) + coef r k * v k)).
    2:{ intros k _. rewrite (Nat.eqb_sym k j). destruct (Nat.eqb_spec j k) as [->|Hne]; ring. }
    rewrite sumf_plus, sumf_pick, <- IH.
    destruct (Nat.ltb_spec j n) as [Hj|Hj]; [reflexivity|].
    rewrite (Hv j Hj). ring.
Qed.

Lemma left_inverse_kernel : forall n rows N d (v : vec),
  inv_ok n rows N d = true ->
  (forall j, (n <= j)%nat -> v j == 0) ->
  (forall r, In r rows -> rdot r v == 0) ->
  forall j, (j < n)%nat -> v j == 0.
Proof.
  intros n rows N d v H Hv Hres j Hj.
  apply andb_prop in H as [[Hd Hlen]%andb_prop Hprod]. apply Nat.eqb_eq in Hlen.
  assert (E : d * v j == 0).
  { (* d * v_j = sum_k (d delta_jk) v_k = sum_k sum_i N_ji A_ik v_k = sum_i N_ji (row_i . v) = 0 *)
    transitivity (sumf n (fun k => (if Nat.eqb k j then d * v j else 0))).
    { rewrite sumf_pick. destruct (Nat.ltb_spec j n); [reflexivity|lia]. }
    transitivity (sumf n (fun k => sumf n (fun i => dent N j i * coef (nth i rows []) k) * v k)).
    { apply sumf_ext. intros k Hk.
      rewrite (proj1 (Qeq_bool_iff _ _) (forallb_seq2 _ _ _ Hprod j k Hj Hk)).
      rewrite (Nat.eqb_sym j k). destruct (Nat.eqb_spec k j) as [->|Hne]; [reflexivity|ring]. }
    transitivity (sumf n (fun k => sumf n (fun i => dent N j i * (coef (nth i rows []) k * v k)))).
    { apply sumf_ext. intros k _. rewrite <- sumf_scal_r. apply sumf_ext. intros i _. ring. }
    rewrite sumf_swap.
    rewrite (sumf_ext n _ (fun _ => 0)); [apply sumf_zero|].
    intros i Hi. rewrite sumf_scal, <- (rdot_coef n _ v Hv).
    rewrite (Hres (nth i rows [])) by (apply nth_In; lia). ring. }
  apply Qmult_integral in E. destruct E as [E|E]; [|exact E].
  apply Qeq_bool_iff in E. rewrite E in Hd. discriminate.
Qed.
