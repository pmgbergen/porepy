(* C34 — property theorems only.  Model: PP.Model.C34 (faithful transcription of
   uniquify_point_set, exact integer arithmetic, sqrt eliminated by squaring; the flag
   [chained] selects the variant that compares every norm with the previous one);
   proofs: PP.Proofs.C34.

   Vocabulary (PP.Proofs.C34): [cl t pts i j] = points i and j are closer than tol
   (sum of squared differences < t^2, as the code tests it); [trans_in_range] = "closer than
   tol" is transitive on the input, i.e. the input consists of WELL-SEPARATED CLUSTERS
   (diameter < tol, different clusters >= tol apart); [keyn pts i] = squared norm of point
   i; [cross_free t pts [] gs] = no two points closer than tol lie in two different norm
   clusters of gs; [sidx] = any permutation of the indices (the theorems do not depend on
   how argsort orders equal norms).

   Second part (PP.Model.C34b / PP.Proofs.C34b): ismember_columns and intersect_sets on
   integer columns of any sign.  External calls are parameters with their contract as
   hypothesis: np.argsort inside ismember_columns ([sort_contract]: some permutation of
   range(len b) along which the keys are non-decreasing — numpy's default sort is not
   stable) and scipy's KD-tree ball query inside intersect_sets ([query_contract]).

   NOT proved: the float evaluation of the comparisons (trusted on the generated dyadic
   data); that np.unique(axis=1) orders columns lexicographically (only that it is
   duplicate free with the same members is used; the order is checked by the tie). *)
From Coq Require Import List ZArith Arith Lia Permutation Sorted.
Import ListNotations.
From PP Require Model.C46 Proofs.C46 Lib.ListFacts.
From PP Require Import Model.C34 Proofs.C34 Model.C34b Proofs.C34b.

(* Key lemma (reverse triangle inequality without square roots, via Cauchy-Schwarz):
   two points whose squared norms lie on different sides of a norm-cluster boundary
   (|n1 - n2| > tol in the code's test) are at least tol apart. *)
Theorem C34_norm_boundary_separates :
  forall (t s1 s2 : Z) (x y : pt),
    (0 <= t)%Z -> length x = length y -> brk t s1 s2 = true ->
    (norm2 x <= s1)%Z -> (s2 <= norm2 y)%Z -> (t * t <= dist2 x y)%Z.
Proof. exact break_separates. Qed.
Print Assumptions C34_norm_boundary_separates.

(* Chained norm clustering (every norm compared with the previous one) never puts two
   points of a boundary-respecting relation into different clusters: for any index list
   sorted by key. *)
Theorem C34_chained_clustering_never_splits :
  forall (t : Z) (key : nat -> Z) (cl : nat -> nat -> Prop),
    (forall i j, cl i j -> cl j i) ->
    (forall i j a b, brk t a b = true -> (key i <= a)%Z -> (b <= key j)%Z -> ~ cl i j) ->
    forall (l : list nat) (cn : Z),
      sorted_from key cn l ->
      forall i j, In i l -> In j l -> cl i j ->
      exists g, In g (groups true t key cn l) /\ In i g /\ In j g.
Proof. exact chained_same_group. Qed.
Print Assumptions C34_chained_clustering_never_splits.

(* THE PROPERTY, for the code as it is ([chained = false]) — PARTIAL: under the explicit
   guard [cross_free] (no norm-cluster boundary of the first-norm clustering separates two
   points closer than tol), which excludes exactly the failing region (see _refuted):
   for every well-separated input, every tol > 0, every dimension and every norm-sorting
   permutation, the result consists of
     - the points at the indices new_2_old,
     - new_2_old strictly increasing (order of first occurrence),
     - every kept index is the FIRST member of its cluster (no earlier point is close to it;
       hence one representative per cluster),
     - old_2_new has one entry per point, in range, and links every point to a kept point of
       its own cluster. *)
Theorem C34_one_per_cluster_partial :
  forall (t : Z) (pts : list pt) (sidx : list nat),
    (0 < t)%Z -> trans_in_range t pts ->
    Permutation sidx (seq 0 (length pts)) ->
    cross_free t pts [] (norm_clusters false t (keyn pts) sidx) ->
    match uniquify_with false t pts sidx with
    | (u, n2o, o2n) =>
        u = map (pnt pts) n2o /\
        StronglySorted lt n2o /\
        (forall m, In m n2o ->
                   m < length pts /\
                   forall j, j < length pts -> cl t pts j m -> m <= j) /\
        length o2n = length pts /\
        (forall i, i < length pts ->
                   nth i o2n 0 < length n2o /\ cl t pts (nth (nth i o2n 0) n2o 0) i)
    end.
Proof. exact (uniquify_guarded false). Qed.
Print Assumptions C34_one_per_cluster_partial.

(* The same statement WITHOUT the guard is false of the code: three well-separated points
   (256,0), (0,271), (0,273), tol 16 — the two points 2 apart are both kept because the
   second one's norm exceeds the FIRST norm of its norm cluster by more than tol. *)
Theorem C34_one_per_cluster_refuted :
  exists (t : Z) (pts : list pt),
    (0 < t)%Z /\ Forall (fun p => length p = 2) pts /\ trans_in_range t pts /\
    Permutation (sort_by_norm pts) (seq 0 (length pts)) /\
    uniquify t pts = (pts, [0; 1; 2], [0; 1; 2]) /\
    cl t pts 1 2 /\
    ~ (match uniquify t pts with
       | (u, n2o, o2n) =>
           forall m, In m n2o ->
                     m < length pts /\ forall j, j < length pts -> cl t pts j m -> m <= j
       end).
Proof.
  exists 16%Z, [[256; 0]; [0; 271]; [0; 273]]%Z.
  split; [reflexivity|]. split; [repeat constructor|]. split; [|split; [apply sort_by_norm_perm|]].
  - apply trans_in_range_b. vm_compute. reflexivity.
  - split; [vm_compute; reflexivity|]. split; [vm_compute; reflexivity|].
    replace (uniquify 16 [[256; 0]; [0; 271]; [0; 273]]%Z)
      with ([[256; 0]; [0; 271]; [0; 273]]%Z, [0; 1; 2], [0; 1; 2]) by (vm_compute; reflexivity).
    intros H. destruct (H 2) as [_ H2]; [right; right; left; reflexivity|].
    specialize (H2 1). cbn [length] in H2.
    assert (2 <= 1) by (apply H2; [lia|vm_compute; reflexivity]). lia.
Qed.
Print Assumptions C34_one_per_cluster_refuted.

(* For the chained variant (the considered repair) the guard is a theorem: the full
   property holds for every well-separated input of points of one dimension and every
   index vector sorted by norm. *)
Theorem C34_one_per_cluster_chained :
  forall (t : Z) (pts : list pt) (sidx : list nat) (d : nat),
    (0 < t)%Z -> Forall (fun p => length p = d) pts -> trans_in_range t pts ->
    Permutation sidx (seq 0 (length pts)) ->
    (match sidx with [] => True | i0 :: _ => sorted_from (keyn pts) (keyn pts i0) sidx end) ->
    match uniquify_with true t pts sidx with
    | (u, n2o, o2n) =>
        u = map (pnt pts) n2o /\
        StronglySorted lt n2o /\
        (forall m, In m n2o ->
                   m < length pts /\
                   forall j, j < length pts -> cl t pts j m -> m <= j) /\
        length o2n = length pts /\
        (forall i, i < length pts ->
                   nth i o2n 0 < length n2o /\ cl t pts (nth (nth i o2n 0) n2o 0) i)
    end.
Proof. exact uniquify_chained_correct. Qed.
Print Assumptions C34_one_per_cluster_chained.

(* Non-vacuity: a well-separated input with two norm clusters for which the guard holds
   (and the hypotheses of the chained theorem as well), and what the model returns. *)
Example C34_nonvacuous :
  let pts := [[256; 0]; [0; 260]; [0; 262]; [255; 1]; [0; 400]]%Z in
  let t := 16%Z in
  (0 < t)%Z /\ Forall (fun p => length p = 2) pts /\ trans_in_range t pts /\
  Permutation (sort_by_norm pts) (seq 0 (length pts)) /\
  norm_clusters false t (keyn pts) (sort_by_norm pts) = [[3; 0; 1; 2]; [4]] /\
  cross_free t pts [] (norm_clusters false t (keyn pts) (sort_by_norm pts)) /\
  sorted_from (keyn pts) (keyn pts 3) (sort_by_norm pts) /\
  uniquify t pts = ([[256; 0]; [0; 260]; [0; 400]]%Z, [0; 1; 4], [0; 1; 1; 0; 2]).
Proof.
  cbv zeta.
  split; [reflexivity|]. split; [repeat constructor|]. split; [|split; [apply sort_by_norm_perm|]].
  - apply trans_in_range_b. vm_compute. reflexivity.
  - split; [vm_compute; reflexivity|].
    replace (norm_clusters false 16 (keyn [[256; 0]; [0; 260]; [0; 262]; [255; 1]; [0; 400]]%Z)
               (sort_by_norm [[256; 0]; [0; 260]; [0; 262]; [255; 1]; [0; 400]]%Z))
      with [[3; 0; 1; 2]; [4]] by (vm_compute; reflexivity).
    split; [|split].
    + cbn [cross_free app]. split; [intros i j []|]. split; [|exact I].
      intros i j Hi Hj. destruct Hj as [<-|[]].
      destruct Hi as [<-|[<-|[<-|[<-|[]]]]]; vm_compute; discriminate.
    + vm_compute. repeat split; discriminate.
    + vm_compute. reflexivity.
Qed.

(* ---- the same two theorems for the model's OWN stable argsort (its sortedness and
   permutation property are proved, no hypothesis on the index vector is left) ---- *)
Theorem C34_one_per_cluster_partial_own_sort :
  forall (t : Z) (pts : list pt),
    (0 < t)%Z -> trans_in_range t pts ->
    cross_free t pts [] (norm_clusters false t (keyn pts) (sort_by_norm pts)) ->
    match uniquify t pts with
    | (u, n2o, o2n) =>
        u = map (pnt pts) n2o /\
        StronglySorted lt n2o /\
        (forall m, In m n2o ->
                   m < length pts /\
                   forall j, j < length pts -> cl t pts j m -> m <= j) /\
        length o2n = length pts /\
        (forall i, i < length pts ->
                   nth i o2n 0 < length n2o /\ cl t pts (nth (nth i o2n 0) n2o 0) i)
    end.
Proof.
  intros t pts Ht Htr Hx. apply (uniquify_guarded false); auto using sort_by_norm_perm.
Qed.
Print Assumptions C34_one_per_cluster_partial_own_sort.

Theorem C34_one_per_cluster_chained_own_sort :
  forall (t : Z) (pts : list pt) (d : nat),
    (0 < t)%Z -> Forall (fun p => length p = d) pts -> trans_in_range t pts ->
    match uniquify_with true t pts (sort_by_norm pts) with
    | (u, n2o, o2n) =>
        u = map (pnt pts) n2o /\
        StronglySorted lt n2o /\
        (forall m, In m n2o ->
                   m < length pts /\
                   forall j, j < length pts -> cl t pts j m -> m <= j) /\
        length o2n = length pts /\
        (forall i, i < length pts ->
                   nth i o2n 0 < length n2o /\ cl t pts (nth (nth i o2n 0) n2o 0) i)
    end.
Proof.
  intros t pts d Ht Hd Htr.
  apply (uniquify_chained_correct t pts _ d); try assumption;
    [apply sort_by_norm_perm|apply sort_by_norm_sorted].
Qed.
Print Assumptions C34_one_per_cluster_chained_own_sort.

(* ---- ismember_columns(a, b, sort): for ANY integer columns (negative entries included),
   either value of [sort] (columns compared after sorting their entries) and ANY admissible
   argsort result: the membership vector equals brute-force column comparison, and the
   index vector has one entry per member column of a, each pointing to an equal column
   of b. ---- *)
Theorem C34_ismember_bruteforce :
  forall (srt : bool) (a b : list pt) (sort_ind : list nat),
    let A := map (normc srt) a in
    let B := map (normc srt) b in
    sort_contract (ind_b_of srt a b) sort_ind ->
    fst (ismember_with srt a b sort_ind) = map (fun x => existsb (Model.C46.ceqb x) B) A /\
    Forall2 (fun x k => k < length b /\ nth k B [] = x)
            (filter (fun x => existsb (Model.C46.ceqb x) B) A)
            (snd (ismember_with srt a b sort_ind)).
Proof.
  intros srt a b sort_ind A B Hc. unfold ismember_with. fold A B. cbn [fst snd].
  destruct (ismember_keys (fun x => Model.C46.index_of x (Model.C46.uniq (A ++ B))) A B sort_ind)
    as (Hm & Hi & Hpos); [|exact Hc|].
  { intros x y Hx Hy. apply idx_inj; apply Proofs.C46.uniq_In; assumption. }
  split; [exact Hm|]. rewrite Hi. apply Forall2_map_r. intros x Hx.
  apply filter_In in Hx as [_ Hx]. apply existsb_exists in Hx as (y & Hy & E).
  apply Proofs.C46.ceqb_spec in E. subst y. destruct (Hpos x Hy) as [Hk Hn].
  unfold B in Hk. rewrite map_length in Hk. split; [exact Hk|exact Hn].
Qed.
Print Assumptions C34_ismember_bruteforce.

(* the argsort contract is satisfiable: the model's stable argsort meets it *)
Theorem C34_ismember_stable_argsort_admissible :
  forall (srt : bool) (a b : list pt),
    sort_contract (ind_b_of srt a b) (stable_sort_ind srt a b).
Proof. intros srt a b. split; [apply argsort_perm|apply argsort_nat_sorted]. Qed.
Print Assumptions C34_ismember_stable_argsort_admissible.

(* ---- intersect_sets(a, b, tol), tol = tol2/2: for any ball query meeting its contract,
   a_in_b, ia (sorted, duplicate free) and ib (sorted, duplicate free) are exactly what
   brute-force comparison of all column pairs gives; the match lists are passed on. ---- *)
Theorem C34_intersect_bruteforce :
  forall (tol2 : Z) (query : list pt -> list pt -> list (list nat)) (a b : list pt),
    query_contract tol2 query a b ->
    match intersect query a b with
    | (ia, ib, a_in_b, inter) =>
        inter = query a b /\
        a_in_b = map (fun p => existsb (within tol2 p) b) a /\
        StronglySorted lt ia /\
        (forall i, In i ia <-> i < length a /\ existsb (within tol2 (nth i a [])) b = true) /\
        StronglySorted lt ib /\
        (forall j, In j ib <->
                   j < length b /\ existsb (fun p => within tol2 p (nth j b [])) a = true)
    end.
Proof.
  intros tol2 query a b [Hlen Hq].
  (* the statement says pt, the model coord; both are list Z *)
  unfold pt, Model.C46.coord in *. unfold intersect. set (inter := query a b) in *.
  set (ia0 := flat_map _ (seq 0 (length inter))).
  (* the rows with a match are those whose match list is not empty *)
  assert (Hia : forall i, In i ia0 <->
                          i < length a /\ existsb (within tol2 (nth i a [])) b = true).
  { intros i. unfold ia0. rewrite in_flat_map, (existsb_nth_iff _ b []). split.
    - intros (x & Hx & Hi). apply in_seq in Hx. rewrite Hlen in Hx.
      destruct (nth x inter []) as [|j l] eqn:E; [contradiction|]. destruct Hi as [<-|[]].
      split; [lia|]. exists j. apply (Hq x); [lia|]. rewrite E. now left.
    - intros (Hi & j & Hj). exists i. split; [apply in_seq; lia|].
      apply (Hq i Hi) in Hj. destruct (nth i inter []); [contradiction|now left]. }
  split; [reflexivity|]. split.
  { apply (Proofs.C46.map_seq_nth []). intros i Hi.
    apply Bool.eq_true_iff_eq. rewrite existsb_eqb_In, Hia. tauto. }
  split; [apply usort_sorted|]. split; [intros i; rewrite usort_In; apply Hia|].
  split; [apply usort_sorted|].
  intros j. rewrite usort_In, in_concat, (existsb_nth_iff _ a []). split.
  - intros (l & Hl & Hj). destruct (In_nth inter l [] Hl) as (i & Hi & <-). rewrite Hlen in Hi.
    apply (Hq i Hi) in Hj. split; [apply Hj|]. exists i. split; [exact Hi|apply Hj].
  - intros (Hj & i & Hi & Hw). exists (nth i inter []).
    split; [apply nth_In; rewrite Hlen; exact Hi|]. apply (Hq i Hi). split; assumption.
Qed.
Print Assumptions C34_intersect_bruteforce.

(* the query contract is satisfiable: brute force (the model's executable query) meets it *)
Theorem C34_bruteforce_query_meets_contract :
  forall (tol2 : Z) (a b : list pt), query_contract tol2 (bf_query tol2) a b.
Proof.
  intros tol2 a b. split; [apply map_length|]. intros i Hi. unfold bf_query.
  rewrite (ListFacts.nth_map_lt (fun p => find_within tol2 p b) a i [] [] Hi).
  split; [apply find_within_NoDup|apply find_within_In].
Qed.
Print Assumptions C34_bruteforce_query_meets_contract.

(* well-separated guard: if the columns of b are pairwise more than 2*tol apart, every
   column of a matches at most one column of b (what SparseNdArray.get's ravel relies on) *)
Theorem C34_intersect_single_match :
  forall (tol2 : Z) (query : list pt -> list pt -> list (list nat)) (a b : list pt) (d : nat),
    query_contract tol2 query a b ->
    Forall (fun c => length c = d) a -> Forall (fun c => length c = d) b ->
    (forall j j', j < length b -> j' < length b -> j <> j' ->
                  (tol2 * tol2 < dist2 (nth j b []) (nth j' b []))%Z) ->
    forall i, i < length a -> length (nth i (query a b) []) <= 1.
Proof.
  intros tol2 query a b d [Hlen Hq] Ha Hb Hsep i Hi. unfold pt, Model.C46.coord in *. destruct (Hq i Hi) as [Hnd Hin].
  destruct (nth i (query a b) []) as [|j [|j' l]]; cbn [length]; try lia.
  (* two matches j, j' are both within tol of column i, hence within 2 tol of each other *)
  destruct (proj1 (Hin j) (in_eq _ _)) as [Hjb Hw].
  destruct (proj1 (Hin j') (in_cons _ _ _ (in_eq _ _))) as [Hjb' Hw'].
  assert (Hne : j <> j').
  { apply NoDup_cons_iff in Hnd as [Hx _]. intros ->. apply Hx. now left. }
  specialize (Hsep j j' Hjb Hjb' Hne). apply Z.leb_le in Hw, Hw'.
  rewrite Forall_forall in Ha, Hb.
  pose proof (dist2_parallelogram (nth i a []) (nth j b []) (nth j' b [])) as Hp.
  rewrite (Ha _ (nth_In a [] Hi)), (Hb _ (nth_In b [] Hjb)), (Hb _ (nth_In b [] Hjb')) in Hp.
  specialize (Hp eq_refl eq_refl). lia.
Qed.
Print Assumptions C34_intersect_single_match.

(* Non-vacuity: signed columns that collide under the positional encoding base max+1
   ([3,0] and [-1,1], max entry 3), with and without sorting of the entries; and an
   intersection with tol = 1/2 and 3/2. *)
Example C34_nonvacuous_membership :
  let a := [[3; 0]; [-1; 1]; [0; 3]; [2; -2]]%Z in
  let b := [[-1; 1]; [1; -1]; [-1; 1]; [0; 5]]%Z in
  ismember false a b = ([false; true; false; false], [0]) /\
  ismember true a b = ([false; true; false; false], [0]) /\
  ismember true [[1; -1]; [3; 0]]%Z [[0; 3]; [-1; 1]]%Z = ([true; true], [1; 0]) /\
  intersect (bf_query 1) a b = ([1], [0; 2], [false; true; false; false], [[]; [0; 2]; []; []]) /\
  intersect (bf_query 3) [[0; 0]; [5; 5]]%Z [[1; 0]; [0; -1]; [3; 3]]%Z
  = ([0], [0; 1], [true; false], [[0; 1]; []]).
Proof. repeat split; vm_compute; reflexivity. Qed.
