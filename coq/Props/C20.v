(* C20 — property theorems only.  Model: PP.Model.C20 (3-vectors, matrices, rigid motions,
   an expression language of geometry formulas, and this property's own formula set
   transcribed from Grid._compute_geometry_2d (oriented branch, grid embedded in 3-D) and
   the face normals of _compute_geometry_3d); proofs: PP.Proofs.C20.

   All theorems hold over ANY commutative ring with Leibniz equality (f0 f1 + * - opp with
   [ring_theory ... eq]: the reals, Qc, Z, ...).  A proper rotation is a matrix M with
   M^T M = I and det M = 1 ([is_rotation]); the motion is x -> M x + t. *)
From Coq Require Import List ZArith QArith Ring_theory Reals Lra.
Import ListNotations.
From PP Require Import Model.C20 Proofs.C20.

(* (M u) x (M v) = cof(M) (u x v) for EVERY matrix M. *)
Theorem C20_cross_equivariant :
  forall (F : Type) (f0 f1 : F) (fadd fmul fsub : F -> F -> F) (fopp : F -> F),
    ring_theory f0 f1 fadd fmul fsub fopp eq ->
    forall (M : mat F) (u v : vec F),
      cross F fmul fsub (mapply F fadd fmul M u) (mapply F fadd fmul M v)
      = mapply F fadd fmul (cof F fmul fsub M) (cross F fmul fsub u v).
Proof. exact cross_cof. Qed.
Print Assumptions C20_cross_equivariant.

(* The cofactor matrix of a proper rotation is the rotation itself. *)
Theorem C20_cofactor_of_rotation :
  forall (F : Type) (f0 f1 : F) (fadd fmul fsub : F -> F -> F) (fopp : F -> F),
    ring_theory f0 f1 fadd fmul fsub fopp eq ->
    forall M : mat F, is_rotation F f0 f1 fadd fmul fsub M -> cof F fmul fsub M = M.
Proof. intros F f0 f1 fadd fmul fsub fopp H. exact (cof_rotation F f0 f1 fadd fmul fsub fopp H). Qed.
Print Assumptions C20_cofactor_of_rotation.

(* Dot products are invariant, cross products rotate with the vectors. *)
Theorem C20_dot_invariant :
  forall (F : Type) (f0 f1 : F) (fadd fmul fsub : F -> F -> F) (fopp : F -> F),
    ring_theory f0 f1 fadd fmul fsub fopp eq ->
    forall (M : mat F) (u v : vec F),
      is_rotation F f0 f1 fadd fmul fsub M ->
      dot F fadd fmul (mapply F fadd fmul M u) (mapply F fadd fmul M v) = dot F fadd fmul u v.
Proof. intros F f0 f1 fadd fmul fsub fopp H. exact (dot_rotation F f0 f1 fadd fmul fsub fopp H). Qed.
Print Assumptions C20_dot_invariant.

Theorem C20_cross_rotation :
  forall (F : Type) (f0 f1 : F) (fadd fmul fsub : F -> F -> F) (fopp : F -> F),
    ring_theory f0 f1 fadd fmul fsub fopp eq ->
    forall (M : mat F) (u v : vec F),
      is_rotation F f0 f1 fadd fmul fsub M ->
      cross F fmul fsub (mapply F fadd fmul M u) (mapply F fadd fmul M v)
      = mapply F fadd fmul M (cross F fmul fsub u v).
Proof. intros F f0 f1 fadd fmul fsub fopp H. exact (cross_rotation F f0 f1 fadd fmul fsub fopp H). Qed.
Print Assumptions C20_cross_rotation.

(* EVERY geometry formula built from node positions by differences of points, point +
   vector, affine combinations of points (weights summing to one), sums, scalar multiples
   and cross products of vectors, dot products, sums/products of scalars and ARBITRARY
   functions of scalars (sqrt, sign, reciprocal, comparison ...) is equivariant: moving all
   nodes by x -> M x + t leaves scalar formulas (volumes, areas) unchanged, rotates vector
   formulas (normals) by M and moves point formulas (centres) by the same motion. *)
Theorem C20_geometry_equivariant :
  forall (F : Type) (f0 f1 : F) (fadd fmul fsub : F -> F -> F) (fopp : F -> F),
    ring_theory f0 f1 fadd fmul fsub fopp eq ->
    forall (M : mat F) (t : vec F) (nodes : nat -> vec F),
      is_rotation F f0 f1 fadd fmul fsub M ->
      let moved := fun i => motion F fadd fmul M t (nodes i) in
      (forall e : sexp F, swf F f1 fadd e ->
         seval F fadd fmul fsub moved e = seval F fadd fmul fsub nodes e) /\
      (forall e : vexp F, vwf F f1 fadd e ->
         veval F fadd fmul fsub moved e = mapply F fadd fmul M (veval F fadd fmul fsub nodes e)) /\
      (forall e : pexp F, pwf F f1 fadd e ->
         peval F fadd fmul fsub moved e = motion F fadd fmul M t (peval F fadd fmul fsub nodes e)).
Proof. intros F f0 f1 fadd fmul fsub fopp H. exact (expr_equivariant F f0 f1 fadd fmul fsub fopp H). Qed.
Print Assumptions C20_geometry_equivariant.

(* The formula set of Grid._compute_geometry_2d (oriented branch) for a cell with ANY
   number of faces, embedded anywhere in 3-D; half + half = 1, third * 3 = 1, w = 1 /
   (number of faces of the cell), n = the plane normal (which itself is a sum of
   [cell_normal_sum]s, scaled by a function of its own invariant length), r = 1 / volume:
   tangents, sub-simplex normals, the plane-normal contribution and face normals rotate;
   face centres, the temporary centre and the centroid move; volumes are unchanged. *)
Theorem C20_geometry2d_equivariant :
  forall (F : Type) (f0 f1 : F) (fadd fmul fsub : F -> F -> F) (fopp : F -> F),
    ring_theory f0 f1 fadd fmul fsub fopp eq ->
    forall (half third : F), fadd half half = f1 -> fadd (fadd third third) third = f1 ->
    forall (M : mat F) (t n : vec F) (w r : F) (es : list (edge F)),
      is_rotation F f0 f1 fadd fmul fsub M ->
      fmul w (natF F f0 f1 fadd (length es)) = f1 ->
      let es' := map (move_edge F fadd fmul M t) es in
      let n' := mapply F fadd fmul M n in
      (forall e, tangent F fsub (move_edge F fadd fmul M t e)
                 = mapply F fadd fmul M (tangent F fsub e)) /\
      (forall e, fcenter F fadd fmul half (move_edge F fadd fmul M t e)
                 = motion F fadd fmul M t (fcenter F fadd fmul half e)) /\
      temp_center F f0 fadd fmul half w es'
      = motion F fadd fmul M t (temp_center F f0 fadd fmul half w es) /\
      cell_normal_sum F f0 fadd fmul fsub half w es'
      = mapply F fadd fmul M (cell_normal_sum F f0 fadd fmul fsub half w es) /\
      (forall e, fnormal F fmul fsub n' (move_edge F fadd fmul M t e)
                 = mapply F fadd fmul M (fnormal F fmul fsub n e)) /\
      cell_volume F f0 fadd fmul fsub half n' w es' = cell_volume F f0 fadd fmul fsub half n w es /\
      (fmul r (cell_volume F f0 fadd fmul fsub half n w es) = f1 ->
       vscale F fmul r (cell_moment F f0 fadd fmul fsub half third n' w es')
       = motion F fadd fmul M t (vscale F fmul r (cell_moment F f0 fadd fmul fsub half third n w es))).
Proof.
  intros F f0 f1 fadd fmul fsub fopp H half third Hh Ht M t n w r es HR Hw es' n'.
  repeat split; intros.
  - eapply tangent_move; eassumption.
  - eapply fcenter_move; eassumption.
  - eapply temp_center_move; eassumption.
  - eapply cell_normal_sum_move; eassumption.
  - eapply fnormal_move; eassumption.
  - eapply cell_volume_move; eassumption.
  - eapply cell_center_move; eassumption.
Qed.
Print Assumptions C20_geometry2d_equivariant.

(* Face normals of _compute_geometry_3d (sum of the sub-triangle normals around the mean
   of the face's nodes), faces with any number of nodes: they rotate with the grid. *)
Theorem C20_face_normal3_equivariant :
  forall (F : Type) (f0 f1 : F) (fadd fmul fsub : F -> F -> F) (fopp : F -> F),
    ring_theory f0 f1 fadd fmul fsub fopp eq ->
    forall (half : F) (M : mat F) (t : vec F) (w : F) (loop : list (vec F * vec F)),
      is_rotation F f0 f1 fadd fmul fsub M ->
      fmul w (natF F f0 f1 fadd (length loop)) = f1 ->
      face_normal3 F f0 fadd fmul fsub half w (map (move_pair F fadd fmul M t) loop)
      = mapply F fadd fmul M (face_normal3 F f0 fadd fmul fsub half w loop).
Proof.
  intros F f0 f1 fadd fmul fsub fopp H half M t w loop HR Hw.
  exact (face_normal3_move F f0 f1 fadd fmul fsub fopp H half M t w loop HR Hw).
Qed.
Print Assumptions C20_face_normal3_equivariant.

(* Non-vacuity: over the reals, the rotation by the angle with cos = 3/5, sin = 4/5 about
   the z-axis is a proper rotation; 1/2, 1/3 and 1/4 satisfy the side conditions; and
   (over Q, executed) the quaternion (1,2,3,4) gives an exact rational rotation. *)
Example C20_nonvacuous :
  let M : mat R := ((3/5, -(4/5), 0), (4/5, 3/5, 0), (0, 0, 1))%R in
  is_rotation R 0%R 1%R Rplus Rmult Rminus M /\
  (/2 + /2 = 1)%R /\ (/3 + /3 + /3 = 1)%R /\
  (/4 * natF R 0%R 1%R Rplus 4 = 1)%R /\
  is_rotation_q (((-20 # 30), (4 # 30), (22 # 30)), ((20 # 30), (-10 # 30), (20 # 30)),
                 ((10 # 30), (28 # 30), (4 # 30)))%Q = true.
Proof.
  cbv zeta. split; [|split; [|split; [|split]]].
  - unfold is_rotation, det, dot, cross, col1, col2, col3, row1, row2, row3, mkv, vx, vy, vz;
      cbn [fst snd]. repeat split; lra.
  - lra.
  - lra.
  - cbn [natF]. lra.
  - vm_compute. reflexivity.
Qed.
