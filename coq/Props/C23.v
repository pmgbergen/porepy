(* C23 — property theorems only.  Model: PP.Model.C23 (transcription of refine_grid_1d,
   remesh_1d, refine_triangle_grid, structured_refinement (1-D) of
   porepy/grids/refinement.py and of the guard / node layers / cell maps of
   porepy/grids/grid_extrusion.py:extrude_grid); proofs: PP.Proofs.C23. *)
From Coq Require Import List ZArith QArith Qabs Arith Lia.
Import ListNotations.
From PP Require Import Lib.ListFacts Model.C23 Proofs.C23 Proofs.C23_refine1d Proofs.C23_signs.
Close Scope Q_scope.

(* refine_grid_1d, one cell.  For every ratio r >= 1 and every cell (a, b) in 3-space the r
   children tile the cell: the first starts at a, the last ends at b, consecutive
   children share their end point, every child vector is exactly (b - a)/r (so the
   lengths add up to the parent's), and every child end point is a convex combination
   of a and b (children lie inside the parent). *)
Theorem C23_refine_1d_children :
  forall (r : nat) (a b : v3),
  1 <= r ->
  length (children r a b) = r /\
  veq (fst (nth 0 (children r a b) (vzero, vzero))) a /\
  veq (snd (nth (r - 1) (children r a b) (vzero, vzero))) b /\
  (forall i, S i < r ->
     snd (nth i (children r a b) (vzero, vzero)) = fst (nth (S i) (children r a b) (vzero, vzero))) /\
  (forall i, i < r ->
     let ch := nth i (children r a b) (vzero, vzero) in
     veq (vsub (snd ch) (fst ch)) (vscale (1 / inject_Z (Z.of_nat r))%Q (vsub b a))) /\
  (forall i, i < r ->
     let ch := nth i (children r a b) (vzero, vzero) in
     between a b (fst ch) /\ between a b (snd ch)).
Proof.
  intros r a b Hr. split; [apply children_length|]. split; [|split; [|split; [|split]]].
  - rewrite children_nth by lia. apply vlerp_t0, theta_0.
  - rewrite children_nth by lia. apply vlerp_t1.
    replace (S (r - 1)) with r by lia. apply theta_r, Hr.
  - intros i Hi. rewrite !children_nth by lia. reflexivity.
  - intros i Hi ch. unfold ch. rewrite children_nth by exact Hi.
    apply vlerp_diff, theta_step, Hr.
  - intros i Hi ch. unfold ch. rewrite children_nth by exact Hi.
    split; apply between_theta; lia.
Qed.
Print Assumptions C23_refine_1d_children.

(* refine_grid_1d, the whole function (node bookkeeping included: old nodes are added at
   their first occurrence and looked up in old_2_new_nodes afterwards, interior nodes are
   appended cell by cell).  For every node array, every list of cells (any node
   numbering, shared nodes or not) and every ratio r >= 1: decoding the returned
   cell-face indices against the returned node array gives, cell by cell and in order,
   exactly the children of the old cells (coordinates equal in Q); all indices are valid
   and there are two per new cell. *)
Theorem C23_refine_1d_grid :
  forall (nodes : list v3) (cells : list (nat * nat)) (r : nat),
  1 <= r ->
  let '(x, ind, sg) := refine_grid_1d nodes cells r in
  Forall2 peq (cell_ends x ind) (refine_spec nodes cells r) /\
  Forall (fun j => j < length x) ind /\
  length ind = 2 * (length cells * r).
Proof.
  intros nodes cells r Hr. unfold refine_grid_1d.
  pose proof (fold_inv nodes r cells Hr [] _ (inv_init nodes r)) as I. cbn [app] in I.
  split; [apply (inv_cells _ _ _ _ I)|]. split; [|apply (inv_ind_length _ _ _ _ I)].
  destruct (inv_pairs _ _ _ _ I) as (ps & -> & Hlt). exact Hlt.
Qed.
Print Assumptions C23_refine_1d_grid.

(* refine_grid_1d, sign array (cell_faces.data): one sign per index, +1 exactly at the first
   occurrence of a face (= node) index in the index array and -1 at every later one; so a
   face shared by two consecutive cells is +1 for the first and -1 for the second. *)
Theorem C23_refine_1d_signs :
  forall (nodes : list v3) (cells : list (nat * nat)) (r : nat),
  let '(x, ind, sg) := refine_grid_1d nodes cells r in
  length sg = length ind /\
  (forall i, i < length ind ->
     (nth i sg 0%Z = 1%Z /\ ~ In (nth i ind 0) (firstn i ind)) \/
     (nth i sg 0%Z = (-1)%Z /\ In (nth i ind 0) (firstn i ind))).
Proof.
  intros nodes cells r. unfold refine_grid_1d. split; [apply signs_from_length|].
  intros i Hi. rewrite signs_from_nth by exact Hi. cbn [mem existsb orb].
  rewrite <- mem_In. destruct (mem _ (firstn i _)); [right|left]; split; congruence.
Qed.
Print Assumptions C23_refine_1d_signs.

(* refine_grid_1d, cell map: the refined grid lists the children cell by cell; new cell
   k*r + i is child i of old cell k, and j -> j / r is a total map onto the old cells. *)
Theorem C23_refine_1d_cell_map :
  forall (nodes : list v3) (cells : list (nat * nat)) (r : nat),
  1 <= r ->
  length (refine_spec nodes cells r) = length cells * r /\
  (forall k i, k < length cells -> i < r ->
     nth (k * r + i) (refine_spec nodes cells r) (vzero, vzero)
     = nth i (children r (nth (fst (nth k cells (0, 0))) nodes vzero)
                         (nth (snd (nth k cells (0, 0))) nodes vzero)) (vzero, vzero) /\
     parent_1d r (k * r + i) = k) /\
  (forall j, j < length cells * r -> parent_1d r j < length cells).
Proof.
  intros nodes cells r Hr. unfold parent_1d. split; [apply refine_spec_length|]. split.
  - intros k i Hk Hi. split; [apply refine_spec_nth; assumption|].
    rewrite Nat.div_add_l, Nat.div_small by lia. lia.
  - intros j Hj. apply Nat.div_lt_upper_bound; lia.
Qed.
Print Assumptions C23_refine_1d_cell_map.

(* remesh_1d: for every m >= 2 the m new nodes span exactly the old domain (from one
   boundary node to the other), are equally spaced (every cell vector is 1/(m-1) of the
   domain vector, so the total length is preserved) and lie inside the old domain. *)
Theorem C23_remesh_1d :
  forall (start en : v3) (m : nat),
  2 <= m ->
  length (remesh_nodes start en m) = m /\
  veq (nth 0 (remesh_nodes start en m) vzero) en /\
  veq (nth (m - 1) (remesh_nodes start en m) vzero) start /\
  (forall i, S i < m ->
     veq (vsub (nth (S i) (remesh_nodes start en m) vzero) (nth i (remesh_nodes start en m) vzero))
         (vscale (1 / inject_Z (Z.of_nat (m - 1)))%Q (vsub start en))) /\
  (forall i, i < m -> between en start (nth i (remesh_nodes start en m) vzero)).
Proof.
  intros start en m Hm. split; [unfold remesh_nodes; rewrite map_length, seq_length; reflexivity|].
  split; [|split; [|split]].
  - rewrite remesh_nth by lia. apply vlerp_t0, theta_0.
  - rewrite remesh_nth by lia. apply vlerp_t1, theta_r. lia.
  - intros i Hi. rewrite !remesh_nth by lia. apply vlerp_diff, theta_step. lia.
  - intros i Hi. rewrite remesh_nth by lia. apply between_theta; lia.
Qed.
Print Assumptions C23_remesh_1d.

(* refine_triangle_grid, one cell.  For ANY node numbering, any order of the three faces in
   the cell and any orientation of the faces: if the cell's faces join a-b, b-c, c-a for
   three distinct nodes, each of its four children has exactly a quarter of the parent's
   signed area (so the areas add up to the parent's and orientation is kept) and all
   its corners are vertices or edge midpoints of the parent (children lie inside it). *)
Theorem C23_refine_triangle_cell :
  forall (nodes : list v3) (fn : list (nat * nat)) (f0 f1 f2 a b c : nat),
  a <> b -> b <> c -> a <> c ->
  a < length nodes -> b < length nodes -> c < length nodes ->
  f0 < length fn -> f1 < length fn -> f2 < length fn ->
  joins (nth f0 fn (0, 0)) a b -> joins (nth f1 fn (0, 0)) b c -> joins (nth f2 fn (0, 0)) c a ->
  let x := nodes ++ centres nodes fn in
  let A := nth a nodes vzero in let B := nth b nodes vzero in let C := nth c nodes vzero in
  let ch := refine_tri_cell fn (length nodes) (f0, f1, f2) in
  length ch = 4 /\ Forall (fun t => quarter A B C (tri_pts x t)) ch.
Proof.
  intros nodes fn f0 f1 f2 a b c Hab Hbc Hac Ha Hb Hc H0 H1 H2 J0 J1 J2 x A B C ch.
  split; [reflexivity|].
  unfold ch. rewrite (refine_tri_cell_joins fn _ f0 f1 f2 a b c) by assumption.
  destruct (quarter_children A B C _ _ _ (face_centre nodes fn f0 a b H0 J0)
              (face_centre nodes fn f1 b c H1 J1) (face_centre nodes fn f2 c a H2 J2))
    as (Q1 & Q2 & Q3 & Q4).
  repeat apply Forall_cons; try apply Forall_nil;
    unfold tri_pts, x; rewrite ?new_nodes_corner by assumption; assumption.
Qed.
Print Assumptions C23_refine_triangle_cell.

(* refine_triangle_grid, global structure: new nodes = old nodes followed by the face
   centres; the children of cell k are the new cells 4k..4k+3; the returned parent map is
   j -> j / 4, a total map onto the old cells. *)
Theorem C23_refine_triangle_cell_map :
  forall (nodes : list v3) (fn : list (nat * nat)) (cf : list tri),
  let '(x, tris, parent) := refine_triangle_grid nodes fn cf in
  x = nodes ++ centres nodes fn /\
  length tris = length cf * 4 /\ length parent = length cf * 4 /\
  (forall k i, k < length cf -> i < 4 ->
     nth (k * 4 + i) tris (0, 0, 0) = nth i (refine_tri_cell fn (length nodes) (nth k cf (0, 0, 0))) (0, 0, 0) /\
     nth (k * 4 + i) parent 0 = k) /\
  (forall j, j < length cf * 4 -> nth j parent 0 = j / 4 /\ j / 4 < length cf).
Proof.
  intros nodes fn cf. unfold refine_triangle_grid. split; [reflexivity|].
  assert (Hl1 : forall c, In c cf -> length (refine_tri_cell fn (length nodes) c) = 4).
  { intros [[f0 f1] f2] _. reflexivity. }
  split; [apply flat_map_length_const, Hl1|].
  split; [rewrite (flat_map_length_const _ _ 4), seq_length by (intros; apply repeat_length);
          reflexivity|].
  split.
  - intros k i Hk Hi. split; [|apply nth_repeat_blocks; assumption].
    apply (nth_flat_map_const _ cf 4 (0, 0, 0) (0, 0, 0) Hl1); assumption.
  - intros j Hj. split; [apply nth_repeat_blocks_div, Hj|apply Nat.div_lt_upper_bound; lia].
Qed.
Print Assumptions C23_refine_triangle_cell_map.

(* structured_refinement (1-D): the returned mapping has one column per coarse cell; fine
   cell j is in column k exactly when k is the first coarse cell with lo < centre_j <= hi,
   so every fine cell is in exactly one column (for a refinement by splitting: the unique
   coarse cell containing it); the AssertionError is raised exactly when there are not
   more fine than coarse cells or some fine centre lies in no coarse cell. *)
Theorem C23_structured_refinement_1d :
  forall (coarse : list (Q * Q)) (centres : list Q),
  (forall cols, structured_refinement_1d coarse centres = Ok cols ->
     length cols = length coarse /\
     (forall k j, k < length coarse ->
        (In j (nth k cols []) <-> j < length centres /\ first_inside coarse k (nth j centres 0%Q))) /\
     (forall j, j < length centres -> exists k, k < length coarse /\ In j (nth k cols []) /\
        forall k', k' < length coarse -> In j (nth k' cols []) -> k' = k)) /\
  (structured_refinement_1d coarse centres = Err AssertErr <->
     length centres <= length coarse \/
     exists j, j < length centres /\
       forall k, k < length coarse -> inside1 (nth k coarse (0, 0)%Q) (nth j centres 0%Q) = false) /\
  (forall e, structured_refinement_1d coarse centres = Err e -> e = AssertErr).
Proof.
  intros coarse centres.
  destruct (structured_refinement_1d_cases coarse centres)
    as [[Hbad ->]|(Hlt & Hall & cols & -> & Hlen & Hcol)].
  - split; [discriminate|]. split; [split; [intros _; exact Hbad|reflexivity]|].
    intros e [= <-]. reflexivity.
  - split; [|split; [|discriminate]].
    + intros cols' [= <-]. split; [exact Hlen|]. split; [intros k j _; apply Hcol|].
      intros j Hj. destruct (Hall j Hj) as [k F]. exists k.
      split; [apply (first_inside_lt _ _ _ F)|]. split; [apply Hcol; auto|].
      intros k' _ Hin. apply Hcol in Hin. apply (first_inside_unique coarse k' k _ (proj2 Hin) F).
    + split; [discriminate|]. intros [Hl|(j & Hj & N)]; [lia|].
      destruct (Hall j Hj) as [k F]. destruct (first_inside_not_nowhere _ _ _ F N).
Qed.
Print Assumptions C23_structured_refinement_1d.

(* extrude_grid, cell map: with nc old cells and any number of layers every new cell
   j < nc*layers occurs in exactly one row of the cell map: row j mod nc, position j / nc. *)
Theorem C23_extrude_cell_map :
  forall (nc layers : nat),
  length (cell_map nc layers) = nc /\
  (forall c, c < nc -> length (nth c (cell_map nc layers) []) = layers) /\
  (forall c k, c < nc -> k < layers ->
     nth k (nth c (cell_map nc layers) []) 0 = c + k * nc /\ c + k * nc < nc * layers) /\
  (forall j, j < nc * layers ->
     j mod nc < nc /\ j / nc < layers /\
     nth (j / nc) (nth (j mod nc) (cell_map nc layers) []) 0 = j /\
     forall c k, c < nc -> k < layers -> c + k * nc = j -> c = j mod nc /\ k = j / nc).
Proof.
  intros nc layers. split; [apply cell_map_length|]. split; [|split].
  - intros c Hc. rewrite cell_map_row, map_length by exact Hc. apply seq_length.
  - intros c k Hc Hk. rewrite cell_map_row, nth_map_seq by assumption. split; [reflexivity|nia].
  - intros j Hj. assert (j mod nc < nc) as Hm by (apply Nat.mod_upper_bound; lia).
    assert (j / nc < layers) as Hd by (apply Nat.div_lt_upper_bound; lia).
    split; [exact Hm|]. split; [exact Hd|]. split.
    + rewrite cell_map_row, nth_map_seq by assumption. apply (stride_divmod nc); auto.
    + intros c k Hc _ E. apply (stride_divmod nc c k j Hc), E.
Qed.
Print Assumptions C23_extrude_cell_map.

(* extrude_grid, measure: for monotone layer coordinates the children of a cell of
   measure v (one per layer, measure v*|z[k+1]-z[k]|) add up to v times the extrusion
   height.
   _partial: that compute_geometry assigns measure v*|dz| to a prism cell is checked per
   generated case in the tie ([agree_extrude]), not proved (geometry is C19). *)
Theorem C23_extrude_measure_partial :
  forall (v : Q) (z : list Q),
  increasing z \/ decreasing z ->
  (sumQ (map (Qmult v) (layer_heights z)) == v * Qabs (last z 0 - hd 0 z))%Q /\
  length (layer_heights z) = length z - 1.
Proof.
  intros v z H. split.
  - rewrite sumQ_scale, (sum_heights_abs z H). reflexivity.
  - unfold layer_heights. rewrite map_length. apply consecutive_length.
Qed.
Print Assumptions C23_extrude_measure_partial.

(* extrude_grid, guard and nodes: accepted exactly when all z >= 0 or all z <= 0 (else
   ValueError); the new nodes are the old nodes repeated layer by layer, node i of layer k
   keeps its x, y and gets z[k] (children lie in the prism over their parent). *)
Theorem C23_extrude_nodes :
  forall (nodes : list v3) (nc : nat) (z : list Q),
  ((Forall (fun x => 0 <= x)%Q z \/ Forall (fun x => x <= 0)%Q z) ->
     extrude_grid nodes nc z = Ok (extrude_nodes nodes z, cell_map nc (length z - 1))) /\
  (~ (Forall (fun x => 0 <= x)%Q z \/ Forall (fun x => x <= 0)%Q z) ->
     extrude_grid nodes nc z = Err ValueErr) /\
  length (extrude_nodes nodes z) = length z * length nodes /\
  (forall k i, k < length z -> i < length nodes ->
     nth (k * length nodes + i) (extrude_nodes nodes z) vzero
     = (fst (fst (nth i nodes vzero)), snd (fst (nth i nodes vzero)), nth k z 0%Q)).
Proof.
  intros nodes nc z. unfold extrude_grid. split; [|split; [|split]].
  - intros H. apply sign_ok_iff in H. rewrite H. reflexivity.
  - intros H. destruct (sign_ok z) eqn:E; [|reflexivity]. destruct H. apply sign_ok_iff, E.
  - apply extrude_nodes_length.
  - intros k i Hk Hi. rewrite extrude_nodes_nth by assumption.
    destruct (nth i nodes vzero) as [[x y] w]. reflexivity.
Qed.
Print Assumptions C23_extrude_nodes.

(* ---------------------------------------------------------------------------------- *)
(* Non-vacuity *)
Example C23_refine_1d_nonvacuous :
  forallb2 (fun p q => veqb (fst p) (fst q) && veqb (snd p) (snd q))%bool
           (children 2 (0, 0, 0)%Q (1, 2, 0)%Q)
           [((0, 0, 0), ((1#2), 1, 0)); (((1#2), 1, 0), (1, 2, 0))]%Q = true /\
  (let '(x, ind, sg) := refine_grid_1d [(0, 0, 0); (1, 0, 0); (3, 0, 0)]%Q [(0, 1); (1, 2)] 2 in
   ind = [0; 1; 1; 2; 2; 3; 3; 4] /\ sg = [1; 1; -1; 1; -1; 1; -1; 1]%Z /\ length x = 5).
Proof. split; vm_compute; repeat split; reflexivity. Qed.

(* the grid that exposed the two defects: StructuredTriangleGrid([2,1]) cell 0 has nodes
   0, 1, 4 and faces 0 (0-1), 4 (1-4), 1 (0-4): its children have a quarter of its area *)
Example C23_refine_triangle_nonvacuous :
  let nodes := [(0,0,0); (1,0,0); (2,0,0); (0,1,0); (1,1,0); (2,1,0)]%Q in
  let fn := [(0,1); (0,4); (0,3); (1,2); (1,4); (1,5); (2,5); (3,4); (4,5)] in
  joins (nth 0 fn (0,0)) 0 1 /\ joins (nth 4 fn (0,0)) 1 4 /\ joins (nth 1 fn (0,0)) 4 0 /\
  refine_tri_cell fn 6 (0, 4, 1) = [(1, 10, 6); (4, 7, 10); (0, 6, 7); (6, 10, 7)] /\
  (area2 (nth 0 nodes vzero) (nth 1 nodes vzero) (nth 4 nodes vzero) == 1)%Q.
Proof.
  cbn zeta. split; [left; reflexivity|]. split; [left; reflexivity|]. split; [right; reflexivity|].
  split; vm_compute; reflexivity.
Qed.

Example C23_structured_extrude_nonvacuous :
  structured_refinement_1d [(0, 1); (1, 2)]%Q [(1#4); (3#4); (5#4); (7#4)]%Q = Ok [[0; 1]; [2; 3]] /\
  structured_refinement_1d [(0, 1); (1, 2)]%Q [(1#4); (3#4); (9#4)]%Q = Err AssertErr /\
  cell_map 3 2 = [[0; 3]; [1; 4]; [2; 5]] /\
  increasing [0; (1#2); 2]%Q /\ layer_heights [0; (1#2); 2]%Q = [Qabs ((1#2) - 0); Qabs (2 - (1#2))]%Q /\
  extrude_grid [(0,0,0)]%Q 1 [(-1); 1]%Q = Err ValueErr.
Proof.
  repeat split; try (vm_compute; reflexivity); cbn; discriminate.
Qed.
