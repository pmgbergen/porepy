(* C19 — property theorems only.  Model: PP.Model.C19 (exact-rational transcription of
   Grid._compute_geometry_2d, oriented branch, and _compute_geometry_1d, non-embedded grids);
   proofs: PP.Proofs.C19.

   A cell is the list [es] of its faces as it sees them: (start node, end node, sign of the
   cell_faces entry).  [signs_ok es]: all signs are +-1.  [closed es]: every node is as often
   the end as the start of a traversed face (Permutation of the traversal's from- and
   to-nodes) — this is exactly the code's orientation check 1/3 and holds for one or several
   closed node loops of either orientation.  sigma = +-1 is the z-component of the plane
   normal, t the temporary cell centre (ANY point in the identities below).

   3-D (Model.C19_3d, transcription of _compute_geometry_3d for planar faces): a cell is a list
   of (node loop, cell_faces sign); [watertight]: every directed edge of the oriented faces
   occurs as often as its reverse; [star_faces]: every sub-triangle is oriented like its face;
   [planar_star ps]: all sub-normals are parallel to and oriented like the face normal.

   Legacy (convex-cell) branch of the 2-D code (Model.C19_fb): [reoriented e e']: e' is the face e
   traversed in the cell's true sense of rotation.

   NOT in this development: the 3-D centroid identity, non-planar (twisted) 3-D faces,
   embedded 1-D/2-D grids. *)
From Coq Require Import List ZArith QArith Qabs Bool Arith Permutation.
Import ListNotations.
From PP Require Import Model.C19 Proofs.C19 Model.C19_3d Proofs.C19_3d Model.C19_fb Proofs.C19_fb.
Open Scope Q_scope.

(* The model's orientation check implies the hypotheses of the cell theorems, for every cell. *)
Theorem C19_2d_oriented_cells_closed :
  forall g c, oriented1 g = true -> (c < g_nc g)%nat ->
    signs_ok (cell_sfaces g c) /\ closed (cell_sfaces g c).
Proof. intros g c H Hc. split; [apply oriented_signs, H|apply oriented_closed; assumption]. Qed.
Print Assumptions C19_2d_oriented_cells_closed.

(* What the oriented branch returns: it is only taken when the check holds, sigma = +-1, every
   output array is the map of the per-cell / per-face formulas, and no volume is negative. *)
Theorem C19_2d_output :
  forall g r, geometry2 g = GOk r ->
    oriented1 g = true /\
    let sigma := qsign (plane_sum g) in
    let cs := fun c => cell_sfaces g c in
    (sigma = 1 \/ sigma = -1) /\
    o_vol r = map (fun c => cell_volume sigma (temp_center (cs c)) (cs c)) (seq 0 (g_nc g)) /\
    o_cc r = map (fun c => cell_center sigma (temp_center (cs c)) (cs c)) (seq 0 (g_nc g)) /\
    o_fn r = map (fun f => fnormal sigma (face_of g f 1%Z)) (seq 0 (length (g_faces g))) /\
    o_fc r = map (fun f => fcenter (face_of g f 1%Z)) (seq 0 (length (g_faces g))) /\
    o_area2 r = map (fun f => farea2 (face_of g f 1%Z)) (seq 0 (length (g_faces g))) /\
    (forall v, In v (o_vol r) -> 0 <= v).
Proof. exact geometry2_ok. Qed.
Print Assumptions C19_2d_output.

(* Signed face normals of a cell sum to zero. *)
Theorem C19_2d_normals_sum_zero :
  forall sigma es, signs_ok es -> closed es ->
    sumQ (map (fun e => f_sgn e * px (fnormal sigma e)) es) == 0 /\
    sumQ (map (fun e => f_sgn e * py (fnormal sigma e)) es) == 0.
Proof. exact normals_sum_zero. Qed.
Print Assumptions C19_2d_normals_sum_zero.

(* The computed volume (sum of signed sub-triangle areas around the temporary centre) is the
   shoelace area of the traversed faces, whatever the temporary centre. *)
Theorem C19_2d_volume_shoelace :
  forall sigma t es, signs_ok es -> closed es ->
    cell_volume sigma t es == shoelace sigma es.
Proof. exact volume_shoelace. Qed.
Print Assumptions C19_2d_volume_shoelace.

Theorem C19_2d_volume_independent_of_centre :
  forall sigma t t' es, signs_ok es -> closed es ->
    cell_volume sigma t es == cell_volume sigma t' es.
Proof. exact volume_indep. Qed.
Print Assumptions C19_2d_volume_independent_of_centre.

(* Gauss: sum of +- x_f . n_f = 2 |K|. *)
Theorem C19_2d_gauss :
  forall sigma t es, signs_ok es -> closed es ->
    sumQ (map (fun e => f_sgn e * dot (fcenter e) (fnormal sigma e)) es)
    == 2 * cell_volume sigma t es.
Proof. exact gauss. Qed.
Print Assumptions C19_2d_gauss.

(* Centroid identity: sum of +- (x_f . n_f) x_f = 3 |K| x_c, with x_c the computed cell
   centre (guard: the division by the volume is a division by a non-zero number). *)
Theorem C19_2d_centroid :
  forall sigma t es, signs_ok es -> closed es -> ~ cell_volume sigma t es == 0 ->
    sumQ (map (fun e => f_sgn e * dot (fcenter e) (fnormal sigma e) * px (fcenter e)) es)
      == 3 * cell_volume sigma t es * px (cell_center sigma t es) /\
    sumQ (map (fun e => f_sgn e * dot (fcenter e) (fnormal sigma e) * py (fcenter e)) es)
      == 3 * cell_volume sigma t es * py (cell_center sigma t es).
Proof. exact centroid. Qed.
Print Assumptions C19_2d_centroid.

(* |n_f|^2 = (face area)^2. *)
Theorem C19_2d_normal_length :
  forall sigma e, sigma * sigma == 1 -> dot (fnormal sigma e) (fnormal sigma e) == farea2 e.
Proof. exact normal_length. Qed.
Print Assumptions C19_2d_normal_length.

(* Positivity: a cell that is star-shaped w.r.t. the temporary centre (all signed
   sub-triangle areas positive) has positive volume ... *)
Theorem C19_2d_volume_positive_star :
  forall sigma t es, es <> [] -> (forall e, In e es -> 0 < subvol sigma t e) ->
    0 < cell_volume sigma t es.
Proof. exact volume_pos_star. Qed.
Print Assumptions C19_2d_volume_positive_star.

(* ... and a convex cell traversed in the sense of sigma (every face centre lies on the inner
   side of every face line, strictly for at least one) is star-shaped w.r.t. the code's
   temporary centre, the mean of the face centres. *)
Theorem C19_2d_convex_is_star :
  forall sigma es e, es <> [] ->
    (forall e', In e' es -> 0 <= subvol sigma (fcenter e') e) ->
    (exists e', In e' es /\ 0 < subvol sigma (fcenter e') e) ->
    0 < subvol sigma (temp_center es) e.
Proof. exact convex_star. Qed.
Print Assumptions C19_2d_convex_is_star.

(* 1-D: the flip rule of _compute_geometry_1d orients the normal so that sign * normal points
   from the centre of the cell it is computed from towards the face (v = x_f - x_c <> 0). *)
Theorem C19_1d_flip_outward :
  forall v n s, (n = 1 \/ n = -1) -> (s = 1%Z \/ s = (-1)%Z) -> ~ v == 0 ->
    0 < inject_Z s * (if flip_rule v n s then - n else n) * v.
Proof. exact flip_outward. Qed.
Print Assumptions C19_1d_flip_outward.

(* 1-D: for a cell [x1, x2] with outward signed normals o_i = sign_i * n_i: the volume
   |x1 - x2| is positive, the signed normals sum to zero, sum o_i x_i = 1 * |K| and
   sum o_i x_i x_i = 2 |K| x_c with x_c the midpoint. *)
Theorem C19_1d_identities :
  forall x1 x2 o1 o2, ~ x1 == x2 -> (o1 == 1 \/ o1 == -1) -> (o2 == 1 \/ o2 == -1) ->
    0 < o1 * (x1 - (1 # 2) * (x1 + x2)) -> 0 < o2 * (x2 - (1 # 2) * (x1 + x2)) ->
    0 < Qabs (x1 - x2) /\ o1 + o2 == 0 /\
    o1 * x1 + o2 * x2 == 1 * Qabs (x1 - x2) /\
    o1 * x1 * x1 + o2 * x2 * x2 == 2 * Qabs (x1 - x2) * ((1 # 2) * (x1 + x2)).
Proof. exact ident_1d. Qed.
Print Assumptions C19_1d_identities.

(* 1-D: the model's outputs are these formulas. *)
Theorem C19_1d_output :
  forall h c f1 s1 f2 s2, cell_faces1 h c = [(f1, s1); (f2, s2)] ->
    (vol1 h c = Qabs (xface h f1 - xface h f2) /\ cc1 h c = (1 # 2) * (xface h f1 + xface h f2)) /\
    forall f e c' s, first_entry h f = Some (e, c', s) ->
      normal1 h f = if flip_rule (xface h f - cc1 h c') (tangent1 h) s
                    then - tangent1 h else tangent1 h.
Proof. intros h c f1 s1 f2 s2 H. split; [apply (cell1_form h c f1 s1 f2 s2 H)|exact (normal1_form h)]. Qed.
Print Assumptions C19_1d_output.

(* ---------------------------------------------------------------------------------------- *)
(* 2-D, legacy branch (orientation checks failed: "assume all cells are convex") *)

(* Which path geometry2f takes and what it returns there. *)
Theorem C19_2d_legacy_branches :
  forall g,
    match geometry2f g with
    | (BOriented, r) => geometry2 g = GOk r
    | (BLegacySameNormal, r) =>
        oriented1 g = true /\ ~ plane_sum g == 0 /\ geometry2 g = GFallback /\
        r = legacy g (qsign (plane_sum g))
    | (BLegacyGeneralNormal, r) =>
        (oriented1 g = false \/ plane_sum g == 0) /\ r = legacy g (general_normal (g_nodes g))
    end.
Proof. exact geometry2f_branches. Qed.
Print Assumptions C19_2d_legacy_branches.

(* For a cell that is star-shaped w.r.t. its temporary centre (in particular convex), whatever
   the stored node order and signs of its faces: the legacy volume is the volume the oriented
   formulas give on the correctly traversed loop es' — hence the shoelace area when es' is
   closed — and the legacy cell centre is the oriented one.  All identities of the oriented
   branch (Gauss, centroid) therefore hold for es' with these volumes and centres. *)
Theorem C19_2d_legacy_star_volume :
  forall t es es', Forall2 reoriented es es' ->
    (forall e', In e' es' -> 0 <= subvol 1 t e') -> signs_ok es' -> closed es' ->
    fb_volume t es == shoelace 1 es'.
Proof. exact legacy_star_area. Qed.
Print Assumptions C19_2d_legacy_star_volume.

Theorem C19_2d_legacy_star_center :
  forall t es es', Forall2 reoriented es es' ->
    (forall e', In e' es' -> 0 <= subvol 1 t e') ->
    fb_volume t es == cell_volume 1 t es' /\
    px (fb_center t es) == px (cell_center 1 t es') /\ py (fb_center t es) == py (cell_center 1 t es').
Proof.
  exact (fun t es es' HF Hp => conj (proj1 (legacy_star t es es' HF Hp)) (legacy_star_center t es es' HF Hp)).
Qed.
Print Assumptions C19_2d_legacy_star_center.

(* Legacy volumes are never negative; the flip decision of a cell entry makes sign * normal
   point from the cell's temporary centre towards the face. *)
Theorem C19_2d_legacy_volume_nonneg : forall t es, 0 <= fb_volume t es.
Proof. exact fb_volume_nonneg. Qed.
Print Assumptions C19_2d_legacy_volume_nonneg.

Theorem C19_2d_legacy_flip_outward :
  forall sigma t e,
    let n := fnormal sigma e in
    let n' := if flip_entry sigma t e then (- px n, - py n) else n in
    0 <= f_sgn e * dot (psub (fcenter e) t) n'.
Proof. exact flip_entry_outward. Qed.
Print Assumptions C19_2d_legacy_flip_outward.

(* Non-vacuity: the unit square of pp.CartGrid([1, 1]) with the node order of face 0 reversed
   fails orientation check 1/3, the legacy branch still returns volume 1 and centre (1/2, 1/2);
   the correctly traversed loop is closed and star-shaped w.r.t. that centre. *)
Example C19_legacy_nonvacuous :
  let g := {| g_nodes := [(0, 0); (1, 0); (0, 1); (1, 1)];
              g_faces := [(2, 0); (1, 3); (1, 0); (3, 2)]%nat;
              g_cf := [(0%nat, 0%nat, (-1)%Z); (1%nat, 0%nat, 1%Z); (2%nat, 0%nat, (-1)%Z); (3%nat, 0%nat, 1%Z)];
              g_nc := 1%nat |} in
  oriented1 g = false /\
  fst (geometry2f g) = BLegacyGeneralNormal /\
  all2 (closeS 0) (o_vol (snd (geometry2f g))) [1] = true /\
  all2 (closepS 1 1) (o_cc (snd (geometry2f g))) [(1 # 2, 1 # 2)] = true /\
  all2 (closepS 1 1) (o_fn (snd (geometry2f g))) [(1, 0); (1, 0); (0, 1); (0, 1)] = true /\
  (let es' := [((0, 0), (1, 0), 1%Z); ((1, 0), (1, 1), 1%Z); ((1, 1), (0, 1), 1%Z); ((0, 1), (0, 0), 1%Z)] in
   closed es' /\ forall e', In e' es' -> 0 <= subvol 1 (1 # 2, 1 # 2) e').
Proof.
  cbn zeta. repeat split; try (vm_compute; reflexivity).
  - exact (Permutation_cons_append [(1, 0); (1, 1); (0, 1)] (0, 0)).
  - intros e' [<-|[<-|[<-|[<-|[]]]]]; vm_compute; discriminate.
Qed.

(* ---------------------------------------------------------------------------------------- *)
(* 3-D *)

(* The face normal (sum of the sub-triangle normals around ANY centre c) is the vector area
   1/2 sum p_i x p_{i+1} of the node loop. *)
Theorem C19_3d_face_normal_is_vector_area :
  forall c ps, veq (face_normal_c c ps) (vector_area ps).
Proof. exact face_normal_vector_area. Qed.
Print Assumptions C19_3d_face_normal_is_vector_area.

(* Signed face normals of a watertight cell sum to zero (any polygonal faces, planar or not). *)
Theorem C19_3d_normals_sum_zero :
  forall fs, signs3_ok fs -> watertight fs ->
    sumQ (map (fun f => inject_Z (snd f) * vx (face_normal (fst f))) fs) == 0 /\
    sumQ (map (fun f => inject_Z (snd f) * vy (face_normal (fst f))) fs) == 0 /\
    sumQ (map (fun f => inject_Z (snd f) * vz (face_normal (fst f))) fs) == 0.
Proof. exact normals_sum_zero_3d. Qed.
Print Assumptions C19_3d_normals_sum_zero.

(* The computed cell volume (sum of the sub-tetrahedra around the temporary centre) does not
   depend on the temporary centre. *)
Theorem C19_3d_volume_independent_of_centre :
  forall fs t0 t1, signs3_ok fs -> watertight fs -> star_faces fs ->
    cell_volume3 t0 (cell_ts fs) == cell_volume3 t1 (cell_ts fs).
Proof. exact volume_indep_cell. Qed.
Print Assumptions C19_3d_volume_independent_of_centre.

(* Gauss with the code's face centres: sum +- x_f . n_f = 3 |K| (planar faces). *)
Theorem C19_3d_gauss :
  forall fs t0, signs3_ok fs -> watertight fs -> star_faces fs ->
    (forall f, In f fs -> planar_star (fst f)) ->
    sumQ (map (fun f => inject_Z (snd f) * vdot (face_center (fst f)) (face_normal (fst f))) fs)
    == 3 * cell_volume3 t0 (cell_ts fs).
Proof. exact gauss_3d. Qed.
Print Assumptions C19_3d_gauss.

(* The executable check the tie evaluates on every cell of every real 3-D grid implies the
   hypotheses above for that cell of the model. *)
Theorem C19_3d_hypotheses_checker_sound :
  forall g c, cell_hyps_b g c = true ->
    signs3_ok (cell_cfaces g c) /\ watertight (cell_cfaces g c) /\ star_faces (cell_cfaces g c) /\
    (forall f, In f (cell_cfaces g c) -> planar_star (fst f)).
Proof. exact cell_hyps_b_sound. Qed.
Print Assumptions C19_3d_hypotheses_checker_sound.

(* Hence, for every cell of the model that passes the check: normals sum to zero, the volume
   is independent of the temporary centre, and Gauss holds. *)
Theorem C19_3d_cell :
  forall g c, cell_hyps_b g c = true ->
    let fs := cell_cfaces g c in
    (sumQ (map (fun f => inject_Z (snd f) * vx (face_normal (fst f))) fs) == 0 /\
     sumQ (map (fun f => inject_Z (snd f) * vy (face_normal (fst f))) fs) == 0 /\
     sumQ (map (fun f => inject_Z (snd f) * vz (face_normal (fst f))) fs) == 0) /\
    (forall t0 t1, cell_volume3 t0 (cell_subtris g c) == cell_volume3 t1 (cell_subtris g c)) /\
    (forall t0, sumQ (map (fun f => inject_Z (snd f) * vdot (face_center (fst f)) (face_normal (fst f))) fs)
                == 3 * cell_volume3 t0 (cell_subtris g c)).
Proof.
  intros g c H. cbn zeta. destruct (cell_hyps_b_sound g c H) as (Hs & Hw & Hst & Hpl).
  rewrite cell_subtris_ts. split; [apply normals_sum_zero_3d; assumption|]. split.
  - intros t0 t1. apply volume_indep_cell; assumption.
  - intro t0. apply gauss_3d; assumption.
Qed.
Print Assumptions C19_3d_cell.

(* What geometry3 returns when it does not raise: the maps of the per-face / per-cell formulas,
   and no sub-tetrahedron volume at or below -1e-12 (the code's ValueError branch). *)
Theorem C19_3d_output :
  forall g r, geometry3 g = G3Ok r ->
    let fs := map (face_pts g) (seq 0 (length (k_faces g))) in
    let cells := map (cell_subtris g) (seq 0 (k_nc g)) in
    q_fn r = map face_normal fs /\ q_fc r = map face_center fs /\ q_area2 r = map face_area2 fs /\
    q_vol r = map (fun ts => cell_volume3 (tmp_center ts) ts) cells /\
    q_cc r = map (fun ts => cell_center3 (tmp_center ts) ts) cells /\
    (forall ts t, In ts cells -> In t ts -> - (1 # 1000000000000) < tet_volume (tmp_center ts) t).
Proof. exact geometry3_ok. Qed.
Print Assumptions C19_3d_output.

(* Non-vacuity (3-D): the unit tetrahedron passes the check; its computed volume is 1/6. *)
Example C19_3d_nonvacuous :
  let g := {| k_nodes := [(0, 0, 0); (1, 0, 0); (0, 1, 0); (0, 0, 1)];
              k_faces := [[0; 1; 2]; [0; 1; 3]; [0; 2; 3]; [1; 2; 3]]%nat;
              k_cf := [(0%nat, 0%nat, (-1)%Z); (1%nat, 0%nat, 1%Z); (2%nat, 0%nat, (-1)%Z);
                       (3%nat, 0%nat, 1%Z)];
              k_nc := 1%nat |} in
  cell_hyps_b g 0%nat = true /\
  (exists r, geometry3 g = G3Ok r /\ all2 (closeS 0) (q_vol r) [1 # 6] = true) /\
  watertight (cell_cfaces g 0%nat).
Proof.
  intro g. assert (cell_hyps_b g 0%nat = true) as H by (vm_compute; reflexivity).
  split; [exact H|]. split.
  - eexists. split; vm_compute; reflexivity.
  - apply cell_hyps_b_sound in H. tauto.
Qed.

(* Non-vacuity: the unit square with node order as in pp.CartGrid([1, 1]) (faces: left, right
   (vertical, upwards), bottom, top (horizontal, leftwards); signs -1, +1, -1, +1) passes the
   orientation check, is closed, and the model's geometry on it; a clockwise-traversed
   triangle gives sigma = -1 and still a positive volume. *)
Example C19_nonvacuous :
  let g := {| g_nodes := [(0, 0); (1, 0); (0, 1); (1, 1)];
              g_faces := [(0, 2); (1, 3); (1, 0); (3, 2)]%nat;
              g_cf := [(0%nat, 0%nat, (-1)%Z); (1%nat, 0%nat, 1%Z); (2%nat, 0%nat, (-1)%Z); (3%nat, 0%nat, 1%Z)];
              g_nc := 1%nat |} in
  oriented1 g = true /\ closed (cell_sfaces g 0%nat) /\ signs_ok (cell_sfaces g 0%nat) /\
  (exists r, geometry2 g = GOk r /\ all2 close (o_vol r) [1] = true
             /\ all2 closep (o_cc r) [(1 # 2, 1 # 2)] = true
             /\ all2 closep (o_fn r) [(1, 0); (1, 0); (0, 1); (0, 1)] = true) /\
  (let tri := [((0, 0), (0, 1), 1%Z); ((0, 1), (1, 0), 1%Z); ((1, 0), (0, 0), 1%Z)] in
   closed tri /\ signs_ok tri /\ cell_volume (-1) (temp_center tri) tri == 1 # 2).
Proof.
  intro g. assert (oriented1 g = true) as Ho by (vm_compute; reflexivity).
  split; [exact Ho|]. split; [apply oriented_closed; [exact Ho|cbn; auto]|].
  split; [apply oriented_signs; exact Ho|]. split.
  - eexists. split; [vm_compute; reflexivity|]. repeat split; vm_compute; reflexivity.
  - split; [|split].
    + exact (Permutation_cons_append [(0, 1); (1, 0)] (0, 0)).
    + intros e [<-|[<-|[<-|[]]]]; left; reflexivity.
    + vm_compute. reflexivity.
Qed.
