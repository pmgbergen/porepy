(* C17 — property theorems only.  Model: PP.Model.C17 (transcription of
   Upwind.discretize); proofs: PP.Proofs.C17.

   Vocabulary (definitions in Proofs/C17.v):
     one_sided cf        every face has at most one cell on each side
     leaves T I sgn f c  the flux through f leaves cell c: an incidence entry (f,c,s) with
                         s * sgn(q f) > 0
     missing_side T I f  f has no cell with positive, or none with negative sign (boundary face)
     row_apply M x r     (M x)_r for a coordinate list M
     face_flux, div_cell, step, total, outflow, noflow   the explicit transport step
                         c_i - dt/vol_i * (Div F)_i with
                         F = q*(upwind c) + bound_dir (q*b) + bound_neu b, for one component *)
From Coq Require Import List ZArith Bool Arith Lia Reals Lra.
Import ListNotations.
From PP Require Import Model.C17 Proofs.C17 Proofs.C17_multi.

(* Upstream selection.  For every flux type (the code only inspects sign(q) >= 0), incidence
   with at most one cell per side, flags, component count k and every run that does not raise:
   a face with NON-ZERO flux
   - selects no cell if it is a Neumann face or a Dirichlet face that the flux enters;
   - otherwise selects, in each component, exactly the cell the flux leaves (value 1), and
     that cell exists and is a valid cell. *)
Theorem C17_upstream :
  forall (T : Type) (nonneg : T -> bool) (I : input T) (sgn : T -> Z),
    (forall x : T, nonneg x = (0 <=? sgn x)%Z) ->
    forall o : output,
      one_sided (cf I) -> discretize T nonneg I = Ok o -> dim I <> 0%nat ->
      forall f j : nat, (f < nf I)%nat -> (j < ncomp I)%nat -> sgn (q I f) <> 0%Z ->
        let k := ncomp I in
        (is_neu I f = true \/ is_dir I f = true /\ (forall c : nat, ~ leaves T I sgn f c) ->
           forall (c : nat) (v : Z), ~ In ((f * k + j)%nat, c, v) (upwind o)) /\
        (is_neu I f = false -> forall c0 : nat, leaves T I sgn f c0 ->
           (c0 < nc I)%nat /\
           (forall (c : nat) (v : Z),
              In ((f * k + j)%nat, c, v) (upwind o) <-> c = (c0 * k + j)%nat /\ v = 1%Z)) /\
        (is_neu I f = false -> is_dir I f = false \/ (exists c : nat, leaves T I sgn f c) ->
           exists c0 : nat, leaves T I sgn f c0 /\ (c0 < nc I)%nat).
Proof. exact upstream_theorem. Qed.
Print Assumptions C17_upstream.

(* Dirichlet data enter only on Dirichlet faces lacking a cell on the upstream side (for
   non-zero flux: exactly the Dirichlet inflow faces), with coefficient 1 on the diagonal. *)
Theorem C17_boundary_dir :
  forall (T : Type) (nonneg : T -> bool) (I : input T) (sgn : T -> Z),
    (forall x : T, nonneg x = (0 <=? sgn x)%Z) ->
    forall o : output,
      discretize T nonneg I = Ok o -> dim I <> 0%nat ->
      let k := ncomp I in
      (forall (r c : nat) (v : Z), In (r, c, v) (bound_dir o) ->
         exists f j : nat,
           (f < nf I)%nat /\ (j < k)%nat /\ r = (f * k + j)%nat /\ c = (f * k + j)%nat /\
           v = 1%Z /\ is_dir I f = true /\ missing_side T I f /\
           (sgn (q I f) <> 0%Z -> forall c' : nat, ~ leaves T I sgn f c')) /\
      (forall f j : nat, (f < nf I)%nat -> (j < k)%nat -> is_dir I f = true ->
         sgn (q I f) <> 0%Z -> (forall c' : nat, ~ leaves T I sgn f c') ->
         In ((f * k + j)%nat, (f * k + j)%nat, 1%Z) (bound_dir o)).
Proof. exact boundary_dir_theorem. Qed.
Print Assumptions C17_boundary_dir.

(* Neumann data enter exactly on the Neumann faces, with the sign of the divergence. *)
Theorem C17_boundary_neu :
  forall (T : Type) (nonneg : T -> bool) (I : input T) (o : output),
    discretize T nonneg I = Ok o -> dim I <> 0%nat ->
    let k := ncomp I in
    forall (r c : nat) (v : Z),
      In (r, c, v) (bound_neu o) <->
      (exists f j : nat,
         (f < nf I)%nat /\ (j < k)%nat /\ r = (f * k + j)%nat /\ c = (f * k + j)%nat /\
         v = sgn_div (cf I) f /\ is_neu I f = true).
Proof.
  intros T nonneg I o Hok Hd k r c v.
  destruct (discretize_ok T nonneg I o Hok Hd) as [-> _]. apply in_kron_rows.
Qed.
Print Assumptions C17_boundary_neu.

(* With a Dirichlet or Neumann flag on every face that lacks a side, the code never raises. *)
Theorem C17_total :
  forall (T : Type) (nonneg : T -> bool) (I : input T),
    (forall (f c : nat) (s : Z), In (f, c, s) (cf I) -> (c < nc I)%nat) ->
    (forall f : nat, (f < nf I)%nat ->
       is_neu I f = true \/ is_dir I f = true \/
       (exists (c : nat) (s : Z), In (f, c, s) (cf I) /\ (0 < s)%Z) /\
       (exists (c : nat) (s : Z), In (f, c, s) (cf I) /\ (s < 0)%Z)) ->
    exists o : output, discretize T nonneg I = Ok o.
Proof. exact total_theorem. Qed.
Print Assumptions C17_total.

(* The error branch: ValueError exactly when a kept (non-Neumann, non-Dirichlet-inflow) face
   has no valid upstream cell. *)
Theorem C17_error :
  forall (T : Type) (nonneg : T -> bool) (I : input T) (e : err),
    discretize T nonneg I = Err e <->
    dim I <> 0%nat /\
    (exists f : nat, (f < nf I)%nat /\ deleted T nonneg I f = false /\
                     match up T nonneg I f with None => True | Some c => (nc I <= c)%nat end).
Proof. exact discretize_err. Qed.
Print Assumptions C17_error.

(* Point grids: empty matrices. *)
Theorem C17_point_grid :
  forall (T : Type) (nonneg : T -> bool) (I : input T) (o : output),
    dim I = 0%nat -> discretize T nonneg I = Ok o ->
    upwind o = nil /\ bound_dir o = nil /\ bound_neu o = nil /\
    upwind_shape o = (0%nat, 1%nat) /\ bound_dir_shape o = (0%nat, 0%nat) /\
    bound_neu_shape o = (0%nat, 0%nat).
Proof. unfold discretize. intros T nonneg I o -> H. injection H as <-. repeat split. Qed.
Print Assumptions C17_point_grid.

(* Components: the k-component run succeeds iff the one-component run does, its matrices
   are the Kronecker expansions with the k x k identity, and applied to an interleaved vector
   they act on component j as the one-component matrices act on that component. *)
Theorem C17_components :
  forall (T : Type) (nonneg : T -> bool) (I : input T) (o : output),
    discretize T nonneg I = Ok o -> dim I <> 0%nat ->
    let k := ncomp I in
    exists o1 : output,
      discretize T nonneg (set_ncomp T I 1) = Ok o1 /\
      upwind o = kron k (upwind o1) /\
      bound_dir o = kron k (bound_dir o1) /\
      bound_neu o = kron k (bound_neu o1) /\
      upwind_shape o = ((nf I * k)%nat, (nc I * k)%nat) /\
      bound_dir_shape o = ((nf I * k)%nat, (nf I * k)%nat) /\
      bound_neu_shape o = ((nf I * k)%nat, (nf I * k)%nat) /\
      (forall (x : nat -> R) (f j : nat), (j < k)%nat ->
         row_apply (upwind o) x (f * k + j) =
           row_apply (upwind o1) (fun c : nat => x (c * k + j)%nat) f /\
         row_apply (bound_dir o) x (f * k + j) =
           row_apply (bound_dir o1) (fun c : nat => x (c * k + j)%nat) f /\
         row_apply (bound_neu o) x (f * k + j) =
           row_apply (bound_neu o1) (fun c : nat => x (c * k + j)%nat) f).
Proof.
  intros T nonneg I o Hok Hd k. destruct (run_ncomp T nonneg I o 1 Hok Hd) as [-> H1].
  exists (run_output T nonneg (set_ncomp T I 1)). split; [exact H1|].
  destruct (run_output_kron T nonneg I) as [EU [ED EN]]. rewrite EU, ED, EN.
  repeat (split; [reflexivity|]).
  intros x f j Hj. repeat split; apply row_apply_kron; exact Hj.
Qed.
Print Assumptions C17_components.

(* The advective face flux assembled from the three matrices (real fluxes, one component):
   upstream value times flux on kept faces, q*b on Dirichlet-inflow faces, +-b on Neumann
   faces, nothing else. *)
Theorem C17_face_flux :
  forall (I : input R) (o : output) (b : nat -> R),
    discretize R nonnegR I = Ok o -> dim I <> 0%nat -> ncomp I = 1%nat ->
    forall (c : nat -> R) (f : nat), (f < nf I)%nat ->
      face_flux I o b c f =
      ((if deleted R nonnegR I f then 0
        else q I f * match up R nonnegR I f with Some cu => c cu | None => 0 end)
       + (if inflow R nonnegR I f then q I f * b f else 0)
       + (if is_neu I f then IZR (sgn_div (cf I) f) * b f else 0))%R.
Proof. exact face_flux_char. Qed.
Print Assumptions C17_face_flux.

(* Conservation: with no-flow boundaries the explicit step leaves sum_i vol_i c_i unchanged —
   for ANY real flux field (not only divergence-free ones), any dt, any cell values, any
   number of steps. *)
Theorem C17_conservative :
  forall (I : input R) (o : output) (b vol : nat -> R) (dt : R),
    discretize R nonnegR I = Ok o -> dim I <> 0%nat -> ncomp I = 1%nat ->
    wf_inc I ->
    (forall f : nat, (f < nf I)%nat -> noflow I b f) ->
    (forall i : nat, (i < nc I)%nat -> vol i <> 0%R) ->
    forall (n : nat) (c : nat -> R),
      total I vol (steps I o b vol dt n c) = total I vol c.
Proof.
  intros I o b vol dt Hok Hd Hk Hwf Hnf Hv. induction n as [|n IH]; intros c; [reflexivity|].
  cbn [steps]. rewrite (conservative_theorem I o b vol dt Hok Hd Hk _ Hwf Hnf Hv). apply IH.
Qed.
Print Assumptions C17_conservative.

(* Maximum principle: divergence-free flux, no-flow boundaries, CFL  dt*outflow_i <= vol_i:
   after any number of steps every cell value lies within the initial bounds. *)
Theorem C17_max_principle :
  forall (I : input R) (o : output) (b vol : nat -> R) (dt : R),
    discretize R nonnegR I = Ok o -> dim I <> 0%nat -> ncomp I = 1%nat ->
    one_sided (cf I) -> wf_inc I ->
    (forall f : nat, (f < nf I)%nat -> noflow I b f) ->
    (0 <= dt)%R ->
    (forall i : nat, (i < nc I)%nat -> (0 < vol i)%R /\ (dt * outflow I i <= vol i)%R) ->
    (forall i : nat, (i < nc I)%nat -> div_cell I (q I) i = 0%R) ->
    forall (c : nat -> R) (m M : R),
      (forall j : nat, (j < nc I)%nat -> (m <= c j <= M)%R) ->
      forall (n i : nat), (i < nc I)%nat -> (m <= steps I o b vol dt n c i <= M)%R.
Proof.
  intros I o b vol dt Hok Hd Hk Hw Hwf Hnf Hdt Hcfl Hdiv c m M Hb.
  induction n as [|n IH]; intros i Hi; [apply Hb; exact Hi|].
  exact (max_principle_theorem I o b vol dt Hok Hd Hk _ m M Hw Hwf Hnf Hdt Hcfl Hdiv IH i Hi).
Qed.
Print Assumptions C17_max_principle.

(* k interleaved components (component j of cell i at index i*k+j, boundary values likewise,
   matrices as returned for num_components = k): every component is conserved ... *)
Theorem C17_conservative_k :
  forall (I : input R) (o : output) (b vol : nat -> R) (dt : R),
    discretize R nonnegR I = Ok o -> dim I <> 0%nat ->
    wf_inc I ->
    (forall f : nat, (f < nf I)%nat -> noflow_k I b f) ->
    (forall i : nat, (i < nc I)%nat -> vol i <> 0%R) ->
    forall (n : nat) (c : nat -> R) (j : nat), (j < ncomp I)%nat ->
      total_k I vol j (steps_k I o b vol dt n c) = total_k I vol j c.
Proof. exact conservative_k. Qed.
Print Assumptions C17_conservative_k.

(* ... and stays within its own initial bounds under the CFL limit with a divergence-free
   flux, for any number of steps. *)
Theorem C17_max_principle_k :
  forall (I : input R) (o : output) (b vol : nat -> R) (dt : R),
    discretize R nonnegR I = Ok o -> dim I <> 0%nat ->
    one_sided (cf I) -> wf_inc I ->
    (forall f : nat, (f < nf I)%nat -> noflow_k I b f) ->
    (0 <= dt)%R ->
    (forall i : nat, (i < nc I)%nat -> (0 < vol i)%R /\ (dt * outflow I i <= vol i)%R) ->
    (forall i : nat, (i < nc I)%nat -> div_cell I (q I) i = 0%R) ->
    forall j : nat, (j < ncomp I)%nat ->
    forall (c : nat -> R) (m M : R),
      (forall i : nat, (i < nc I)%nat -> (m <= c (i * ncomp I + j)%nat <= M)%R) ->
      forall n i : nat, (i < nc I)%nat ->
        (m <= steps_k I o b vol dt n c (i * ncomp I + j)%nat <= M)%R.
Proof. exact max_principle_k. Qed.
Print Assumptions C17_max_principle_k.

(* The boolean checker the harness evaluates on every generated incidence. *)
Theorem C17_one_sided_checker :
  forall cf : list inc, one_sidedb cf = true -> one_sided cf.
Proof. exact one_sidedb_sound. Qed.
Print Assumptions C17_one_sided_checker.

(* ------------------------------------------------------------------------------------ *)
(* Non-vacuity. *)

(* executed instance: 1-D grid with three cells, two components; face 0 Dirichlet inflow,
   face 1 negative flux (leaves cell 1), face 2 zero flux, face 3 Neumann *)
Definition ex1 : input Z :=
  {| dim := 1; nf := 4; nc := 3;
     cf := [(0, 0, (-1)%Z); (1, 0, 1%Z); (1, 1, (-1)%Z); (2, 1, 1%Z); (2, 2, (-1)%Z); (3, 2, 1%Z)];
     q := nthz [2; -3; 0; 5]%Z;
     is_dir := nthb [true; false; false; false];
     is_neu := nthb [false; false; false; true];
     ncomp := 2 |}.

Example C17_nonvacuous_discrete :
  one_sided (cf ex1) /\
  (forall x : Z, nonnegZ x = (0 <=? Z.sgn x)%Z) /\
  (forall x : dyadic, nonnegD x = (0 <=? sgnD x)%Z) /\   (* the instance executed by the tie *)
  discretize Z nonnegZ ex1 =
    Ok {| upwind := [(2, 2, 1%Z); (3, 3, 1%Z); (4, 2, 1%Z); (5, 3, 1%Z)];
          upwind_shape := (8, 6);
          bound_dir := [(0, 0, 1%Z); (1, 1, 1%Z)]; bound_dir_shape := (8, 8);
          bound_neu := [(6, 6, 1%Z); (7, 7, 1%Z)]; bound_neu_shape := (8, 8) |} /\
  Z.sgn (q ex1 1) <> 0%Z /\ leaves Z ex1 Z.sgn 1 1 /\
  (forall c, ~ leaves Z ex1 Z.sgn 0 c) /\
  (exists o, discretize Z nonnegZ (set_ncomp Z ex1 1) = Ok o).
Proof.
  split; [apply one_sidedb_sound; vm_compute; reflexivity|].
  split; [intros x; reflexivity|].
  split; [intros x; reflexivity|].
  split; [vm_compute; reflexivity|].
  split; [vm_compute; discriminate|].
  split; [exists (-1)%Z; split; [cbn; tauto | vm_compute; reflexivity]|].
  split.
  - intros c [s [Hin Hs]]. cbn in Hin.
    repeat (destruct Hin as [Hin|Hin]; [inversion Hin; subst; vm_compute in Hs; discriminate|]).
    destruct Hin.
  - eexists. vm_compute. reflexivity.
Qed.

(* real-valued instance for the step theorems: two cells joined by two faces (a periodic
   1-D grid), unit flux around the ring, unit volumes, dt = 1/2, values 0 and 1 *)
Definition ex2 : input R :=
  {| dim := 1; nf := 2; nc := 2;
     cf := [(0, 0, 1%Z); (0, 1, (-1)%Z); (1, 1, 1%Z); (1, 0, (-1)%Z)];
     q := fun _ => 1%R;
     is_dir := fun _ => false; is_neu := fun _ => false; ncomp := 1 |}.

Example C17_nonvacuous_step :
  exists o : output,
    discretize R nonnegR ex2 = Ok o /\ dim ex2 <> 0%nat /\ ncomp ex2 = 1%nat /\
    one_sided (cf ex2) /\ wf_inc ex2 /\
    (forall f : nat, (f < nf ex2)%nat -> noflow ex2 (fun _ => 0%R) f) /\
    (0 <= 1 / 2)%R /\
    (forall i : nat, (i < nc ex2)%nat -> (0 < 1)%R /\ (1 / 2 * outflow ex2 i <= 1)%R) /\
    (forall i : nat, (i < nc ex2)%nat -> div_cell ex2 (q ex2) i = 0%R) /\
    (forall j : nat, (j < nc ex2)%nat -> (0 <= INR j <= 1)%R) /\
    (forall f, q ex2 f <> 0%R).
Proof.
  assert (Hex : exists o, discretize R nonnegR ex2 = Ok o).
  { apply total_theorem.
    - intros f c s Hin. cbn in Hin.
      repeat (destruct Hin as [Hin|Hin]; [injection Hin as ? ? ?; subst; cbn; lia|]). destruct Hin.
    - intros f Hf. right. right. cbn in Hf.
      destruct f as [|[|f]]; [| |lia].
      + split; [exists 0%nat, 1%Z | exists 1%nat, (-1)%Z]; cbn; split; try lia; tauto.
      + split; [exists 1%nat, 1%Z | exists 0%nat, (-1)%Z]; cbn; split; try lia; tauto. }
  destruct Hex as [o Ho]. exists o.
  split; [exact Ho|]. split; [cbn; lia|]. split; [reflexivity|].
  split; [apply one_sidedb_sound; vm_compute; reflexivity|].
  split.
  { intros t Hin. cbn in Hin.
    repeat (destruct Hin as [Hin|Hin]; [subst t; cbn; lia|]). destruct Hin. }
  split.
  { intros f Hf. right. cbn in Hf. destruct f as [|[|f]]; [| |lia]; repeat split. }
  split; [lra|].
  split.
  { intros i Hi. split; [lra|]. cbn in Hi. destruct i as [|[|i]]; [| |lia];
      unfold outflow, out_list, tc, ts, tf; cbn [cf ex2 fold_right fst snd Nat.eqb q];
      rewrite ?Rmult_1_l; rewrite (Rmax_left 1 0) by lra; rewrite (Rmax_right (-1 * 1) 0) by lra; lra. }
  split.
  { intros i Hi. cbn in Hi. destruct i as [|[|i]]; [| |lia];
      unfold div_cell, div_list, tc, ts, tf; cbn [cf ex2 fold_right fst snd Nat.eqb q]; lra. }
  split.
  { intros j Hj. cbn in Hj. destruct j as [|[|j]]; [| |lia]; cbn; lra. }
  intros f. cbn. lra.
Qed.

(* the ring grid with three components: the hypotheses of the k-component theorems hold *)
Definition ex3 : input R :=
  {| dim := 1; nf := 2; nc := 2;
     cf := [(0, 0, 1%Z); (0, 1, (-1)%Z); (1, 1, 1%Z); (1, 0, (-1)%Z)];
     q := fun _ => 1%R;
     is_dir := fun _ => false; is_neu := fun _ => false; ncomp := 3 |}.

Example C17_nonvacuous_step_k :
  exists o : output,
    discretize R nonnegR ex3 = Ok o /\ dim ex3 <> 0%nat /\
    one_sided (cf ex3) /\ wf_inc ex3 /\
    (forall f : nat, (f < nf ex3)%nat -> noflow_k ex3 (fun _ => 0%R) f) /\
    (forall i : nat, (i < nc ex3)%nat -> div_cell ex3 (q ex3) i = 0%R) /\
    (forall i : nat, (i < nc ex3)%nat -> (0 < 1)%R /\ (1 / 2 * outflow ex3 i <= 1)%R).
Proof.
  (* the same grid as ex2: ex3 is [set_ncomp R ex2 3] *)
  destruct C17_nonvacuous_step as [o2 [H2 [Hd [_ [Hw [Hwf [_ [_ [Hout [Hdiv _]]]]]]]]]].
  exists (run_output R nonnegR ex3).
  split; [exact (proj2 (run_ncomp R nonnegR ex2 o2 3 H2 Hd))|]. split; [exact Hd|].
  split; [exact Hw|]. split; [exact Hwf|].
  split; [|split; [exact Hdiv | exact Hout]].
  intros f Hf. right. cbn in Hf. destruct f as [|[|f]]; [| |lia]; repeat split.
Qed.
