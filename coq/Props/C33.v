(* C33 — property theorems only.  Model: PP.Model.C33 (transcription of line_tessellation with
   the collinear branch of segments_3d, match_1d, the loop of triangulations and the weight
   scalings of match_1d/match_2d, over exact rationals); proofs: PP.Proofs.C33.

   Vocabulary (Proofs.C33):  a cell is the pair of coordinates of its two nodes (any order);
   [chain cs lo hi] : the cells, read left to right, each start where the previous one ended,
   from lo to hi;  [tessellates cs lo hi] : some permutation of cs is such a chain (cells in any
   order and orientation; zero-length cells allowed);  [degenerate c] : both nodes coincide;
   [row_sum l i] / [col_sum l j] : sum of the reported values whose first / second index is i / j;
   [cell_vol nrm c] : the length of the cell (nrm converts coordinate differences to Euclidean
   lengths along the common line). *)
From Coq Require Import List QArith Bool Arith Lia Permutation.
Import ListNotations.
From PP Require Import Model.C33 Proofs.C33.
Open Scope Q_scope.

(* Every overlap that line_tessellation reports is non-negative — for ANY two lists of
   segments on a line (no tessellation hypothesis needed). *)
Theorem C33_1d_overlaps_nonneg :
  forall nrm p1 p2 l1 l2 l,
    0 <= nrm -> line_tessellation nrm p1 p2 l1 l2 = inr l ->
    Forall (fun e => 0 <= ewt e) l.
Proof. intros nrm p1 p2 l1 l2 l. apply lt_outer_nonneg. Qed.
Print Assumptions C33_1d_overlaps_nonneg.

(* The value reported for one pair of segments is exactly the length of the intersection of
   the two closed intervals (and nothing is reported only when that length is 0). *)
Theorem C33_1d_pair_overlap_exact :
  forall nrm a b,
    (match seg_overlap a b with OSeg x y => seg_len nrm x y | _ => 0 end)
    == qmax 0 (qmin (cmax a) (cmax b) - qmax (cmin a) (cmin b)) * nrm.
Proof. exact val_ilen. Qed.
Print Assumptions C33_1d_pair_overlap_exact.

(* For two tessellations of the same interval [lo,hi] (any number of cells, any order and
   orientation) whenever line_tessellation returns: for each cell of the first tessellation
   the overlaps reported with that first index sum to its length, for each cell of the
   second likewise with the second index, and nothing is reported for other indices. *)
Theorem C33_1d_partition :
  forall nrm p1 p2 l1 l2 lo hi l,
    lines_ok p1 l1 -> lines_ok p2 l2 ->
    tessellates (cells_of p1 l1) lo hi -> tessellates (cells_of p2 l2) lo hi ->
    line_tessellation nrm p1 p2 l1 l2 = inr l ->
    (forall i, (i < length l1)%nat ->
       row_sum l i == cell_vol nrm (nth i (cells_of p1 l1) (0, 0))) /\
    (forall j, (j < length l2)%nat ->
       col_sum l j == cell_vol nrm (nth j (cells_of p2 l2) (0, 0))) /\
    (forall i, (length l1 <= i)%nat -> row_sum l i == 0) /\
    (forall j, (length l2 <= j)%nat -> col_sum l j == 0).
Proof.
  intros nrm p1 p2 l1 l2 lo hi l _ _.
  rewrite <- (cells_of_length p1 l1), <- (cells_of_length p2 l2). apply cells_partition.
Qed.
Print Assumptions C33_1d_partition.

(* The error branch: line_tessellation raises (IndexError inside segments_3d) exactly when a
   zero-length cell of the first list and a zero-length cell of the second sit at the same
   point; in particular never when one of the tessellations has no zero-length cell. *)
Theorem C33_1d_error_iff :
  forall nrm p1 p2 l1 l2,
    line_tessellation nrm p1 p2 l1 l2 = inl IndexErr <->
    exists a b, In a (cells_of p1 l1) /\ In b (cells_of p2 l2) /\
                degenerate a /\ degenerate b /\ fst a == fst b.
Proof. intros. apply lt_outer_err. Qed.
Print Assumptions C33_1d_error_iff.

(* match_1d on two tessellations of the same interval: all weights are >= 0; the 'averaged'
   matrix has unit row sums and the 'integrated' matrix unit column sums, on every cell of
   positive length. *)
Theorem C33_match_1d_rows_cols :
  forall nrm tol p_new p_old l_new l_old lo hi,
    0 < nrm ->
    lines_ok p_new l_new -> lines_ok p_old l_old ->
    tessellates (cells_of p_new l_new) lo hi -> tessellates (cells_of p_old l_old) lo hi ->
    (forall m, match_1d nrm tol Averaged p_new p_old l_new l_old = inr m ->
       Forall (fun e => 0 <= ewt e) m /\
       forall i, (i < length l_new)%nat ->
         ~ degenerate (nth i (cells_of p_new l_new) (0, 0)) -> row_sum m i == 1) /\
    (forall m, match_1d nrm tol Integrated p_new p_old l_new l_old = inr m ->
       Forall (fun e => 0 <= ewt e) m /\
       forall j, (j < length l_old)%nat ->
         ~ degenerate (nth j (cells_of p_old l_old) (0, 0)) -> col_sum m j == 1).
Proof.
  intros nrm tol p_new p_old l_new l_old lo hi Hn _ _ T1 T2.
  unfold match_1d, line_tessellation.
  rewrite <- (cells_of_length p_new l_new), <- (cells_of_length p_old l_old).
  destruct (lt_outer nrm 0 _ _) as [|l] eqn:E; [split; discriminate|].
  destruct (cells_unit_sums nrm tol _ _ lo hi l Hn T1 T2 E) as [N [R C]].
  split; intros m [= <-]; [exact (conj (N Averaged) R) | exact (conj (N Integrated) C)].
Qed.
Print Assumptions C33_match_1d_rows_cols.

(* 2-D.  shapely's answers (is the intersection a Polygon; its area) and the bounding-box
   filter are arbitrary functions subject to [tri_contract]: isect_area i j is the area of
   triangle i of the first ∩ triangle j of the second tessellation of one polygon (>= 0; zero
   for box-disjoint pairs and for non-Polygon intersections; additive over either
   tessellation).  Then the list built by triangulations has non-negative entries ... *)
Theorem C33_2d_overlaps_nonneg :
  forall is_polygon candidate isect_area n1 n2 area1 area2,
    tri_contract is_polygon candidate isect_area n1 n2 area1 area2 ->
    Forall (fun e => 0 <= ewt e) (triangulations is_polygon isect_area candidate n1 n2).
Proof. exact tri_entries_nonneg. Qed.
Print Assumptions C33_2d_overlaps_nonneg.

(* ... which sum, per triangle of either tessellation, to its area (the filtered-out pairs
   contribute nothing) ... *)
Theorem C33_2d_partition :
  forall is_polygon candidate isect_area n1 n2 area1 area2,
    tri_contract is_polygon candidate isect_area n1 n2 area1 area2 ->
    let l := triangulations is_polygon isect_area candidate n1 n2 in
    (forall i, (i < n1)%nat -> row_sum l i == area1 i) /\
    (forall j, (j < n2)%nat -> col_sum l j == area2 j).
Proof. exact tri_sums. Qed.
Print Assumptions C33_2d_partition.

(* ... and match_2d's 'averaged' matrix has unit row sums, its 'integrated' matrix unit
   column sums. *)
Theorem C33_match_2d_rows_cols :
  forall is_polygon candidate isect_area n1 n2 area1 area2,
    tri_contract is_polygon candidate isect_area n1 n2 area1 area2 -> forall tol,
    let l := triangulations is_polygon isect_area candidate n1 n2 in
    (forall i, (i < n1)%nat -> ~ area1 i == 0 ->
       row_sum (scale_entries area1 area2 tol Averaged l) i == 1) /\
    (forall j, (j < n2)%nat -> ~ area2 j == 0 ->
       col_sum (scale_entries area1 area2 tol Integrated l) j == 1).
Proof. exact match_2d_sums. Qed.
Print Assumptions C33_match_2d_rows_cols.

(* ---------------- non-vacuity ---------------- *)
(* [0,1],[2,1] (second cell listed right-to-left) against [1/2,2],[0,1/2] (cells listed in
   reverse order): both tessellate [0,2]; the reported overlaps and the averaged matrix. *)
Example C33_nonvacuous_1d :
  let p1 := [0; 1; 2] in let l1 := [(0, 1); (2, 1)]%nat in
  let p2 := [0; 1 # 2; 2] in let l2 := [(1, 2); (0, 1)]%nat in
  lines_ok p1 l1 /\ lines_ok p2 l2 /\
  tessellates (cells_of p1 l1) 0 2 /\ tessellates (cells_of p2 l2) 0 2 /\
  line_tessellation 1 p1 p2 l1 l2
    = inr [(0%nat, 0%nat, 1 # 2); (0%nat, 1%nat, 1 # 2); (1%nat, 0%nat, 1)] /\
  (exists m, match_1d 1 (1 # 100) Averaged p1 p2 l1 l2 = inr m /\
             Qeq_bool (row_sum m 0%nat) 1 = true /\ Qeq_bool (row_sum m 1%nat) 1 = true) /\
  (* the error branch is inhabited too: two zero-length cells at the same point *)
  line_tessellation 1 [0; 1; 1; 2] [0; 1; 1; 2]
                    [(0, 1); (1, 2); (2, 3)]%nat [(0, 1); (1, 2); (2, 3)]%nat = inl IndexErr.
Proof.
  cbv zeta.
  refine (conj _ (conj _ (conj _ (conj _ (conj _ (conj _ _)))))).
  - repeat constructor.
  - repeat constructor.
  - exists [(0, 1); (2, 1)]. split; [apply Permutation_refl|].
    cbn [chain]. repeat split; vm_compute; reflexivity.
  - exists [(0, 1 # 2); (1 # 2, 2)]. split; [apply perm_swap|].
    cbn [chain]. repeat split; vm_compute; reflexivity.
  - vm_compute. reflexivity.
  - eexists. split; [vm_compute; reflexivity|]. split; vm_compute; reflexivity.
  - vm_compute. reflexivity.
Qed.

(* two identical triangulations of the unit square (two triangles of area 1/2) *)
Example C33_nonvacuous_2d :
  tri_contract (fun _ _ => true) (fun _ _ => true)
               (fun i j => if Nat.eqb i j then 1 # 2 else 0) 2 2
               (fun _ => 1 # 2) (fun _ => 1 # 2).
Proof.
  unfold tri_contract. repeat split.
  - intros i j _ _. destruct (Nat.eqb i j); vm_compute; discriminate.
  - intros; discriminate.
  - intros; discriminate.
  - intros i Hi. destruct i as [|[|i]]; try lia; vm_compute; reflexivity.
  - intros j Hj. destruct j as [|[|j]]; try lia; vm_compute; reflexivity.
Qed.
