(* C22 — property theorems only.  Model: PP.Model.C22 (transcription of extract_subgrid /
   _extract_submatrix, partition_structured, overlap of porepy/grids/partition.py);
   proofs: PP.Proofs.C22. *)
From Coq Require Import List ZArith Arith Lia Sorted Permutation.
Import ListNotations.
From Coq Require Import QArith.
From PP Require Import Model.C22 Proofs.C22 Model.C19 Model.C22_geom Proofs.C22_geom2d Proofs.C22_onto.
Close Scope Q_scope.

(* Extraction, index maps.  For EVERY pair of incidence matrices (cell_faces, face_nodes:
   any lists of columns, any values), every index list or boolean mask and both values
   of [sort]: if the call returns, the extracted cells are the requested ones (sorted if
   asked), the face map and the node map are strictly increasing, consist exactly of
   the faces of those cells / the nodes of those faces, and every local column mapped
   back through them IS the parent's column: same entities, same signs/values, same
   stored order (node order of a face included). *)
Theorem C22_maps :
  forall (cf fn : csc) (c : cells) (sort : bool) (sg : subgrid),
  extract_subgrid cf fn c sort = Ok sg ->
  let cs := sg_cells sg in let uf := sg_faces sg in let un := sg_nodes sg in
  Permutation cs (requested c) /\ (sort = true -> StronglySorted le cs) /\
  Forall (fun k => k < length cf) cs /\
  length (sg_cf sg) = length cs /\ length (sg_fn sg) = length uf /\
  StronglySorted lt uf /\ StronglySorted lt un /\
  (forall f, In f uf <-> exists k, In k cs /\ In f (map fst (nth k cf []))) /\
  (forall n, In n un <-> exists f, In f uf /\ In n (map fst (nth f fn []))) /\
  (forall i, i < length cs ->
     relabel uf (nth i (sg_cf sg) []) = nth (nth i cs 0) cf [] /\
     Forall (fun e => fst e < length uf) (nth i (sg_cf sg) [])) /\
  (forall j, j < length uf ->
     relabel un (nth j (sg_fn sg) []) = nth (nth j uf 0) fn [] /\
     Forall (fun e => fst e < length un) (nth j (sg_fn sg) [])).
Proof.
  intros cf fn c sort sg H cs uf un.
  destruct (extract_subgrid_cells cf fn c sort sg H) as (Hp & Hs & [] & []).
  repeat (split; [assumption|]). assumption.
Qed.
Print Assumptions C22_maps.

(* Extraction is total on valid input (cell indices in range / mask of the right size, on
   a grid whose cell_faces only mention existing faces) and the only error is IndexError,
   raised exactly on invalid input. *)
Theorem C22_extract_total :
  forall (cf fn : csc) (c : cells) (sort : bool),
  wf_grid cf fn ->
  (valid_cells cf c -> exists sg, extract_subgrid cf fn c sort = Ok sg) /\
  (forall e, extract_subgrid cf fn c sort = Err e -> e = IndexErr /\ ~ valid_cells cf c).
Proof.
  intros cf fn c sort Hwf. split; [apply extract_subgrid_total, Hwf|].
  intros e. apply extract_subgrid_err, Hwf.
Qed.
Print Assumptions C22_extract_total.

(* Extraction, geometry.  With the subgrid's nodes = parent's nodes at the node map
   (g.nodes[:, unique_nodes]), for any coordinate type: everything a per-face formula
   reads (the face's node coordinates in stored order) and everything a per-cell formula
   reads (the cell's signed faces, each with its ordered node coordinates) is identical
   in the subgrid and in the parent; hence any per-face functional F and per-cell
   functional G (areas, centres, volumes, ... in exact arithmetic) agree. *)
Theorem C22_geometry :
  forall (X : Type) (d : X) (nodes : list X) (cf fn : csc) (c : cells) (sort : bool)
         (sg : subgrid),
  extract_subgrid cf fn c sort = Ok sg ->
  let sub_nodes := take_nodes d nodes (sg_nodes sg) in
  (forall j, j < length (sg_faces sg) ->
     face_view d sub_nodes (sg_fn sg) j = face_view d nodes fn (nth j (sg_faces sg) 0)) /\
  (forall i, i < length (sg_cells sg) ->
     cell_view d sub_nodes (sg_cf sg) (sg_fn sg) i
     = cell_view d nodes cf fn (nth i (sg_cells sg) 0)) /\
  (forall (T : Type) (F : list X -> T) j, j < length (sg_faces sg) ->
     F (face_view d sub_nodes (sg_fn sg) j) = F (face_view d nodes fn (nth j (sg_faces sg) 0))) /\
  (forall (T : Type) (G : list (Z * list X) -> T) i, i < length (sg_cells sg) ->
     G (cell_view d sub_nodes (sg_cf sg) (sg_fn sg) i)
     = G (cell_view d nodes cf fn (nth i (sg_cells sg) 0))).
Proof.
  intros X d nodes cf fn c sort sg H sub_nodes.
  apply extract_subgrid_cells in H. destruct H as (_ & _ & Hm).
  pose proof (face_view_sub X d cf fn sg nodes Hm) as HF.
  pose proof (cell_view_sub X d cf fn sg nodes Hm) as HC.
  split; [exact HF|]. split; [exact HC|]. split; intros T F k Hk; f_equal; auto.
Qed.
Print Assumptions C22_geometry.

(* Extraction, recomputed geometry in 2-D.  [geometry2] is the C19 transcription of
   Grid._compute_geometry_2d (oriented branch: orientation checks, plane orientation sign,
   face areas/centres/normals, cell volumes/centres; exact over Q); [to_grid2] reads an
   incidence pair with two-node faces as a grid of that model.  If the parent's geometry is
   computed by the oriented branch and at least one extracted cell has positive volume,
   then compute_geometry on the extracted subgrid (nodes g.nodes[:, unique_nodes]) also
   takes the oriented branch and returns exactly the parent's values at the extracted
   cells (volumes, centres) and faces (squared areas, centres, normals - orientation
   included). *)
Theorem C22_geometry_2d :
  forall (nodes : list pt) (cf fn : csc) (c : cells) (sort : bool) (sg : subgrid) (r : geom2),
  extract_subgrid cf fn c sort = Ok sg ->
  two_nodes fn (sg_faces sg) ->
  let g := to_grid2 nodes cf fn in
  let g' := to_grid2 (take_nodes (0%Q, 0%Q) nodes (sg_nodes sg)) (sg_cf sg) (sg_fn sg) in
  geometry2 g = GOk r ->
  (exists i, i < length (sg_cells sg) /\ (0 < nth (nth i (sg_cells sg) 0%nat) (o_vol r) 0)%Q) ->
  exists r', geometry2 g' = GOk r' /\
    o_vol r' = map (fun k => nth k (o_vol r) 0%Q) (sg_cells sg) /\
    o_cc r' = map (fun k => nth k (o_cc r) (0%Q, 0%Q)) (sg_cells sg) /\
    o_area2 r' = map (fun f => nth f (o_area2 r) 0%Q) (sg_faces sg) /\
    o_fc r' = map (fun f => nth f (o_fc r) (0%Q, 0%Q)) (sg_faces sg) /\
    o_fn r' = map (fun f => nth f (o_fn r) (0%Q, 0%Q)) (sg_faces sg).
Proof.
  intros nodes cf fn c sort sg r H Htwo g g' Hg Hpos.
  apply extract_subgrid_cells in H. destruct H as (_ & _ & Hc & Hf).
  eexists. split; [apply (geometry2_restrict nodes cf fn sg Hc Hf Htwo r Hg Hpos)|].
  repeat split.
Qed.
Print Assumptions C22_geometry_2d.

(* partition_structured: for every 1-, 2- or 3-dimensional tensor grid and all coarse
   dimensions with 1 <= coarse_i <= fine_i the call returns one part id per cell, each
   within [0, prod coarse). *)
Theorem C22_structured_partition :
  forall (fine coarse : list Z),
  1 <= length fine <= 3 ->
  Forall2 (fun f c => 1 <= c <= f)%Z fine coarse ->
  exists ids, partition_structured fine coarse = Ok ids /\
              Z.of_nat (length ids) = prodZ fine /\
              Forall (fun p => 0 <= p < prodZ coarse)%Z ids.
Proof.
  intros fine coarse Hl Hd.
  destruct (structured_partition_exact fine coarse Hl Hd) as (ids & E & L & I).
  exists ids. split; [exact E|]. split; [exact L|]. apply Forall_forall. intros p. apply I.
Qed.
Print Assumptions C22_structured_partition.

(* ... and every part id is used: no coarse cell of the requested coarse grid is empty. *)
Theorem C22_structured_partition_onto :
  forall (fine coarse ids : list Z),
  1 <= length fine <= 3 ->
  Forall2 (fun f c => 1 <= c <= f)%Z fine coarse ->
  partition_structured fine coarse = Ok ids ->
  forall p, (0 <= p < prodZ coarse)%Z -> In p ids.
Proof.
  intros fine coarse ids Hl Hd E.
  destruct (structured_partition_exact fine coarse Hl Hd) as (ids' & E' & _ & I).
  rewrite E in E'. injection E' as <-. intros p. apply I.
Qed.
Print Assumptions C22_structured_partition_onto.

(* ... and when some coarse dimension exceeds the fine one the call raises ValueError
   (np.arange with step 0). *)
Theorem C22_structured_partition_error :
  forall (fine coarse : list Z),
  1 <= length fine <= 3 ->
  Forall2 (fun f c => 1 <= c /\ 1 <= f)%Z fine coarse ->
  Exists (fun fc => fst fc < snd fc)%Z (combine fine coarse) ->
  partition_structured fine coarse = Err ValueErr.
Proof. exact structured_partition_error. Qed.
Print Assumptions C22_structured_partition_error.

(* overlap, one layer at a time.  [cols] = rows (nodes or faces) of every cell.  For every
   valid initial set and every depth n the call returns a strictly increasing list of
   cells; depth 0 returns the initial set; the list of depth n+1 contains the list of
   depth n, contains EVERY cell that shares a node/face with a cell of depth n, and
   contains nothing else. *)
Theorem C22_overlap_neighbours :
  forall (cols : list (list nat)) (nrows : nat) (cell_ind : list nat),
  rows_in_range cols nrows ->
  Forall (fun c => c < length cols) cell_ind ->
  forall n, exists l,
    overlap cols nrows cell_ind n = Ok l /\
    StronglySorted lt l /\ Forall (fun c => c < length cols) l /\
    (n = 0 -> forall c, In c l <-> In c cell_ind) /\
    forall l', overlap cols nrows cell_ind (S n) = Ok l' ->
      incl l l' /\
      (forall a c, In a l -> c < length cols -> share cols a c -> In c l') /\
      (forall c, In c l' -> In c l \/ exists a, In a l /\ share cols a c).
Proof.
  intros cols nrows ci Hr Hv n. destruct (overlap_total cols nrows ci n Hv) as [l E].
  exists l. split; [exact E|]. split; [apply (overlap_spec cols nrows ci n l E)|].
  split; [apply (overlap_range cols nrows ci n l E)|].
  split; [intros ->; apply (overlap_0 cols nrows ci l E)|].
  intros l' E'. split; [apply (overlap_mono cols nrows ci n (S n) l l'); auto|].
  apply (overlap_S cols nrows ci n l l' Hr E E').
Qed.
Print Assumptions C22_overlap_neighbours.

(* overlap only grows with the number of layers (any two depths) and always contains the
   initial cells. *)
Theorem C22_overlap_monotone :
  forall (cols : list (list nat)) (nrows : nat) (cell_ind : list nat) (n m : nat)
         (l l' : list nat),
  n <= m -> overlap cols nrows cell_ind n = Ok l -> overlap cols nrows cell_ind m = Ok l' ->
  incl cell_ind l /\ incl l l'.
Proof.
  intros cols nrows ci n m l l' Hle E E'.
  split; [apply (overlap_initial cols nrows ci n l E)|apply (overlap_mono cols nrows ci n m l l' Hle E E')].
Qed.
Print Assumptions C22_overlap_monotone.

(* the only error of overlap is IndexError, raised exactly for out-of-range cells *)
Theorem C22_overlap_error :
  forall (cols : list (list nat)) (nrows : nat) (cell_ind : list nat) (n : nat),
  (Forall (fun c => c < length cols) cell_ind -> exists l, overlap cols nrows cell_ind n = Ok l) /\
  (forall e, overlap cols nrows cell_ind n = Err e ->
     e = IndexErr /\ ~ Forall (fun c => c < length cols) cell_ind).
Proof.
  intros cols nrows ci n. split; [apply overlap_total|]. intros e. apply overlap_err.
Qed.
Print Assumptions C22_overlap_error.

(* ---------------------------------------------------------------------------------- *)
(* Non-vacuity.  CartGrid([3]) : cells 0..2, faces = nodes 0..3. *)
Definition ex_cf : csc := [[(0, zm); (1, zp)]; [(1, zm); (2, zp)]; [(2, zm); (3, zp)]].
Definition ex_fn : csc := [[(0, zp)]; [(1, zp)]; [(2, zp)]; [(3, zp)]].

Example C22_extract_nonvacuous :
  wf_grid ex_cf ex_fn /\ valid_cells ex_cf (CIdx [2; 1]) /\
  extract_subgrid ex_cf ex_fn (CIdx [2; 1]) true
  = Ok {| sg_cf := [[(0, zm); (1, zp)]; [(1, zm); (2, zp)]];
          sg_fn := [[(0, zp)]; [(1, zp)]; [(2, zp)]];
          sg_faces := [1; 2; 3]; sg_nodes := [1; 2; 3]; sg_cells := [1; 2] |} /\
  extract_subgrid ex_cf ex_fn (CMask [true; false]) true = Err IndexErr /\
  cell_view 0%Z (take_nodes 0%Z [10; 11; 12; 13]%Z [1; 2; 3])
            [[(0, zm); (1, zp)]; [(1, zm); (2, zp)]] [[(0, zp)]; [(1, zp)]; [(2, zp)]] 1
  = cell_view 0%Z [10; 11; 12; 13]%Z ex_cf ex_fn 2.
Proof.
  split; [|split; [|split; [|split]]]; try (vm_compute; reflexivity).
  - intros c e He. destruct c as [|[|[|c]]]; cbn in He;
      repeat (destruct He as [<-|He]; [cbn; lia|]); try contradiction;
      destruct c; contradiction.
  - repeat constructor.
Qed.

(* the inputs that violated the range before the repairs: 11 fine cells, 4 parts, in 1-D
   and 2-D; and a rejected input *)
Example C22_structured_nonvacuous :
  Forall2 (fun f c => 1 <= c <= f)%Z [11; 1]%Z [4; 1]%Z /\
  partition_structured [11; 1]%Z [4; 1]%Z = Ok [0; 0; 1; 1; 2; 2; 3; 3; 3; 3; 3]%Z /\
  partition_structured [11]%Z [4]%Z = Ok [0; 0; 1; 1; 2; 2; 3; 3; 3; 3; 3]%Z /\
  partition_structured [3; 2; 2]%Z [2; 2; 1]%Z = Ok [0; 1; 1; 2; 3; 3; 0; 1; 1; 2; 3; 3]%Z /\
  partition_structured [3; 2]%Z [4; 1]%Z = Err ValueErr.
Proof.
  split; [|repeat split; vm_compute; reflexivity].
  repeat constructor; lia.
Qed.

(* CartGrid([3,3]), criterion 'face': cell c has faces ... ; start from the centre cell *)
Definition ex_cols : list (list nat) :=
  [[0; 1; 12; 15]; [1; 2; 13; 16]; [2; 3; 14; 17]; [4; 5; 15; 18]; [5; 6; 16; 19];
   [6; 7; 17; 20]; [8; 9; 18; 21]; [9; 10; 19; 22]; [10; 11; 20; 23]].

Example C22_overlap_nonvacuous :
  rows_in_range ex_cols 24 /\
  overlap ex_cols 24 [4] 0 = Ok [4] /\
  overlap ex_cols 24 [4] 1 = Ok [1; 3; 4; 5; 7] /\
  overlap ex_cols 24 [4] 2 = Ok [0; 1; 2; 3; 4; 5; 6; 7; 8] /\
  share ex_cols 4 1 /\
  overlap ex_cols 24 [9] 1 = Err IndexErr.
Proof.
  split; [|repeat split; try (vm_compute; reflexivity)].
  - intros c r Hr.
    do 9 (destruct c as [|c]; [cbn in Hr; repeat (destruct Hr as [<-|Hr]; [lia|]); contradiction|]).
    destruct c; contradiction.
  - exists 16. split; cbn; tauto.
Qed.

(* the unit square cut into two triangles; extracting cell 1 *)
Definition ex2_nodes : list pt := [(0, 0); (1, 0); (0, 1); (1, 1)]%Q.
Definition ex2_fn : csc :=
  [[(0, zp); (1, zp)]; [(0, zp); (2, zp)]; [(1, zp); (2, zp)]; [(1, zp); (3, zp)]; [(2, zp); (3, zp)]].
Definition ex2_cf : csc := [[(0, zp); (1, zm); (2, zp)]; [(2, zm); (3, zp); (4, zm)]].

Example C22_geometry_2d_nonvacuous :
  (match geometry2 (to_grid2 ex2_nodes ex2_cf ex2_fn) with
   | GOk r => Qeq_bool (nth 1 (o_vol r) 0%Q) (1 # 2) = true
   | GFallback => False
   end) /\
  (match extract_subgrid ex2_cf ex2_fn (CIdx [1]) true with
   | Ok sg => sg_faces sg = [2; 3; 4] /\ sg_nodes sg = [1; 2; 3] /\
              (forall f, In f (sg_faces sg) -> length (nth f ex2_fn []) = 2) /\
              match geometry2 (to_grid2 (take_nodes (0%Q, 0%Q) ex2_nodes (sg_nodes sg)) (sg_cf sg) (sg_fn sg)) with
              | GOk r' => Qeq_bool (nth 0 (o_vol r') 0%Q) (1 # 2) = true
              | GFallback => False
              end
   | Err _ => False
   end).
Proof.
  split; [vm_compute; reflexivity|]. vm_compute. repeat split.
  intros f [<-|[<-|[<-|[]]]]; reflexivity.
Qed.
