(* C04 — property theorems only.  Model: PP.Model.C04 (balance equation
   dt(accumulation) + Divergence @ flux - source on a mixed-dimensional grid, matrices in
   COO form, written over the operations of an arbitrary commutative ring); proofs:
   PP.Proofs.C04.

   Level: METHOD-level theorems (for every md-grid structure satisfying the stated
   hypotheses, every state) + per-instance certificates: on every run the harness reads the
   real Divergence / mortar_to_primary_int / mortar_to_secondary_int matrices of generated
   fractured md-grids and Coq evaluates [cert_ok] on them; [C04_certificate_sound] turns a
   passed certificate into the hypotheses of [C04_conservation]. *)
From Coq Require Import List ZArith QArith Qabs Ring_theory RelationClasses.
Import ListNotations.
From PP Require Import Model.C04 Proofs.C04.

(* (1) For any commutative ring and any signed cell-face incidence in which every face has
   either exactly one entry +-1 (boundary) or exactly one +1 and one -1 entry (interior),
   and any face fluxes q: the sum over ALL cells of (Divergence @ q) is the sum over the
   boundary faces of (sign of the entry) * q_f — all inter-cell fluxes cancel. *)
Theorem C04_div_telescopes :
  forall (R : Type) (rO rI : R) (radd rmul rsub : R -> R -> R) (ropp : R -> R)
         (req : R -> R -> Prop),
    Equivalence req -> ring_eq_ext radd rmul ropp req ->
    ring_theory rO rI radd rmul rsub ropp req ->
    forall (nc nf : nat) (D : list inc) (q : nat -> R),
      incidence_wf nc nf D ->
      req (total R rO radd nc (div_cell R rO rI radd rmul ropp D q))
          (total R rO radd nf
             (fun f => if is_boundary D f
                       then rmul (colsum R rO rI radd ropp D f) (q f) else rO)).
Proof. exact div_telescopes. Qed.
Print Assumptions C04_div_telescopes.

(* (2) Interface fluxes cancel.  With the fracture-face flux sgn_div * (P_primary_int lam)
   and the lower-dimensional source P_secondary_int lam, where the integrated projections
   are supported on boundary faces / cells in range and the two column sums of every
   mortar cell agree (both are 1 in porepy): for EVERY interface flux lam the net
   contribution to the sum over all cells of all subdomains is zero. *)
Theorem C04_interface_cancels :
  forall (R : Type) (rO rI : R) (radd rmul rsub : R -> R -> R) (ropp : R -> R)
         (req : R -> R -> Prop),
    Equivalence req -> ring_eq_ext radd rmul ropp req ->
    ring_theory rO rI radd rmul rsub ropp req ->
    forall (nc nf nm : nat) (D : list inc) (Pp Ps : list (wtr R)) (lam : nat -> R),
      incidence_wf nc nf D -> coupling_wf R rO radd req nc nf nm D Pp Ps ->
      req (rsub (total R rO radd nc
                   (div_cell R rO rI radd rmul ropp D
                      (flux R rO rI radd rmul ropp D Pp (fun _ => rO) lam)))
                (total R rO radd nc (proj R rO radd rmul Ps lam)))
          rO.
Proof. exact interface_cancels. Qed.
Print Assumptions C04_interface_cancels.

(* (3) Conservation.  Closed boundary (no intrinsic flux through faces with one
   neighbour), no external source: for every accumulation rate, every intrinsic interior
   flux (any state of the primary variables, any upwind direction, any discretisation) and
   every interface flux, the residuals of the balance equation summed over all cells of all
   subdomains equal the summed accumulation rate. *)
Theorem C04_conservation :
  forall (R : Type) (rO rI : R) (radd rmul rsub : R -> R -> R) (ropp : R -> R)
         (req : R -> R -> Prop),
    Equivalence req -> ring_eq_ext radd rmul ropp req ->
    ring_theory rO rI radd rmul rsub ropp req ->
    forall (nc nf nm : nat) (D : list inc) (Pp Ps : list (wtr R))
           (acc a lam ext : nat -> R),
      incidence_wf nc nf D -> coupling_wf R rO radd req nc nf nm D Pp Ps ->
      (forall f, (f < nf)%nat -> is_boundary D f = true -> req (a f) rO) ->
      (forall c, (c < nc)%nat -> req (ext c) rO) ->
      req (total R rO radd nc (residual R rO rI radd rmul rsub ropp D Pp Ps acc a lam ext))
          (total R rO radd nc acc).
Proof. exact conservation. Qed.
Print Assumptions C04_conservation.

(* (4) The certificate the harness evaluates on the real matrices is sound: if
   [cert_ok S = true] then conservation holds on that md-grid for every state (over Q). *)
Theorem C04_certificate_sound :
  forall (S : structure) (acc a lam : nat -> Q),
    cert_ok S = true ->
    (forall f, (f < s_nf S)%nat -> is_boundary (s_div S) f = true -> a f == 0) ->
    qtotal (s_nc S) (qresidual (s_div S) (s_pp S) (s_ps S) acc a lam (fun _ => 0))
    == qtotal (s_nc S) acc.
Proof.
  intros S acc a lam H Ha. destruct (cert_sound S H) as [Hi Hc].
  apply (q_conservation _ _ _ _ _ _ acc a lam (fun _ => 0) Hi Hc Ha). reflexivity.
Qed.
Print Assumptions C04_certificate_sound.

(* (5) Two-sided coupling.  When the interface flux that enters the face fluxes of the
   higher-dimensional cells (lamf) differs from the one that enters the source of the
   lower-dimensional cells (lams) — as with constitutive_laws.AdTpfaFlux (DarcysLawAd /
   FouriersLawAd), whose diffusive_flux applies the projected interface flux on EXTERNAL
   Neumann faces only — the residuals sum to the accumulation rate plus what the faces
   receive minus what the sources hand out (any commutative ring; no column-sum condition). *)
Theorem C04_deficit :
  forall (R : Type) (rO rI : R) (radd rmul rsub : R -> R -> R) (ropp : R -> R)
         (req : R -> R -> Prop),
    Equivalence req -> ring_eq_ext radd rmul ropp req ->
    ring_theory rO rI radd rmul rsub ropp req ->
    forall (nc nf nm : nat) (D : list inc) (Pp Ps : list (wtr R))
           (acc a lamf lams ext : nat -> R),
      incidence_wf nc nf D -> coupling_support R nc nf nm D Pp Ps ->
      (forall f, (f < nf)%nat -> is_boundary D f = true -> req (a f) rO) ->
      (forall c, (c < nc)%nat -> req (ext c) rO) ->
      req (total R rO radd nc (residual2 R rO rI radd rmul rsub ropp D Pp Ps acc a lamf lams ext))
          (rsub (radd (total R rO radd nc acc)
                      (total R rO radd nm (fun m => rmul (pcolsum R rO radd Pp m) (lamf m))))
                (total R rO radd nm (fun m => rmul (pcolsum R rO radd Ps m) (lams m)))).
Proof. exact deficit. Qed.
Print Assumptions C04_deficit.

(* (6) The full-strength statement is FALSE of the faithful model of the differentiable
   diffusive laws (interface flux missing from the face fluxes): a certified structure, a
   closed intrinsic flux and a state whose residuals do not sum to the accumulation rate.
   Replayed on the implementation = known finding "AdTpfaFlux.diffusive_flux: interface
   flux not applied on internal boundary faces". *)
Theorem C04_adflux_conservation_refuted :
  exists (S : structure) (acc a lamf lams : nat -> Q),
    cert_ok S = true /\
    (forall f, (f < s_nf S)%nat -> is_boundary (s_div S) f = true -> a f == 0) /\
    ~ qtotal (s_nc S) (qresidual2 (s_div S) (s_pp S) (s_ps S) acc a lamf lams (fun _ => 0))
      == qtotal (s_nc S) acc.
Proof.
  (* interface fluxes (7, -2) handed to the fracture cell but never taken from its neighbours *)
  exists witness_S, (vec [1; 2; 3; 4]), (vec [0; 5; 0; 0; 0]), (fun _ => 0), (vec [7; -2]).
  split; [vm_compute; reflexivity|]. split.
  - intros f _ Hb.
    do 5 (destruct f as [|f]; [try reflexivity; vm_compute in Hb; discriminate Hb|]).
    vm_compute in Hb. discriminate Hb.
  - intro H. vm_compute in H. discriminate H.
Qed.
Print Assumptions C04_adflux_conservation_refuted.

(* (7) ... and it holds under the guard that excludes exactly the failing region: the two
   interface fluxes have the same total (in particular when the diffusive interface flux
   vanishes, or with the standard laws where lamf = lams). *)
Theorem C04_adflux_conservation_partial :
  forall (S : structure) (acc a lamf lams : nat -> Q),
    cert_ok S = true ->
    (forall f, (f < s_nf S)%nat -> is_boundary (s_div S) f = true -> a f == 0) ->
    qtotal (s_nm S) lamf == qtotal (s_nm S) lams ->
    qtotal (s_nc S) (qresidual2 (s_div S) (s_pp S) (s_ps S) acc a lamf lams (fun _ => 0))
    == qtotal (s_nc S) acc.
Proof.
  intros S acc a lamf lams H Ha E. rewrite (certified_deficit S acc a lamf lams H Ha), E. ring.
Qed.
Print Assumptions C04_adflux_conservation_partial.

(* (8) Non-matching mortar / fracture grids (projection entries like 1/3, column sums equal
   to 1 only up to float rounding): the certificate [cert_ok_tol] (supports exact, column
   sums within 1e-12) gives the exact balance  sum residual = sum acc + sum_m colsum_p(m)
   lamf(m) - sum_m colsum_s(m) lams(m)  with both column sums within 1e-12 of one, i.e.
   conservation up to 2e-12 * sum |lam|.  A source built with mortar_to_secondary_avg
   (column sums 0.6, 2/3, ...) cannot pass it. *)
Theorem C04_certificate_tol_sound :
  forall (S : structure) (acc a lamf lams : nat -> Q),
    cert_ok_tol S = true ->
    (forall f, (f < s_nf S)%nat -> is_boundary (s_div S) f = true -> a f == 0) ->
    qtotal (s_nc S) (qresidual2 (s_div S) (s_pp S) (s_ps S) acc a lamf lams (fun _ => 0))
    == qtotal (s_nc S) acc + qtotal (s_nm S) (fun m => qpcolsum (s_pp S) m * lamf m)
       - qtotal (s_nm S) (fun m => qpcolsum (s_ps S) m * lams m)
    /\ forall m, (m < s_nm S)%nat ->
                 Qabs (qpcolsum (s_pp S) m - 1) <= 1 # 1000000000000 /\
                 Qabs (qpcolsum (s_ps S) m - 1) <= 1 # 1000000000000.
Proof.
  intros S acc a lamf lams H Ha. destruct (cert_tol_sound S H) as [Hs Hc].
  split; [exact (supported_deficit S acc a lamf lams Hs Ha) | exact Hc].
Qed.
Print Assumptions C04_certificate_tol_sound.

(* Non-vacuity: three 1-D cells (0,1 | 2) cut by a 0-d fracture cell 3 between cells 1 and
   2; faces 0..4 (face 1 interior, faces 2 and 3 the two sides of the fracture), two mortar
   cells.  The certificate passes, the hypotheses hold, and at a concrete state the
   residuals are not individually equal to the accumulation rates but their sums agree. *)
Example C04_nonvacuous :
  let S := {| s_nc := 4%nat; s_nf := 5%nat; s_nm := 2%nat;
              s_div := [(0%nat, 0%nat, (-1)%Z); (0%nat, 1%nat, (1)%Z); (1%nat, 1%nat, (-1)%Z); (1%nat, 2%nat, (1)%Z); (2%nat, 3%nat, (-1)%Z); (2%nat, 4%nat, (1)%Z)];
              s_pp := [(2%nat, 0%nat, 1); (3%nat, 1%nat, 1)];
              s_ps := [(3%nat, 0%nat, 1); (3%nat, 1%nat, 1)] |} in
  let acc := vec [1; 2; 3; 4] in
  let a := vec [0; 5; 0; 0; 0] in
  let lam := vec [7; -2] in
  cert_ok S = true /\
  incidence_wf (s_nc S) (s_nf S) (s_div S) /\
  map (fun c => Qred (qresidual (s_div S) (s_pp S) (s_ps S) acc a lam (fun _ => 0) c))
      (seq 0 4) = [6; 4; 1; -1] /\
  Qred (qtotal 4 acc) = 10.
Proof.
  cbv zeta. split; [vm_compute; reflexivity|].
  split; [apply cert_sound; vm_compute; reflexivity|].
  split; vm_compute; reflexivity.
Qed.
