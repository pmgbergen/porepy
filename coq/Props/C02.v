(* C02 — property theorems only.  Model: PP.Model.C02 (transcription of
   AdParser._evaluate_single / evaluate, the AdArray methods it dispatches to, the repaired
   arithmetic overloads of Operator); proofs: PP.Proofs.C02.  Numbers are canonical
   rationals (Qc), so "=" below is equality of values and Jacobians entry by entry. *)
From Coq Require Import List ZArith QArith Qcanon Bool Lia.
Import ListNotations.
From PP Require Import Model.C02 Proofs.C02 Proofs.C02_value.
Local Open Scope Qc_scope.

(* Evaluating ANY tree without reverse-operation nodes through the parser (operand flips for
   numpy-array-left add/sub with the negation, the swap for mul, the redirections to
   __rtruediv__/__rpow__/__rmatmul__, the projection-list sum) gives exactly the result -
   value, Jacobian, or the same error - of the direct forward-mode semantics, in every
   environment, with and without derivative. *)
Theorem C02_refines :
  forall (t : tree) (e : env), no_rops t = true ->
    parse t e = direct t e /\ evaluate t e = bind (direct t e) (finish e).
Proof.
  intros t e H. pose proof (refines t e H) as R. split; [exact R|].
  unfold evaluate. now rewrite R.
Qed.
Print Assumptions C02_refines.

(* Dispatch totality, PARTIAL: trees without reverse-operation nodes never reach the
   "Encountered unknown operation" branch.  Missing for the full C02_total: that trees that
   are well-kinded and shape-consistent never raise ValueError either (not proved; covered
   by the correspondence only). *)
Theorem C02_total_partial :
  forall (t : tree) (e : env), no_rops t = true -> parse t e <> Err EUnknownOp.
Proof. exact parse_nu. Qed.
Print Assumptions C02_total_partial.

(* Every expression  x <op> y  (op one of + - * / ** @; x, y Operators, python numbers,
   numpy arrays or scipy matrices, at least syntactically one Operator) built by the
   repaired overloads is a tree without reverse-operation nodes; hence it is parseable in
   the sense above and its evaluation equals the direct semantics. *)
Theorem C02_overloads_build_parseable_trees :
  forall (o : op) (x y : operand) (e : env),
    is_rop o = false -> operand_ok x = true -> operand_ok y = true ->
    no_rops (overload o x y) = true /\
    parse (overload o x y) e <> Err EUnknownOp /\
    parse (overload o x y) e = direct (overload o x y) e.
Proof.
  intros o x y e Ho Hx Hy. pose proof (overload_no_rops o x y Ho Hx Hy) as H.
  split; [exact H | split; [apply parse_nu; exact H | apply refines; exact H]].
Qed.
Print Assumptions C02_overloads_build_parseable_trees.

(* The parser still has no case for reverse-operation nodes: whatever the children evaluate
   to, such a node raises "Encountered unknown operation" ... *)
Theorem C02_reverse_nodes_rejected :
  forall (o : op) (a b : tree) (e : env) (va vb : value),
    is_rop o = true -> parse a e = Ok va -> parse b e = Ok vb ->
    parse (Bin o a b) e = Err EUnknownOp.
Proof.
  intros o a b e va vb Ho Ha Hb. cbn [parse]. rewrite Ha, Hb. cbn [bind].
  destruct o; try discriminate Ho; reflexivity.
Qed.
Print Assumptions C02_reverse_nodes_rejected.

(* ... so for the overloads BEFORE the repair the refinement is refuted:  2 * x  built the
   node  rmul [x, Scalar 2], whose direct value exists but which the parser rejects. *)
Theorem C02_reverse_nodes_refuted :
  exists (x y : operand) (e : env) (r : value),
    operand_ok x = true /\ operand_ok y = true /\
    direct (overload_old Mul x y) e = Ok r /\
    parse (overload_old Mul x y) e = Err EUnknownOp.
Proof.
  exists (ONum (Q2Qc 2)), (OTree (Leaf (LVar [0%nat; 1%nat] (-1) (-1)))),
    (mkenv [Q2Qc 3; Q2Qc 5] {| st_ts := []; st_its := []; st_src_it0 := []; st_src_ts := [] |} true),
    (VAd [Q2Qc 6; Q2Qc 10] [[Q2Qc 2; Q2Qc 0]; [Q2Qc 0; Q2Qc 2]]).
  repeat split; vm_compute; reflexivity.
Qed.
Print Assumptions C02_reverse_nodes_refuted.

(* A variable (md or atomic) at a previous time step - or, at the current time, a previous
   iterate - evaluates to the values stored at that index, taken at its dofs IN THE ORDER OF
   ITS SUB-VARIABLES (the order also used at the current state), independently of the state
   and of the derivative flag; with derivative it gets a zero Jacobian.  Added to an AdArray -
   in either operand order - a stored vector leaves the Jacobian unchanged. *)
Theorem C02_prev_no_derivative :
  (forall dofs t i e v,
      ((0 <= t)%Z /\ lookup (ts e) t = Ok v) \/
      ((t < 0)%Z /\ (0 <= i)%Z /\ lookup (its e) i = Ok v) ->
      parse (Leaf (LVar dofs t i)) e = Ok (VVec (take 0 v dofs)) /\
      evaluate (Leaf (LVar dofs t i)) e
      = if deriv e
        then Ok (VAd (take 0 v dofs) (zero_mat (length (take 0 v dofs)) (length (state e))))
        else Ok (VVec (take 0 v dofs))) /\
  (forall pos t e v, (0 <= t)%Z -> lookup (src_ts e) t = Ok v ->
      parse (Leaf (LTdda pos t)) e = Ok (VVec (take 0 v pos))) /\
  (forall x j v r, parse_node Add (VAd x j) (VVec v) = Ok r -> exists w, r = VAd w j) /\
  (forall x j v r, parse_node Add (VVec v) (VAd x j) = Ok r -> exists w, r = VAd w j).
Proof.
  assert (A : forall x j v r, parse_node Add (VAd x j) (VVec v) = Ok r -> exists w, r = VAd w j).
  { intros x j v r. cbn [parse_node pyop ad_add].
    destruct (same_len x v); [intros [= <-]; eauto | discriminate]. }
  split; [|split; [|split]].
  - intros dofs t i e v H.
    assert (P : parse (Leaf (LVar dofs t i)) e = Ok (VVec (take 0 v dofs))).
    { cbn [parse parse_leaf]. destruct H as [[Ht L] | (Ht & Hi & L)].
      - apply Z.leb_le in Ht. now rewrite Ht, L.
      - apply Z.leb_gt in Ht. apply Z.leb_le in Hi. now rewrite Ht, Hi, L. }
    split; [exact P|]. unfold evaluate, finish. rewrite P. cbn [bind]. now destruct (deriv e).
  - intros pos t e v Ht%Z.leb_le L. cbn [parse parse_leaf]. now rewrite Ht, L.
  - exact A.
  - intros x j v r. cbn [parse_node pyop ad_add]. rewrite bind_ok. apply A.
Qed.
Print Assumptions C02_prev_no_derivative.

(* previous_timestep / previous_iteration of whole trees (transcription of
   _get_previous_time_or_iterate): shifting by a and then by b steps is shifting by a + b -
   in particular a shift applied to a tree that already contains shifted leaves moves THOSE
   leaves further back as well. *)
Theorem C02_shift_composes :
  forall (prev_time : bool) (a b : Z) (t t' t'' : tree),
    (0 < a)%Z -> (0 < b)%Z ->
    shift_tree prev_time a t = Ok t' -> shift_tree prev_time b t' = Ok t'' ->
    shift_tree prev_time (a + b) t = Ok t''.
Proof. intros p a b t t' t'' _ _. apply shift_tree_compose. Qed.
Print Assumptions C02_shift_composes.

(* Semantics of a time shift: for every tree whose time-dependent leaves are at previous time
   steps, the tree shifted by s steps evaluates - value, Jacobian or error - to what the
   original tree evaluates to when the s most recent stored time steps are dropped, i.e. every
   such leaf reads exactly s steps further back (x^{n-1} - x^{n-2} becomes x^{n-2} - x^{n-3}). *)
Theorem C02_shift_time_semantics :
  forall (s : nat) (t t' : tree) (e : env),
    (0 < s)%nat -> all_prev_time t = true ->
    shift_tree true (Z.of_nat s) t = Ok t' ->
    parse t' e = parse t (drop_steps s e).
Proof. intros s t t' e _. apply shift_time_semantics. Qed.
Print Assumptions C02_shift_time_semantics.

(* Values with and without derivative agree: for every tree without reverse-operation nodes
   and every environment, if the evaluation with derivative succeeds with result r, the
   evaluation of the SAME tree on the same state and stores without derivative succeeds
   with r stripped of its Jacobian (although the parser then flips add/sub operands wherever
   the first operand is an array, i.e. at different nodes); for the post-processed results of
   AdParser.evaluate the carried values coincide (a scalar becomes a one-entry AdArray). *)
Theorem C02_value_agrees :
  forall (t : tree) (e : env) (r : value),
    no_rops t = true -> parse t (with_deriv true e) = Ok r ->
    parse t (with_deriv false e) = Ok (strip r) /\
    (forall r1, evaluate t (with_deriv true e) = Ok r1 ->
       exists r0, evaluate t (with_deriv false e) = Ok r0 /\ val_of r0 = val_of r1).
Proof.
  intros t e r Hn H. pose proof (value_agrees t e r Hn H) as V. split; [exact V|].
  unfold evaluate, finish. rewrite H, V. cbn [bind deriv with_deriv]. intros r1 H1.
  exists (strip r). split; [reflexivity|].
  destruct r; first [discriminate H1 | injection H1 as <-]; reflexivity.
Qed.
Print Assumptions C02_value_agrees.

(* Non-vacuity:  arr - x / 2  and  arr / x  with a numpy array on the left, on a state of two
   dofs: the parser's flipped / redirected evaluation and the direct semantics give the
   displayed value and Jacobian. *)
Example C02_nonvacuous :
  let x := Leaf (LVar [0%nat; 1%nat] (-1) (-1)) in
  let arr := OArr [Q2Qc 1; Q2Qc 4] in
  let e := mkenv [Q2Qc 2; Q2Qc (1 # 2)]
                 {| st_ts := [[Q2Qc 10; Q2Qc 20]; [Q2Qc 30; Q2Qc 50]]; st_its := [];
                    st_src_it0 := []; st_src_ts := [] |} true in
  let xp := Leaf (LVar [1%nat; 0%nat] 0 (-1)) in
  let t1 := overload Sub arr (OTree (overload Div (OTree x) (ONum (Q2Qc 2)))) in
  let t2 := overload Div arr (OTree x) in
  no_rops t1 = true /\ no_rops t2 = true /\
  res_eqb (parse t1 e) (Ok (VAd [Q2Qc 0; Q2Qc (15 # 4)]
                               [[Q2Qc (-1 # 2); Q2Qc 0]; [Q2Qc 0; Q2Qc (-1 # 2)]])) = true /\
  res_eqb (direct t1 e) (parse t1 e) = true /\
  res_eqb (parse t2 e) (Ok (VAd [Q2Qc (1 # 2); Q2Qc 8]
                               [[Q2Qc (-1 # 4); Q2Qc 0]; [Q2Qc 0; Q2Qc (-16)]])) = true /\
  res_eqb (direct t2 e) (parse t2 e) = true /\
  (* (x - x.previous_timestep()).previous_timestep(), sub-variables in permuted order *)
  shift_tree true 1 (Bin Sub x xp)
  = Ok (Bin Sub (Leaf (LVar [0%nat; 1%nat] 0 (-1))) (Leaf (LVar [1%nat; 0%nat] 1 (-1)))) /\
  res_eqb (parse (Bin Sub (Leaf (LVar [0%nat; 1%nat] 0 (-1))) (Leaf (LVar [1%nat; 0%nat] 1 (-1)))) e)
          (Ok (VVec [Q2Qc (-40); Q2Qc (-10)])) = true /\
  (* the same trees without derivative: the stripped results *)
  e = with_deriv true e /\
  res_eqb (parse t1 (with_deriv false e)) (Ok (VVec [Q2Qc 0; Q2Qc (15 # 4)])) = true /\
  res_eqb (parse t2 (with_deriv false e)) (Ok (VVec [Q2Qc (1 # 2); Q2Qc 8])) = true.
Proof. repeat split; vm_compute; reflexivity. Qed.
