(* C45 — property theorems only.  Model: PP.Model.C45 (transcription of Operator._key and
   the leaf _key overrides of operators.py after the repair); proofs: PP.Proofs.C45.
   [sha] is sha256(...).hexdigest(); its injectivity on the buffers in play is an explicit
   premise wherever it is needed (never an axiom). *)
From Coq Require Import List ZArith Bool String.
Import ListNotations.
From PP Require Import Model.C45 Proofs.C45.

(* Prefix code: for ANY leaf type and token type, if leaf keys are single tokens that are
   injective and never equal to an operation token, operation tokens are injective and the
   function token of an evaluate node determines function and arity, then the key identifies
   the tree - ALL trees: two-children operation nodes and function nodes of any arity. *)
Theorem C45_prefix_injective :
  forall (L T : Type) (leafkey : L -> T) (optok : string -> T) (functok : string -> nat -> T),
    (forall a b, leafkey a = leafkey b -> a = b) ->
    (forall s t, optok s = optok t -> s = t) ->
    (forall f g n m, functok f n = functok g m -> f = g /\ n = m) ->
    (forall a s, leafkey a <> optok s) ->
    forall t1 t2 : tree L,
      key leafkey optok functok t1 = key leafkey optok functok t2 -> t1 = t2.
Proof. exact key_injective_all. Qed.
Print Assumptions C45_prefix_injective.

(* Structurally identical trees over the same leaf data have equal keys and equal hashes
   (for every hash function of the key; all trees, function nodes included). *)
Theorem C45_equal_trees_equal_keys :
  forall (digest : Type) (sha : buffer -> digest)
         (H : Type) (hash : list (token digest) -> H) (t1 t2 : tree leaf),
    t1 = t2 ->
    okey digest sha t1 = okey digest sha t2 /\
    hash (okey digest sha t1) = hash (okey digest sha t2).
Proof. intros digest sha H hash t1 t2 ->. split; reflexivity. Qed.
Print Assumptions C45_equal_trees_equal_keys.

(* Every leaf class of operators.py: the repaired leaf key determines the leaf data
   (scalar value; array shape and bytes; sparse type/shape/arrays; names, domain ids and
   time-step / iterate indices; projection index arrays, both sizes and the flag; every
   member of a projection list). *)
Theorem C45_leaf_keys_injective :
  forall (digest : Type) (sha : buffer -> digest),
    (forall a b, sha a = sha b -> a = b) ->
    forall l1 l2 : leaf, leaf_key digest sha l1 = leaf_key digest sha l2 -> l1 = l2.
Proof. exact leaf_key_inj. Qed.
Print Assumptions C45_leaf_keys_injective.

(* Trees that differ (in shape, operation, child order, function, number of arguments or
   any leaf datum) have different keys - ALL trees over the leaf classes of operators.py,
   function-evaluation nodes included. *)
Theorem C45_distinct_trees_distinct_keys :
  forall (digest : Type) (sha : buffer -> digest),
    (forall a b, sha a = sha b -> a = b) ->
    forall t1 t2 : tree leaf, okey digest sha t1 = okey digest sha t2 <-> t1 = t2.
Proof. exact okey_iff. Qed.
Print Assumptions C45_distinct_trees_distinct_keys.

(* The key construction BEFORE that repair ('evaluate' + children keys) did not identify
   function nodes: exp(x) / log(x) and f(g(x), y) / f(g(x, y)) collide under it.  Kept as the
   record of the finding; the corpus holds the same two witnesses. *)
Theorem C45_old_evaluate_key_refuted :
  forall (digest : Type) (sha : buffer -> digest),
    let ok := old_key (leaf_key digest sha) TOp in
    (exists t1 t2 : tree leaf, t1 <> t2 /\ ok t1 = ok t2) /\
    (exists (f g : string) (x y : tree leaf),
        Eval f [Eval g [x]; y] <> Eval f [Eval g [x; y]] /\
        ok (Eval f [Eval g [x]; y]) = ok (Eval f [Eval g [x; y]])).
Proof.
  intros digest sha ok. split.
  - exists (Eval "exp" [wit_x]), (Eval "log" [wit_x]). split; [discriminate | reflexivity].
  - exists "f"%string, "g"%string, wit_x, wit_y. split; [discriminate | reflexivity].
Qed.
Print Assumptions C45_old_evaluate_key_refuted.

(* Mutating one leaf anywhere in a tree - under any path of operation nodes and function
   nodes with arbitrary sibling subtrees - changes the key.  Instances: projections differing
   only in the domain size, a variable against its previous-time-step / previous-iterate
   copy, index arrays differing in one (arbitrarily late) entry. *)
Theorem C45_single_leaf_mutation_changes_key :
  forall (digest : Type) (sha : buffer -> digest),
    (forall a b, sha a = sha b -> a = b) ->
    forall (ctx : list frame) (l1 l2 : leaf), l1 <> l2 ->
      okey digest sha (plug ctx (Leaf l1)) <> okey digest sha (plug ctx (Leaf l2)).
Proof.
  intros digest sha Hsha ctx l1 l2 Hne Hk. apply (okey_injective digest sha Hsha), plug_inj in Hk.
  congruence.
Qed.
Print Assumptions C45_single_leaf_mutation_changes_key.

(* String level: if no rendered token is a proper prefix of another, joining the tokens
   with a non-empty separator (" ".join) is injective on non-empty token lists. *)
Theorem C45_join_injective :
  forall (A T : Type) (render : T -> list A) (sep : list A),
    (forall x y r1 r2, render x ++ r1 = render y ++ r2 -> x = y) ->
    sep <> [] ->
    forall ts1 ts2, ts1 <> [] -> ts2 <> [] ->
      join A T render sep ts1 = join A T render sep ts2 -> ts1 = ts2.
Proof. exact join_injective. Qed.
Print Assumptions C45_join_injective.

(* The boolean the correspondence compares with the implementation is key equality under
   an injective hash, i.e. structural equality of the trees (all trees). *)
Theorem C45_tie_decides_tree_equality :
  forall t1 t2 : tree leaf, key_eqb t1 t2 = true <-> t1 = t2.
Proof. exact key_eqb_is_tree_equality. Qed.
Print Assumptions C45_tie_decides_tree_equality.

(* Non-vacuity: the collisions of the unrepaired code are distinct leaves / trees (so the
   theorems apply to them, in a non-trivial context with a function node), and an injective
   [sha] exists. *)
Example C45_nonvacuous :
  let p1 := {| p_range := [0; 1]; p_domain := [0; 1]; p_domain_size := 3;
               p_range_size := 2; p_transposed := false |}%Z in
  let p2 := {| p_range := [0; 1]; p_domain := [0; 1]; p_domain_size := 5;
               p_range_size := 2; p_transposed := false |}%Z in
  let x := LVar "x" 0 0 (-1) (-1) in
  let xprev := LVar "x" 0 0 0 (-1) in
  let xintf := LVar "x" 1 0 (-1) (-1) in
  let ctx := [FBinR OAdd (Leaf x); FEval "f" [Leaf (LScalar 1)] [Leaf x];
              FBinL OMul (Leaf (LScalar 2))]%Z in
  (forall a b : buffer, (fun c : buffer => c) a = (fun c => c) b -> a = b) /\
  LProj p1 <> LProj p2 /\ x <> xprev /\ x <> xintf /\
  key_eqb (plug ctx (Leaf x)) (plug ctx (Leaf xintf)) = false /\
  key_eqb (plug ctx (Leaf (LProj p1))) (plug ctx (Leaf (LProj p2))) = false /\
  key_eqb (plug ctx (Leaf x)) (plug ctx (Leaf xprev)) = false /\
  key_eqb (plug ctx (Leaf x)) (plug ctx (Leaf x)) = true /\
  key_eqb (Eval "exp" [Leaf x]) (Eval "log" [Leaf x]) = false /\
  key_eqb (Eval "f" [Eval "g" [Leaf x]; Leaf xprev]) (Eval "f" [Eval "g" [Leaf x; Leaf xprev]]) = false.
Proof.
  cbv zeta. repeat split; try (vm_compute; reflexivity); try discriminate. auto.
Qed.
