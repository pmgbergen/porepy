(* C12 — property theorems only.  Model: PP.Model.C12 (transcription of Tpfa.discretize,
   polymorphic in the field); proofs: PP.Proofs.C12 (real instance: rflux, rbound_flux, rbpc,
   rbpf, rt_full ... are the model's functions at R with +,-,*,/ of R).

   Vocabulary (Proofs/C12.v):
     entry M r c, row_apply M x r      matrix entry / (M x)_r of a coordinate list
     divflux I i j                     (Div * flux)[i, j], Div = cell_faces^T
     face_flux I p bv f                (flux p + bound_flux bv)_f
     face_pressure I p bv f            (bound_pressure_cell p + bound_pressure_face bv)_f
     entries (Model/C12.v)             (row face, cell, flux sign, geometry face, geometry sign);
                                       geo f c s = (f,c,s,f,s) is a stored entry of cell_faces, a
                                       periodic pair contributes two entries with the partner's
                                       cell and geometry (the pair is one face with two cells)
     interior I f c1 c2 s              f has exactly the entries geo f c1 s, geo f c2 (-s), is not in
                                       the boundary list and not flagged Neumann/internal
     boundary I f c s                  f has exactly the entry geo f c s and occurs once in the
                                       boundary list
     periodic_pair I l r cl cr sl sr   l has exactly geo l cl sl and (l,cr,-sl,r,sr); r has exactly
                                       geo r cr sr and (r,cl,-sr,l,sl); neither flagged Neumann
     korth I e                         K-orthogonality of the incidence entry e = (f,c,s):
                                       K_c (s n_f) x (x_f - x_c) = 0 and K_c (s n_f).(x_f - x_c) > 0
     linear a b x                      a.x + b *)
From Coq Require Import List ZArith Bool Arith Lia Reals Lra.
Import ListNotations.
From PP Require Import Model.C12 Proofs.C12 Proofs.C12_transfer Proofs.C12_vs Proofs.C12_periodic.

(* What Tpfa.discretize returns (real instance). *)
Theorem C12_discretize :
  forall I : input R,
    rdiscretize I =
    if (dim I =? 0)%nat then ([], [], [], []) else (rflux I, rbound_flux I, rbpc I, rbpf I).
Proof. reflexivity. Qed.
Print Assumptions C12_discretize.

(* Div * flux is symmetric — for EVERY entry list, geometry, tensor field and flags.  Div is
   taken over the same entry list as the flux: without a periodic map that is cell_faces^T; with
   one it is the incidence of the identified grid (each periodic pair one face with two cells).
   For the stored cell_faces^T of a periodic grid symmetry is checked per instance (exactly, in
   Q, by the tie) and follows face by face from C12_periodic_pair below. *)
Theorem C12_symmetric :
  forall (I : input R) (i j : nat), divflux I i j = divflux I j i.
Proof.
  intros I i j. rewrite !divflux_double, lsum_swap.
  apply lsum_ext. intros e' _. apply lsum_ext. intros e _. apply G_sym.
Qed.
Print Assumptions C12_symmetric.

(* Single-valued flux: the row of an interior face is t * s * (e_c1 - e_c2). *)
Theorem C12_single_valued :
  forall (I : input R) (f c1 c2 : nat) (s : Z),
    interior I f c1 c2 s ->
    forall j : nat,
      entry (rflux I) f j =
      (rt_full I f * IZR s * ((if (c1 =? j)%nat then 1 else 0) - (if (c2 =? j)%nat then 1 else 0)))%R.
Proof. intros I f c1 c2 s (H & _ & Hn). exact (entry_pair I f _ _ H eq_refl Hn). Qed.
Print Assumptions C12_single_valued.

(* Periodic pairs: both faces get the same transmissibility (harmonic mean over the two
   cells), their rows are t*s*(e_own - e_partner), and the flux leaving one cell through l is
   the flux entering the other through r (single-valued across the pair). *)
Theorem C12_periodic_pair :
  forall (I : input R) (l r cl cr : nat) (sl sr : Z),
    periodic_pair I l r cl cr sl sr ->
    rt_full I l = rt_full I r /\
    (forall j : nat, entry (rflux I) l j =
       (rt_full I l * IZR sl * ((if (cl =? j)%nat then 1 else 0) - (if (cr =? j)%nat then 1 else 0)))%R) /\
    (forall j : nat, entry (rflux I) r j =
       (rt_full I l * IZR sr * ((if (cr =? j)%nat then 1 else 0) - (if (cl =? j)%nat then 1 else 0)))%R) /\
    (sl = 1%Z \/ sl = (-1)%Z -> sr = 1%Z \/ sr = (-1)%Z ->
     forall j : nat, (IZR sl * entry (rflux I) l j + IZR sr * entry (rflux I) r j = 0)%R).
Proof.
  intros I l r cl cr sl sr H. pose proof (periodic_t_full I _ _ _ _ _ _ H) as ET.
  pose proof (periodic_entry I _ _ _ _ _ _ H) as El.
  pose proof (periodic_entry I _ _ _ _ _ _ (periodic_pair_sym I _ _ _ _ _ _ H)) as Er.
  rewrite <- ET in Er. repeat apply conj; [exact ET | exact El | exact Er |].
  intros [-> | ->] [-> | ->] j; rewrite El, Er; ring.
Qed.
Print Assumptions C12_periodic_pair.

(* Symmetry with the STORED divergence on periodic grids: if every row face is either a plain
   face (all its entries are stored ones) or a member of exactly one periodic pair with unit
   signs, then cell_faces^T * flux is symmetric. *)
Theorem C12_periodic_symmetric :
  forall (I : input R) (plain : list nat) (pairs : list (nat * nat)),
    NoDup (plain ++ map fst pairs ++ map snd pairs) ->
    (forall e : inc, In e (cf I) -> In (tf e) (plain ++ map fst pairs ++ map snd pairs)) ->
    (forall f : nat, In f plain -> plain_face I f) ->
    (forall p : nat * nat, In p pairs ->
       fst p <> snd p /\
       exists (cl cr : nat) (sl sr : Z),
         periodic_pair I (fst p) (snd p) cl cr sl sr /\
         (sl = 1%Z \/ sl = (-1)%Z) /\ (sr = 1%Z \/ sr = (-1)%Z)) ->
    forall i j : nat, sdivflux I i j = sdivflux I j i.
Proof. exact periodic_symmetric. Qed.
Print Assumptions C12_periodic_symmetric.

(* Constant pressure, Dirichlet data equal to it, zero Neumann data: zero flux on every
   interior and every boundary face. *)
Theorem C12_constant_zero_interior :
  forall (I : input R) (f c1 c2 : nat) (s : Z) (p0 : R) (bv : nat -> R),
    interior I f c1 c2 s -> face_flux I (fun _ : nat => p0) bv f = 0%R.
Proof. intros I f c1 c2 s p0 bv H. rewrite (face_flux_interior I f c1 c2 s _ bv H). ring. Qed.
Print Assumptions C12_constant_zero_interior.

Theorem C12_constant_zero_boundary :
  forall (I : input R) (f c : nat) (s : Z) (p0 : R) (bv : nat -> R),
    boundary I f c s ->
    neu' R I f = true /\ bv f = 0%R \/
    neu' R I f = false /\ dir' R I f = true /\ bv f = p0 ->
    face_flux I (fun _ : nat => p0) bv f = 0%R.
Proof.
  intros I f c s p0 bv Hb Hbc. rewrite (face_flux_boundary I f c s _ bv Hb). unfold t_flux, t_b.
  destruct Hbc as [[-> ->]|(-> & -> & ->)]; ring.
Qed.
Print Assumptions C12_constant_zero_boundary.

(* K-orthogonal grid: every face transmissibility is positive ... *)
Theorem C12_transmissibility_positive :
  forall (I : input R) (f : nat),
    (forall e : inc, In e (cf I) -> korth I e) ->
    (exists e : inc, In e (cf I) /\ tf e = f) ->
    (0 < rt_full I f)%R.
Proof. exact t_full_pos. Qed.
Print Assumptions C12_transmissibility_positive.

(* ... and Div * flux has non-positive off-diagonal entries, a non-negative diagonal, and a
   positive diagonal entry for every cell that has a face not flagged Neumann. *)
Theorem C12_Mmatrix :
  forall I : input R,
    (forall e : inc, In e (cf I) -> korth I e) -> opp_signs I -> one_sign I ->
    forall i j : nat,
      (i <> j -> (divflux I i j <= 0)%R) /\
      (0 <= divflux I i i)%R /\
      ((exists e : inc, In e (cf I) /\ tc e = i /\ ts e <> 0%Z /\ neu' R I (tf e) = false) ->
       (0 < divflux I i i)%R).
Proof. exact Mmatrix_theorem. Qed.
Print Assumptions C12_Mmatrix.

(* Linear pressures are reproduced exactly on K-orthogonal faces with one tensor K0 in the
   adjacent cells: the discrete flux is -(K0 n_f).a  (= -n_f.K0 a for symmetric K0). *)
Theorem C12_linear_exact_interior :
  forall (I : input R) (a : rvec) (b : R) (K0 : mat R) (f c1 c2 : nat) (s : Z) (bv : nat -> R),
    interior I f c1 c2 s -> s = 1%Z \/ s = (-1)%Z ->
    korth I (geo f c1 s) -> korth I (geo f c2 (- s)%Z) ->
    perm I c1 = K0 -> perm I c2 = K0 ->
    face_flux I (fun c : nat => linear a b (ccen I c)) bv f = (- rdot (rmulmv K0 (normal I f)) a)%R.
Proof. exact linear_exact_interior. Qed.
Print Assumptions C12_linear_exact_interior.

Theorem C12_linear_exact_dirichlet :
  forall (I : input R) (a : rvec) (b : R) (K0 : mat R) (f c : nat) (s : Z) (bv : nat -> R),
    boundary I f c s -> s = 1%Z \/ s = (-1)%Z ->
    neu' R I f = false -> dir' R I f = true ->
    korth I (geo f c s) -> perm I c = K0 ->
    bv f = linear a b (fcen I f) ->
    face_flux I (fun c0 : nat => linear a b (ccen I c0)) bv f = (- rdot (rmulmv K0 (normal I f)) a)%R.
Proof. exact linear_exact_dirichlet. Qed.
Print Assumptions C12_linear_exact_dirichlet.

(* Neumann data are outward fluxes: bv f = s * (-(K0 n_f).a). *)
Theorem C12_linear_exact_neumann :
  forall (I : input R) (a : rvec) (b : R) (K0 : mat R) (f c : nat) (s : Z) (bv : nat -> R),
    boundary I f c s -> s = 1%Z \/ s = (-1)%Z -> neu' R I f = true ->
    bv f = (IZR s * - rdot (rmulmv K0 (normal I f)) a)%R ->
    face_flux I (fun c0 : nat => linear a b (ccen I c0)) bv f = (- rdot (rmulmv K0 (normal I f)) a)%R.
Proof.
  intros I a b K0 f c s bv Hbd Hs Hn Hv. rewrite (face_flux_boundary I f c s _ bv Hbd), Hv.
  unfold t_flux, t_b. rewrite Hn. destruct Hs as [-> | ->]; ring.
Qed.
Print Assumptions C12_linear_exact_neumann.

(* Boundary pressure reconstruction: Dirichlet faces return the datum; Neumann faces return
   the linear pressure at the face centre. *)
Theorem C12_bound_pressure_dirichlet :
  forall (I : input R) (p bv : nat -> R) (f c : nat) (s : Z),
    boundary I f c s -> (f < nf I)%nat -> is_neu I f = false -> is_dir I f = true ->
    face_pressure I p bv f = bv f.
Proof. exact bound_pressure_dirichlet. Qed.
Print Assumptions C12_bound_pressure_dirichlet.

Theorem C12_bound_pressure_neumann :
  forall (I : input R) (a : rvec) (b : R) (K0 : mat R) (f c : nat) (s : Z) (bv : nat -> R),
    boundary I f c s -> (f < nf I)%nat -> s = 1%Z \/ s = (-1)%Z -> is_neu I f = true ->
    korth I (geo f c s) -> perm I c = K0 ->
    bv f = (IZR s * - rdot (rmulmv K0 (normal I f)) a)%R ->
    face_pressure I (fun c0 : nat => linear a b (ccen I c0)) bv f = linear a b (fcen I f).
Proof. exact bound_pressure_neumann. Qed.
Print Assumptions C12_bound_pressure_neumann.

(* The K-orthogonality checker that the harness evaluates over exact rationals on every
   generated grid implies the real-valued hypothesis [korth] used above, for the same data
   read as reals ([in2r] maps every rational coordinate with Q2R). *)
Theorem C12_korth_checker :
  forall I : input QArith_base.Q,
    korth_b I = true -> forall e : inc, In e (cf (in2r I)) -> korth (in2r I) e.
Proof.
  intros I H e He. apply korth_entry_transfer. exact (proj1 (forallb_forall _ _) H e He).
Qed.
Print Assumptions C12_korth_checker.

(* The executed rational instance and the real instance of the model compute the same
   matrices: reading every rational of the input and of the output as a real (Q2R) commutes
   with the whole discretisation, division by zero included (both are total with x/0 = 0).
   Hence what the tie compares with the implementation is the object of the theorems above. *)
Theorem C12_transfer :
  forall I : input QArith_base.Q,
    let '(a, b, c, d) := qdiscretize I in
    rdiscretize (in2r I) = (c2r a, c2r b, c2r c, c2r d).
Proof. exact discretize_transfer. Qed.
Print Assumptions C12_transfer.

(* Vector source (gravity): for a constant vector g and the hydrostatic pressure
   p = g.x + b (first n = vector_source_dim components) the pressure flux and the
   vector-source flux cancel on every interior, Dirichlet and Neumann face — on any grid,
   for any permeability. *)
Theorem C12_hydrostatic_interior :
  forall (I : input R) (n : nat) (g gv : nat -> R),
    (forall c k : nat, (k < n)%nat -> gv (c * n + k)%nat = g k) ->
    forall (b : R) (f c1 c2 : nat) (s : Z) (bv : nat -> R),
      interior I f c1 c2 s ->
      (face_flux I (fun c : nat => hydro n g b (ccen I c)) bv f
       + row_apply (rvector_source I n) gv f = 0)%R.
Proof. exact hydrostatic_interior. Qed.
Print Assumptions C12_hydrostatic_interior.

Theorem C12_hydrostatic_dirichlet :
  forall (I : input R) (n : nat) (g gv : nat -> R),
    (forall c k : nat, (k < n)%nat -> gv (c * n + k)%nat = g k) ->
    forall (b : R) (f c : nat) (s : Z) (bv : nat -> R),
      boundary I f c s -> neu' R I f = false -> dir' R I f = true ->
      bv f = hydro n g b (fcen I f) ->
      (face_flux I (fun c0 : nat => hydro n g b (ccen I c0)) bv f
       + row_apply (rvector_source I n) gv f = 0)%R.
Proof. exact hydrostatic_dirichlet. Qed.
Print Assumptions C12_hydrostatic_dirichlet.

Theorem C12_hydrostatic_neumann :
  forall (I : input R) (n : nat) (g gv : nat -> R),
    (forall c k : nat, (k < n)%nat -> gv (c * n + k)%nat = g k) ->
    forall (b : R) (f c : nat) (s : Z) (bv : nat -> R),
      boundary I f c s -> neu' R I f = true -> bv f = 0%R ->
      (face_flux I (fun c0 : nat => hydro n g b (ccen I c0)) bv f
       + row_apply (rvector_source I n) gv f = 0)%R.
Proof. exact hydrostatic_neumann. Qed.
Print Assumptions C12_hydrostatic_neumann.

(* ------------------------------------------------------------------------------------ *)
(* Non-vacuity: the unit-spaced 1-D grid with two cells, K = 2 I; face 0 Dirichlet, face 1
   interior, face 2 Neumann.  All hypotheses used above hold for it. *)
Local Open Scope R_scope.
Definition k2 : mat R := ((2, 0, 0), (0, 2, 0), (0, 0, 2)).
Definition ex : input R :=
  {| dim := 1; nf := 3; nc := 2;
     cf := [geo 0 0 (-1)%Z; geo 1 0 1%Z; geo 1 1 (-1)%Z; geo 2 1 1%Z]%nat;
     normal := fun _ => (1, 0, 0);
     fcen := fun f => (INR f, 0, 0);
     ccen := fun c => (INR c + 1 / 2, 0, 0);
     perm := fun _ => k2;
     is_dir := fun f => (f =? 0)%nat;
     is_neu := fun f => (f =? 2)%nat;
     is_int := fun _ => false;
     bnd := [0; 2]%nat |}.

Ltac korth_tac :=
  unfold korth, knvec, nvec, dvec, mulmv, vscale, vsub, cross; unfold dot, vx, vy, vz;
  cbn [fst snd ex normal fcen ccen perm k2 tf tc ts tg tgs geo INR]; split; [repeat f_equal; lra | lra].

Example C12_nonvacuous :
  interior ex 1 0 1 1 /\ boundary ex 0 0 (-1) /\ boundary ex 2 1 1 /\
  (forall e, In e (cf ex) -> korth ex e) /\ opp_signs ex /\ one_sign ex /\
  neu' R ex 0 = false /\ dir' R ex 0 = true /\ neu' R ex 2 = true /\
  (forall c, perm ex c = k2).
Proof.
  assert (Hnd : NoDup (bnd ex)).
  { cbn. repeat constructor; cbn; intuition discriminate. }
  split; [repeat split; cbn; intuition discriminate|].
  split; [repeat split; cbn; try tauto; exact Hnd|].
  split; [repeat split; cbn; try tauto; exact Hnd|].
  split.
  { intros e He. cbn in He.
    destruct He as [<-|[<-|[<-|[<-|[]]]]]; korth_tac. }
  split.
  { intros e e' He He'. cbn in He, He'.
    destruct He as [<-|[<-|[<-|[<-|[]]]]]; destruct He' as [<-|[<-|[<-|[<-|[]]]]];
      cbn; intros; try lia; try congruence. }
  split.
  { intros e e' He He'. cbn in He, He'.
    destruct He as [<-|[<-|[<-|[<-|[]]]]]; destruct He' as [<-|[<-|[<-|[<-|[]]]]];
      cbn; intros; try lia; try congruence. }
  repeat split.
Qed.

(* the same grid made periodic (face 0 ~ face 2): the entry list is what the transcribed
   extension of the code produces, and faces 0, 2 form a periodic pair *)
Definition exp : input R :=
  {| dim := 1; nf := 3; nc := 2;
     cf := [geo 0 0 (-1)%Z; geo 1 0 1%Z; geo 1 1 (-1)%Z; geo 2 1 1%Z;
            (0, 1, 1%Z, 2, 1%Z); (2, 0, (-1)%Z, 0, (-1)%Z)]%nat;
     normal := fun _ => (1, 0, 0);
     fcen := fun f => (INR f, 0, 0);
     ccen := fun c => (INR c + 1 / 2, 0, 0);
     perm := fun _ => k2;
     is_dir := fun _ => false; is_neu := fun _ => false; is_int := fun _ => false;
     bnd := [] |}.

Example C12_nonvacuous_periodic :
  extend [(0, 0, (-1)%Z); (1, 0, 1%Z); (1, 1, (-1)%Z); (2, 1, 1%Z)]%nat [(0, 2)]%nat = Some (cf exp) /\
  periodic_pair exp 0 2 0 1 (-1) 1 /\ interior exp 1 0 1 1.
Proof.
  split; [vm_compute; reflexivity|].
  split; repeat split; cbn; intuition discriminate.
Qed.

(* hypotheses of the hydrostatic theorems: a constant vector field in the cell-wise layout *)
Example C12_nonvacuous_vector_source :
  forall c k : nat, (k < 3)%nat ->
    (fun i : nat => INR (i mod 3)) (c * 3 + k)%nat = (fun k : nat => INR k) k.
Proof.
  intros c k Hk. cbv beta. f_equal.
  rewrite Nat.add_comm, Nat.mod_add by lia. apply Nat.mod_small. exact Hk.
Qed.

(* the periodic example satisfies the structure hypothesis of C12_periodic_symmetric *)
Example C12_nonvacuous_periodic_symmetric :
  NoDup ([1] ++ map fst [(0, 2)] ++ map snd [(0, 2)])%nat /\
  (forall e : inc, In e (cf exp) -> In (tf e) ([1] ++ map fst [(0, 2)] ++ map snd [(0, 2)])%nat) /\
  plain_face exp 1 /\ periodic_pair exp 0 2 0 1 (-1) 1.
Proof.
  split; [cbn; repeat constructor; cbn; intuition discriminate|].
  split.
  { intros e He. cbn in He. destruct He as [<-|[<-|[<-|[<-|[<-|[<-|[]]]]]]]; cbn; tauto. }
  split.
  { intros e He. cbn in He. destruct He as [<-|[<-|[]]]; reflexivity. }
  repeat split; cbn; intuition discriminate.
Qed.

(* the transfer theorem applied: a rational instance (same grid as [ex], dyadic data) *)
From Coq Require Import QArith.
Example C12_nonvacuous_transfer :
  let I := {| dim := 1; nf := 3; nc := 2;
              cf := [geo 0 0 (-1)%Z; geo 1 0 1%Z; geo 1 1 (-1)%Z; geo 2 1 1%Z]%nat;
              normal := fun _ => (1, 0, 0)%Q;
              fcen := fun f => (inject_Z (Z.of_nat f), 0, 0)%Q;
              ccen := fun c => (inject_Z (Z.of_nat c) + (1 # 2), 0, 0)%Q;
              perm := fun _ => ((2, 0, 0), (0, 2, 0), (0, 0, 2))%Q;
              is_dir := fun f => (f =? 0)%nat; is_neu := fun f => (f =? 2)%nat;
              is_int := fun _ => false; bnd := [0; 2]%nat |} in
  fst (fst (fst (qdiscretize I))) =
    [(0%nat, 0%nat, -4); (1%nat, 0%nat, 2); (1%nat, 1%nat, -2); (2%nat, 1%nat, 0)]%Q.
Proof. vm_compute. reflexivity. Qed.
