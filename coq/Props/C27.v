(* C27 — property theorems only.  Model: PP.Model.C27 (transcription of
   grid_operators._cell_projections/_face_projections, SubdomainProjections,
   MortarProjections, BoundaryProjection, BoundaryGrid.projection, expand_indices_nd);
   specification vocabulary: PP.Model.C27_spec; proofs: PP.Proofs.C27*. *)
From Coq Require Import List Arith Lia Permutation QArith.
Local Open Scope nat_scope.
Import ListNotations.
From PP Require Import Model.C27 Model.C27_spec Model.C27_ext.
From PP Require Import Proofs.C27 Proofs.C27_mortar Proofs.C27_cache Proofs.C27_bnd.

(* expand_indices_nd(arange(n), nd) enumerates 0 .. n*nd-1 for every nd >= 1 *)
Theorem C27_expand_indices :
  forall n nd, 1 <= nd -> expand_indices_nd (seq 0 n) nd = seq 0 (n * nd).
Proof. exact expand_arange. Qed.
Print Assumptions C27_expand_indices.

(* For every constructor list [all] of distinct well-formed grids (any dims, 0-d grids
   without faces included), every nd >= 1 and every requested list [req] of grids of
   [all] (any order, any length, also empty): the constructor accepts, the restriction is
   the selection matrix of the requested grids' global index blocks (global offsets follow
   the order of [all], rows follow the order of [req]) and the prolongation is its
   transpose.  e = Cells | Faces. *)
Theorem C27_operators_select :
  forall e all nd req,
    1 <= nd -> Forall wf_grid all -> NoDup (map gid all) -> incl req all ->
    let sel := selection (total (num_of e) all nd) (blocks (num_of e) all nd req) in
    sp_init all nd = Ok (mkSP all nd) /\
    restriction e (mkSP all nd) req = Ok sel /\
    prolongation e (mkSP all nd) req = Ok (transpose sel).
Proof.
  intros e all nd req Hnd Hwf Hnodup Hinc sel. split; [now apply sp_init_ok|].
  rewrite prolongation_is_transpose, restriction_selects by assumption. now split.
Qed.
Print Assumptions C27_operators_select.

(* global index c belongs to the blocks of the request iff it lies in the block
   [offset, offset + size) of one requested grid *)
Theorem C27_block_membership :
  forall num all nd req c,
    In c (blocks num all nd req) <->
    exists g, In g req /\ pre num all (gid g) * nd <= c < pre num all (gid g) * nd + num g * nd.
Proof. exact in_blocks. Qed.
Print Assumptions C27_block_membership.

(* (1) restriction o prolongation (local -> global -> local) is the identity of the stacked
   local vector; prolongation o restriction (global -> local -> global) is the identity on
   the listed grids' blocks and zero elsewhere.  Any list without repetition, any order. *)
Theorem C27_restrict_prolong_id :
  forall e all nd req,
    1 <= nd -> Forall wf_grid all -> NoDup (map gid all) -> incl req all -> NoDup req ->
    let sp := mkSP all nd in
    bind (restriction e sp req) (fun R => bind (prolongation e sp req) (fun P => mul R P))
    = Ok (identity (sum_by (fun g => num_of e g * nd) req)) /\
    bind (restriction e sp req) (fun R => bind (prolongation e sp req) (fun P => mul P R))
    = Ok (indicator (total (num_of e) all nd) (blocks (num_of e) all nd req)).
Proof.
  intros e all nd req Hnd Hwf Hnodup Hinc Hreq sp. unfold sp.
  rewrite prolongation_is_transpose, restriction_selects by assumption. cbn [bind]. split.
  - rewrite mul_sel_selT by now apply blocks_NoDup. now rewrite blocks_length.
  - apply mul_selT_sel.
Qed.
Print Assumptions C27_restrict_prolong_id.

(* (2) for any reordering [req] of the full list, the prolongation (column-concatenation
   over the list) is the transposed selection of cs = the grids' global blocks in list
   order, and cs hits every global index exactly once; for req = all it is 0,1,..,N-1. *)
Theorem C27_prolong_permutation :
  forall e all nd req,
    1 <= nd -> Forall wf_grid all -> NoDup (map gid all) -> Permutation req all ->
    let cs := blocks (num_of e) all nd req in
    prolongation e (mkSP all nd) req = Ok (transpose (selection (total (num_of e) all nd) cs)) /\
    Permutation cs (seq 0 (total (num_of e) all nd)) /\ NoDup cs /\
    length cs = total (num_of e) all nd /\
    blocks (num_of e) all nd all = seq 0 (total (num_of e) all nd).
Proof.
  intros e all nd req Hnd Hwf Hnodup Hp cs.
  assert (Hperm : Permutation cs (seq 0 (total (num_of e) all nd)))
    by now apply blocks_Permutation.
  split; [|split; [exact Hperm|split; [|split]]].
  - rewrite prolongation_is_transpose, restriction_selects; try assumption; [reflexivity|].
    intros x Hx. eapply Permutation_in; eassumption.
  - eapply Permutation_NoDup; [apply Permutation_sym; exact Hperm|apply seq_NoDup].
  - rewrite (Permutation_length Hperm). apply seq_length.
  - now apply blocks_all.
Qed.
Print Assumptions C27_prolong_permutation.

(* prolongation is the transpose of restriction for every input, errors included *)
Theorem C27_prolongation_is_transpose :
  forall e sp req,
    prolongation e sp req = bind (restriction e sp req) (fun m => Ok (transpose m)).
Proof. exact prolongation_is_transpose. Qed.
Print Assumptions C27_prolongation_is_transpose.

(* error branches: a repeated subdomain is rejected by the constructor; a requested grid
   that is not in the constructor list gives KeyError *)
Theorem C27_duplicate_rejected :
  forall all nd, ~ NoDup (map gid all) -> sp_init all nd = Err ValueErr.
Proof. exact sp_init_duplicate. Qed.
Print Assumptions C27_duplicate_rejected.

Theorem C27_unknown_grid_keyerror :
  forall e all nd req,
    1 <= nd -> Forall wf_grid all ->
    (exists g, In g req /\ ~ In (gid g) (map gid all)) ->
    (forall g, In g req -> In (gid g) (map gid all) -> In g all) -> NoDup (map gid all) ->
    restriction e (mkSP all nd) req = Err KeyErr /\
    prolongation e (mkSP all nd) req = Err KeyErr.
Proof.
  intros e all nd req Hnd Hwf Hex Hcons Hnodup.
  assert (HR : restriction e (mkSP all nd) req = Err KeyErr).
  { rewrite restriction_nonempty by (destruct Hex as (g & Hg & _); intros ->; destruct Hg).
    rewrite projections_spec by assumption. cbn [bind]. now rewrite lookups_missing. }
  split; [exact HR|]. now rewrite prolongation_is_transpose, HR.
Qed.
Print Assumptions C27_unknown_grid_keyerror.

(* (3) mortar projections, subdomains -> mortar (primary_to_mortar_int|avg, secondary_to_mortar_int|avg):
   for any list of distinct subdomains and any non-empty list of interfaces of one
   codimension c in {1,2} (any order, repetitions allowed), the result is the block
   placement of the per-interface matrices: rows at the mortar offset of the interface
   (list order of the interfaces), columns at the global offset of its primary/secondary
   subdomain (list order of the subdomains; faces for the primary side of codimension 1,
   cells otherwise); interfaces whose subdomain is not listed contribute a zero block. *)
Theorem C27_mortar_blocks_to_mortar :
  forall sds ifs nd is_primary locs c,
    1 <= nd -> Forall wf_grid sds -> NoDup (map gid sds) ->
    ifs <> [] -> Forall (fun i => icodim i = c) ifs -> c = 1 \/ c = 2 ->
    let num := side_num is_primary c in
    locs_fit num true is_primary sds nd ifs locs ->
    construct_projection sds ifs nd true is_primary locs
    = Ok (mkM (sum_by (fun i => imc i * nd) ifs) (total num sds nd)
              (placed_to_mortar num is_primary sds nd ifs locs 0)).
Proof.
  intros sds ifs nd is_primary locs c Hnd Hwf Hnodup Hne Hcod Hc num Hfit.
  rewrite (construct_projection_codim _ _ _ _ _ _ c) by assumption. now apply cp_to_mortar.
Qed.
Print Assumptions C27_mortar_blocks_to_mortar.

(* mortar -> subdomains (mortar_to_primary_int|avg, mortar_to_secondary_int|avg): the transposed
   placement; the coordinate list is a permutation of the placed per-interface entries *)
Theorem C27_mortar_blocks_from_mortar :
  forall sds ifs nd is_primary locs c,
    1 <= nd -> Forall wf_grid sds -> NoDup (map gid sds) ->
    ifs <> [] -> Forall (fun i => icodim i = c) ifs -> c = 1 \/ c = 2 ->
    let num := side_num is_primary c in
    locs_fit num false is_primary sds nd ifs locs ->
    exists es,
      construct_projection sds ifs nd false is_primary locs
      = Ok (mkM (total num sds nd) (sum_by (fun i => imc i * nd) ifs) es) /\
      Permutation es (placed_from_mortar num is_primary sds nd ifs locs 0).
Proof.
  intros sds ifs nd is_primary locs c Hnd Hwf Hnodup Hne Hcod Hc num Hfit.
  rewrite (construct_projection_codim _ _ _ _ _ _ c) by assumption. now apply cp_from_mortar.
Qed.
Print Assumptions C27_mortar_blocks_from_mortar.

Theorem C27_mortar_no_interfaces :
  forall sds nd to_mortar is_primary locs,
    construct_projection sds [] nd to_mortar is_primary locs
    = Ok (let n := nd * sum_by (if is_primary then nfaces else ncells) sds in
          if to_mortar then zeros 0 n else zeros n 0).
Proof. reflexivity. Qed.
Print Assumptions C27_mortar_no_interfaces.

Theorem C27_mortar_mixed_codim_rejected :
  forall sds ifs nd to_mortar is_primary locs i j,
    In i ifs -> In j ifs -> icodim i <> icodim j ->
    construct_projection sds ifs nd to_mortar is_primary locs = Err ValueErr.
Proof. exact construct_mixed_codim. Qed.
Print Assumptions C27_mortar_mixed_codim_rejected.

(* the eight cached accessors, any call history: every call answers with the construction
   from the accessor's own per-interface matrices — PARTIAL: under [conf_guard] (on a side
   classified as conforming by np.allclose the integrating and averaging per-interface
   matrices are equal; MortarGrid's normalisation gives this up to rounding).  Without the
   guard the statement is false of the model (next theorem): the two flavours share one
   cache attribute, the second call returns the first call's matrix. *)
Theorem C27_mortar_cached_calls_partial :
  forall sds ifs nd loc ks,
    conf_guard (mp_init sds ifs nd loc) ->
    mp_run (mp_init sds ifs nd loc) ks
    = map (fun k => construct_projection sds ifs nd (k_to_mortar k) (k_is_primary k) (loc k)) ks.
Proof.
  intros sds ifs nd loc ks Hg.
  exact (own_or_twin_guarded _ _ _ Hg (mp_run_init sds ifs nd loc ks)).
Qed.
Print Assumptions C27_mortar_cached_calls_partial.

Theorem C27_mortar_cached_calls_refuted :
  exists sds ifs nd loc ks,
    mp_run (mp_init sds ifs nd loc) ks
    <> map (fun k => construct_projection sds ifs nd (k_to_mortar k) (k_is_primary k) (loc k)) ks.
Proof.
  (* weights within np.allclose of 1 on both flavours, but different *)
  exists [mkG 0 2 4 16], [mkI 0 0 1 1 1 [1]], 1,
    (fun k => match k with
              | M2P_int => [mkM 16 1 [(5, 0, 1%Q)]]
              | M2P_avg => [mkM 16 1 [(5, 0, (999999 # 1000000)%Q)]]
              | _ => []
              end),
    [M2P_int; M2P_avg].
  vm_compute. intro H. discriminate H.
Qed.
Print Assumptions C27_mortar_cached_calls_refuted.

(* (4) boundary projection for any list of distinct subdomains with their boundary grids
   (0-d subdomains contribute nothing): subdomain_to_boundary selects the domain-boundary
   faces (listed subdomains in list order, boundary faces ascending, nd values per face),
   boundary_to_subdomain is its transpose, subdomain_to_boundary o boundary_to_subdomain
   is the identity on boundary values and the other composition is the indicator of the
   boundary faces. *)
Theorem C27_boundary :
  forall bgs nd,
    1 <= nd -> Forall wf_bgrid bgs -> NoDup (map gid (map bg_grid bgs)) ->
    let tot := total nfaces (map bg_grid bgs) nd in
    let cs := all_bnd_cols bgs nd in
    subdomain_to_boundary bgs nd = Ok (selection tot cs) /\
    boundary_to_subdomain bgs nd = Ok (transpose (selection tot cs)) /\
    NoDup cs /\
    bind (subdomain_to_boundary bgs nd) (fun S =>
      bind (boundary_to_subdomain bgs nd) (fun B => mul S B)) = Ok (identity (length cs)) /\
    bind (subdomain_to_boundary bgs nd) (fun S =>
      bind (boundary_to_subdomain bgs nd) (fun B => mul B S)) = Ok (indicator tot cs).
Proof.
  intros bgs nd Hnd Hwf Hnodup tot cs.
  assert (Hcs : NoDup cs) by now apply all_bnd_cols_NoDup.
  unfold boundary_to_subdomain, subdomain_to_boundary.
  rewrite bp_projection_spec by assumption. cbn [bind]. fold tot cs.
  repeat split; [exact Hcs|now apply mul_sel_selT|apply mul_selT_sel].
Qed.
Print Assumptions C27_boundary.

(* error branch: a first listed subdomain of dimension > 0 without boundary grid (a grid
   that is not in the md-grid) raises UnboundLocalError *)
Theorem C27_boundary_unbound :
  forall b r nd,
    1 <= nd -> Forall wf_grid (map bg_grid (b :: r)) ->
    0 < gdim (bg_grid b) -> bg_bnd b = None ->
    subdomain_to_boundary (b :: r) nd = Err UnboundErr.
Proof.
  intros b r nd Hnd Hwf Hd Hn. unfold subdomain_to_boundary, bp_projection.
  rewrite face_projections_spec by assumption. cbn [bind bp_loop].
  apply Nat.ltb_lt in Hd. now rewrite Hd, Hn.
Qed.
Print Assumptions C27_boundary_unbound.

(* meaning of the two result matrices as dense matrices *)
Theorem C27_identity_entries :
  forall n i j, i < n -> j < n ->
    QArith_base.Qeq (get (identity n) i j) (if i =? j then 1%Q else 0%Q).
Proof.
  intros n i j Hi _. rewrite get_identity. apply Nat.ltb_lt in Hi. now rewrite Hi, Bool.andb_true_r.
Qed.
Print Assumptions C27_identity_entries.

Theorem C27_indicator_entries :
  forall n cs i j, NoDup cs ->
    QArith_base.Qeq (get (indicator n cs) i j)
                    (if (i =? j) && existsb (Nat.eqb i) cs then 1%Q else 0%Q).
Proof. exact get_indicator. Qed.
Print Assumptions C27_indicator_entries.

(* ---------------------------------------------------------------- extension *)
(* the conformity flags computed by MortarProjections.__init__ say exactly: every stored
   weight of the integrating AND the averaging mortar->primary (resp. ->secondary) matrices
   of every listed interface is within 1e-10 + 1e-5 of 1 *)
Theorem C27_conformity_flags_sound :
  forall sds ifs nd loc,
    (mp_conf_p (mp_init sds ifs nd loc) = true
     <-> all_within_tol (loc M2P_int) /\ all_within_tol (loc M2P_avg)) /\
    (mp_conf_s (mp_init sds ifs nd loc) = true
     <-> all_within_tol (loc M2S_int) /\ all_within_tol (loc M2S_avg)).
Proof.
  intros. cbn [mp_init mp_conf_p mp_conf_s].
  rewrite !Bool.andb_true_iff, !all_close1_iff. tauto.
Qed.
Print Assumptions C27_conformity_flags_sound.

(* the eight cached accessors WITHOUT guard, any inputs, any call history: every call
   answers with the construction of its own flavour, or -- only if its side is classified
   as conforming -- with the construction of the twin flavour (int <-> avg, same direction).
   In particular on a non-conforming side the call order never matters. *)
Theorem C27_mortar_cached_calls :
  forall sds ifs nd loc ks,
    let mp := mp_init sds ifs nd loc in
    Forall2 (fun k o => o = answer mp k \/ (side_conf mp k = true /\ o = answer mp (twin k)))
            ks (mp_run mp ks).
Proof. intros sds ifs nd loc ks mp. apply mp_run_init. Qed.
Print Assumptions C27_mortar_cached_calls.

Theorem C27_mortar_first_call_own :
  forall sds ifs nd loc k ks,
    hd_error (mp_run (mp_init sds ifs nd loc) (k :: ks))
    = Some (answer (mp_init sds ifs nd loc) k).
Proof.
  (* the cache is empty *)
  intros. cbn [mp_run]. unfold mp_call at 1. cbn [mp_init mp_cache cache_get].
  fold (answer (mp_init sds ifs nd loc) k).
  destruct (answer (mp_init sds ifs nd loc) k); reflexivity.
Qed.
Print Assumptions C27_mortar_first_call_own.

(* BoundaryProjection for ARBITRARY lists of distinct grids (boundary grid present or not):
   the rows are the blocks of [stale_blocks] -- a listed grid of dimension > 0 without
   boundary grid repeats the block of the previous iteration, UnboundLocalError if there is
   none -- so the stale mat_loc is part of the characterisation, not excluded by a guard *)
Theorem C27_boundary_general :
  forall bgs nd,
    1 <= nd -> Forall wf_grid (map bg_grid bgs) -> NoDup (map gid (map bg_grid bgs)) ->
    Forall bnd_in_range bgs ->
    subdomain_to_boundary bgs nd
    = match stale_blocks (map bg_grid bgs) nd bgs None with
      | Some cs => Ok (selection (total nfaces (map bg_grid bgs) nd) (concat cs))
      | None => Err UnboundErr
      end.
Proof.
  intros bgs nd Hnd Hwf Hnodup Hr. apply bp_projection_stale; try assumption.
  eapply Forall_impl; [|exact Hr]. auto.
Qed.
Print Assumptions C27_boundary_general.

(* ... and with a stale block claim (4) fails: the repeated rows make
   subdomain_to_boundary o boundary_to_subdomain differ from the identity (only reachable
   with a grid that is not in the md-grid) *)
Theorem C27_boundary_stale_refuted :
  exists bgs nd S,
    NoDup (map gid (map bg_grid bgs)) /\ Forall wf_grid (map bg_grid bgs) /\
    subdomain_to_boundary bgs nd = Ok S /\
    mul S (transpose S) <> Ok (identity (nr S)).
Proof.
  exists [mkB (mkG 0 1 2 3) (Some [0; 2]); mkB (mkG 7 2 2 7) None], 1.
  eexists. split; [|split; [|split]].
  - cbn. repeat constructor; cbn; intuition lia.
  - repeat constructor; cbn; try lia; intros H; lia.
  - vm_compute. reflexivity.
  - vm_compute. intro H. discriminate H.
Qed.
Print Assumptions C27_boundary_stale_refuted.

(* Trace (scalar): the per-grid trace operators placed at (face offset, cell offset) of the
   grid in the list, i.e. at the offsets of the face / cell projections; any list of
   distinct grids, the empty list included *)
Theorem C27_trace_blocks :
  forall sds locs,
    Forall wf_grid sds -> NoDup (map gid sds) -> length sds = length locs ->
    Forall (diag_fit nfaces ncells 1) (combine sds locs) ->
    trace_op sds 1 locs
    = XOk (mkM (total nfaces sds 1) (total ncells sds 1)
               (placed_diag nfaces ncells sds 1 (combine sds locs))).
Proof.
  intros sds locs Hwf Hnd Hlen Hfit. unfold trace_op.
  rewrite cell_projections_spec by auto.
  destruct sds as [|g r] eqn:E; [destruct locs; [reflexivity|discriminate Hlen]|].
  rewrite <- E in *. cbn [Nat.eqb]. rewrite trace_blocks_placed; [reflexivity| |assumption..].
  rewrite E. discriminate.
Qed.
Print Assumptions C27_trace_blocks.

Theorem C27_trace_vector_not_implemented :
  forall sds nd locs d,
    sds <> [] -> nd <> 1 -> cell_projections sds nd = Ok d -> trace_op sds nd locs = XNotImpl.
Proof.
  intros sds nd locs d Hne Hnd Hd. unfold trace_op. rewrite Hd.
  destruct sds; [congruence|]. apply Nat.eqb_neq in Hnd. now rewrite Hnd.
Qed.
Print Assumptions C27_trace_vector_not_implemented.

(* Divergence (any dim): the per-grid divergences placed at (cell offset, face offset) *)
Theorem C27_divergence_blocks :
  forall sds nd locs,
    sds <> [] -> length sds = length locs -> NoDup (map gid sds) ->
    Forall (diag_fit ncells nfaces nd) (combine sds locs) ->
    exists M, divergence_op locs = Ok M /\
              nr M = total ncells sds nd /\ nc M = total nfaces sds nd /\
              ents M = placed_diag ncells nfaces sds nd (combine sds locs).
Proof. exact (block_diag_placed ncells nfaces). Qed.
Print Assumptions C27_divergence_blocks.

(* error branches: Divergence of an empty list (np.concatenate of nothing), accessor called
   with something that is not a list *)
Theorem C27_divergence_empty : divergence_op [] = Err ValueErr.
Proof. reflexivity. Qed.
Print Assumptions C27_divergence_empty.

Theorem C27_nonlist_rejected : forall r, accessor_arg false r = Err ValueErr.
Proof. reflexivity. Qed.
Print Assumptions C27_nonlist_rejected.

(* soundness of the comparison the execution tie evaluates: when [mat_eqb] answers true the
   two coordinate lists denote the same matrix (equal shapes, equal dense entries with
   duplicate coordinates summed) *)
Theorem C27_tie_comparison_sound :
  forall A B,
    mat_eqb A B = true ->
    nr A = nr B /\ nc A = nc B /\ forall i j, Qeq (get A i j) (get B i j).
Proof. exact mat_eqb_sound. Qed.
Print Assumptions C27_tie_comparison_sound.

(* ---------------------------------------------------------------- non-vacuity *)
(* a 2-D grid, two fracture grids and their 0-d intersection, vector quantity (nd = 2),
   request in a different order than the constructor list *)
Example C27_nonvacuous_subdomains :
  let g2 := mkG 0 2 4 16 in let ga := mkG 1 1 2 4 in let gb := mkG 2 1 2 4 in
  let g0 := mkG 3 0 1 0 in
  let all := [g2; ga; gb; g0] in
  let req := [g0; gb; g2] in
  Forall wf_grid all /\ NoDup (map gid all) /\ incl req all /\ NoDup req /\
  blocks ncells all 2 req = [16; 17; 12; 13; 14; 15; 0; 1; 2; 3; 4; 5; 6; 7] /\
  blocks nfaces all 2 req = seq 40 8 ++ seq 0 32 /\
  Permutation [g0; gb; g2; ga] all.
Proof.
  cbv zeta. split; [|split; [|split; [|split; [|split; [|split]]]]].
  - repeat constructor; cbn; lia.
  - cbn. repeat constructor; cbn; intuition lia.
  - intros x Hx. cbn in Hx |- *. intuition.
  - repeat constructor; cbn; intuition discriminate.
  - reflexivity.
  - reflexivity.
  - (* move g0, then gb, to their places *)
    apply (Permutation_cons_app [mkG 0 2 4 16; mkG 1 1 2 4; mkG 2 1 2 4] []).
    apply (Permutation_cons_app [mkG 0 2 4 16; mkG 1 1 2 4] []).
    apply Permutation_refl.
Qed.

(* one codim-1 interface between the 2-D grid and a fracture, with a one-entry local matrix *)
Example C27_nonvacuous_mortar :
  let g2 := mkG 0 2 4 16 in let ga := mkG 1 1 2 4 in
  let i := mkI 0 0 1 4 1 [2; 2] in
  let L := mkM 4 16 [(1, 5, 1%Q)] in
  locs_fit (side_num true 1) true true [ga; g2] 1 [i] [L] /\
  construct_projection [ga; g2] [i] 1 true true [L] = Ok (mkM 4 20 [(1, 9, 1%Q)]).
Proof.
  cbv zeta. split.
  - cbn. split; [|exact I]. intros g [<-|[<-|[]]]; cbn; intros E; try discriminate E.
    repeat split; try reflexivity. repeat constructor.
  - reflexivity.
Qed.

Example C27_nonvacuous_cache_guard :
  let g2 := mkG 0 2 4 16 in
  let i := mkI 0 0 1 1 1 [1] in
  let L := [mkM 1 16 [(0, 5, 1%Q)]] in let Lt := [mkM 16 1 [(5, 0, 1%Q)]] in
  let loc := fun k => match k with
                      | M2P_int | M2P_avg => Lt | P2M_int | P2M_avg => L
                      | _ => [] end in
  conf_guard (mp_init [g2] [i] 1 loc) /\
  mp_run (mp_init [g2] [i] 1 loc) [M2P_avg; M2P_int]
  = [Ok (mkM 16 1 [(5, 0, 1%Q)]); Ok (mkM 16 1 [(5, 0, 1%Q)])].
Proof. cbv zeta. split; [split; intros _; split; reflexivity|reflexivity]. Qed.

(* a 2-D grid with boundary faces 0,2,3 and a 0-d grid, nd = 2 *)
Example C27_nonvacuous_boundary :
  let b2 := mkB (mkG 0 2 2 7) (Some [0; 2; 3]) in
  let b0 := mkB (mkG 1 0 1 0) None in
  Forall wf_bgrid [b0; b2] /\ NoDup (map gid (map bg_grid [b0; b2])) /\
  all_bnd_cols [b0; b2] 2 = [0; 1; 4; 5; 6; 7].
Proof.
  cbv zeta. split; [|split].
  - constructor; [|constructor; [|constructor]]; unfold wf_bgrid, wf_grid; cbn.
    + split; [split; [lia|split; [reflexivity|intros H; lia]]|intros H; lia].
    + split; [split; [lia|split; [intros H; discriminate H|intros _; lia]]|].
      intros _. exists [0; 2; 3]. split; [reflexivity|]. split.
      * repeat constructor; cbn; intuition lia.
      * repeat constructor; lia.
  - cbn. repeat constructor; cbn; intuition lia.
  - reflexivity.
Qed.

(* a 1-d grid (2 cells, 3 faces) after a point grid: trace and divergence blocks *)
Example C27_nonvacuous_trace_divergence :
  let g0 := mkG 5 0 1 0 in let g1 := mkG 1 1 2 3 in
  let T := [mkM 0 1 []; mkM 3 2 [(0, 0, 1%Q); (2, 1, 1%Q)]] in
  let D := [mkM 1 0 []; mkM 2 3 [(0, 0, (-1)%Q); (0, 1, 1%Q); (1, 1, (-1)%Q); (1, 2, 1%Q)]] in
  Forall (diag_fit nfaces ncells 1) (combine [g0; g1] T) /\
  Forall (diag_fit ncells nfaces 1) (combine [g0; g1] D) /\
  trace_op [g0; g1] 1 T = XOk (mkM 3 3 [(0, 1, 1%Q); (2, 2, 1%Q)]) /\
  divergence_op D = Ok (mkM 3 3 [(1, 0, (-1)%Q); (1, 1, 1%Q); (2, 1, (-1)%Q); (2, 2, 1%Q)]).
Proof.
  cbv zeta. split; [|split; [|split]]; try reflexivity.
  - constructor; [|constructor; [|constructor]]; unfold diag_fit; cbn;
      repeat split; repeat constructor.
  - constructor; [|constructor; [|constructor]]; unfold diag_fit; cbn;
      repeat split; repeat constructor.
Qed.

(* a grid without boundary grid listed second: its block repeats the first grid's block *)
Example C27_nonvacuous_stale :
  let bgs := [mkB (mkG 0 1 2 3) (Some [0; 2]); mkB (mkG 7 2 2 7) None] in
  Forall bnd_in_range bgs /\
  stale_blocks (map bg_grid bgs) 1 bgs None = Some [[0; 2]; [0; 2]].
Proof.
  cbv zeta. split; [|reflexivity].
  constructor; [|constructor; [|constructor]]; intros bnd H; cbn in H; try discriminate H.
  injection H as <-. repeat constructor.
Qed.

(* the twin answer really occurs: conforming side, different flavours *)
Example C27_nonvacuous_twin_answer :
  let loc := fun k => match k with
                      | M2P_int => [mkM 16 1 [(5, 0, 1%Q)]]
                      | M2P_avg => [mkM 16 1 [(5, 0, (999999 # 1000000)%Q)]]
                      | _ => [] end in
  let mp := mp_init [mkG 0 2 4 16] [mkI 0 0 1 1 1 [1]] 1 loc in
  side_conf mp M2P_avg = true /\
  nth_error (mp_run mp [M2P_int; M2P_avg]) 1 = Some (answer mp (twin M2P_avg)) /\
  answer mp M2P_avg <> answer mp (twin M2P_avg).
Proof.
  cbv zeta. split; [reflexivity|]. split; [reflexivity|].
  vm_compute. intro H. discriminate H.
Qed.

Example C27_nonvacuous_comparison :
  mat_eqb (mkM 2 2 [(0, 1, (1 # 2)%Q); (1, 0, 1%Q); (0, 1, (1 # 2)%Q)])
          (mkM 2 2 [(1, 0, 1%Q); (0, 1, 1%Q); (1, 1, 0%Q)]) = true.
Proof. reflexivity. Qed.
