(* C40 — property theorems only.  Model: PP.Model.C40 (transcription of
   porepy/params/tensor.py); proofs: PP.Proofs.C40.  Every theorem holds over ANY
   commutative ring T (ring_theory over Leibniz equality: the reals, the integers, ...);
   [rops T 0 1 + * - neg] is the model's number record for that ring, [neg] the (arbitrary)
   test "x < 0" used by the constructor.  A tensor is the list over cells of its 3x3
   (resp. 9x9) matrices. *)
From Coq Require Import List ZArith Bool Ring.
Import ListNotations.
From PP Require Import Model.C40 Model.C40_heap Proofs.C40 Proofs.C40_hom Proofs.C40_heap.


(* SYMMETRY + LAYOUT of SecondOrderTensor.  Whenever the constructor returns (any arrays,
   any defaults), the tensor has one matrix per entry of kxx, cell c holds
   [[kxx kxy kxz] [kxy kyy kyz] [kxz kyz kzz]] (defaults: kyy = kzz = kxx, off-diagonals
   0*kxx), and every cell matrix is symmetric; the only exception it raises is ValueError. *)
Theorem C40_second_order_symmetric :
  forall (T : Type) (rO rI : T) (radd rmul rsub : T -> T -> T) (neg : T -> bool)
         (kxx : list T) (kyy kzz kxy kxz kyz : option (list T)),
    let ops := rops T rO rI radd rmul rsub neg in
    (forall t, second_order ops kxx kyy kzz kxy kxz kyz = Ok t ->
       length t = length kxx /\ Forall (sym33 T) t /\
       let z := map (rmul rO) kxx in
       t = map (cell_matrix T rO rI radd rmul rsub neg kxx (dflt T kyy kxx) (dflt T kzz kxx)
                            (dflt T kxy z) (dflt T kxz z) (dflt T kyz z))
               (seq 0 (length kxx))) /\
    (forall e, second_order ops kxx kyy kzz kxy kxz kyz = Err e -> e = ValueErr).
Proof. intros. split; [apply second_order_ok | apply second_order_error]. Qed.
Print Assumptions C40_second_order_symmetric.

(* ROTATION IS A SIMILARITY TRANSFORM.  For every matrix R and every cell matrix K the two
   tensordot contractions compute R K^T R^T (= R K R^T for symmetric K, and symmetric
   again); if R^T R = I then trace, determinant, second invariant and therefore the whole
   characteristic polynomial det(lam I - K) (hence the eigenvalues) are preserved. *)
Theorem C40_rotate_similarity :
  forall (T : Type) (rO rI : T) (radd rmul rsub : T -> T -> T) (ropp : T -> T),
    ring_theory rO rI radd rmul rsub ropp eq ->
  forall (neg : T -> bool) (R K : m33 T),
    let ops := rops T rO rI radd rmul rsub neg in
    rot1 ops R K = mmul ops (mmul ops R (transpose K)) (transpose R) /\
    (sym33 T K -> rot1 ops R K = mmul ops (mmul ops R K) (transpose R) /\
                  sym33 T (rot1 ops R K)) /\
    (orthogonal T rO rI radd rmul rsub neg R ->
       trace ops (rot1 ops R K) = trace ops K /\
       det ops (rot1 ops R K) = det ops K /\
       inv2 ops (rot1 ops R K) = inv2 ops K /\
       forall lam, det ops (lam_minus ops lam (rot1 ops R K)) = det ops (lam_minus ops lam K)).
Proof.
  intros T rO rI radd rmul rsub ropp Rth neg R K ops.
  split; [apply (rot1_formula _ _ _ _ _ _ _ Rth) | split].
  - apply (rot1_sym _ _ _ _ _ _ _ Rth).
  - apply (rot_invariants _ _ _ _ _ _ _ Rth).
Qed.
Print Assumptions C40_rotate_similarity.

(* rotate acts cell by cell on the whole tensor *)
Theorem C40_rotate_cellwise :
  forall (T : Type) (rO rI : T) (radd rmul rsub : T -> T -> T) (neg : T -> bool)
         (R : m33 T) (t : list (m33 T)),
    let ops := rops T rO rI radd rmul rsub neg in
    length (rotate ops R t) = length t /\
    forall c d, nth c (rotate ops R t) (rot1 ops R d) = rot1 ops R (nth c t d).
Proof. intros. apply rotate_cells. Qed.
Print Assumptions C40_rotate_cellwise.

(* RESTRICTION SELECTS THE GIVEN CELLS (numpy integer indexing: negative indices count from
   the end).  For a tensor made by the constructor, restrict_to_cells returns, for each
   requested index in [-Nc, Nc), exactly that cell's matrix, in the requested order; it
   succeeds iff all indices are in range, and otherwise raises IndexError. *)
Theorem C40_restrict_selects :
  forall (T : Type) (rO rI : T) (radd rmul rsub : T -> T -> T) (neg : T -> bool)
         kxx kyy kzz kxy kxz kyz (t : list (m33 T)) (cells : list Z),
    let ops := rops T rO rI radd rmul rsub neg in
    let n := Z.of_nat (length t) in
    second_order ops kxx kyy kzz kxy kxz kyz = Ok t ->
    (forall r, restrict2 ops t cells = Ok r ->
       Forall2 (fun c x => in_range n c /\ nth_error t (Z.to_nat (wrap n c)) = Some x) cells r) /\
    (Forall (in_range n) cells -> exists r, restrict2 ops t cells = Ok r) /\
    (forall e, restrict2 ops t cells = Err e ->
       e = IndexErr /\ Exists (fun c => ~ in_range n c) cells).
Proof.
  intros T rO rI radd rmul rsub neg kxx kyy kzz kxy kxz kyz t cells ops n H.
  subst ops. rewrite (restrict_of_constructed _ _ _ _ _ _ _ _ cells H).
  split; [exact (take_cells_spec t cells) | split].
  - exact (take_cells_total t cells).
  - exact (take_cells_error t cells).
Qed.
Print Assumptions C40_restrict_selects.

(* COPY of a constructed tensor is an equal tensor (its arrays being independent of the
   original's is established by the execution correspondence, not by a theorem). *)
Theorem C40_copy_equal :
  forall (T : Type) (rO rI : T) (radd rmul rsub : T -> T -> T) (neg : T -> bool)
         kxx kyy kzz kxy kxz kyz (t : list (m33 T)) mu la (t4 : @tensor4 T),
    let ops := rops T rO rI radd rmul rsub neg in
    (second_order ops kxx kyy kzz kxy kxz kyz = Ok t -> copy2 ops t = Ok t) /\
    (fourth_order ops mu la = Ok t4 -> copy4 ops t4 = Ok t4).
Proof. intros. split; [apply copy_of_constructed | apply copy4_of_constructed]. Qed.
Print Assumptions C40_copy_equal.

(* FOURTH-ORDER TENSOR.  The constructor succeeds iff mu and lmbda have the same length;
   each cell's 9x9 matrix (row 3i+j, column 3k+l) is the isotropic stiffness tensor
   lmbda d_ij d_kl + mu (d_ik d_jl + d_il d_jk), and is a symmetric 9x9 matrix. *)
Theorem C40_fourth_order_symmetric :
  forall (T : Type) (rO rI : T) (radd rmul rsub : T -> T -> T) (ropp : T -> T),
    ring_theory rO rI radd rmul rsub ropp eq ->
  forall (neg : T -> bool),
    let ops := rops T rO rI radd rmul rsub neg in
    (forall mu la : list T,
       (length mu = length la ->
          fourth_order ops mu la =
          Ok {| t_mu := mu; t_lmbda := la;
                t_values := map (fun ml => stiff_cell ops (fst ml) (snd ml)) (combine mu la) |}) /\
       (length mu <> length la -> fourth_order ops mu la = Err ValueErr)) /\
    (forall (mu la : T) i j k l,
       entry ops (stiff_cell ops mu la) (3 * n_of i + n_of j) (3 * n_of k + n_of l) =
       radd (rmul la (rmul (delta T rO rI i j) (delta T rO rI k l)))
            (rmul mu (radd (rmul (delta T rO rI i k) (delta T rO rI j l))
                           (rmul (delta T rO rI i l) (delta T rO rI j k))))) /\
    (forall (mu la : T),
       length (stiff_cell ops mu la) = 9 /\
       Forall (fun r => length r = 9) (stiff_cell ops mu la) /\
       forall p q, p < 9 -> q < 9 ->
         entry ops (stiff_cell ops mu la) p q = entry ops (stiff_cell ops mu la) q p).
Proof.
  intros T rO rI radd rmul rsub ropp Rth neg ops. split; [exact (fourth_order_spec ops) | split].
  - exact (stiff_cell_formula _ _ _ _ _ _ _ Rth neg).
  - exact (stiff_cell_shape ops).
Qed.
Print Assumptions C40_fourth_order_symmetric.

(* Restriction of a fourth-order tensor selects the cells of mu, lmbda and values alike,
   and the result is the tensor of the selected parameters; errors are IndexError for an
   index outside [-Nc, Nc). *)
Theorem C40_restrict_fourth_order :
  forall (T : Type) (rO rI : T) (radd rmul rsub : T -> T -> T) (neg : T -> bool)
         (mu la : list T) (t : @tensor4 T) (cells : list Z),
    let ops := rops T rO rI radd rmul rsub neg in
    fourth_order ops mu la = Ok t ->
    (forall t', restrict4 ops t cells = Ok t' ->
       take_cells mu cells = Ok (t_mu t') /\ take_cells la cells = Ok (t_lmbda t') /\
       take_cells (t_values t) cells = Ok (t_values t') /\
       fourth_order ops (t_mu t') (t_lmbda t') = Ok t') /\
    (forall e, restrict4 ops t cells = Err e ->
       e = IndexErr /\ Exists (fun c => ~ in_range (Z.of_nat (length mu)) c) cells).
Proof.
  intros T rO rI radd rmul rsub neg mu la t cells ops H. split; intros ? Hr.
  - exact (restrict4_of_constructed _ _ _ _ _ _ H Hr).
  - exact (restrict4_error _ _ _ _ _ _ H Hr).
Qed.
Print Assumptions C40_restrict_fourth_order.

(* FOURTH-ORDER TENSOR WITH other_fields (any number type).  For a tensor built with extra
   constitutive fields: copy returns an equal tensor, and restrict_to_cells selects the
   requested cells of mu, lmbda, EVERY extra field and the values (basis matrices kept). *)
Theorem C40_other_fields_copy_restrict :
  forall (T : Type) (ops : numops T) (mu la : list T) (mats : list (list (list T)))
         (fields : list (list T)) (t : @tensor4x T) (cells : list Z),
    fourth_order_x ops mu la mats fields = Ok t ->
    copy4x ops t = Ok t /\
    (forall t', restrict4x ops t cells = Ok t' ->
       take_cells mu cells = Ok (x_mu t') /\ take_cells la cells = Ok (x_lmbda t') /\
       Forall2 (fun f f' => take_cells f cells = Ok f') fields (x_fields t') /\
       take_cells (x_values t) cells = Ok (x_values t') /\ x_mats t' = mats).
Proof.
  intros * H. split; [exact (copy4x_of_constructed _ _ _ _ _ _ H) | intros t' Hr].
  exact (restrict4x_of_constructed _ _ _ _ _ _ _ _ H Hr).
Qed.
Print Assumptions C40_other_fields_copy_restrict.

From Coq Require Import QArith Qreals Reals.

(* INSTANCE INDEPENDENCE.  A map h between two number records that commutes with 0, +, *, -
   and the sign test commutes with every function of the model: constructor (tests
   included), rotate, copy, restriction, whole histories, the fourth-order constructor,
   its copy and restriction. *)
Theorem C40_instance_independence :
  forall (A B : Type) (oa : numops A) (ob : numops B) (h : A -> B),
    h (zero oa) = zero ob ->
    (forall x y, h (add oa x y) = add ob (h x) (h y)) ->
    (forall x y, h (mul oa x y) = mul ob (h x) (h y)) ->
    (forall x y, h (sub oa x y) = sub ob (h x) (h y)) ->
    (forall x, isneg ob (h x) = isneg oa x) ->
    (forall kxx kyy kzz kxy kxz kyz,
       second_order ob (map h kxx) (omap h kyy) (omap h kzz) (omap h kxy) (omap h kxz) (omap h kyz)
       = rmap (map (hm h)) (second_order oa kxx kyy kzz kxy kxz kyz)) /\
    (forall R t, rotate ob (hm h R) (map (hm h) t) = map (hm h) (rotate oa R t)) /\
    (forall t, copy2 ob (map (hm h) t) = rmap (map (hm h)) (copy2 oa t)) /\
    (forall t cells, restrict2 ob (map (hm h) t) cells = rmap (map (hm h)) (restrict2 oa t cells)) /\
    (forall ops_ t, run2 ob (map (hm h) t) (map (hop h) ops_)
                    = map (rmap (map (hm h))) (run2 oa t ops_)) /\
    (forall mu la, fourth_order ob (map h mu) (map h la) = rmap (h4 h) (fourth_order oa mu la)) /\
    (forall t, copy4 ob (h4 h t) = rmap (h4 h) (copy4 oa t)) /\
    (forall t cells, restrict4 ob (h4 h t) cells = rmap (h4 h) (restrict4 oa t cells)).
Proof.
  intros A B oa ob h H0 Ha Hm Hs Hn.
  repeat split; auto using second_order_hom, rotate_hom, copy2_hom, restrict2_hom, run2_hom,
    fourth_order_hom, copy4_hom, restrict4_hom.
Qed.
Print Assumptions C40_instance_independence.

(* ... in particular the rational instance [QOps] executed by the execution correspondence
   is the real-number instance [ROpsT] (sign test by Rlt_dec) on Q2R-embedded data, so the
   ring theorems above (at T = R) speak about what is executed. *)
Theorem C40_transfer_Q_R :
  (forall kxx kyy kzz kxy kxz kyz,
     second_order ROpsT (map Q2R kxx) (omap Q2R kyy) (omap Q2R kzz) (omap Q2R kxy)
                  (omap Q2R kxz) (omap Q2R kyz)
     = rmap (map (hm Q2R)) (second_order QOps kxx kyy kzz kxy kxz kyz)) /\
  (forall ops_ t, run2 ROpsT (map (hm Q2R) t) (map (hop Q2R) ops_)
                  = map (rmap (map (hm Q2R))) (run2 QOps t ops_)) /\
  (forall mu la, fourth_order ROpsT (map Q2R mu) (map Q2R la)
                 = rmap (h4 Q2R) (fourth_order QOps mu la)) /\
  (forall t, copy4 ROpsT (h4 Q2R t) = rmap (h4 Q2R) (copy4 QOps t)) /\
  (forall t cells, restrict4 ROpsT (h4 Q2R t) cells = rmap (h4 Q2R) (restrict4 QOps t cells)).
Proof.
  destruct Q2R_hom as (H0 & Ha & Hm & Hs & Hn).
  repeat split; auto using second_order_hom, run2_hom, fourth_order_hom, copy4_hom, restrict4_hom.
Qed.
Print Assumptions C40_transfer_Q_R.

(* ARGUMENT CHECKS of FourthOrderTensor.__init__: it succeeds exactly for two 1-D numpy
   arrays of equal size (and then is the tensor of C40_fourth_order_symmetric); every other
   combination (non-arrays, 0-d / 2-d arrays, different sizes) raises ValueError. *)
Theorem C40_fourth_order_argument_checks :
  forall (T : Type) (ops : numops T) (mu la : arg T),
    (forall t, fourth_order_checked ops mu la = Ok t ->
       exists dm dl, mu = Arr 1%nat dm /\ la = Arr 1%nat dl /\ length dm = length dl /\
                     fourth_order ops dm dl = Ok t) /\
    (forall e, fourth_order_checked ops mu la = Err e ->
       e = ValueErr /\
       (mu = NotArray \/ la = NotArray \/ (exists n d, mu = Arr n d /\ n <> 1%nat) \/
        (exists n d, la = Arr n d /\ n <> 1%nat) \/
        (exists dm dl, mu = Arr 1%nat dm /\ la = Arr 1%nat dl /\ length dm <> length dl))).
Proof. exact @fourth_order_checked_spec. Qed.
Print Assumptions C40_fourth_order_argument_checks.

(* COPY INDEPENDENCE on the allocation model (Model.C40_heap: which statements of tensor.py
   allocate an array and which bind an existing one).  For any tensor object t whose arrays
   exist: copy() and restrict_to_cells() return objects holding pairwise distinct, freshly
   allocated arrays, none of them an array of t — an in-place write to any array of the
   copy/restriction leaves every array of t unchanged and vice versa; rotate rebinds
   `values` to a new array.  (That the implementation allocates where the model says is
   checked on every run: np.shares_memory matrix vs the model's ids.) *)
Theorem C40_copy_independent :
  forall (s : nat) (t : obj), older s t ->
    (let (c, s') := copy4h s t in
       NoDup (ids c) /\ disjoint t c /\ disjoint c t /\
       forall {V} (hp : nat -> V) v,
         (forall i j, In i (ids c) -> In j (ids t) -> write hp i v j = hp j) /\
         (forall i j, In i (ids t) -> In j (ids c) -> write hp i v j = hp j)) /\
    (let (r, s') := restrict4h s t in
       NoDup (ids r) /\ disjoint t r /\ disjoint r t /\
       forall {V} (hp : nat -> V) v,
         (forall i j, In i (ids r) -> In j (ids t) -> write hp i v j = hp j) /\
         (forall i j, In i (ids t) -> In j (ids r) -> write hp i v j = hp j)) /\
    (let (c, s') := copy2h s t in disjoint t c /\ disjoint c t) /\
    (let (r, s') := restrict2h s t in disjoint t r /\ disjoint r t) /\
    (let (t', s') := rotateh s t in ~ In (o_values t') (ids t) /\ o_fields t' = o_fields t).
Proof.
  intros s t Ht.
  destruct (copy4h_newer s t) as [N1 D1], (restrict4h_newer s t) as [N2 D2],
    (second_order_newer s t) as [N3 N4].
  split; [exact (conj D1 (independent s t _ Ht N1))|].
  split; [exact (conj D2 (independent s t _ Ht N2))|].
  split; [exact (separate s t _ Ht N3)|]. split; [exact (separate s t _ Ht N4)|].
  split; [exact (rotateh_values s t Ht) | reflexivity].
Qed.
Print Assumptions C40_copy_independent.

(* Non-vacuity over the ring of integers: a constructed anisotropic tensor, an orthogonal
   matrix (quarter turn about z), its rotation, a restriction with a negative index. *)
Example C40_nonvacuous :
  let ops := rops Z 0%Z 1%Z Z.add Z.mul Z.sub (fun x => (x <? 0)%Z) in
  let R : m33 Z := ((0, -1, 0), (1, 0, 0), (0, 0, 1))%Z in
  exists t,
    second_order ops [2; 5]%Z (Some [3; 1]%Z) None (Some [1; 2]%Z) None None = Ok t /\
    t = [((2, 1, 0), (1, 3, 0), (0, 0, 2)); ((5, 2, 0), (2, 1, 0), (0, 0, 5))]%Z /\
    orthogonal Z 0%Z 1%Z Z.add Z.mul Z.sub (fun x => (x <? 0)%Z) R /\
    rotate ops R t = [((3, -1, 0), (-1, 2, 0), (0, 0, 2)); ((1, -2, 0), (-2, 5, 0), (0, 0, 5))]%Z /\
    restrict2 ops t [-1; 0]%Z = Ok [((5, 2, 0), (2, 1, 0), (0, 0, 5)); ((2, 1, 0), (1, 3, 0), (0, 0, 2))]%Z /\
    ring_theory 0%Z 1%Z Z.add Z.mul Z.sub Z.opp eq.
Proof.
  cbv zeta. eexists. split; [vm_compute; reflexivity|].
  split; [reflexivity|]. split; [vm_compute; reflexivity|]. split; [vm_compute; reflexivity|].
  split; [vm_compute; reflexivity|]. exact Zth.
Qed.

Example C40_nonvacuous2 :
  fourth_order_checked QOps (Arr 1%nat [1 # 2; 3 # 1]%Q) (Arr 1%nat [2 # 1; 0 # 1]%Q) =
    fourth_order QOps [1 # 2; 3 # 1]%Q [2 # 1; 0 # 1]%Q /\
  (exists t, fourth_order QOps [1 # 2; 3 # 1]%Q [2 # 1; 0 # 1]%Q = Ok t) /\
  fourth_order_checked QOps (Arr 2%nat [1 # 2; 3 # 1]%Q) (Arr 1%nat [2 # 1; 0 # 1]%Q) = Err ValueErr /\
  fourth_order_checked QOps NotArray (Arr 1%nat [2 # 1]%Q) = Err ValueErr /\
  (exists t, second_order QOps [2 # 1]%Q None None (Some [1 # 2]%Q) None None = Ok t /\
             hm Q2R (nth 0 t ((0,0,0),(0,0,0),(0,0,0))%Q) =
             ((Q2R (2 # 1), Q2R (1 # 2), Q2R 0), (Q2R (1 # 2), Q2R (2 # 1), Q2R 0),
              (Q2R 0, Q2R 0, Q2R (2 # 1)))).
Proof.
  split; [reflexivity|]. split; [vm_compute; eexists; reflexivity|].
  split; [reflexivity|]. split; [reflexivity|].
  eexists. split; [vm_compute; reflexivity|]. reflexivity.
Qed.

Example C40_nonvacuous3 :
  let (t, s1) := construct4 3 [0; 1; 2]%nat in
  older s1 t /\ ids t = [3; 0; 1; 2]%nat /\
  fst (copy4h s1 t) = {| o_values := 8; o_fields := [4; 5; 6] |}%nat /\
  agree_alias4 1 (share_matrix [0; 1; 2; 3; 0; 1; 2; 8; 4; 5; 6; 14; 10; 11; 12; 20; 15; 16; 17]%nat) = true.
Proof.
  lazy. repeat split; repeat constructor.
Qed.
