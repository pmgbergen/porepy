(* C14 — property theorems only.  Model: PP.Model.C14 (bookkeeping of subproblems, active
   sets, repetition counts: executable, tied to _fvutils.subproblems /
   cell_ind_for_partial_update on every run); PP.Proofs.C14 (the gluing over the reals).
   The local discretisation kernel is an arbitrary matrix; its locality (on the faces a
   subproblem is responsible for it reproduces the one-piece rows) is the hypothesis
   [local_ok], validated only by the matrix-equality oracle of the harness. *)
From Coq Require Import List Arith Bool Lia Reals.
Import ListNotations.
From PP Require Import Model.C14 Proofs.C14.
Require PP.Proofs.C14_graph.
Local Open Scope R_scope.

(* Gluing: sum over the subproblems of the local results with the rows outside
   faces_in_subgrid zeroed, mapped through l2g_faces (or added directly in the
   "all faces are mine" shortcut), divided by the face repetition count = the one-piece
   discretisation on every face, for any number of subproblems, in any order, and any
   overlap multiplicities (code after `fix: Mpfa.discretize adds ...`). *)
Theorem C14_split_sum :
  forall (G : lmat) (nf : nat) (ps : list part),
    Forall part_ok ps -> Forall (local_ok G) ps ->
    (forall f, (f < nf)%nat -> exists p, In p ps /\ In f (faces_in_subgrid (fst p))) ->
    forall f c, (f < nf)%nat -> assemble nf ps f c = G f c.
Proof. exact split_sum. Qed.
Print Assumptions C14_split_sum.

(* Regression witness: the loop as it was before the repair (the shortcut REPLACED the
   accumulated sum) glues two locally exact subproblems that both cover every face to half
   the exact matrix. *)
Theorem C14_unrepaired_loop_wrong :
  exists (nf : nat) (ps : list part) (f c : nat),
    Forall part_ok ps /\ (f < nf)%nat /\
    assemble_unrepaired nf ps f c <> (fun _ _ => 1) f c /\
    Forall (local_ok (fun _ _ => 1)) ps.
Proof. exact shortcut_overwrites. Qed.
Print Assumptions C14_unrepaired_loop_wrong.

(* Partial update: the rows of the targeted (active) faces equal the rows of the
   one-piece discretisation; in update mode every other row keeps its old value, in
   plain mode every other row is zero. *)
Theorem C14_partial_update :
  forall (G old A : lmat) (ext_faces active : list nat) (update : bool),
    NoDup ext_faces -> (forall f, In f active -> In f ext_faces) ->
    (forall k c, (k < length ext_faces)%nat -> In (nth k ext_faces 0%nat) active ->
       A k c = G (nth k ext_faces 0%nat) c) ->
    forall f c,
      (In f active -> stored update old (to_global ext_faces active A) active f c = G f c) /\
      (~ In f active -> stored true old (to_global ext_faces active A) active f c = old f c) /\
      (~ In f active -> stored false old (to_global ext_faces active A) active f c = 0).
Proof.
  intros G old A ext active update ND SUB L f c.
  assert (E : to_global ext active A f c = if memb f ext && memb f active then G f c else 0).
  { apply contrib_from_spec; [exact ND|]. intros j Hj Hin. apply L; assumption. }
  unfold stored. rewrite E. repeat split; intros Hin.
  - apply SUB in Hin as Hext. apply Proofs.C14_graph.memb_In in Hin, Hext.
    rewrite Hin, Hext. destruct update; reflexivity.
  - destruct (memb f active) eqn:M; [apply Proofs.C14_graph.memb_In in M; contradiction|reflexivity].
  - destruct (memb f active) eqn:M; [apply Proofs.C14_graph.memb_In in M; contradiction|].
    rewrite andb_false_r. reflexivity.
Qed.
Print Assumptions C14_partial_update.

(* one subproblem contributes the global rows of its own faces and nothing else *)
Theorem C14_contribution :
  forall (G : lmat) (p : part) (f c : nat), part_ok p -> local_ok G p ->
    contrib p f c = if memb f (faces_in_subgrid (fst p)) then G f c else 0.
Proof. exact contrib_spec. Qed.
Print Assumptions C14_contribution.

(* np.bincount(concatenate(faces_in_subgrid)) counts the subproblems responsible for f *)
Theorem C14_repetition_count :
  forall (ps : list part) (f : nat), Forall part_ok ps ->
    nth f (num_face_repetitions (map fst ps)) 0%nat = hits f ps.
Proof. exact reps_hits. Qed.
Print Assumptions C14_repetition_count.

(* the boolean certificate [family_ok] that Coq evaluates on every real family of
   subproblems (tie) implies the structural hypotheses of C14_split_sum *)
Theorem C14_certificate_sound :
  forall (nf : nat) (ps : list part), family_ok nf (map fst ps) = true ->
    Forall part_ok ps /\
    (forall f, (f < nf)%nat -> exists p, In p ps /\ In f (faces_in_subgrid (fst p))).
Proof.
  intros nf ps H. unfold family_ok in H. apply andb_true_iff in H. destruct H as [H1 H2]. split.
  - apply Forall_forall. intros p Hp.
    pose proof (proj1 (forallb_forall _ _) H1 (fst p) (in_map fst ps p Hp)) as H.
    apply andb_prop in H as [[N1 N2]%andb_prop S].
    apply Proofs.C14_graph.nodupb_spec in N1, N2.
    exact (conj N1 (conj N2 (proj1 (Proofs.C14_graph.subset_spec _ _) S))).
  - intros f Hf. pose proof (proj1 (ListFacts.forallb_seq _ _) H2 f Hf) as H.
    apply existsb_exists in H. destruct H as [s [Hs M]].
    apply in_map_iff in Hs. destruct Hs as [p [<- Hp]].
    exists p. split; [exact Hp|apply Proofs.C14_graph.memb_In; exact M].
Qed.
Print Assumptions C14_certificate_sound.

(* The family built by _fvutils.subproblems (model) satisfies the certificate for EVERY
   consistent grid, number of parts and partition vector: the structural hypotheses of
   C14_split_sum are theorems about the bookkeeping, not per-case checks. *)
Theorem C14_subproblems_family_ok :
  forall (g : grid) (k : nat) (part : list nat), Proofs.C14_graph.grid_ok g ->
    length part = length (cell_nodes g) ->
    family_ok (length (face_nodes g)) (subproblems g k part) = true.
Proof. exact Proofs.C14_graph.subproblems_family_ok. Qed.
Print Assumptions C14_subproblems_family_ok.

Theorem C14_grid_certificate_sound :
  forall g : grid, grid_okb g = true -> Proofs.C14_graph.grid_ok g.
Proof. exact Proofs.C14_graph.grid_okb_sound. Qed.
Print Assumptions C14_grid_certificate_sound.

(* hence: on every consistent grid, for every partition, local matrices that are exact on
   the faces their subproblem is responsible for glue to the one-piece matrix *)
Theorem C14_split_sum_on_grid :
  forall (G : lmat) (g : grid) (k : nat) (pvec : list nat) (ps : list part),
    grid_okb g = true -> length pvec = length (cell_nodes g) ->
    map fst ps = subproblems g k pvec -> Forall (local_ok G) ps ->
    forall f c, (f < length (face_nodes g))%nat ->
      assemble (length (face_nodes g)) ps f c = G f c.
Proof.
  intros G g k pvec ps GK LP E LO.
  pose proof (Proofs.C14_graph.subproblems_family_ok g k pvec
                (Proofs.C14_graph.grid_okb_sound g GK) LP) as F.
  rewrite <- E in F. destruct (C14_certificate_sound _ ps F) as [OK COV].
  apply split_sum; assumption.
Qed.
Print Assumptions C14_split_sum_on_grid.

(* Locality from the overlap (graph part): in the "nodes" mode used for splitting, every
   cell around every node of an active face is in the subgrid, with all its faces; in the
   "cells" and "faces" modes every cell around every node of an active face is in the
   subgrid.  (That the kernel's rows of a face depend only on these cells stays the
   hypothesis local_ok.) *)
Theorem C14_locality_from_overlap :
  forall (g : grid) (N : list nat) (f v c : nat),
    In f (snd (stencil_nodes g N)) -> In v (nth f (face_nodes g) []) ->
    (c < length (cell_nodes g))%nat -> In v (nth c (cell_nodes g) []) ->
    In c (fst (stencil_nodes g N)) /\
    (forall f', In f' (nth c (cell_faces g) []) -> (f' < length (face_nodes g))%nat ->
                In f' (faces_of_cells g (fst (stencil_nodes g N)))).
Proof.
  intros g N f v c Hf Hv Hc Hvc. cbn [stencil_nodes fst snd] in *.
  apply Proofs.C14_graph.faces_inside_spec in Hf. destruct Hf as [_ Sub].
  assert (Hin : In c (cells_touching g N)).
  { apply Proofs.C14_graph.cells_touching_spec. split; [exact Hc|]. exists v. auto. }
  split; [exact Hin|]. intros f' Hf' Lf'.
  apply Proofs.C14_graph.faces_of_cells_spec. split; [exact Lf'|]. exists c. split; assumption.
Qed.
Print Assumptions C14_locality_from_overlap.

Theorem C14_locality_cells_mode :
  forall (g : grid) (cells : list nat) (f v c : nat), Proofs.C14_graph.grid_ok g ->
    In f (snd (stencil_cells g cells)) -> In v (nth f (face_nodes g) []) ->
    (c < length (cell_nodes g))%nat -> In v (nth c (cell_nodes g) []) ->
    In c (fst (stencil_cells g cells)).
Proof.
  intros g cells f v c GK. apply (Proofs.C14_graph.cells_around_active g _ _ f v c GK).
  intros w Hw. apply Proofs.C14_graph.union_sorted_spec.
  split; [apply Proofs.C14_graph.nodes_of_faces_spec in Hw; apply Hw|right; exact Hw].
Qed.
Print Assumptions C14_locality_cells_mode.

Theorem C14_locality_faces_mode :
  forall (g : grid) (prev faces : list nat) (f v c : nat), Proofs.C14_graph.grid_ok g ->
    In f (snd (stencil_faces g prev faces)) -> In v (nth f (face_nodes g) []) ->
    (c < length (cell_nodes g))%nat -> In v (nth c (cell_nodes g) []) ->
    In c (fst (stencil_faces g prev faces)).
Proof.
  intros g prev faces f v c GK. apply (Proofs.C14_graph.cells_around_active g _ _ f v c GK).
  intros w Hw. apply Proofs.C14_graph.union_sorted_spec.
  split; [apply Proofs.C14_graph.nodes_of_faces_spec in Hw; apply Hw|left; exact Hw].
Qed.
Print Assumptions C14_locality_faces_mode.

(* ---------------------------------------------------------------- non-vacuity *)
Local Close Scope R_scope.

(* 2 x 1 Cartesian grid: 6 nodes, 7 faces, 2 cells, split into its two cells *)
Definition C14_g : grid :=
  {| num_nodes := 6;
     face_nodes := [[0; 3]; [1; 4]; [2; 5]; [0; 1]; [1; 2]; [3; 4]; [4; 5]];
     cell_nodes := [[0; 1; 3; 4]; [1; 2; 4; 5]];
     cell_faces := [[0; 1; 3; 5]; [1; 2; 4; 6]] |}.

Example C14_nonvacuous_family :
  let subs := subproblems C14_g 2 [0; 1] in
  map faces_in_subgrid subs = [[0; 1; 3; 5]; [1; 2; 4; 6]] /\
  map l2g_faces subs = [seq 0 7; seq 0 7] /\
  num_face_repetitions subs = [1; 2; 1; 1; 1; 1; 1] /\
  family_ok 7 subs = true /\
  map eliminate_face subs = [[2; 4; 6]; [0; 3; 5]].
Proof. vm_compute. repeat split; reflexivity. Qed.

Example C14_nonvacuous_glue :
  let G : lmat := fun f c => INR (f + c) in
  let ps : list part := map (fun s => (s, fun k c => G (nth k (l2g_faces s) 0) c))
                            (subproblems C14_g 2 [0; 1]) in
  family_ok 7 (map fst ps) = true /\ Forall (local_ok G) ps.
Proof.
  cbn zeta. split; [vm_compute; reflexivity|].
  repeat constructor; intros k c _ _; reflexivity.
Qed.

Example C14_nonvacuous_grid :
  grid_okb C14_g = true /\ length [0; 1] = length (cell_nodes C14_g) /\
  snd (stencil_nodes C14_g [0; 1; 3; 4]) = [0; 1; 3; 5] /\
  fst (stencil_nodes C14_g [0; 1; 3; 4]) = [0; 1] /\
  stencil_cells C14_g [0] = ([0; 1], [0; 1; 3; 4; 5; 6]) /\
  stencil_faces C14_g [] [0] = ([0; 1], [0; 3; 5]).
Proof. vm_compute. repeat split; reflexivity. Qed.
