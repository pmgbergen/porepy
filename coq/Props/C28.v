(* C28 — property theorems only.  Model: PP.Model.C28 (transcription of segments_2d and
   segments_3d over Q, tolerance tests with norms in squared form); proofs: PP.Proofs.C28,
   PP.Proofs.C28_sqrt. *)
From Coq Require Import List QArith Qabs ZArith Reals Lia.
Import ListNotations.
From PP Require Import Model.C28 Proofs.C28 Proofs.C28_sqrt Proofs.C28_3d Proofs.C28_box.
Open Scope Q_scope.

(* 2-D, full strength: for all integer endpoints with |coordinate| <= 1000 (inbox), both
   segments of non-zero length, tol = 1e-8: segments_2d does not raise and its result is
   exactly seg(a,b) ∩ seg(c,d) —
     None         iff no point lies on both segments,
     one column q iff the common points are exactly q,
     two columns  iff they are distinct and the common points are exactly seg(q1,q2). *)
Theorem C28_2d_correct :
  forall ax ay bx by_ cx cy dx dy : Z,
    inbox ax -> inbox ay -> inbox bx -> inbox by_ ->
    inbox cx -> inbox cy -> inbox dx -> inbox dy ->
    (ax, ay) <> (bx, by_) -> (cx, cy) <> (dx, dy) ->
    correct2 (zpt ax ay) (zpt bx by_) (zpt cx cy) (zpt dx dy)
             (seg2d tol8 (zpt ax ay) (zpt bx by_) (zpt cx cy) (zpt dx dy)).
Proof.
  intros. apply seg2d_correct_separated;
    [apply Qlt_le_weak, tol8_pos|apply zpt_neq..|apply int_separated]; assumption.
Qed.
Print Assumptions C28_2d_correct.

(* 2-D, arbitrary rational endpoints and any tol >= 0: the same conclusion whenever the
   input is away from the tolerance bands, i.e. the decidable guard [separated] holds
   (each tolerance test the code evaluates answers like its exact counterpart). *)
Theorem C28_2d_correct_separated :
  forall (tol : Q) (a b c d : pt2),
    0 <= tol -> ~ peq a b -> ~ peq c d -> separated tol a b c d = true ->
    correct2 a b c d (seg2d tol a b c d).
Proof. exact seg2d_correct_separated. Qed.
Print Assumptions C28_2d_correct_separated.

(* 2-D: independence of argument order (swap the segments, reverse either segment):
   same classification and the same point set. *)
Theorem C28_2d_symmetric :
  forall ax ay bx by_ cx cy dx dy : Z,
    inbox ax -> inbox ay -> inbox bx -> inbox by_ ->
    inbox cx -> inbox cy -> inbox dx -> inbox dy ->
    (ax, ay) <> (bx, by_) -> (cx, cy) <> (dx, dy) ->
    let A := zpt ax ay in let B := zpt bx by_ in let C := zpt cx cy in let D := zpt dx dy in
    same_set (seg2d tol8 A B C D) (seg2d tol8 C D A B) /\
    same_set (seg2d tol8 A B C D) (seg2d tol8 B A C D) /\
    same_set (seg2d tol8 A B C D) (seg2d tol8 A B D C).
Proof.
  intros. apply (correct2_symmetric A B C D); apply C28_2d_correct; assumption || congruence.
Qed.
Print Assumptions C28_2d_symmetric.

(* The squared tolerance tests of the model are the sqrt tests of the code (over R). *)
Theorem C28_squared_tests_equiv :
  (forall tol discr n1 n2 : R, (0 <= tol -> 0 <= n1 -> 0 <= n2 ->
     (Rabs discr < tol * sqrt n1 * sqrt n2 <-> discr * discr < tol * tol * (n1 * n2)))%R) /\
  (forall tol x n1 n2 : R, (0 <= tol -> 0 <= n1 -> 0 <= n2 ->
     (Rabs x < tol * Rmax (sqrt n1) (sqrt n2) <-> x * x < tol * tol * Rmax n1 n2))%R) /\
  (forall tol x n : R, (0 <= tol -> 0 <= n ->
     (Rabs x > tol * sqrt n <-> x * x > tol * tol * n))%R).
Proof.
  split; [exact parallel_test_squared|split; [exact colinear_test_squared|exact axis_test_squared]].
Qed.
Print Assumptions C28_squared_tests_equiv.

(* 3-D: the full statement is FALSE of the faithful model (= of the code, see the tie):
   (1) non-parallel lines whose projection on the axes picked from the non-zero deltas is
       degenerate are reported as not intersecting: (0,0,0)-(2,2,0) x (0,0,-1)-(2,2,1);
   (2) colinear segments sharing one point come back as two identical columns. *)
Theorem C28_3d_correct_refuted :
  (exists a b c d, ~ peq3 a b /\ ~ peq3 c d /\ seg3d tol8 a b c d = R3None /\
                   ~ correct3 a b c d (seg3d tol8 a b c d)) /\
  (exists a b c d q, ~ peq3 a b /\ ~ peq3 c d /\ seg3d tol8 a b c d = R3Cols [q; q] /\
                   ~ correct3 a b c d (seg3d tol8 a b c d)).
Proof. exact seg3d_correct_refuted. Qed.
Print Assumptions C28_3d_correct_refuted.

(* 3-D, what is proved instead (partial: soundness of a reported point only; completeness
   and the classification of overlaps are not provable, see the refutation; missing for a
   guarded full theorem: a 3-D analogue of [separated] excluding degenerate projections,
   and the correctness proof of the parallel branch):  for all rational endpoints and any
   tol > 0, if segments_3d returns a single point q then q lies on segment 1 and within
   tol (max-norm) of a point of segment 2. *)
Theorem C28_3d_point_sound_partial :
  forall tol a0 a1 a2 b0 b1 b2 c0 c1 c2 d0 d1 d2 q,
    0 < tol ->
    seg3d tol [a0; a1; a2] [b0; b1; b2] [c0; c1; c2] [d0; d1; d2] = R3Cols [q] ->
    on_seg3 q [a0; a1; a2] [b0; b1; b2] /\
    exists q', on_seg3 q' [c0; c1; c2] [d0; d1; d2] /\
               forall i, (i < 3)%nat -> Qabs (c3 q i - c3 q' i) < tol.
Proof. exact seg3d_point_sound. Qed.
Print Assumptions C28_3d_point_sound_partial.

(* 3-D, guarded correctness of the point branch (PARTIAL: the guard excludes the whole
   "parallel" branch — i.e. both open defect families AND the correctly handled truly
   parallel inputs, which are covered by C28_3d_box_partial below):  for arbitrary
   rational end points and tol > 0, when the projected-discriminant test does not fire and
   the final |z1 - z2| < tol test answers like z1 == z2 ([sep3], decidable), segments_3d
   returns exactly seg1 ∩ seg2 (None iff disjoint, one column iff that point). *)
Theorem C28_3d_point_branch_correct_partial :
  forall tol a0 a1 a2 b0 b1 b2 c0 c1 c2 d0 d1 d2,
    0 < tol ->
    sep3 tol [a0; a1; a2] [b0; b1; b2] [c0; c1; c2] [d0; d1; d2] = true ->
    correct3 [a0; a1; a2] [b0; b1; b2] [c0; c1; c2] [d0; d1; d2]
             (seg3d tol [a0; a1; a2] [b0; b1; b2] [c0; c1; c2] [d0; d1; d2]).
Proof. exact seg3d_correct_sep. Qed.
Print Assumptions C28_3d_point_branch_correct_partial.

(* the same for integer end points with |coord| <= 1000 and tol = 1e-8, where the guard
   is just: the discriminant in the projection segments_3d picks is not zero. *)
Theorem C28_3d_point_branch_correct_int_partial :
  forall ax ay az bx by_ bz cx cy cz dx dy dz : Z,
    inbox ax -> inbox ay -> inbox az -> inbox bx -> inbox by_ -> inbox bz ->
    inbox cx -> inbox cy -> inbox cz -> inbox dx -> inbox dy -> inbox dz ->
    let A := zpt3 ax ay az in let B := zpt3 bx by_ bz in
    let C := zpt3 cx cy cz in let D := zpt3 dx dy dz in
    ~ proj_discr A B C D == 0 ->
    correct3 A B C D (seg3d tol8 A B C D).
Proof. exact seg3d_correct_int. Qed.
Print Assumptions C28_3d_point_branch_correct_int_partial.

(* 3-D, the whole function on a finite domain, with a guard that excludes EXACTLY the two
   open defect families (PARTIAL: finite box; the reference [isect3_ref] is an exact
   rational intersection routine written in Coq, not the Prop-level spec):  for ALL
   integer end points in {-1,0,1}^3, segments of non-zero length, unless
     family1 — projected discriminant 0 although the lines are not parallel, or
     family2 — parallel (colinear) segments meeting in exactly one point,
   segments_3d returns the same classification and the same points as the exact
   intersection.  Non-parallel directions: the reference meets the Prop-level spec correct3
   for all rational end points (Cramer's rule, Proofs/C28_box.v isect3_ref_nonpar), the model
   is exact by C28_3d_point_branch_correct_int_partial, and two exact answers agree.  Parallel
   directions with c off the line ab: both answer None
   (C28_3d_parallel_offline_correct_partial).  Only the quadruples with all four points on
   one line (2580 of the 27^4) are evaluated. *)
Theorem C28_3d_box_partial :
  forall a b c d : t3,
    inb1 a -> inb1 b -> inb1 c -> inb1 d ->
    let A := q3 a in let B := q3 b in let C := q3 c in let D := q3 d in
    veq A B = false -> veq C D = false ->
    family1 A B C D = false -> family2 A B C D = false ->
    res3_same (seg3d tol8 A B C D) (isect3_ref A B C D) = true.
Proof. exact seg3d_box. Qed.
Print Assumptions C28_3d_box_partial.

(* 3-D, parallel lines that are not the same line (some component of (s2 - s1) x d1 beyond
   tol): for arbitrary rational end points and tol > 0 segments_3d returns None and the
   segments are indeed disjoint.  (PARTIAL: one class of the "parallel" branch; colinear
   inputs are covered by C28_3d_box_partial on the finite box only.) *)
Theorem C28_3d_parallel_offline_correct_partial :
  forall tol a0 a1 a2 b0 b1 b2 c0 c1 c2 d0 d1 d2,
    0 < tol ->
    let u0 := b0 - a0 in let u1 := b1 - a1 in let u2 := b2 - a2 in
    let w0 := d0 - c0 in let w1 := d1 - c1 in let w2 := d2 - c2 in
    u1 * w2 - u2 * w1 == 0 -> u2 * w0 - u0 * w2 == 0 -> u0 * w1 - u1 * w0 == 0 ->
    (tol < Qabs ((c1 - a1) * u2 - (c2 - a2) * u1) \/ tol < Qabs ((c2 - a2) * u0 - (c0 - a0) * u2) \/
     tol < Qabs ((c0 - a0) * u1 - (c1 - a1) * u0)) ->
    seg3d tol [a0; a1; a2] [b0; b1; b2] [c0; c1; c2] [d0; d1; d2] = R3None /\
    correct3 [a0; a1; a2] [b0; b1; b2] [c0; c1; c2] [d0; d1; d2]
             (seg3d tol [a0; a1; a2] [b0; b1; b2] [c0; c1; c2] [d0; d1; d2]).
Proof. exact seg3d_parallel_offline_correct. Qed.
Print Assumptions C28_3d_parallel_offline_correct_partial.

(* Non-vacuity: concrete instances of the hypotheses, with the results. *)
Example C28_nonvacuous_2d :
  inbox 0 /\ inbox 4 /\ (0, 0)%Z <> (4, 4)%Z /\ (0, 4)%Z <> (4, 0)%Z /\
  agree2 (R2Pt (2, 2)) (seg2d tol8 (zpt 0 0) (zpt 4 4) (zpt 0 4) (zpt 4 0)) = true /\
  agree2 (R2Seg (2, 2) (4, 4)) (seg2d tol8 (zpt 0 0) (zpt 4 4) (zpt 2 2) (zpt 6 6)) = true /\
  agree2 (R2Pt (4, 4)) (seg2d tol8 (zpt 0 0) (zpt 4 4) (zpt 4 4) (zpt 6 6)) = true /\
  seg2d tol8 (zpt 0 0) (zpt 4 4) (zpt 1 0) (zpt 5 4) = R2None.
Proof.
  unfold inbox. repeat split; try lia; try discriminate; vm_compute; reflexivity.
Qed.

Example C28_nonvacuous_separated :
  separated tol8 (1 # 2, 0) (3 # 2, 1) (0, 1 # 3) (2, 1 # 3) = true /\
  ~ peq (1 # 2, 0) (3 # 2, 1) /\ ~ peq (0, 1 # 3) (2, 1 # 3) /\
  agree2 (R2Pt (5 # 6, 1 # 3)) (seg2d tol8 (1 # 2, 0) (3 # 2, 1) (0, 1 # 3) (2, 1 # 3)) = true.
Proof.
  split; [vm_compute; reflexivity|]. split; [|split].
  - intros [E _]. vm_compute in E. discriminate.
  - intros [E _]. vm_compute in E. discriminate.
  - vm_compute. reflexivity.
Qed.

Example C28_nonvacuous_3d :
  seg3d tol8 [1; 0; 1] [1; 1; -1] [0; 0; 1] [4; 3; -5] = R3Cols [[4 # 4; 3 # 4; -2 # 4]].
Proof. vm_compute. reflexivity. Qed.

Example C28_nonvacuous_3d_guard :
  sep3 tol8 [1; 0; 1] [1; 1; -1] [0; 0; 1] [4; 3; -5] = true /\
  ~ proj_discr (zpt3 1 0 1) (zpt3 1 1 (-1)) (zpt3 0 0 1) (zpt3 4 3 (-5)) == 0 /\
  inbox (-5) /\ inbox 4.
Proof.
  split; [vm_compute; reflexivity|]. split; [|unfold inbox; lia].
  intro H. vm_compute in H. discriminate.
Qed.

Example C28_nonvacuous_3d_box :
  let a := (-1, -1, -1)%Z in let b := (1, 1, 1)%Z in let c := (0, 0, 0)%Z in let d := (1, 1, 1)%Z in
  inb1 a /\ inb1 b /\ inb1 c /\ inb1 d /\
  veq (q3 a) (q3 b) = false /\ veq (q3 c) (q3 d) = false /\
  family1 (q3 a) (q3 b) (q3 c) (q3 d) = false /\ family2 (q3 a) (q3 b) (q3 c) (q3 d) = false /\
  seg3d tol8 (q3 a) (q3 b) (q3 c) (q3 d) = R3Cols [[0; 0; 0]; [1; 1; 1]] /\
  (* and the two families are inhabited inside the box *)
  family1 (q3 (0, 0, 0)%Z) (q3 (1, 1, 0)%Z) (q3 (0, 0, -1)%Z) (q3 (1, 1, 1)%Z) = true /\
  family2 (q3 (-1, -1, -1)%Z) (q3 (0, 0, 0)%Z) (q3 (0, 0, 0)%Z) (q3 (1, 1, 1)%Z) = true.
Proof.
  cbv zeta. unfold inb1. repeat split; try lia; vm_compute; reflexivity.
Qed.

Example C28_nonvacuous_3d_parallel :
  (* (0,0,0)-(1,2,3) and (0,1,0)-(2,5,6): parallel, not the same line *)
  (2 * 6 - 3 * 4 == 0 /\ 3 * 2 - 1 * 6 == 0 /\ 1 * 4 - 2 * 2 == 0) /\
  tol8 < Qabs ((1 - 0) * 3 - (0 - 0) * 2) /\
  seg3d tol8 [0; 0; 0] [1; 2; 3] [0; 1; 0] [2; 5; 6] = R3None.
Proof. repeat split; vm_compute; reflexivity. Qed.
