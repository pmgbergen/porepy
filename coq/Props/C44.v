(* C44 — property theorems only.  Model: PP.Model.C44 (exact Cyrus-Beck clipping of a
   segment by a convex polygon = intersection of half-planes, over Q; the glue of
   constrain_geometry.lines_by_polygon around shapely, with shapely as Section variables);
   proofs: PP.Proofs.C44.

   A convex polygon is represented by the half-planes to the left of its counter-clockwise
   edges ([polygon_hplanes]); [hval h p <= 0] means p is in the closed half-plane h.
   polygons_by_polyhedron is NOT modelled (oracle only, see harness/props/c44.py). *)
From Coq Require Import List ZArith QArith Sorted.
Import ListNotations.
From PP Require Import Model.C44 Proofs.C44.
Open Scope Q_scope.

(* Exactness: a point p(t), 0 <= t <= 1, of the segment lies in every half-plane (= inside
   the closed convex polygon) IF AND ONLY IF t lies in the interval the clipping returns;
   when no interval is returned no point of the segment is inside.  Any list of
   half-planes, any segment (degenerate ones included). *)
Theorem C44_convex_exact :
  forall (p0 p1 : pt) (hs : list hplane) (t : Q),
    0 <= t -> t <= 1 ->
    ((forall h, In h hs -> hval h (seg_pt p0 p1 t) <= 0)
     <-> match clip p0 p1 hs with Some (t0, t1) => t0 <= t /\ t <= t1 | None => False end).
Proof.
  intros p0 p1 hs t H0 H1. pose proof (fold_spec p0 p1 hs (Some (0, 1)) t) as F.
  unfold in_state in F. unfold clip. tauto.
Qed.
Print Assumptions C44_convex_exact.

(* The returned piece is a sub-segment (0 <= t0 <= t1 <= 1) and every point of it lies
   inside the clipping region. *)
Theorem C44_convex_inside :
  forall (p0 p1 : pt) (hs : list hplane) (t0 t1 : Q),
    clip p0 p1 hs = Some (t0, t1) ->
    0 <= t0 /\ t0 <= t1 /\ t1 <= 1 /\
    forall t, t0 <= t -> t <= t1 -> forall h, In h hs -> hval h (seg_pt p0 p1 t) <= 0.
Proof. exact clip_inside. Qed.
Print Assumptions C44_convex_inside.

(* The glue of lines_by_polygon, for ANY behaviour of shapely: a piece is returned for edge
   ei exactly if it is one of the line parts of poly.intersection(edge ei) — a LineString,
   a member of a MultiLineString, or a LineString member of a GeometryCollection — that
   is non-empty, does not merely touch the polygon and has positive length. *)
Theorem C44_glue_pieces :
  forall (piece : Type) (isect : nat -> geom piece) (nonempty touches poslen : piece -> bool)
         (ne : nat) (p : piece) (ei : nat),
    In (p, ei) (result piece isect nonempty touches poslen ne)
    <-> (ei < ne)%nat /\ In p (lines_of piece (isect ei))
        /\ keep piece nonempty touches poslen p = true.
Proof. exact in_result. Qed.
Print Assumptions C44_glue_pieces.

(* The kept-edge indices are produced in non-decreasing order, so sorting them (as the
   code does before reading the tags) moves nothing: piece number k carries the tags of the
   edge it was cut from. *)
Theorem C44_glue_tags :
  forall (piece : Type) (isect : nat -> geom piece) (nonempty touches poslen : piece -> bool)
         (T : Type) (tag : nat -> T) (ne : nat),
    StronglySorted le (kept piece isect nonempty touches poslen ne) /\
    tags_out piece isect nonempty touches poslen tag ne
    = map (fun r => tag (snd r)) (result piece isect nonempty touches poslen ne).
Proof.
  intros piece isect nonempty touches poslen T tag ne. split.
  - apply kept_sorted.
  - apply tags_follow.
Qed.
Print Assumptions C44_glue_tags.

(* Under shapely's contract (the line parts lie in segment /\ polygon; every point of
   segment /\ polygon is on a line part or is an isolated Point part; isolated points,
   touching pieces and zero-length pieces contain no interior point of the polygon; a piece
   with a point on it is non-empty): every returned piece lies on its edge and inside the
   polygon, and every point of an edge that is interior to the polygon is on a returned
   piece of that edge — also for non-convex polygons. *)
Theorem C44_glue_exact_under_contract :
  forall (piece : Type) (isect : nat -> geom piece) (nonempty touches poslen : piece -> bool)
         (P : Type) (on_piece : piece -> P -> Prop) (on_seg : nat -> P -> Prop)
         (in_poly interior : P -> Prop) (isolated : nat -> P -> Prop),
    (forall ei p x, In p (lines_of piece (isect ei)) -> on_piece p x -> on_seg ei x /\ in_poly x) ->
    (forall ei x, on_seg ei x -> in_poly x ->
                  (exists p, In p (lines_of piece (isect ei)) /\ on_piece p x) \/ isolated ei x) ->
    (forall ei x, isolated ei x -> ~ interior x) ->
    (forall p x, touches p = true -> on_piece p x -> ~ interior x) ->
    (forall p x, poslen p = false -> on_piece p x -> ~ interior x) ->
    (forall p x, on_piece p x -> nonempty p = true) ->
    (forall x, interior x -> in_poly x) ->
    forall ne : nat,
      (forall p ei x, In (p, ei) (result piece isect nonempty touches poslen ne) ->
                      on_piece p x -> on_seg ei x /\ in_poly x) /\
      (forall ei x, (ei < ne)%nat -> on_seg ei x -> interior x ->
                    exists p, In (p, ei) (result piece isect nonempty touches poslen ne)
                              /\ on_piece p x).
Proof.
  intros piece isect nonempty touches poslen P on_piece on_seg in_poly interior isolated
         H1 H2 H3 H4 H5 H6 H7 ne. split.
  - intros p ei x. exact (glue_inside piece isect nonempty touches poslen P on_piece on_seg
                                      in_poly H1 ne p ei x).
  - exact (glue_covers piece isect nonempty touches poslen P on_piece on_seg in_poly interior
                       isolated H2 H3 H4 H5 H6 H7 ne).
Qed.
Print Assumptions C44_glue_exact_under_contract.

(* Non-vacuity: the square [0,4]^2 clips the segment (-2,1)-(6,3) to the parameters
   [1/4, 3/4]; a segment along the bottom edge is dropped (boundary); and a
   GeometryCollection of two lines and a point keeps its two lines (the case of the repaired
   defect). *)
Example C44_nonvacuous :
  let sq := [(0, 0); (4, 0); (4, 4); (0, 4)] in
  (match clip (-2, 1) (6, 3) (polygon_hplanes sq) with
   | Some (a, b) => Qeq_bool a (1 # 4) && Qeq_bool b (3 # 4) | None => false end) = true /\
  length (convex_pieces sq (-2, 1) (6, 3)) = 1%nat /\
  convex_pieces sq (1, 0) (3, 0) = [] /\
  map snd (result nat (fun _ => GColl [PLine 10%nat; PLine 11%nat; PPoint])
                  (fun _ => true) (fun _ => false) (fun _ => true) 1) = [0%nat; 0%nat].
Proof. cbv zeta. repeat split; vm_compute; reflexivity. Qed.
