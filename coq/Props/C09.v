(* C09 — property theorems only.  Model: PP.Model.C09 (statement-by-statement transcription
   of TimeManager.__init__/compute_time_step/increase_time/final_time_reached and of the
   time loop of run_time_dependent_model with after_nonlinear_convergence/failure, written
   once over a record of numeric operations); proofs: PP.Proofs.C09 (instance: exact real
   arithmetic — floating-point rounding is NOT covered by these theorems). *)
From Coq Require Import List ZArith Bool Arith Lia QArith Reals Qreals Lra Sorted PrimFloat.
Import ListNotations.
From PP Require Import Model.C09 Model.C09_ext Proofs.C09 Proofs.C09_transfer Proofs.C09_QR
                       Proofs.C09_const Proofs.C09_boundary.
Local Open Scope R_scope.

(* For EVERY argument tuple the (modelled) constructor accepts with constant_dt=False and
   which in addition has 0 < dt_min and non-negative tolerances, EVERY schedule (any
   length) whose consecutive times are further apart than the isclose tolerance, an initial
   step that fits into the first scheduled interval, and EVERY sequence of solver outcomes
   (converged with an arbitrary iteration count | failed), the time loop satisfies:
   (1) the accepted times (initial time first) strictly increase;
   (2) none exceeds the final time;
   (3) if the loop finishes, every scheduled time is within isclose of an accepted time;
   (4) every state after a non-raising event has dt_min <= dt <= dt_max, or is flagged as
       shortened onto the schedule and has 0 < dt <= dt_max;
   (5) after a failed step the clock is exactly the last accepted time, or the call raised
       (recomputation exhausted / dt == dt_min) and that ended the run;
   (6) nothing else ever raises (in particular no IndexError on the schedule and no
       exception from a converged step). *)
Theorem C09_main :
  forall (a : args R) (sched : list R) (evs : list event)
         (c : cfg R) (tr : list (event * state R * out R)) (st : stop),
    simulate R ROps a sched evs = inl (c, (tr, st)) ->
    a_constant a = false ->
    0 < dt_min c -> 0 <= a_rtol a -> 0 <= a_atol a ->
    well_separated (a_rtol a) (a_atol a) sched ->
    a_dt_init a <= nth 1 sched 0 - nth 0 sched 0 ->
    let t0 := nth 0 sched 0 in
    let acc := t0 :: accepted R tr in
    StronglySorted Rlt acc /\
    Forall (fun t => t <= last sched 0) acc /\
    (st = Finished ->
       forall sj, In sj sched -> exists t, In t acc /\ isclose R ROps c t sj = true) /\
    (forall ev x o, In (ev, x, o) tr -> (forall e, o <> OErr e) ->
       dt_min c <= dt x <= dt_max c \/ (about x = true /\ 0 < dt x <= dt_max c)) /\
    (forall pre x o post, tr = pre ++ (Failed, x, o) :: post ->
       time x = last (accepted R pre) t0 \/
       (exists e, o = OErr e /\ (e = E_recomp_exhausted \/ e = E_dt_at_min) /\
                  post = [] /\ st = Raised e)) /\
    (forall ev x e, In (ev, x, OErr e) tr ->
       ev = Failed /\ (e = E_recomp_exhausted \/ e = E_dt_at_min)) /\
    (forall e, st = Raised e -> e = E_recomp_exhausted \/ e = E_dt_at_min).
Proof.
  intros a sched evs c tr st Hsim Hc Hmin Hrt Hat Hsep Hinit t0 acc.
  destruct (run_facts a sched evs c tr st Hsim Hc Hmin Hrt Hat Hsep Hinit)
    as (HR & Ht0 & Hsort & Hle & Hhit & _).
  unfold acc, t0. rewrite <- Ht0.
  split; [apply Sorted_StronglySorted; [exact Rlt_trans|exact Hsort]|].
  split; [exact Hle|]. split; [exact Hhit|].
  split; [exact (Run_dt_ok c sched _ 1 tr st HR)|].
  split; [exact (Run_rewind c sched _ 1 tr st HR)|].
  exact (Run_errors c sched _ 1 tr st HR).
Qed.
Print Assumptions C09_main.

(* compute_time_step(recompute_solution=True) from ANY state of a non-constant manager:
   raises exactly when the counter of consecutive recomputations has reached recomp_max or
   when dt == dt_min (state untouched); otherwise the clock goes back by exactly the step
   just taken, time_index is decremented and the counter incremented. *)
Theorem C09_failed_attempt :
  forall (c : cfg R) (sched : list R) (x : state R),
    constant c = false ->
    ((recomp_max c <= recomp x)%Z ->
       compute_time_step R ROps c sched x None true = (x, OErr E_recomp_exhausted)) /\
    ((recomp x < recomp_max c)%Z -> dt x = dt_min c ->
       compute_time_step R ROps c sched x None true = (x, OErr E_dt_at_min)) /\
    ((recomp x < recomp_max c)%Z -> dt x <> dt_min c ->
       forall x' o, compute_time_step R ROps c sched x None true = (x', o) ->
         time x' = time x - dt x /\ tidx x' = (tidx x - 1)%Z /\
         recomp x' = (recomp x + 1)%Z /\ (o = ODt (dt x') \/ o = OErr E_index)).
Proof.
  intros c sched x Hc. destruct (compute_failed_raises c sched Hc x) as [H1 H2].
  split; [exact H1|split; [exact H2|]]. intros Hlt Hne x' o E.
  rewrite (compute_failed c sched Hc x Hlt Hne) in E. exact (finish_frame c sched _ _ _ E).
Qed.
Print Assumptions C09_failed_attempt.

(* compute_time_step(iterations=k) from ANY state of a non-constant manager: None and no
   change once the final time is reached; otherwise clock and time index untouched and the
   recomputation counter reset (so the counter counts CONSECUTIVE failures). *)
Theorem C09_converged_attempt :
  forall (c : cfg R) (sched : list R) (x : state R) (k : Z),
    constant c = false ->
    (final_time_reached R ROps c sched x = true ->
       compute_time_step R ROps c sched x (Some k) false = (x, ONone)) /\
    (final_time_reached R ROps c sched x = false ->
       forall x' o, compute_time_step R ROps c sched x (Some k) false = (x', o) ->
         time x' = time x /\ tidx x' = tidx x /\ recomp x' = 0%Z /\
         (o = ODt (dt x') \/ o = OErr E_index)).
Proof.
  intros c sched x k Hc. split; intros Hf.
  - exact (compute_final c sched x k Hf).
  - intros x' o E. destruct (compute_converged c sched Hc x k Hf) as (d & Ed).
    rewrite Ed in E. exact (finish_frame c sched _ _ _ E).
Qed.
Print Assumptions C09_converged_attempt.

(* What an accepting constructor (constant_dt=False) guarantees about the stored
   configuration — the "valid parameters" of C09_main besides its explicit guards. *)
Theorem C09_constructor_validates :
  forall (a : args R) (sched : list R) (c : cfg R),
    construct R ROps a sched = inl c -> a_constant a = false ->
    constant c = false /\ dt_init c = a_dt_init a /\ rtol c = a_rtol a /\ atol c = a_atol a /\
    (2 <= length sched)%nat /\ 0 <= nth 0 sched 0 /\ 0 < dt_init c /\
    dt_min c <= dt_init c /\ dt_init c <= dt_max c /\
    iter_low c = a_iter_low a /\ iter_upp c = a_iter_upp a /\ iter_max c = a_iter_max a /\
    under c = a_under a /\ over c = a_over a /\ recomp_factor c = a_recomp_factor a /\
    recomp_max c = a_recomp_max a /\
    (0 <= iter_low c <= iter_upp c)%Z /\ (iter_upp c <= iter_max c)%Z /\
    under c < 1 /\ 1 < over c /\ dt_min c * over c <= dt_max c /\
    dt_min c <= dt_max c * under c /\ recomp_factor c < 1 /\ (0 < recomp_max c)%Z.
Proof. exact construct_ok. Qed.
Print Assumptions C09_constructor_validates.

(* ---------------- non-vacuity ---------------- *)
(* The regression input of the repaired defect: schedule [0; 1; 3/2], dt_init = dt_max = 1. *)
Definition ex_args : args R :=
  Build_args R 1 false (Some (1 / 10, 1)) 15 4 7 (7 / 10) (13 / 10) (1 / 2) 10
             (1 / 10000000000) 0.
Definition ex_sched : list R := [0; 1; 3 / 2].

Example C09_main_nonvacuous :
  exists c tr st,
    simulate R ROps ex_args ex_sched [Converged 5; Failed; Converged 5; Converged 9]
      = inl (c, (tr, st)) /\
    a_constant ex_args = false /\ 0 < dt_min c /\ 0 <= a_rtol ex_args /\
    0 <= a_atol ex_args /\ well_separated (a_rtol ex_args) (a_atol ex_args) ex_sched /\
    a_dt_init ex_args <= nth 1 ex_sched 0 - nth 0 ex_sched 0.
Proof.
  destruct regression_input_ok as ((c & Ec & Emin) & G1 & G2 & G3 & G4 & G5).
  unfold simulate. fold ex_args ex_sched in Ec. rewrite Ec.
  destruct (drive R ROps c ex_sched (init_state R ROps c ex_sched) _) as [tr st].
  exists c, tr, st. split; [reflexivity|]. rewrite Emin. repeat split; try assumption. lra.
Qed.

Example C09_failed_attempt_nonvacuous :
  let c := Build_cfg R 1 false (1 / 10) 1 15 4 7 (7 / 10) (13 / 10) (1 / 2) 2 0 0 in
  let exhausted := Build_state R 1 (1 / 2) 1%Z 1%Z 2%Z false in
  let retry := Build_state R 1 (1 / 2) 1%Z 1%Z 0%Z false in
  let at_min := Build_state R 1 (1 / 10) 1%Z 1%Z 0%Z false in
  constant c = false /\
  (recomp_max c <= recomp exhausted)%Z /\
  (recomp retry < recomp_max c)%Z /\ dt retry <> dt_min c /\ dt at_min = dt_min c.
Proof. cbn. repeat split; try lia; try lra. Qed.

(* The same regression input executed with the binary64 instance of the model (the instance
   the execution correspondence uses): the repaired code accepts exactly 1.0 and 1.5. *)
Example C09_regression_binary64 :
  match simulate float FOps
          (Build_args float 1%float false (Some ((0x1.999999999999ap-4)%float, 1%float)) 15 4 7
                      (0x1.6666666666666p-1)%float (0x1.4cccccccccccdp+0)%float (0x1.0000000000000p-1)%float 10 (0x1.b7cdfd9d7bdbbp-34)%float (0x1.cd2b297d889bcp-54)%float)
          [0%float; 1%float; (0x1.8000000000000p+0)%float] [Converged 5; Converged 5; Converged 5] with
  | inl (_, (tr, st)) =>
      stop_same st Finished &&
      match accepted float tr with
      | [t1; t2] => PrimFloat.eqb t1 1%float && PrimFloat.eqb t2 (0x1.8000000000000p+0)%float
      | _ => false
      end
  | inr _ => false
  end = true.
Proof. vm_compute. reflexivity. Qed.


(* ======================= constant time step (constant_dt = True) ======================= *)
(* [simulate_full] = the COMPLETE constructor (Model/C09_ext.v adds the np.arange /
   searchsorted / isclose compatibility test of dt_init with the schedule) followed by the
   time loop.  For every accepted argument tuple with constant_dt=True, non-negative
   tolerances and a step more than twice the isclose tolerance (at final time + dt), every
   schedule and every event sequence:
   (1) the k-th accepted time is t0 + (k+1)*dt;  (2) accepted times strictly increase;
   (3) each is <= the final time or within the constructor's tolerance of it;
   (4) if the loop finishes, every scheduled time is within the constructor's tolerance
       (np.isclose(scheduled, simulated): relative to the simulated time) of t0 or of an
       accepted time;
   (5) a failed step raises "did not converge" and ends the run;  (6) converged steps never
       call compute_time_step and nothing else raises. *)
Theorem C09_constant :
  forall (a : args R) (sched : list R) (evs : list event)
         (c : cfg R) (tr : list (event * state R * out R)) (st : stop),
    simulate_full R ROps RExt a sched evs = inl (c, (tr, st)) ->
    a_constant a = true ->
    0 <= a_rtol a -> 0 <= a_atol a ->
    2 * (a_atol a + a_rtol a * Rabs (last sched 0 + a_dt_init a)) < a_dt_init a ->
    let t0 := nth 0 sched 0 in
    let d := a_dt_init a in
    let acc := accepted R tr in
    (forall k, (k < length acc)%nat -> nth k acc 0 = t0 + INR (S k) * d) /\
    StronglySorted Rlt (t0 :: acc) /\
    (forall t, In t acc -> t <= last sched 0 \/ isclose R ROps c (last sched 0) t = true) /\
    (st = Finished ->
       forall sj, In sj sched -> exists t, In t (t0 :: acc) /\ isclose R ROps c sj t = true) /\
    (forall pre x o post, tr = pre ++ (Failed, x, o) :: post ->
       o = OErr E_not_converged /\ post = [] /\ st = Raised E_not_converged) /\
    (forall ev x o, In (ev, x, o) tr ->
       (exists k, ev = Converged k /\ o = OUnit) \/
       (ev = Failed /\ o = OErr E_not_converged /\ st = Raised E_not_converged)) /\
    (forall e, st = Raised e -> e = E_not_converged).
Proof.
  intros a sched evs c tr st Hsim Hc Hrt Hat Htau t0 d acc.
  unfold simulate_full, construct_full in Hsim.
  destruct (construct R ROps a sched) as [c'|e] eqn:Ec; [|discriminate].
  destruct (construct_ok_const a sched c' Ec Hc)
    as (Kc & Kdt & Krt & Kat & Klen & Knn & Kpos & Kinc).
  rewrite Kc in Hsim.
  destruct (compatible R ROps RExt c' sched) eqn:Ecomp; [|discriminate].
  injection Hsim as -> Hd.
  assert (Hrtol : 0 <= rtol c) by (rewrite Krt; exact Hrt).
  assert (Hatol : 0 <= atol c) by (rewrite Kat; exact Hat).
  assert (Hinc : forall j, (S j <= n sched)%nat -> s sched j < s sched (S j)).
  { intros j Hj. apply strictly_increasing_nth; [exact Kinc|]. unfold n in Hj. lia. }
  assert (Hlast : last sched 0 = s sched (n sched)) by apply C09_loop.last_nth.
  assert (Htau' : 2 * tol c (s sched (n sched) + dt_init c) < dt_init c).
  { unfold tol. rewrite Krt, Kat, Kdt, <- Hlast. exact Htau. }
  assert (Ht0 : time (init_state R ROps c sched) = t0) by (destruct sched; reflexivity).
  destruct (const_drive c sched Kc Klen evs (init_state R ROps c sched) _ _ eq_refl Hd)
    as (A & _ & _ & D & E & F).
  destruct (const_run c sched Kc Hrtol Hatol Klen Knn Hinc Kpos Htau' evs
                      (init_state R ROps c sched) tr st eq_refl Ht0 Ecomp Hd) as (HS & Hle & Hhit).
  rewrite Ht0 in A. unfold d. rewrite <- Kdt, Hlast.
  split; [exact A|]. split; [apply Sorted_StronglySorted; [exact Rlt_trans|exact HS]|].
  split; [exact Hle|]. split; [|split; [exact F|split; [exact D|exact E]]].
  intros Hst sj Hin. destruct (In_nth sched sj 0 Hin) as (j & Hj & <-).
  apply (Hhit Hst j). unfold n. lia.
Qed.
Print Assumptions C09_constant.

(* ======================= instance independence ======================= *)
(* For ANY two instances of the operations record and any map h between their carriers
   that commutes with the constants and operations and preserves the comparisons, running
   the whole model (complete constructor, then the time loop) commutes with h. *)
Theorem C09_instance_independence :
  forall (A B : Type) (OA : numops A) (OB : numops B) (XA : numext A) (XB : numext B)
         (h : A -> B),
    morph A B OA OB h -> morph_ext A B XA XB h ->
    forall (a : args A) (sched : list A) (evs : list event),
      simulate_full B OB XB (hargs A B h a) (map h sched) evs
      = match simulate_full A OA XA a sched evs with
        | inr e => inr e
        | inl (c, (tr, st)) => inl (hcfg A B h c, (map (hentry A B h) tr, st))
        end.
Proof. intros A B OA OB XA XB h M MX. apply h_simulate_full; assumption. Qed.
Print Assumptions C09_instance_independence.

(* The exact rational instance (executable; on dyadic inputs where no binary64 operation
   rounds, the execution correspondence checks that it reproduces the implementation's
   numbers) and the real instance (the one C09_main / C09_constant are about) are related
   by such a map, Q2R: what is executed in rational arithmetic IS the run the theorems
   speak about. *)
Theorem C09_rational_runs_are_real_runs :
  (forall (a : args Q) (sched : list Q) (evs : list event),
     simulate R ROps (hargs Q R Q2R a) (map Q2R sched) evs
     = match simulate Q QOps a sched evs with
       | inr e => inr e
       | inl (c, (tr, st)) => inl (hcfg Q R Q2R c, (map (hentry Q R Q2R) tr, st))
       end) /\
  (forall (a : args Q) (sched : list Q) (evs : list event),
     simulate_full R ROps RExt (hargs Q R Q2R a) (map Q2R sched) evs
     = match simulate_full Q QOps QExt a sched evs with
       | inr e => inr e
       | inl (c, (tr, st)) => inl (hcfg Q R Q2R c, (map (hentry Q R Q2R) tr, st))
       end) /\
  (forall (c : cfg Q) (sched : list Q) (s : state Q) (ks : list call),
     run_calls R ROps (hcfg Q R Q2R c) (map Q2R sched) (hstate Q R Q2R s) ks
     = map (hso Q R Q2R) (run_calls Q QOps c sched s ks)).
Proof.
  split; [|split]; intros.
  - apply h_simulate, Q2R_morph.
  - apply h_simulate_full; [exact Q2R_morph|exact Q2R_morph_ext].
  - apply h_run_calls, Q2R_morph.
Qed.
Print Assumptions C09_rational_runs_are_real_runs.

(* ======================= the boundary of C09_main ======================= *)
(* Inputs the constructor ACCEPTS but C09_main's explicit guards exclude.  Dropping exactly
   one guard (all others hold) makes a conclusion of C09_main false; witnesses are computed
   in the rational instance and carried to the reals by the theorem above. *)

(* dt_init larger than the first scheduled interval: the schedule correction yields a
   negative step and the clock runs backwards (schedule [0;1;2], dt_init 3/2: 3/2, 1). *)
Theorem C09_main_without_first_interval_guard_refuted :
  exists (a : args R) (sched : list R) (evs : list event) c tr st,
    simulate R ROps a sched evs = inl (c, (tr, st)) /\
    a_constant a = false /\ 0 < dt_min c /\ 0 <= a_rtol a /\ 0 <= a_atol a /\
    well_separated (a_rtol a) (a_atol a) sched /\
    ~ (a_dt_init a <= nth 1 sched 0 - nth 0 sched 0) /\
    ~ StronglySorted Rlt (nth 0 sched 0 :: accepted R tr) /\
    exists ev x o, In (ev, x, o) tr /\ dt x < 0.
Proof.
  assert (E : exists cq trq, simulate Q QOps w1_args w1_sched w1_evs = inl (cq, (trq, OutOfEvents))
              /\ accepted Q trq = [3 # 2; 1]%Q /\ dt_min cq = (1 # 10)%Q
              /\ exists x o, nth_error trq 0 = Some (Converged 5, x, o) /\ dt x = (-1 # 2)%Q).
  { vm_compute. eexists _, _. split; [reflexivity|]. split; [reflexivity|].
    split; [reflexivity|]. eexists _, _. split; reflexivity. }
  destruct E as (cq & trq & Hs & Hacc & Hmin & x & o & Hx & Hdx).
  destruct (run_from_Q _ _ _ _ _ _ Hs) as [HR HA].
  eexists _, _, _, _, _, _. split; [exact HR|].
  cbn [hargs a_constant a_rtol a_atol a_dt_init w1_args hcfg dt_min map w1_sched nth].
  rewrite Hmin, HA, Hacc. cbn [map].
  repeat split; try q2r.
  - intros j Hj. cbn [length] in Hj. destruct j as [|[|j]]; cbn [nth]; [| |lia]; q2r.
  - apply not_sorted3. q2r.
  - exists (Converged 5), (hstate Q R Q2R x), (hout Q R Q2R o). split.
    + apply nth_error_In with (n := 0%nat). rewrite nth_error_map, Hx. reflexivity.
    + cbn [hstate dt]. rewrite Hdx. q2r.
Qed.
Print Assumptions C09_main_without_first_interval_guard_refuted.

(* two scheduled times within tolerance of each other (schedule [0;1;51/50;3/2],
   rtol 1/20): the loop finishes beyond the final time, which no accepted time is close to *)
Theorem C09_main_without_separation_guard_refuted :
  exists (a : args R) (sched : list R) (evs : list event) c tr,
    simulate R ROps a sched evs = inl (c, (tr, Finished)) /\
    a_constant a = false /\ 0 < dt_min c /\ 0 <= a_rtol a /\ 0 <= a_atol a /\
    a_dt_init a <= nth 1 sched 0 - nth 0 sched 0 /\
    ~ well_separated (a_rtol a) (a_atol a) sched /\
    (exists t, In t (accepted R tr) /\ last sched 0 < t) /\
    (forall t, In t (nth 0 sched 0 :: accepted R tr) ->
       isclose R ROps c t (last sched 0) = false).
Proof.
  assert (E : exists cq trq, simulate Q QOps w2_args w2_sched w2_evs = inl (cq, (trq, Finished))
              /\ accepted Q trq = [1; 2]%Q /\ dt_min cq = (1 # 10)%Q
              /\ rtol cq = (1 # 20)%Q /\ atol cq = 0%Q).
  { vm_compute. eexists _, _. repeat split; reflexivity. }
  destruct E as (cq & trq & Hs & Hacc & Hmin & Hrt & Hat).
  destruct (run_from_Q _ _ _ _ _ _ Hs) as [HR HA].
  eexists _, _, _, _, _. split; [exact HR|].
  cbn [hargs a_constant a_rtol a_atol a_dt_init w2_args hcfg dt_min map w2_sched nth last].
  rewrite Hmin, HA, Hacc. cbn [map].
  repeat split; try q2r.
  - intros H. specialize (H 1%nat ltac:(cbn; lia)). cbn [nth] in H. revert H. q2r.
  - exists (Q2R 2). split; [right; left; reflexivity|q2r].
  - intros t Ht. apply not_true_is_false. intros E.
    apply isclose_iff in E; cbn [hcfg rtol atol]; rewrite ?Hrt, ?Hat; try q2r.
    unfold tol in E. cbn [hcfg rtol atol] in E. rewrite Hrt, Hat in E. revert E.
    destruct Ht as [<-|[<-|[<-|[]]]]; q2r.
Qed.
Print Assumptions C09_main_without_separation_guard_refuted.

(* dt_min = 0 (with the accepted under-relaxation factor 0): dt becomes 0 and the clock
   stops advancing; "0 < dt_min" cannot be weakened to "0 <= dt_min" *)
Theorem C09_main_without_dt_min_guard_refuted :
  exists (a : args R) (sched : list R) (evs : list event) c tr st,
    simulate R ROps a sched evs = inl (c, (tr, st)) /\
    a_constant a = false /\ dt_min c = 0 /\ 0 <= a_rtol a /\ 0 <= a_atol a /\
    well_separated (a_rtol a) (a_atol a) sched /\
    a_dt_init a <= nth 1 sched 0 - nth 0 sched 0 /\
    ~ StronglySorted Rlt (nth 0 sched 0 :: accepted R tr).
Proof.
  assert (E : exists cq trq, simulate Q QOps w3_args w3_sched w3_evs = inl (cq, (trq, OutOfEvents))
              /\ accepted Q trq = [1 # 2; 1 # 2]%Q /\ dt_min cq = 0%Q).
  { vm_compute. eexists _, _. repeat split; reflexivity. }
  destruct E as (cq & trq & Hs & Hacc & Hmin).
  destruct (run_from_Q _ _ _ _ _ _ Hs) as [HR HA].
  eexists _, _, _, _, _, _. split; [exact HR|].
  cbn [hargs a_constant a_rtol a_atol a_dt_init w3_args hcfg dt_min map w3_sched nth].
  rewrite Hmin, HA, Hacc. cbn [map].
  repeat split; try q2r.
  - intros j Hj. cbn [length] in Hj. destruct j as [|j]; cbn [nth]; [|lia]. q2r.
  - apply not_sorted3. q2r.
Qed.
Print Assumptions C09_main_without_dt_min_guard_refuted.

(* non-positive tolerances: np.isclose degenerates to exact equality, i.e. the manager
   behaves as one with zero tolerances (which C09_main covers).  Mixed signs are not
   characterised. *)
Theorem C09_nonpositive_tolerances_mean_equality :
  forall (c : cfg R) (a b : R),
    rtol c <= 0 -> atol c <= 0 -> isclose R ROps c a b = Reqb a b.
Proof.
  intros c a b Hr Ha. unfold isclose; cbn [n_leb n_eqb n_abs n_sub n_add n_mul ROps].
  destruct (Reqb a b) eqn:E; [apply orb_true_r|]. rewrite orb_false_r.
  apply Rleb_false.
  assert (Hab : a <> b).
  { intros ->. unfold Reqb in E. destruct (Req_EM_T b b); [discriminate|contradiction]. }
  pose proof (Rabs_pos_lt (a - b) ltac:(lra)) as H1.
  pose proof (Rabs_pos b) as H2.
  assert (rtol c * Rabs b <= 0).
  { replace (rtol c * Rabs b) with (- ((- rtol c) * Rabs b)) by ring.
    pose proof (Rmult_le_pos (- rtol c) (Rabs b) ltac:(lra) H2). lra. }
  lra.
Qed.
Print Assumptions C09_nonpositive_tolerances_mean_equality.

(* ---------------- non-vacuity of the new theorems ---------------- *)
(* constant step 1/2 on the schedule [0; 1; 3/2]: the complete constructor accepts, the
   hypotheses of C09_constant hold, and the run finishes after exactly three steps *)
Definition exc_args : args Q :=
  Build_args Q (1 # 2)%Q true None 15 4 7 (7 # 10)%Q (13 # 10)%Q (1 # 2)%Q 10
             (1 # 10000000000)%Q 0%Q.
Definition exc_sched : list Q := [0; 1; 3 # 2]%Q.

Example C09_constant_nonvacuous :
  exists c tr,
    simulate_full R ROps RExt (hargs Q R Q2R exc_args) (map Q2R exc_sched)
                  [Converged 1; Converged 1; Converged 1; Converged 1]
      = inl (c, (tr, Finished)) /\
    length (accepted R tr) = 3%nat /\
    a_constant (hargs Q R Q2R exc_args) = true /\
    0 <= a_rtol (hargs Q R Q2R exc_args) /\ 0 <= a_atol (hargs Q R Q2R exc_args) /\
    2 * (a_atol (hargs Q R Q2R exc_args)
         + a_rtol (hargs Q R Q2R exc_args)
           * Rabs (last (map Q2R exc_sched) 0 + a_dt_init (hargs Q R Q2R exc_args)))
      < a_dt_init (hargs Q R Q2R exc_args).
Proof.
  assert (E : exists cq trq,
             simulate_full Q QOps QExt exc_args exc_sched
               [Converged 1; Converged 1; Converged 1; Converged 1] = inl (cq, (trq, Finished))
             /\ length (accepted Q trq) = 3%nat).
  { vm_compute. eexists _, _. split; reflexivity. }
  destruct E as (cq & trq & Hs & Hl).
  eexists _, _. split.
  { rewrite (h_simulate_full Q R QOps ROps QExt RExt Q2R Q2R_morph Q2R_morph_ext), Hs.
    reflexivity. }
  rewrite (h_accepted Q R Q2R), map_length, Hl.
  cbn [hargs a_constant a_rtol a_atol a_dt_init exc_args exc_sched map last].
  repeat split; try (unfold Q2R; cbn [Qnum Qden]; lra).
  unfold Q2R; cbn [Qnum Qden]. rewrite Rabs_pos_eq by lra. lra.
Qed.

(* the homomorphism hypotheses of C09_instance_independence are satisfiable: Q2R *)
Example C09_instance_independence_nonvacuous :
  morph Q R QOps ROps Q2R /\ morph_ext Q R QExt RExt Q2R.
Proof. split; [exact Q2R_morph|exact Q2R_morph_ext]. Qed.

(* the regression input of the repaired defect, executed in exact rational arithmetic *)
Example C09_regression_rational :
  match simulate Q QOps
          (Build_args Q 1%Q false (Some ((1 # 10)%Q, 1%Q)) 15 4 7 (7 # 10)%Q (13 # 10)%Q
                      (1 # 2)%Q 10 (1 # 10000000000)%Q 0%Q)
          [0; 1; 3 # 2]%Q [Converged 5; Converged 5; Converged 5] with
  | inl (_, (tr, st)) =>
      stop_same st Finished &&
      match accepted Q tr with
      | [t1; t2] => Qeq_bool t1 1 && Qeq_bool t2 (3 # 2)
      | _ => false
      end
  | inr _ => false
  end = true.
Proof. vm_compute. reflexivity. Qed.

Example C09_nonpositive_tolerances_nonvacuous :
  let c := Build_cfg R 1 false (1 / 10) 1 15 4 7 (7 / 10) (13 / 10) (1 / 2) 2 (-1) 0 in
  rtol c <= 0 /\ atol c <= 0.
Proof. cbn. split; lra. Qed.
