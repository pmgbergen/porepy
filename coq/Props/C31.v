(* C31 — property theorems only.  Model: PP.Model.C31 (transcription of the predicates of
   geometry_property_checks.py, half_space.py and the orderings of sort_points.py);
   proofs: PP.Proofs.C31. *)
From Coq Require Import List QArith Qabs ZArith Lia.
Import ListNotations.
From Coq Require Import Permutation.
From PP Require Import Model.C28 Model.C31 Proofs.C28 Proofs.C31 Proofs.C31_sort Proofs.C31_pip2 Proofs.C31_line Proofs.C31_polyh Proofs.C31_planar Proofs.C31_plane.
Open Scope Q_scope.

(* is_ccw_polygon: for EVERY polygon (any vertex list) the answer is True exactly when the
   signed (shoelace) area is positive. *)
Theorem C31_ccw_iff_area_positive :
  forall poly : list v2, is_ccw_polygon poly = true <-> 0 < area2 poly.
Proof. exact ccw_iff_area_positive. Qed.
Print Assumptions C31_ccw_iff_area_positive.

(* is_ccw_polyline: strictly left of p1->p2 (beyond tol) => True, strictly right => False,
   within the band => the caller's default. *)
Theorem C31_polyline_side :
  forall tol default p1 p2 p3, 0 <= tol ->
    (tol < cross3 p1 p2 p3 -> is_ccw_polyline tol default p1 p2 p3 = true) /\
    (cross3 p1 p2 p3 < - tol -> is_ccw_polyline tol default p1 p2 p3 = false) /\
    (Qabs (cross3 p1 p2 p3) <= tol -> is_ccw_polyline tol default p1 p2 p3 = default).
Proof. exact polyline_spec. Qed.
Print Assumptions C31_polyline_side.

(* half-space intersection: with as many normals as base points the call does not raise
   and point i is reported inside exactly when it satisfies ALL inequalities
   (p - x0_k).n_k <= 0; with different numbers of columns it raises ValueError. *)
Theorem C31_halfspace :
  (forall ns x0s pts i p,
     length ns = length x0s -> nth_error pts i = Some p ->
     match half_space_int ns x0s pts with
     | HOk bs => nth_error bs i = Some true <->
                 (forall n x0, In (n, x0) (combine ns x0s) -> dot3 (sub3 p x0) n <= 0)
     | HErr _ => False
     end) /\
  (forall ns x0s pts, length ns <> length x0s -> half_space_int ns x0s pts = HErr ValueErr).
Proof. split; [exact half_space_member|exact half_space_shape_error]. Qed.
Print Assumptions C31_halfspace.

(* points_are_collinear (after the fix): fewer than three points are collinear; a set all
   of whose points p_k (k >= 2) have (p_k - p_0) x (p_1 - p_0) = 0 is accepted for every
   tolerance; an accepted set has every such cross product within tol * max(1, diameter)
   (squared form). *)
Theorem C31_collinear :
  (forall tol pts, (length pts <= 2)%nat -> points_are_collinear tol pts = true) /\
  (forall tol p0 p1 q rest,
     let pts := p0 :: p1 :: q :: rest in
     ((forall p, In p (q :: rest) -> zero3 (crs3 (sub3 p p0) (sub3 p1 p0))) ->
      points_are_collinear tol pts = true) /\
     (points_are_collinear tol pts = true ->
      forall p, In p (q :: rest) ->
        let c := crs3 (sub3 p p0) (sub3 p1 p0) in
        dot3 c c <= tol * tol * max_sqdist pts 1)).
Proof. split; [exact collinear_few|exact collinear_spec]. Qed.
Print Assumptions C31_collinear.

(* point_in_polygon (after the fix), convex part: for ANY vertex list and any default,
   a point strictly to the left of every edge (= strictly inside a convex counter-clockwise
   polygon) is reported inside.  PARTIAL: the converse for convex polygons (outside points
   give winding number 0) and the general statement for simple non-convex polygons are not
   proved; they are covered by the finite-domain theorem below, the tie and the oracle. *)
Theorem C31_pip_convex_inside_partial :
  forall default poly p,
    poly <> [] ->
    (forall a b, In (a, b) (combine poly (roll1 poly)) -> 0 < cross3 a b p) ->
    point_in_polygon default poly p = true.
Proof.
  intros default poly p Hne H. rewrite pip_opt_spec, (pip_opt_all_left poly p Hne H). reflexivity.
Qed.
Print Assumptions C31_pip_convex_inside_partial.

(* point_in_polygon, non-convex polygons, finite domain: for the five fixed integer
   polygons (L, U, comb, zig-zag band, clockwise arrow) and ALL integer points with
   -2 <= x, y <= 8 the answer is the even-odd crossing-number test [pip_ref] (exact
   rational ray casting), and the caller's default exactly on the boundary. *)
Theorem C31_pip_nonconvex_boxes :
  forall poly, In poly [poly_L; poly_U; poly_comb; poly_zig; poly_arrow_cw] ->
  forall (x y : Z) (default : bool), (-2 <= x <= 8)%Z -> (-2 <= y <= 8)%Z ->
    point_in_polygon default poly (inject_Z x, inject_Z y)
    = match pip_ref poly (inject_Z x, inject_Z y) with None => default | Some b => b end.
Proof.
  intros poly Hin. apply agree_on_box_lift, (proj1 (Forall_forall _ _) pip_boxes).
  cbn [In] in *. tauto.
Qed.
Print Assumptions C31_pip_nonconvex_boxes.

(* the same finite-domain statement for two further non-convex simple polygons: a 16-vertex
   rectilinear spiral and a 10-vertex star. *)
Theorem C31_pip_nonconvex_boxes_more :
  forall poly, In poly [poly_spiral; poly_star] ->
  forall (x y : Z) (default : bool), (-2 <= x <= 8)%Z -> (-2 <= y <= 8)%Z ->
    point_in_polygon default poly (inject_Z x, inject_Z y)
    = match pip_ref poly (inject_Z x, inject_Z y) with None => default | Some b => b end.
Proof.
  intros poly Hin. apply agree_on_box_lift, (proj1 (Forall_forall _ _) pip_boxes).
  cbn [In] in *. tauto.
Qed.
Print Assumptions C31_pip_nonconvex_boxes_more.

(* point_in_polygon, the other direction: for ANY vertex list, a point that a line through
   it separates strictly from all vertices is reported outside (the winding number the
   code computes telescopes to 0). *)
Theorem C31_pip_separated_outside :
  forall default poly p al be,
    poly <> [] ->
    (forall a, In a poly -> 0 < al * (fst a - fst p) + be * (snd a - snd p)) ->
    point_in_polygon default poly p = false.
Proof.
  intros default poly p al be _ H. rewrite pip_opt_spec, (pip_opt_separated poly p al be H).
  reflexivity.
Qed.
Print Assumptions C31_pip_separated_outside.

(* point_in_polygon on convex counter-clockwise polygons (every vertex on the left of, or
   on, every edge line): strictly left of all edges => inside; strictly right of some
   edge => outside.  (The remaining points lie on the boundary, where the answer is the
   caller's default by the tie/finite-domain theorem only.) *)
Theorem C31_pip_convex :
  forall default poly p,
    poly <> [] ->
    (forall a b v, In (a, b) (combine poly (roll1 poly)) -> In v poly -> 0 <= cross3 a b v) ->
    ((forall a b, In (a, b) (combine poly (roll1 poly)) -> 0 < cross3 a b p) ->
     point_in_polygon default poly p = true) /\
    ((exists a b, In (a, b) (combine poly (roll1 poly)) /\ cross3 a b p < 0) ->
     point_in_polygon default poly p = false).
Proof.
  intros default poly p Hne Hcvx. rewrite pip_opt_spec. split.
  - intro H. rewrite (pip_opt_all_left poly p Hne H). reflexivity.
  - intros (a & b & Hin & Hneg).
    rewrite (pip_opt_convex_outside poly p a b Hneg (fun v Hv => Hcvx a b v Hin Hv)). reflexivity.
Qed.
Print Assumptions C31_pip_convex.

(* sort_point_pairs, loop level: whenever the call succeeds (no AssertionError/IndexError),
   sort_ind is a permutation of 0..n-1, column k of the output is input pair sort_ind[k]
   possibly flipped, consecutive columns chain, and in circular mode with check_circular
   the chain closes.  (Still open: that every single chain/cycle input DOES succeed —
   checked by the oracle.) *)
Theorem C31_chain_valid :
  forall lines chk circ sorted ind,
    sort_point_pairs lines chk circ = SOk sorted ind ->
    let n := length lines in
    (length sorted = n /\ Permutation ind (seq 0 n) /\
    (forall k, k < n -> exists a b, nth_error lines (nth k ind 0) = Some (a, b) /\
                           (nth k sorted dl = (a, b) \/ nth k sorted dl = (b, a))) /\
    (forall k, S k < n -> snd (nth k sorted dl) = fst (nth (S k) sorted dl)) /\
    (circ = true -> chk = true -> fst (nth 0 sorted dl) = snd (nth (n - 1) sorted dl)))%nat.
Proof. exact sort_point_pairs_sound. Qed.
Print Assumptions C31_chain_valid.

(* sort_points_on_line, model level: the index list — stable argsort of the sort keys — is
   a permutation of 0..n-1 listing the keys in non-decreasing order (any input). *)
Theorem C31_sort_on_line_keys :
  forall pts : list v3,
    let idx := sort_points_on_line_idx pts in
    Permutation idx (seq 0 (length pts)) /\
    nondecr (map (fun i => nth i (line_keys pts) 0) idx).
Proof. intro pts. rewrite <- (line_keys_length pts). apply argsort_spec. Qed.
Print Assumptions C31_sort_on_line_keys.

(* sort_points_on_line, end to end on collinear input: for points a + s_i v with v <> 0 that
   do not all coincide, the output is a permutation along which the line parameter s is
   monotone (c * s_i non-decreasing for one c <> 0, i.e. ascending or descending).
   (The rotation of the code is not modelled: the sort key tangent.(p - mean) — z itself when
   the tangent is +-e_z — is what the tie compares the code against.) *)
Theorem C31_sort_on_line_monotone :
  forall a v ss, ss <> [] ->
    ~ (fst (fst v) == 0 /\ snd (fst v) == 0 /\ snd v == 0) ->
    ~ all_eq ss (qsum ss / qlen ss) ->
    let idx := sort_points_on_line_idx (map (lpt a v) ss) in
    Permutation idx (seq 0 (length ss)) /\
    exists c, ~ c == 0 /\ nondecr (map (fun i => c * nth i ss 0) idx).
Proof. exact sort_on_line_monotone. Qed.
Print Assumptions C31_sort_on_line_monotone.

(* points_are_planar(pts, normal=None): compute_normal is modelled (un-normalised cross
   product of the longest centred vector with the one giving the longest cross product).
   Every point set contained in a plane m.p = k (m <> 0) is accepted whenever
   compute_normal does not raise (any tolerances); ValueError exactly for fewer than three
   points.  (Rejection of non-coplanar sets is by the squared-tolerance inequality itself;
   tie + oracle.) *)
Theorem C31_planar_auto :
  (forall tn tol pts m k,
     nonzero3 m -> (forall p, In p pts -> dot3 m p == k) ->
     match points_are_planar_auto tn tol pts with POk b => b = true | _ => True end) /\
  (forall tn tol pts,
     (length pts <= 2)%nat <-> points_are_planar_auto tn tol pts = PValueErr).
Proof. split; [exact planar_auto_accepts|exact planar_auto_too_few]. Qed.
Print Assumptions C31_planar_auto.

(* sort_point_plane, model level: with the rotation onto the xy-plane transcribed exactly
   (unit normal, sin of the rotation angle supplied and checked in the tie) and arctan2 keys
   compared exactly by half-plane sectors and cross products (atan2_ltb), the returned index
   list is a permutation of 0..n-1 along which the arctan2 key never strictly decreases:
   an angular ordering of the points around the centre, cut at angle +-pi.  A point straight
   "below" the centre (first in-plane offset 0, second negative) has the largest key (pi). *)
Theorem C31_sort_plane :
  forall n s pts centre,
    let idx := sort_point_plane n s pts centre in
    Permutation idx (seq 0 (length pts)) /\
    no_descent _ atan2_ltb (map (fun i => nth i (plane_keys n s pts centre) (0, 0)) idx).
Proof.
  intros n s pts centre. rewrite <- (plane_keys_length n s pts centre).
  apply argsort_by_spec, atan2_ltb_asym.
Qed.
Print Assumptions C31_sort_plane.

(* point_in_polyhedron, transcribed decision logic: a test point lying in the supporting
   PLANE of any triangle of the surface (wherever in that plane) makes solid_angle raise,
   and the caller answers "outside". *)
Theorem C31_polyhedron_coplanar_outside :
  forall tol tris p A B C,
    0 < tol -> In (A, B, C) tris ->
    det3 (sub3 A p) (sub3 B p) (sub3 C p) == 0 ->
    pih_decision tol tris p = Some false.
Proof. exact pih_coplanar_outside. Qed.
Print Assumptions C31_polyhedron_coplanar_outside.

(* ... which REFUTES "inside test = exact inside test away from the boundary": for the
   conforming triangulation of the L-shaped prism the point (3,2,1) is strictly interior
   (and the exact ray-parity reference says inside) but lies in the plane y = 2 of far
   triangles, so the decision is "outside" (open finding); a generic interior point is not
   decided by this logic. *)
Theorem C31_polyhedron_refuted :
  let p : v3 := (3, 2, 1) in
  Lprism_interior p /\ pih_ref Lprism_tris p = Some true /\
  pih_decision tol10 Lprism_tris p = Some false /\
  Lprism_interior (13 # 4, 9 # 4, 3 # 4) /\
  pih_decision tol10 Lprism_tris (13 # 4, 9 # 4, 3 # 4) = None /\
  pih_ref Lprism_tris (13 # 4, 9 # 4, 3 # 4) = Some true.
Proof. exact pih_refuted. Qed.
Print Assumptions C31_polyhedron_refuted.

(* sort_point_pairs, completeness in circular mode: if the input IS a single cycle — there
   is a traversal (perm = order of the pairs, os = which pairs are flipped, es = the oriented
   pairs) starting with the first pair as given, consecutive pairs chaining, the chain
   closing, all vertex labels distinct and no pair degenerate — then, in whatever order and
   orientation the pairs are stored, the call succeeds and returns exactly that traversal.
   (PARTIAL only in that the non-circular mode, whose start is chosen through np.bincount,
   is covered by the tie and the oracle, not by a completeness theorem.) *)
Theorem C31_chain_complete_cycle :
  forall lines chk perm os es,
    let n := length lines in
    (Permutation perm (seq 0 n) -> length es = n ->
    (forall k, k < n -> nth k es dl = orient (nth (nth k perm 0) lines dl) (nth k os false)) ->
    (forall k, S k < n -> snd (nth k es dl) = fst (nth (S k) es dl)) ->
    fst (nth 0 es dl) = snd (nth (n - 1) es dl) ->
    NoDup (map fst es) ->
    (forall l, In l lines -> fst l <> snd l) ->
    nth 0 perm 0 = 0 /\ nth 0 os false = false ->
    1 <= n ->
    sort_point_pairs lines chk true = SOk es perm)%nat.
Proof.
  intros lines chk perm os es n Hp Hl He Hc Hcl Hnd Hnl Hs Hn.
  exact (sort_point_pairs_complete_cycle lines perm os es Hp Hl He Hc Hcl Hnd Hnl chk Hs Hn).
Qed.
Print Assumptions C31_chain_complete_cycle.

(* sort_point_pairs, the chaining step (PARTIAL: only the inner-loop link is proved —
   the pair appended at each step is a not-yet-used input pair, possibly flipped, whose
   first entry equals the open end `prev`, and the new open end is its second entry; and
   when nothing is appended no unused pair touches `prev`.  Missing: the loop-level
   invariant that lifts this to "the output is a permutation forming one chain" and
   completeness on every single chain/cycle; both are checked by the exact oracle and the
   model is tied to the code on chains, cycles and broken inputs). *)
Theorem C31_chain_step_partial :
  (forall lines found prev j0 j l np,
     scan lines found prev j0 = Some (j, l, np) ->
     exists k a b,
       j = (j0 + k)%nat /\ nth_error lines k = Some (a, b) /\ nth_error found k = Some false /\
       (l = (a, b) \/ l = (b, a)) /\ fst l = prev /\ np = snd l) /\
  (forall lines found prev j0 k a b,
     scan lines found prev j0 = None ->
     nth_error lines k = Some (a, b) -> nth_error found k = Some false ->
     a <> prev /\ b <> prev).
Proof.
  split; [intros lines found prev j0 j l np H|intros lines found prev j0 k a b H];
    pose proof (scan_cases lines found prev j0) as C; rewrite H in C; [exact C|exact (C k a b)].
Qed.
Print Assumptions C31_chain_step_partial.

(* Non-vacuity. *)
Example C31_nonvacuous_ccw :
  is_ccw_polygon poly_L = true /\ area2 poly_L == 24 /\ is_ccw_polygon (rev poly_L) = false.
Proof. repeat split; vm_compute; reflexivity. Qed.

Example C31_nonvacuous_pip_left :
  let tri := [(0, 0); (4, 0); (0, 4)] in
  tri <> [] /\ (forall a b, In (a, b) (combine tri (roll1 tri)) -> 0 < cross3 a b (1, 1)) /\
  point_in_polygon false tri (1, 1) = true /\ point_in_polygon true tri (3, 3) = false.
Proof.
  cbv zeta. split; [discriminate|]. split; [|split; vm_compute; reflexivity].
  intros a b Hin. cbn in Hin.
  destruct Hin as [E | [E | [E | []]]]; injection E as <- <-; vm_compute; reflexivity.
Qed.

Example C31_nonvacuous_pip_far_edge :
  point_in_polygon false poly_L (3, 2) = true /\ pip_ref poly_L (3, 2) = Some true.
Proof. exact pip_L_far_edge. Qed.

Example C31_nonvacuous_halfspace :
  half_space_int [(0, 1, 0); (1, 0, 0)] [(0, 0, 0); (-1, 0, 0)]
                 [(-1, 2, 0); (-1, -2, 0); (4, -2, 0)] = HOk [false; true; false].
Proof. vm_compute. reflexivity. Qed.

Example C31_nonvacuous_collinear :
  points_are_collinear (1 # 100000) [(0, 0, 0); (1, 0, 0); (0, 1, 0)] = false /\
  points_are_collinear (1 # 100000) [(0, 0, 0); (1, 1, 0); (3, 3, 0); (2, 2, 0)] = true.
Proof. split; vm_compute; reflexivity. Qed.

Example C31_nonvacuous_sort :
  sort_point_pairs [(1, 2); (5, 1); (2, 7); (7, 5)]%Z true true
  = SOk [(1, 2); (2, 7); (7, 5); (5, 1)]%Z [0; 2; 3; 1]%nat /\
  scan [(1, 2); (5, 1); (2, 7); (7, 5)]%Z [true; false; false; false] 2%Z 0%nat
  = Some (2%nat, (2, 7)%Z, 7%Z).
Proof. split; vm_compute; reflexivity. Qed.

Example C31_nonvacuous_separated :
  let sq := [(0, 0); (4, 0); (4, 4); (0, 4)] in
  sq <> [] /\
  (forall a, In a sq -> 0 < (-1) * (fst a - 5) + 0 * (snd a - 2)) /\
  point_in_polygon true sq (5, 2) = false /\
  (forall a b v, In (a, b) (combine sq (roll1 sq)) -> In v sq -> 0 <= cross3 a b v).
Proof.
  cbv zeta. split; [discriminate|]. split; [|split].
  - intros a Hin. cbn in Hin. destruct Hin as [<- | [<- | [<- | [<- | []]]]]; vm_compute; reflexivity.
  - vm_compute. reflexivity.
  - intros a b v Hin Hv. cbn in Hin, Hv.
    destruct Hin as [E | [E | [E | [E | []]]]]; injection E as <- <-;
      destruct Hv as [<- | [<- | [<- | [<- | []]]]]; vm_compute; discriminate.
Qed.

Example C31_nonvacuous_sort_line :
  sort_points_on_line_idx [(0, 0, 0); (2, 2, 0); (1, 1, 0); (-1, -1, 0)] = [3; 0; 2; 1]%nat.
Proof. vm_compute. reflexivity. Qed.

Example C31_nonvacuous_polyhedron :
  In ((2, 2, 0), (0, 2, 0), (0, 2, 2)) Lprism_tris /\
  det3 (sub3 (2, 2, 0) (3, 2, 1)) (sub3 (0, 2, 0) (3, 2, 1)) (sub3 (0, 2, 2) (3, 2, 1)) == 0.
Proof. split; [vm_compute; tauto|vm_compute; reflexivity]. Qed.

Example C31_nonvacuous_sort_line_monotone :
  let ss := [0; 2; 1; -1] in
  ss <> [] /\ ~ all_eq ss (qsum ss / qlen ss) /\
  map (lpt (1, 0, 3) (1, 1, 0)) ss = [(1 + 0 * 1, 0 + 0 * 1, 3 + 0 * 0); (1 + 2 * 1, 0 + 2 * 1, 3 + 2 * 0);
                                      (1 + 1 * 1, 0 + 1 * 1, 3 + 1 * 0); (1 + -1 * 1, 0 + -1 * 1, 3 + -1 * 0)] /\
  sort_points_on_line_idx (map (lpt (1, 0, 3) (1, 1, 0)) ss) = [3; 0; 2; 1]%nat.
Proof.
  cbv zeta. split; [discriminate|]. split; [|split; [reflexivity|vm_compute; reflexivity]].
  intros [E _]. vm_compute in E. discriminate.
Qed.

Example C31_nonvacuous_planar_auto :
  let pts := [(0, 0, 1); (2, 0, 1); (0, 3, 1); (1, 1, 1)] in
  nonzero3 (0, 0, 1) /\ (forall p, In p pts -> dot3 (0, 0, 1) p == 1) /\
  points_are_planar_auto (1 # 100000) (1 # 100000) pts = POk true /\
  points_are_planar_auto (1 # 100000) (1 # 100000) [(0, 0, 1); (2, 0, 1); (0, 3, 1); (1, 1, 2)] = POk false /\
  points_are_planar_auto (1 # 100000) (1 # 100000) [(0, 0, 0); (1, 1, 1); (2, 2, 2)] = PRuntimeErr.
Proof.
  cbv zeta. split; [intros (_ & _ & H); vm_compute in H; discriminate|].
  split; [|repeat split; vm_compute; reflexivity].
  intros p Hin. cbn in Hin. destruct Hin as [<- | [<- | [<- | [<- | []]]]]; vm_compute; reflexivity.
Qed.

Example C31_nonvacuous_spiral :
  point_in_polygon false poly_spiral (7 # 2, 9 # 2) = true /\ point_in_polygon true poly_spiral (6, 4) = false /\
  pip_ref poly_spiral (7 # 2, 9 # 2) = Some true /\ pip_ref poly_spiral (6, 4) = Some false /\
  pip_ref poly_spiral (4, 3) = None.
Proof. repeat split; vm_compute; reflexivity. Qed.

Example C31_nonvacuous_cycle :
  let lines := [(1, 2); (5, 1); (7, 2); (7, 5)]%Z in
  let perm := [0; 2; 3; 1]%nat in let os := [false; true; false; false] in
  let es := [(1, 2); (2, 7); (7, 5); (5, 1)]%Z in
  Permutation perm (seq 0 4) /\
  (forall k, (k < 4)%nat -> nth k es dl = orient (nth (nth k perm 0%nat) lines dl) (nth k os false)) /\
  (forall k, (S k < 4)%nat -> snd (nth k es dl) = fst (nth (S k) es dl)) /\
  fst (nth 0 es dl) = snd (nth 3 es dl) /\ NoDup (map fst es) /\
  (forall l, In l lines -> fst l <> snd l) /\
  sort_point_pairs lines true true = SOk es perm.
Proof.
  cbv zeta. split; [|split; [|split; [|split; [|split; [|split]]]]].
  - apply NoDup_Permutation_bis.
    + repeat constructor; cbn; intuition lia.
    + cbn. lia.
    + intros x Hx. cbn in Hx. cbn. intuition lia.
  - intros k Hk. destruct k as [|[|[|[|k]]]]; try lia; reflexivity.
  - intros k Hk. destruct k as [|[|[|k]]]; try lia; reflexivity.
  - reflexivity.
  - repeat constructor; cbn; intuition congruence.
  - intros l Hl. cbn in Hl. destruct Hl as [<- | [<- | [<- | [<- | []]]]]; cbn; congruence.
  - vm_compute. reflexivity.
Qed.

Example C31_nonvacuous_sort_plane :
  sort_point_plane (0, 0, 1) 0 [(1, 0, 0); (0, 1, 0); (-1, 0, 0); (0, -1, 0); (1, 1, 0)] (0, 0, 0)
  = [2; 1; 4; 0; 3]%nat /\
  atan2_sector (0, -1) = 3%nat /\
  (* a tilted plane: unit normal (3,4,12)/13, sin = 5/13 *)
  agree_plane [1; 0; 2]%nat (3 # 13, 4 # 13, 12 # 13) (5 # 13)
              [(4, -3, 0); (36, 48, -25); (-4, 3, 0)] (0, 0, 0) = true.
Proof. repeat split; vm_compute; reflexivity. Qed.
