(* C29 — property theorems only.  Model: PP.Model.C29 (transcription of
   split_intersecting_segments_2d over Q; segments_2d = PP.Model.C28.seg2d); proofs:
   PP.Proofs.C29 (lists, geometry on a segment, point uniquification), PP.Proofs.C29_main.

   All theorems are for ARBITRARY rational segment sets (any number of segments, any
   tags) and any tol, under the decidable guard [guard tol segs] = "away from the
   tolerance bands": tol > 0, no zero-length segment, every segments_2d call the pipeline
   makes answers like its exact counterpart (C28's [separated]), and any two points handed
   to the point uniquification are equal or at least tol apart.  The tie evaluates the
   guard in Coq on every generated integer case (it holds on all of them).
   [on_seg p a b]: p lies on the closed segment ab;  [peq]: equal coordinates.
   An output edge is (end A, end B, tags, number of the input segment it is mapped to). *)
From Coq Require Import List QArith ZArith.
Import ListNotations.
From PP Require Import Model.C28 Proofs.C28 Model.C29 Proofs.C29 Proofs.C29_main Proofs.C29_full.
Open Scope Q_scope.

(* Under the guard the splitting does not raise. *)
Theorem C29_no_exception :
  forall tol segs, guard tol segs = true -> exists pre out, split tol segs = Edges pre out.
Proof. exact no_raise. Qed.
Print Assumptions C29_no_exception.

(* Every output edge is mapped to an existing input segment, both its ends lie on that
   segment (hence the whole edge, by convexity: see C29_covering, second part) and it
   carries exactly that segment's tags. *)
Theorem C29_children_inside_parent :
  forall tol segs, guard tol segs = true -> forall pre out, split tol segs = Edges pre out ->
  forall e, In e out ->
    exists g, nth_error segs (eP e) = Some g /\
              on_seg (eA e) (sS g) (sE g) /\ on_seg (eB e) (sS g) (sE g) /\ eT e = sT g.
Proof. exact inside. Qed.
Print Assumptions C29_children_inside_parent.

(* The output edges cover exactly the union of the input segments: every point of every
   input segment lies on some output edge, and every point of every output edge lies on
   the input segment the edge is mapped to. *)
Theorem C29_covering :
  forall tol segs, guard tol segs = true -> forall pre out, split tol segs = Edges pre out ->
  (forall k g p, nth_error segs k = Some g -> on_seg p (sS g) (sE g) ->
     exists e, In e out /\ on_seg p (eA e) (eB e)) /\
  (forall e p, In e out -> on_seg p (eA e) (eB e) ->
     exists g, nth_error segs (eP e) = Some g /\ on_seg p (sS g) (sE g)).
Proof.
  exact (fun tol segs G pre out S =>
           conj (cover_sup tol segs G pre out S) (cover_sub tol segs G pre out S)).
Qed.
Print Assumptions C29_covering.

(* No output edge has length zero, and no two output edges (at different positions) have
   the same pair of end points, in either orientation.
   PARTIAL: when the pipeline finds no intersection point at all it returns its input
   unchanged; that this cannot happen for an input containing two geometrically equal
   segments needs the completeness of the bounding-box and side filters for such pairs,
   which is not proved — hence the explicit alternative hypothesis (an intersection point
   was found, or the input segments are pairwise geometrically different).  The exact
   oracle checks the unconditional statement on every generated case. *)
Theorem C29_no_duplicates_partial :
  forall tol segs, guard tol segs = true -> forall pre out, split tol segs = Edges pre out ->
  (forall e, In e out -> ~ peq (eA e) (eB e)) /\
  (new_pts (hits tol segs) <> [] \/
   ForallOrdPairs (fun g1 g2 => ~ seg_same_geom g1 g2) segs ->
   ForallOrdPairs (fun e1 e2 => ~ same_geom e1 e2) out).
Proof.
  exact (fun tol segs G pre out S =>
           conj (proper_out tol segs G pre out S) (fun _ => no_dups_full tol segs G pre out S)).
Qed.
Print Assumptions C29_no_duplicates_partial.

(* Output edges meet only in shared end points.
   PARTIAL — proved: (1) two different output edges mapped to the same input segment, and
   (2) two output edges mapped to input segments i < j whose pair the pipeline handed to
   segments_2d with a one-point answer: any common point is an end point of both.
   MISSING for the full statement: (a) pairs answered with a two-point (collinear
   overlap) result — needs that overlapping parents receive the same split points inside
   the overlap; (b) pairs rejected by the bounding-box / side filters — needs their
   completeness (a rejected pair has no common point other than a shared end point);
   (c) edges whose geometric twin was removed by the edge uniquification are only
   related to the parent they are mapped to.  The exact oracle checks the full statement
   on every generated case. *)
Theorem C29_noncrossing_partial :
  forall tol segs, guard tol segs = true -> forall pre out, split tol segs = Edges pre out ->
  (new_pts (hits tol segs) <> [] ->
   ForallOrdPairs (fun e1 e2 => eP e1 = eP e2 -> forall p,
      on_seg p (eA e1) (eB e1) -> on_seg p (eA e2) (eB e2) ->
      touch_ends p e1 /\ touch_ends p e2) out) /\
  (forall i gi j gj q e1 e2 p,
      In ((i, gi), (j, gj)) (cand_pairs tol segs) ->
      isect_of tol ((i, gi), (j, gj)) = R2Pt q ->
      In e1 out -> In e2 out -> eP e1 = i -> eP e2 = j ->
      on_seg p (eA e1) (eB e1) -> on_seg p (eA e2) (eB e2) ->
      touch_ends p e1 /\ touch_ends p e2).
Proof.
  exact (fun tol segs G pre out S =>
           conj (nc_same_parent tol segs G pre out S) (nc_point_pair tol segs G pre out S)).
Qed.
Print Assumptions C29_noncrossing_partial.

(* The guard's per-call condition is C28's [separated] (same definition). *)
Theorem C29_guard_uses_C28_separated :
  forall tol a b c d, sep2d tol a b c d = separated tol a b c d.
Proof. exact sep2d_eq. Qed.
Print Assumptions C29_guard_uses_C28_separated.

(* ---------------------------------------------------------------------------------------
   Second round: the two partial theorems above are closed. *)

(* No duplicates, without side condition: no output edge has length zero and no two output
   edges have the same pair of end points in either orientation.  (When the pipeline
   returns its input unchanged, two geometrically equal input segments cannot be present:
   they are collinear, so the side filter keeps the pair, their boxes overlap, and
   segments_2d answers with at least one point.) *)
Theorem C29_no_duplicates :
  forall tol segs, guard tol segs = true -> forall pre out, split tol segs = Edges pre out ->
  (forall e, In e out -> ~ peq (eA e) (eB e)) /\
  ForallOrdPairs (fun e1 e2 => ~ same_geom e1 e2) out.
Proof.
  exact (fun tol segs G pre out S =>
           conj (proper_out tol segs G pre out S) (no_dups_full tol segs G pre out S)).
Qed.
Print Assumptions C29_no_duplicates.

(* Non-crossing, full statement: any point common to two output edges (at different
   positions of the output) is an end point of both.  Under [guard2] = [guard] plus: the two
   scalar distance tests of the side filter answer like their exact counterparts
   (decidable, evaluated by the tie on every case).  The proof covers what was missing:
   completeness of the bounding-box filter and of the side filter (a rejected pair has no
   common point other than a common end point — including the branches taken when all
   others start/end at the main's start), pairs answered with a collinear overlap (both
   parents receive the same split points inside the overlap, also those coming from third
   segments, so their children there coincide and are uniquified), and the branch that
   returns the input unchanged. *)
Theorem C29_noncrossing :
  forall tol segs, guard2 tol segs = true -> forall pre out, split tol segs = Edges pre out ->
  ForallOrdPairs (fun e1 e2 => forall p,
    on_seg p (eA e1) (eB e1) -> on_seg p (eA e2) (eB e2) ->
    touch_ends p e1 /\ touch_ends p e2) out.
Proof. exact nc_full. Qed.
Print Assumptions C29_noncrossing.

(* The stronger guard implies the guard of all the other theorems. *)
Theorem C29_guard2_implies_guard :
  forall tol segs, guard2 tol segs = true -> guard tol segs = true.
Proof. exact guard2_guard. Qed.
Print Assumptions C29_guard2_implies_guard.

(* Non-vacuity: a crossing, a T-junction, a collinear overlap and a shared end point;
   the guard holds, 10 children before and 8 edges after uniquification; the pair (0,1)
   is a candidate answered with the single point (2,2). *)
Definition ex_segs : list seg :=
  [ ((0, 0), (4, 4), [7%Z]);  ((0, 4), (4, 0), [8%Z]);  ((2, 2), (2, 0), [9%Z]);
    ((1, 1), (3, 3), [5%Z]);  ((4, 4), (4, 0), [6%Z]) ].

Example C29_nonvacuous :
  guard tol8 ex_segs = true /\ guard2 tol8 ex_segs = true /\
  (exists pre out, split tol8 ex_segs = Edges pre out /\ length pre = 10%nat /\ length out = 8%nat) /\
  new_pts (hits tol8 ex_segs) <> [] /\
  (exists gi gj, In ((0%nat, gi), (1%nat, gj)) (cand_pairs tol8 ex_segs) /\
                 exists q, isect_of tol8 ((0%nat, gi), (1%nat, gj)) = R2Pt q /\ peq q (2, 2)).
Proof.
  split; [vm_compute; reflexivity|]. split; [vm_compute; reflexivity|]. split; [|split].
  - assert (L : match split tol8 ex_segs with
                | Edges p o => (length p =? 10)%nat && (length o =? 8)%nat
                | Raised _ => false end = true) by (vm_compute; reflexivity).
    destruct (split tol8 ex_segs) as [pre out|e]; [|discriminate L].
    apply andb_prop in L. destruct L as [L1 L2]. apply Nat.eqb_eq in L1, L2.
    exists pre, out. auto.
  - intro E. assert (L : match new_pts (hits tol8 ex_segs) with [] => true | _ => false end = false)
      by (vm_compute; reflexivity). rewrite E in L. discriminate.
  - exists ((0, 0), (4, 4), [7%Z]), ((0, 4), (4, 0), [8%Z]).
    split.
    + assert (L : existsb (fun pr => (fst (fst pr) =? 0)%nat && (fst (snd pr) =? 1)%nat)
                          (cand_pairs tol8 ex_segs) = true) by (vm_compute; reflexivity).
      apply existsb_exists in L. destruct L as [[[i gi] [j gj]] [Hin L]].
      cbn [fst snd] in L. apply andb_prop in L. destruct L as [L1 L2].
      apply Nat.eqb_eq in L1, L2. subst.
      destruct (C29_nc.cand_indexed _ _ _ _ _ _ Hin) as [Hi Hj].
      apply in_indexed in Hi, Hj. cbn in Hi, Hj. inversion Hi; inversion Hj; subst. exact Hin.
    + eexists. split; [vm_compute; reflexivity|]. split; vm_compute; reflexivity.
Qed.
