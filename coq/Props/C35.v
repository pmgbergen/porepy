(* C35 — property theorems only.  Models: PP.Lib.Csr (compressed storage and its dense
   reference), PP.Model.C35 (transcription of the utilities); proofs: PP.Proofs.C35*.
   A csc matrix is the same record read column-wise: "line" = row (csr) / column (csc),
   [to_dense] lists the lines, i.e. it is the dense matrix (csr) or its transpose (csc). *)
From Coq Require Import List ZArith Arith Lia.
Import ListNotations.
From PP Require Import Lib.Csr Model.C35 Proofs.C35 Proofs.C35_rl Proofs.C35_csr Proofs.C35_zero Proofs.C35_merge Proofs.C35_bdi Proofs.C35_blocks Proofs.C35_sqblocks.

(* expand_index_pointers(lo, hi) is the concatenation of np.arange(lo_k, hi_k) over all k,
   for integer bounds of any sign and any order (empty ranges where hi_k <= lo_k),
   for arrays of any equal length (the cumulative-sum construction in the code). *)
Theorem C35_expand_index_pointers :
  forall lo hi : list Z, length lo = length hi ->
    expand_index_pointers lo hi
    = Ok (flat_map (fun p => zrange (fst p) (snd p)) (combine lo hi)).
Proof. exact expand_main. Qed.
Print Assumptions C35_expand_index_pointers.

(* a single lower (upper) bound is broadcast against all upper (lower) bounds *)
Theorem C35_expand_broadcast_lo :
  forall (a : Z) (hi : list Z), length hi <> 1 ->
    expand_index_pointers [a] hi = Ok (flat_map (fun h => zrange a h) hi).
Proof. intros a hi _. apply expand_lo. Qed.
Print Assumptions C35_expand_broadcast_lo.

Theorem C35_expand_broadcast_hi :
  forall (lo : list Z) (b : Z), length lo <> 1 ->
    expand_index_pointers lo [b] = Ok (flat_map (fun l => zrange l b) lo).
Proof. intros lo b _. apply expand_hi. Qed.
Print Assumptions C35_expand_broadcast_hi.

(* any other length mismatch is rejected with ValueError *)
Theorem C35_expand_mismatch :
  forall lo hi : list Z, length lo <> 1 -> length hi <> 1 -> length lo <> length hi ->
    expand_index_pointers lo hi = Err ValueErr.
Proof.
  intros lo hi H1 H2 H3. rewrite (expand_bcast lo hi lo hi) by (apply bcast_id; intros E; contradiction).
  apply Nat.eqb_neq in H3. rewrite H3. reflexivity.
Qed.
Print Assumptions C35_expand_mismatch.

(* rldecode(A, n) = np.repeat(A[:len(n)], max(n, 0)) for every element type, all counts
   (zero and negative counts contribute nothing), A at least as long as n. *)
Theorem C35_rldecode :
  forall (T : Type) (A : list T) (n : list Z), length n <= length A ->
    rldecode A n = Ok (flat_map (fun ac => repeat (fst ac) (Z.to_nat (snd ac))) (combine A n)).
Proof. exact rldecode_spec. Qed.
Print Assumptions C35_rldecode.

(* rlencode of any non-empty sequence of columns (any column type with a sound equality
   test): decoding the result restores the input, every count is positive and
   neighbouring encoded columns differ (the encoding is the maximal compression). *)
Theorem C35_rlencode_roundtrip :
  forall (T : Type) (eqb : T -> T -> bool), (forall x y, eqb x y = true -> x = y) ->
  forall l : list T, l <> [] ->
    exists v num, rlencode eqb l = Ok (v, num) /\ rldecode v num = Ok l /\
                  length v = length num /\ Forall (fun c => 1 <= c)%Z num /\
                  forallb (fun b => b) (neq_adj T eqb v) = true.
Proof.
  intros T eqb Heq l H. eexists. eexists. split; [apply rlencode_spec; exact H|].
  split; [|split; [|split]].
  - rewrite rldecode_spec, (decode_runs T eqb Heq) by (rewrite ?diffZ_length, ?map_length; lia).
    destruct l; [congruence|]. reflexivity.
  - rewrite diffZ_length, !map_length. reflexivity.
  - apply counts_positive. lia.
  - apply runs_distinct. exact Heq.
Qed.
Print Assumptions C35_rlencode_roundtrip.

(* slice_sparse_matrix: for every well-formed matrix (unsorted / duplicate minor indices,
   empty lines, stored zeros) and every list of valid line numbers (any order, repeats
   allowed) the result's stored lines are exactly the selected lines of A, entry by
   entry in storage order ... *)
Theorem C35_slice_rows :
  forall (A : csr) (ind : list nat), wf A = true -> Forall (fun i => i < nmaj A) ind ->
    exists S, slice_sparse_matrix A ind = Ok S /\
              nmaj S = length ind /\ nmin S = nmin A /\
              rows S = map (fun i => nth i (rows A) []) ind.
Proof.
  intros A ind Hwf H. destruct (slice_repr A ind Hwf H) as [S [E [Hj [Hn R]]]].
  exists S. repeat split; try assumption. apply repr_rows, R.
Qed.
Print Assumptions C35_slice_rows.

(* ... hence its dense form is the dense A[ind, :] (csr) resp. A[:, ind] (csc) *)
Theorem C35_slice_dense :
  forall (A : csr) (ind : list nat), wf A = true -> Forall (fun i => i < nmaj A) ind ->
    exists S, slice_sparse_matrix A ind = Ok S /\
              to_dense S = map (fun i => nth i (to_dense A) (dense_row (nmin A) [])) ind.
Proof.
  intros A ind Hwf H. destruct (C35_slice_rows A ind Hwf H) as [S [E [_ [Hm Hr]]]].
  exists S. split; [exact E|]. unfold to_dense. rewrite Hr, Hm, map_map.
  apply map_ext. intros i. symmetry. apply (map_nth (dense_row (nmin A))).
Qed.
Print Assumptions C35_slice_dense.

(* a line number outside the matrix is an IndexError *)
Theorem C35_slice_error :
  forall (A : csr) (ind : list nat), ~ Forall (fun i => i < nmaj A) ind ->
    slice_sparse_matrix A ind = Err IndexErr.
Proof.
  intros A ind H. rewrite <- lines_ok_Forall in H. apply Bool.not_true_is_false in H.
  unfold slice_sparse_matrix. rewrite H. reflexivity.
Qed.
Print Assumptions C35_slice_error.

(* slice_indices returns the minor indices of the selected lines and their positions *)
Theorem C35_slice_indices :
  forall (A : csr) (ind : list nat), wf A = true -> Forall (fun i => i < nmaj A) ind ->
    exists ix ai, slice_indices A ind = Ok (ix, ai) /\
      ix = map fst (concat (map (fun i => nth i (rows A) []) ind)) /\
      ai = flat_map (fun i => seq (nth i (indptr A) 0) (nth (S i) (indptr A) 0 - nth i (indptr A) 0)) ind.
Proof.
  intros A ind Hwf H. pose proof (wf_wfP A Hwf) as W.
  unfold slice_indices. rewrite (proj2 (lines_ok_Forall A ind) H). cbn [negb].
  eexists. eexists. split; [reflexivity|]. split; [|apply array_ind_spec].
  rewrite <- sliced_entries by assumption. unfold entries, gather. rewrite map_map.
  apply map_ext. intros k. rewrite combine_nth by (symmetry; apply (wf_data A W)). reflexivity.
Qed.
Print Assumptions C35_slice_indices.

(* stack_mat appends the lines of B to those of A (vstack for csr, hstack for csc) *)
Theorem C35_stack_mat_rows :
  forall A B : csr, wf A = true -> wf B = true -> nmin A = nmin B ->
    exists C, stack_mat A B = Ok C /\ nmin C = nmin A /\ rows C = rows A ++ rows B.
Proof.
  intros A B HA HB Hn. pose proof (wf_wfP A HA) as WA. pose proof (wf_wfP B HB) as WB.
  unfold stack_mat. rewrite (proj2 (Nat.eqb_eq _ _) Hn). cbn [negb].
  destruct (length (indptr B) =? 1) eqn:E.
  - exists A. split; [reflexivity|split; [reflexivity|]].
    apply Nat.eqb_eq in E. unfold rows at 3.
    destruct (indptr B) as [|z [|z' r]]; try discriminate. cbn [rows_of]. symmetry. apply app_nil_r.
  - eexists. split; [reflexivity|]. split; [reflexivity|].
    apply (stacked_rows A B (indices B) (rows B) WA WB (wf_entries B WB) eq_refl).
Qed.
Print Assumptions C35_stack_mat_rows.

Theorem C35_stack_mat_dense :
  forall A B : csr, wf A = true -> wf B = true -> nmin A = nmin B ->
    exists C, stack_mat A B = Ok C /\ to_dense C = to_dense A ++ to_dense B.
Proof.
  intros A B HA HB Hn. destruct (C35_stack_mat_rows A B HA HB Hn) as [C [E [Hm Hr]]].
  exists C. split; [exact E|]. unfold to_dense. rewrite Hr, Hm, map_app, Hn. reflexivity.
Qed.
Print Assumptions C35_stack_mat_dense.

Theorem C35_stack_mat_mismatch :
  forall A B : csr, nmin A <> nmin B -> stack_mat A B = Err ValueErr.
Proof. intros A B H. unfold stack_mat. apply Nat.eqb_neq in H. rewrite H. reflexivity. Qed.
Print Assumptions C35_stack_mat_mismatch.

(* stack_diag: the lines of A, then the lines of B with shifted minor indices ... *)
Theorem C35_stack_diag_rows :
  forall A B : csr, wf A = true -> wf B = true ->
    rows (stack_diag A B) = rows A ++ map (map (shift_entry (nmin A))) (rows B).
Proof.
  intros A B HA HB. pose proof (wf_wfP B HB) as WB.
  apply stacked_rows; [apply wf_wfP, HA|exact WB| |apply map_length_map].
  rewrite shifted_entries. fold (entries B). rewrite (wf_entries B WB). apply concat_map.
Qed.
Print Assumptions C35_stack_diag_rows.

(* ... i.e. densely [[A, 0], [0, B]], also when A or B has no lines or no minor extent *)
Theorem C35_stack_diag_dense :
  forall A B : csr, wf A = true -> wf B = true ->
    to_dense (stack_diag A B)
    = map (fun row => row ++ repeat 0%Z (nmin B)) (to_dense A)
      ++ map (fun row => repeat 0%Z (nmin A) ++ row) (to_dense B).
Proof.
  intros A B HA HB. unfold to_dense at 1. rewrite C35_stack_diag_rows by assumption.
  change (nmin (stack_diag A B)) with (nmin A + nmin B).
  rewrite map_app. unfold to_dense. rewrite !map_map. f_equal.
  - apply map_ext_in. intros row Hr. apply dense_row_pad_r, (rows_minor A row (wf_wfP A HA) Hr).
  - apply map_ext. intros row. apply dense_row_pad_l.
Qed.
Print Assumptions C35_stack_diag_dense.

(* rldecode for operands of any length: np.repeat over the common prefix as long as no
   positive count lies beyond the end of A, IndexError otherwise *)
Theorem C35_rldecode_general :
  forall (T : Type) (A : list T) (n : list Z),
    rldecode A n
    = if forallb nonpos (skipn (length A) n)
      then Ok (flat_map (fun ac => repeat (fst ac) (Z.to_nat (snd ac))) (combine A n))
      else Err IndexErr.
Proof. exact rldecode_any. Qed.
Print Assumptions C35_rldecode_general.

(* zero_rows (csr) / zero_columns (csc): the entries of the selected lines (any order,
   repeats) get the value 0, every other entry and the structure are untouched ... *)
Theorem C35_zero_lines_rows :
  forall (A : csr) (ind : list nat), wf A = true -> Forall (fun l => l < nmaj A) ind ->
    exists Z0, zero_lines A ind = Ok Z0 /\
      nmaj Z0 = nmaj A /\ nmin Z0 = nmin A /\ indptr Z0 = indptr A /\ indices Z0 = indices A /\
      rows Z0 = map (fun i => if existsb (Nat.eqb i) ind then map zero_entry (nth i (rows A) [])
                              else nth i (rows A) []) (seq 0 (nmaj A)).
Proof. exact zero_lines_rows. Qed.
Print Assumptions C35_zero_lines_rows.

(* ... densely: A[ind, :] = 0 (csr) resp. A[:, ind] = 0 (csc) *)
Theorem C35_zero_lines_dense :
  forall (A : csr) (ind : list nat), wf A = true -> Forall (fun l => l < nmaj A) ind ->
    exists Z0, zero_lines A ind = Ok Z0 /\ indptr Z0 = indptr A /\ indices Z0 = indices A /\
      to_dense Z0 = map (fun i => if existsb (Nat.eqb i) ind then repeat 0%Z (nmin A)
                                  else nth i (to_dense A) []) (seq 0 (nmaj A)).
Proof.
  intros A ind Hwf Hind. destruct (C35_zero_lines_rows A ind Hwf Hind) as [Z0 [E [_ [Hm [Hp [Hi Hr]]]]]].
  exists Z0. split; [exact E|split; [exact Hp|split; [exact Hi|]]].
  unfold to_dense at 1. rewrite Hr, Hm, map_map. apply map_ext_in. intros i Hin. apply in_seq in Hin.
  destruct (existsb (Nat.eqb i) ind); [apply dense_row_zeroed|].
  symmetry. apply nth_to_dense; [apply wf_wfP, Hwf|lia].
Qed.
Print Assumptions C35_zero_lines_dense.

Theorem C35_zero_lines_error :
  forall (A : csr) (ind : list nat), ~ Forall (fun l => l < nmaj A) ind ->
    zero_lines A ind = Err IndexErr.
Proof.
  intros A ind H. rewrite <- lines_ok_Forall in H. apply Bool.not_true_is_false in H.
  unfold zero_lines. rewrite H. reflexivity.
Qed.
Print Assumptions C35_zero_lines_error.

(* expand_indices_nd: the ravel (order F / C) of the broadcast array nd*ind + arange(nd)[:,None]
   is, per index, its nd components (F) resp. per component all indices (C) *)
Theorem C35_expand_indices_nd_F :
  forall (ind : list Z) (nd : nat),
    expand_indices_nd ind nd true
    = flat_map (fun i => map (fun d => (Z.of_nat nd * i + Z.of_nat d)%Z) (seq 0 nd)) ind.
Proof.
  intros ind nd. unfold expand_indices_nd. destruct (nd =? 1) eqn:E.
  - apply Nat.eqb_eq in E. subst nd. cbn [seq map].
    induction ind as [|i ind IH]; [reflexivity|]. cbn [flat_map app]. rewrite <- IH. f_equal. lia.
  - apply (ravel_f_rows (fun d i => (Z.of_nat nd * i + Z.of_nat d)%Z)).
Qed.
Print Assumptions C35_expand_indices_nd_F.

Theorem C35_expand_indices_nd_C :
  forall (ind : list Z) (nd : nat),
    expand_indices_nd ind nd false
    = flat_map (fun d => map (fun i => (Z.of_nat nd * i + Z.of_nat d)%Z) ind) (seq 0 nd).
Proof.
  intros ind nd. unfold expand_indices_nd. destruct (nd =? 1) eqn:E.
  - apply Nat.eqb_eq in E. subst nd. cbn [seq flat_map]. rewrite app_nil_r.
    induction ind as [|i ind IH]; [reflexivity|]. cbn [map]. rewrite <- IH. f_equal. lia.
  - unfold ravel_c. rewrite flat_map_concat_map. reflexivity.
Qed.
Print Assumptions C35_expand_indices_nd_C.

(* expand_indices_add_increment: every value followed by its n-1 incremented repetitions *)
Theorem C35_expand_indices_add_increment :
  forall (x : list Z) (n : nat) (incr : Z),
    expand_indices_add_increment x n incr
    = flat_map (fun v => map (fun k => (v + incr * Z.of_nat k)%Z) (seq 0 n)) x.
Proof. intros x n incr. apply (ravel_f_rows (fun k v => (v + incr * Z.of_nat k)%Z)). Qed.
Print Assumptions C35_expand_indices_add_increment.

(* merge_matrices (as repaired): for every well-formed A and B with the same minor extent
   and every list of distinct valid line numbers IN ANY ORDER, line lines[k] of the result is
   line k of B, every other line is the line of A, entry by entry in storage order
   ([merged_line] looks a line number up in the association list lines ~ lines of B) ... *)
Theorem C35_merge_rows :
  forall (A B : csr) (lines : list nat),
    wf A = true -> wf B = true -> nmin A = nmin B -> length lines = nmaj B ->
    NoDup lines -> Forall (fun l => l < nmaj A) lines ->
    exists C, merge_matrices A B lines = Ok C /\ nmaj C = nmaj A /\ nmin C = nmin A /\
      rows C = map (merged_line lines (rows B) (fun i => nth i (rows A) [])) (seq 0 (nmaj A)).
Proof. exact merge_rows. Qed.
Print Assumptions C35_merge_rows.

(* ... densely: A[lines, :] = B (csr) resp. A[:, lines] = B (csc) *)
Theorem C35_merge_dense :
  forall (A B : csr) (lines : list nat),
    wf A = true -> wf B = true -> nmin A = nmin B -> length lines = nmaj B ->
    NoDup lines -> Forall (fun l => l < nmaj A) lines ->
    exists C, merge_matrices A B lines = Ok C /\
      to_dense C = map (merged_line lines (to_dense B) (fun i => nth i (to_dense A) [])) (seq 0 (nmaj A)).
Proof.
  intros A B lines HA HB Hmin Hlen Hnd Hrange.
  destruct (C35_merge_rows A B lines HA HB Hmin Hlen Hnd Hrange) as [C [E [_ [Hm Hr]]]].
  exists C. split; [exact E|]. unfold to_dense at 1. rewrite Hr, Hm, map_map.
  apply map_ext_in. intros i Hi. apply in_seq in Hi. unfold merged_line, to_dense at 1.
  rewrite assoc_map. destruct (assoc i (combine lines (rows B))); cbn [option_map].
  - rewrite Hmin. reflexivity.
  - symmetry. apply nth_to_dense; [apply wf_wfP, HA|lia].
Qed.
Print Assumptions C35_merge_dense.

(* the three input checks answer ValueError *)
Theorem C35_merge_value_errors :
  forall (A B : csr) (lines : list nat),
    (nmin A <> nmin B -> merge_matrices A B lines = Err ValueErr) /\
    (nmin A = nmin B -> length lines <> nmaj B -> merge_matrices A B lines = Err ValueErr) /\
    (nmin A = nmin B -> length lines = nmaj B -> ~ NoDup lines -> merge_matrices A B lines = Err ValueErr).
Proof.
  intros A B lines. unfold merge_matrices. repeat split.
  - intros H. apply Nat.eqb_neq in H. rewrite H. reflexivity.
  - intros H1 H2. apply Nat.eqb_eq in H1. apply Nat.eqb_neq in H2. rewrite H1, H2. reflexivity.
  - intros H1 H2 H3. apply Nat.eqb_eq in H1, H2. rewrite <- nodupb_iff in H3. apply Bool.not_true_is_false in H3.
    rewrite H1, H2, H3. reflexivity.
Qed.
Print Assumptions C35_merge_value_errors.

(* block_diag_index(m): the column indices of a block diagonal csr matrix with square blocks
   of sizes m (zero sizes allowed): block after block, the block's index range once per row
   (the slice-by-slice construction in the code) *)
Theorem C35_block_diag_index_square :
  forall m : list nat, block_diag_index1 m = bdi1_spec 0 m.
Proof. exact bdi1_closed_form. Qed.
Print Assumptions C35_block_diag_index_square.

(* block_diag_index(m, n): for blocks with m_k rows and n_k columns (zero extents allowed) the
   row indices are, per block, its row range once per column, and the column indices, per
   block and column, the column number once per row (composition of cumsum, rldecode x4,
   expand_index_pointers and arange in the code) *)
Theorem C35_block_diag_index_rect :
  forall m n : list Z, length m = length n -> Forall (fun x => 0 <= x)%Z n ->
    block_diag_index2 m n = Ok (bdi2_i 0 (combine m n), bdi2_j 0 (combine m n)).
Proof.
  intros m n Hl Hn. unfold block_diag_index2, cumsum.
  change (cumsum_acc 0 (0%Z :: m)) with (0%Z :: cumsum_acc 0 m). cbn [tl].
  rewrite removelast_cumsum.
  rewrite (rldecode_spec Z (excl 0 m) n) by (rewrite excl_length; lia).
  rewrite (rldecode_spec Z (map (fun x => (x - 1)%Z) (cumsum_acc 0 m)) n)
    by (rewrite map_length, cumsum_acc_length; lia).
  rewrite expand_main
    by (rewrite map_length, !rep_length; rewrite ?excl_length, ?map_length, ?cumsum_acc_length; lia).
  rewrite (rows_part m n 0 Hl), (rldecode_spec Z m n) by lia.
  destruct (sumZ_to_nat n Hn) as [Hs _]. rewrite Hs.
  rewrite rldecode_spec by (rewrite map_length, seq_length, rep_length; lia).
  rewrite (cols_part m n 0 Hl Hn). reflexivity.
Qed.
Print Assumptions C35_block_diag_index_rect.

(* csr/csc_matrix_from_sparse_blocks (blocks already in the requested format): for every
   non-empty list of well-formed blocks of any shapes (empty extents included) the stored lines
   of the result are the lines of the blocks, one block after the other, with the minor indices
   shifted by the total minor extent of the earlier blocks ... *)
Theorem C35_sparse_blocks_rows :
  forall bs : list csr, bs <> [] -> Forall (fun b => wf b = true) bs ->
    exists C, csx_from_sparse_blocks bs = Ok C /\
              nmaj C = sum_nat (map nmaj bs) /\ nmin C = sum_nat (map nmin bs) /\
              rows C = bd_rows 0 bs.
Proof.
  intros bs Hne Hwf.
  assert (HW : Forall wfP bs) by (eapply Forall_impl; [|exact Hwf]; intros b; apply wf_wfP).
  destruct bs as [|b1 [|b2 r]]; [congruence| |].
  - exists b1. split; [reflexivity|]. cbn [map sum_nat fold_right bd_rows].
    rewrite !Nat.add_0_r, app_nil_r. repeat split.
    rewrite (map_ext _ (fun x => x)) by apply shift_entry_0. symmetry. apply map_id.
  - eexists. split; [reflexivity|]. cbn [nmaj nmin]. split; [reflexivity|split; [reflexivity|]].
    unfold rows, entries. cbn [indptr indices data].
    rewrite (blocks_entries _ 0 HW), (blocks_ptr _ 0 0 HW).
    apply rows_of_lines.
Qed.
Print Assumptions C35_sparse_blocks_rows.

(* ... densely the block diagonal matrix of the dense (rectangular) blocks *)
Theorem C35_sparse_blocks_dense :
  forall bs : list csr, bs <> [] -> Forall (fun b => wf b = true) bs ->
    exists C, csx_from_sparse_blocks bs = Ok C /\
              to_dense C = bd_dense 0 (sum_nat (map nmin bs)) bs.
Proof.
  intros bs Hne Hwf. destruct (C35_sparse_blocks_rows bs Hne Hwf) as [C [E [_ [Hm Hr]]]].
  exists C. split; [exact E|]. unfold to_dense. rewrite Hr, Hm.
  apply bd_dense_rows; [|reflexivity]. eapply Forall_impl; [|exact Hwf]. intros b. apply wf_wfP.
Qed.
Print Assumptions C35_sparse_blocks_dense.

Theorem C35_sparse_blocks_empty : csx_from_sparse_blocks [] = Err ValueErr.
Proof. reflexivity. Qed.
Print Assumptions C35_sparse_blocks_empty.

(* block_diag_matrix(vals, sz): dense row t lies in the block (first column off, size s) given
   by [row_descr] and holds the next s values of vals in the columns off .. off+s-1, zeros
   elsewhere: the block diagonal matrix of the row-major s x s reshapes of vals *)
Theorem C35_block_diag_matrix :
  forall (vals : list Z) (sz : list nat), length vals = sum_nat (map (fun s => s * s) sz) ->
    exists C, block_diag_matrix vals sz = Ok C /\ nmaj C = sum_nat sz /\ nmin C = sum_nat sz /\
              to_dense C = sq_dense (sum_nat sz) (row_descr 0 sz) vals.
Proof.
  intros vals sz H. eexists. split; [apply bdm_csr|]. cbn [nmaj nmin sq_csr].
  split; [apply row_descr_length|]. split; [reflexivity|]. apply sq_to_dense.
  - rewrite row_descr_widths, widths_sum. exact H.
  - apply row_descr_bounds. reflexivity.
Qed.
Print Assumptions C35_block_diag_matrix.

(* csr/csc_matrix_from_dense_blocks: nb blocks of size bs, values block after block and
   line-major (the tile/reshape index construction of the code), same dense form *)
Theorem C35_dense_blocks :
  forall (vals : list Z) (bs nb : nat), 1 <= bs -> length vals = bs * bs * nb ->
    exists C, csx_from_dense_blocks vals bs nb = Ok C /\ nmaj C = nb * bs /\ nmin C = nb * bs /\
              to_dense C = sq_dense (nb * bs) (row_descr 0 (repeat bs nb)) vals.
Proof.
  intros vals bs nb Hbs Hlen. eexists. split; [apply dense_blocks_csr; assumption|]. cbn [nmaj nmin sq_csr].
  split; [rewrite row_descr_length; apply sum_repeat|]. split; [reflexivity|]. apply sq_to_dense.
  - rewrite row_descr_widths, widths_uniform, sum_repeat, Hlen. lia.
  - apply row_descr_bounds. rewrite sum_repeat. reflexivity.
Qed.
Print Assumptions C35_dense_blocks.

Theorem C35_dense_blocks_size_error :
  forall (vals : list Z) (bs nb : nat), length vals <> bs * bs * nb ->
    csx_from_dense_blocks vals bs nb = Err ValueErr.
Proof.
  intros vals bs nb H. unfold csx_from_dense_blocks. apply Nat.eqb_neq in H. rewrite H. reflexivity.
Qed.
Print Assumptions C35_dense_blocks_size_error.

(* ---------------------------------------------------------------- non-vacuity *)

Example C35_nonvacuous_expand :
  expand_index_pointers [0; 5; 2; -3]%Z [2; 5; 1; -1]%Z = Ok [0; 1; -3; -2]%Z /\
  expand_index_pointers [3]%Z [5; 4; 3; 2]%Z = Ok [3; 4; 3]%Z /\
  expand_index_pointers [2; 3]%Z [1; 2; 3]%Z = Err ValueErr.
Proof. vm_compute. auto. Qed.

Example C35_nonvacuous_rl :
  rldecode [8; 2; 6]%Z [3; 0; 1]%Z = Ok [8; 8; 8; 6]%Z /\
  rlencode Z.eqb [1; 1; 2; 2; 2; 1]%Z = Ok ([1; 2; 1], [2; 3; 1])%Z /\
  (forall x y, Z.eqb x y = true -> x = y).
Proof. split; [|split]; try (vm_compute; reflexivity). intros x y H. apply Z.eqb_eq. exact H. Qed.

(* a 3 x 4 matrix with an empty line, unsorted and duplicate minor indices, a stored zero *)
Definition C35_ex : csr :=
  {| nmaj := 3; nmin := 4; indptr := [0; 3; 3; 6]; indices := [2; 0; 2; 3; 1; 0];
     data := [5; 1; 7; 0; 4; 9]%Z |}.

Example C35_nonvacuous_csr :
  wf C35_ex = true /\ Forall (fun i => i < nmaj C35_ex) [2; 0; 2; 1] /\
  to_dense C35_ex = [[1; 0; 12; 0]; [0; 0; 0; 0]; [9; 4; 0; 0]]%Z /\
  (exists S, slice_sparse_matrix C35_ex [2; 0; 2; 1] = Ok S /\
             indptr S = [0; 3; 6; 9; 9] /\
             to_dense S = [[9; 4; 0; 0]; [1; 0; 12; 0]; [9; 4; 0; 0]; [0; 0; 0; 0]]%Z) /\
  to_dense (stack_diag C35_ex {| nmaj := 0; nmin := 2; indptr := [0]; indices := []; data := [] |})
  = [[1; 0; 12; 0; 0; 0]; [0; 0; 0; 0; 0; 0]; [9; 4; 0; 0; 0; 0]]%Z.
Proof.
  split; [reflexivity|]. split; [repeat constructor|]. split; [vm_compute; reflexivity|].
  split; [eexists; split; [vm_compute; reflexivity|split; vm_compute; reflexivity]|].
  vm_compute. reflexivity.
Qed.

Example C35_nonvacuous_zero_expand :
  (exists Z0, zero_lines C35_ex [2; 2] = Ok Z0 /\ data Z0 = [5; 1; 7; 0; 0; 0]%Z /\
              to_dense Z0 = [[1; 0; 12; 0]; [0; 0; 0; 0]; [0; 0; 0; 0]]%Z) /\
  expand_indices_nd [0; 1; 3]%Z 3 false = [0; 3; 9; 1; 4; 10; 2; 5; 11]%Z /\
  expand_indices_nd [0; 1; 3]%Z 2 true = [0; 1; 2; 3; 6; 7]%Z /\
  expand_indices_add_increment [0; 1; 3]%Z 3 200 = [0; 200; 400; 1; 201; 401; 3; 203; 403]%Z /\
  rldecode [8; 2]%Z [1; 0; 2]%Z = Err IndexErr /\ rldecode [8; 2]%Z [1; 2; 0]%Z = Ok [8; 2; 2]%Z.
Proof.
  split; [eexists; split; [vm_compute; reflexivity|split; vm_compute; reflexivity]|].
  vm_compute. repeat split; reflexivity.
Qed.

Example C35_nonvacuous_merge :
  let B := {| nmaj := 2; nmin := 4; indptr := [0; 1; 3]; indices := [3; 1; 0]; data := [7; 8; 9]%Z |} in
  wf B = true /\ NoDup [2; 0] /\ Forall (fun l => l < nmaj C35_ex) [2; 0] /\
  exists C, merge_matrices C35_ex B [2; 0] = Ok C /\
            indptr C = [0; 2; 2; 3] /\ indices C = [1; 0; 3] /\ data C = [8; 9; 7]%Z /\
            to_dense C = [[9; 8; 0; 0]; [0; 0; 0; 0]; [0; 0; 0; 7]]%Z.
Proof.
  cbv zeta. split; [reflexivity|]. split; [repeat constructor; simpl; intuition discriminate|].
  split; [repeat constructor|]. eexists. split; [vm_compute; reflexivity|]. repeat split; vm_compute; reflexivity.
Qed.

Example C35_nonvacuous_bdi :
  block_diag_index1 [1; 0; 3] = [0; 1; 2; 3; 1; 2; 3; 1; 2; 3] /\
  bdi1_spec 0 [1; 0; 3] = [0; 1; 2; 3; 1; 2; 3; 1; 2; 3] /\
  block_diag_index2 [2; 3; 1]%Z [1; 0; 2]%Z = Ok ([0; 1; 5; 5], [0; 0; 1; 2])%Z /\
  Forall (fun x => 0 <= x)%Z [1; 0; 2]%Z.
Proof. split; [|split; [|split]]; try (vm_compute; reflexivity). repeat constructor; lia. Qed.

Example C35_nonvacuous_blocks :
  let B := {| nmaj := 1; nmin := 2; indptr := [0; 2]; indices := [1; 0]; data := [6; 5]%Z |} in
  let E := {| nmaj := 0; nmin := 1; indptr := [0]; indices := []; data := [] |} in
  Forall (fun b => wf b = true) [C35_ex; E; B] /\
  (exists C, csx_from_sparse_blocks [C35_ex; E; B] = Ok C /\
     to_dense C = [[1; 0; 12; 0; 0; 0; 0]; [0; 0; 0; 0; 0; 0; 0]; [9; 4; 0; 0; 0; 0; 0];
                   [0; 0; 0; 0; 0; 5; 6]]%Z) /\
  (exists C, block_diag_matrix [7; 1; 2; 3; 4]%Z [1; 2] = Ok C /\
     to_dense C = [[7; 0; 0]; [0; 1; 2]; [0; 3; 4]]%Z) /\
  sq_dense 3 (row_descr 0 [1; 2]) [7; 1; 2; 3; 4]%Z = [[7; 0; 0]; [0; 1; 2]; [0; 3; 4]]%Z /\
  (exists C, csx_from_dense_blocks [1; 2; 3; 4; 5; 6; 7; 8]%Z 2 2 = Ok C /\
     indices C = [0; 1; 0; 1; 2; 3; 2; 3] /\
     to_dense C = [[1; 2; 0; 0]; [3; 4; 0; 0]; [0; 0; 5; 6]; [0; 0; 7; 8]]%Z).
Proof.
  cbv zeta. split; [repeat constructor|].
  split; [eexists; split; vm_compute; reflexivity|].
  split; [eexists; split; vm_compute; reflexivity|].
  split; [vm_compute; reflexivity|].
  eexists. split; [vm_compute; reflexivity|]. split; vm_compute; reflexivity.
Qed.
