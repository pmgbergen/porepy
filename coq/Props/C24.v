(* C24 — property theorems only.  Model: PP.Model.C24 (transcription of
   MixedDimensionalGrid), abstract container and well-formedness: PP.Model.C24_spec;
   proofs: PP.Proofs.C24*.

   Vocabulary.  [ops] is ANY list of calls (any length) with [hist_ok sempty ops = true]:
   every call is well-formed w.r.t. the grids that should be present at that moment
   ([okb]: new distinct grids are added; an interface is new, joins two present
   subdomains (possibly one subdomain with itself) that are not joined yet, its dimension
   exceeds neither neighbour's, co-dimension <= 2; a removed / replaced subdomain is
   present; a replacement grid is new and of the same dimension) or is of a kind the
   container must reject ([rejb]: adding a present subdomain or one grid twice in one call,
   adding an existing interface, co-dimension > 2, removing or replacing an absent
   subdomain).  [final ops] is the container (the five dictionaries) after the
   history, [present ops] the subdomains / interfaces that should then be present
   (rejected calls have no effect).  [glt a b]: a has larger dimension than b, or the same
   dimension and a smaller creation id. *)
From Coq Require Import List Arith Bool Permutation Sorted.
Import ListNotations.
From PP Require Import Model.C24 Model.C24_spec Model.C24_data Proofs.C24_sort Proofs.C24_inv
  Proofs.C24 Proofs.C24_query Proofs.C24_data.

(* No well-formed call raises; every rejected call raises its documented exception
   (outcome list of the whole history). *)
Theorem C24_history_outcomes :
  forall ops, hist_ok sempty ops = true -> snd (run empty ops) = souts sempty ops.
Proof. intros ops H. apply (run_empty ops H). Qed.
Print Assumptions C24_history_outcomes.

(* After any history: a further well-formed call returns normally, and a further call of
   a rejected kind raises and leaves all five dictionaries exactly as they were. *)
Theorem C24_rejected_calls_leave_container_unchanged :
  forall ops o, hist_ok sempty ops = true ->
    (okb (present ops) o = true -> snd (step (final ops) o) = Done) /\
    (forall e, okb (present ops) o = false -> rejb (present ops) o = Some e ->
               step (final ops) o = (final ops, Raised e)).
Proof. intros ops o H. apply next_call, reach_inv, H. Qed.
Print Assumptions C24_rejected_calls_leave_container_unchanged.

(* subdomains() / interfaces(), with or without a dim filter, return each grid that should
   be present (of that dimension) exactly once, sorted by decreasing dimension then
   creation id. *)
Theorem C24_listing_sorted_unique :
  forall ops d, hist_ok sempty ops = true ->
    NoDup (pS (present ops)) /\ NoDup (map fst (pI (present ops))) /\
    (exists L, subdomains (final ops) d = Ok L /\
               Permutation L (dim_filter d (pS (present ops))) /\
               NoDup L /\ StronglySorted glt L) /\
    (exists L, interfaces (final ops) d = Ok L /\
               Permutation L (dim_filter d (map fst (pI (present ops)))) /\
               NoDup L /\ StronglySorted glt L).
Proof.
  intros ops d H. pose proof (reach_inv ops H) as HI.
  split; [apply HI|]. split; [apply HI|].
  split; [apply obs_subdomains | apply obs_interfaces]; exact HI.
Qed.
Print Assumptions C24_listing_sorted_unique.

(* Every interface that should be present joins present subdomains;
   interface_to_subdomain_pair returns exactly these two, the higher-dimensional (for
   equal dimensions: the older) first (for a self-coupled subdomain: twice that one);
   subdomain_pair_to_interface maps the pair, in either order, back to the interface. *)
Theorem C24_pair_roundtrip :
  forall ops i a b, hist_ok sempty ops = true -> In (i, (a, b)) (pI (present ops)) ->
    In a (pS (present ops)) /\ In b (pS (present ops)) /\
    exists hi lo, intf_pair (final ops) i = Ok (hi, lo) /\ (a <> b -> glt hi lo) /\
                  ((hi = a /\ lo = b) \/ (hi = b /\ lo = a)) /\
                  pair_to_intf (final ops) a b = Ok i /\ pair_to_intf (final ops) b a = Ok i.
Proof. intros ops i a b H. apply obs_pair, reach_inv, H. Qed.
Print Assumptions C24_pair_roundtrip.

(* subdomain_to_interfaces(s) returns exactly the interfaces whose pair contains s, once
   each, sorted. *)
Theorem C24_interfaces_of_subdomain :
  forall ops s, hist_ok sempty ops = true ->
    exists L, sd_to_intfs (final ops) s = Ok L /\
              Permutation L (map fst (filter (fun e => touches s (snd e)) (pI (present ops)))) /\
              NoDup L /\ StronglySorted glt L.
Proof. intros ops s H. apply obs_sd_intfs, reach_inv, H. Qed.
Print Assumptions C24_interfaces_of_subdomain.

(* Every present positive-dimensional subdomain has a boundary grid (of dimension one
   less) stored in _boundary_grid_data; 0-d and absent subdomains have none; no two
   subdomains share one; _boundary_grid_data holds no duplicates and no orphans. *)
Theorem C24_one_boundary_grid :
  forall ops, hist_ok sempty ops = true ->
    (forall s, In s (pS (present ops)) -> 0 < fst s ->
       exists bg, sd_to_bg (final ops) s = Some bg /\ fst bg = fst s - 1 /\
                  In bg (bgs (final ops))) /\
    (forall s, ~ In s (pS (present ops)) \/ fst s = 0 -> sd_to_bg (final ops) s = None) /\
    (forall s s' bg, sd_to_bg (final ops) s = Some bg -> sd_to_bg (final ops) s' = Some bg ->
                     s = s') /\
    NoDup (bgs (final ops)) /\
    (forall bg, In bg (bgs (final ops)) ->
       exists s, In s (pS (present ops)) /\ sd_to_bg (final ops) s = Some bg).
Proof. intros ops H. apply obs_boundary, reach_inv, H. Qed.
Print Assumptions C24_one_boundary_grid.

(* remove_subdomain(s) of a present subdomain (any dimension, 0 included) returns
   normally and deletes exactly: s from _subdomain_data; the interfaces whose stored pair
   contains s ([tch], see C24_stored_pair_contains) from _interface_data and
   _interface_to_subdomains, all other entries unchanged; the entry of s from
   _subdomain_to_boundary_grid and its boundary grid from _boundary_grid_data. *)
Theorem C24_remove_exact :
  forall ops s, hist_ok sempty ops = true -> In s (pS (present ops)) ->
    let g := final ops in
    let g' := fst (step g (RemoveSd s)) in
    snd (step g (RemoveSd s)) = Done /\
    sds g' = filter (fun x => neqb x s) (sds g) /\
    intfs g' = filter (fun i => negb (tch (i2s g) s i)) (intfs g) /\
    (forall j, lookup j (i2s g') = if tch (i2s g) s j then None else lookup j (i2s g)) /\
    (forall s', sd_to_bg g' s' = if geqb s s' then None else sd_to_bg g s') /\
    bgs g' = match sd_to_bg g s with
             | Some bg => filter (fun x => neqb x bg) (bgs g)
             | None => bgs g
             end.
Proof. intros ops s H. apply obs_remove, reach_inv, H. Qed.
Print Assumptions C24_remove_exact.

Theorem C24_stored_pair_contains :
  forall ops s i p, hist_ok sempty ops = true -> In (i, p) (pI (present ops)) ->
    tch (i2s (final ops)) s i = touches s p.
Proof. intros ops s i p H. apply tch_spec, reach_inv, H. Qed.
Print Assumptions C24_stored_pair_contains.

(* boundaries(dim) lists the boundary grids (those of C24_one_boundary_grid) exactly once,
   sorted, whenever the container is empty or holds a positive-dimensional subdomain; when
   all subdomains are 0-d it raises ValueError (documented behaviour of the method). *)
Theorem C24_boundaries_listing :
  forall ops d, hist_ok sempty ops = true ->
    ((pS (present ops) = [] \/ exists s, In s (pS (present ops)) /\ 0 < fst s) ->
     exists L, boundaries (final ops) d = Ok L /\
               Permutation L (dim_filter d (bgs (final ops))) /\
               NoDup L /\ StronglySorted glt L) /\
    (pS (present ops) <> [] -> (forall s, In s (pS (present ops)) -> fst s = 0) ->
     boundaries (final ops) d = Err ValueErr).
Proof.
  intros ops d H. split; [apply obs_boundaries | apply obs_boundaries_0d]; apply reach_inv, H.
Qed.
Print Assumptions C24_boundaries_listing.

(* interfaces(dim, codim), for any co-dimension attributes [cm] of the mortar grids. *)
Theorem C24_interfaces_codim_listing :
  forall cm ops d c, hist_ok sempty ops = true ->
    exists L, interfaces_cd cm (final ops) d c = Ok L /\
              Permutation L (codim_filter cm c (dim_filter d (map fst (pI (present ops))))) /\
              NoDup L /\ StronglySorted glt L.
Proof. intros cm ops d c H. apply obs_interfaces_cd, reach_inv, H. Qed.
Print Assumptions C24_interfaces_codim_listing.

(* neighboring_subdomains(s, only_higher, only_lower): ValueError when both flags are
   set; otherwise the other ends of the interfaces of s ([neigh_raw] on the pairs that
   should be present; s itself for a self-coupling), filtered by dimension, once each,
   sorted. *)
Theorem C24_neighbours :
  forall ops s hi lo, hist_ok sempty ops = true ->
    (hi && lo = true -> neighbours (final ops) s hi lo = Err ValueErr) /\
    (hi && lo = false ->
     exists L, neighbours (final ops) s hi lo = Ok L /\
               Permutation L (nb_filter s hi lo (neigh_raw s (pI (present ops)))) /\
               NoDup L /\ StronglySorted glt L).
Proof. intros ops s hi lo H. apply obs_neighbours, reach_inv, H. Qed.
Print Assumptions C24_neighbours.

(* Data dictionaries (Model/C24_data: [runD] runs the container together with the record
   of which dictionary object is stored under which key; [tok_ok keys m n]: every key has
   a dictionary created by the container (token < n) and no two keys share one).  After
   any history every present subdomain and every present interface has a dictionary of
   its own. *)
Theorem C24_data_own_dictionary :
  forall ops, hist_ok sempty ops = true ->
    fst (runD empty dempty ops) = final ops /\
    tok_ok (pS (present ops)) (vS (final_data ops)) (nd (final_data ops)) /\
    tok_ok (map fst (pI (present ops))) (vI (final_data ops)) (nd (final_data ops)).
Proof. intros ops H. apply (reach_data ops H). Qed.
Print Assumptions C24_data_own_dictionary.

(* Replacing subdomain o by the new grid n (same dimension) after any history: n gets
   o's dictionary, every other subdomain and every interface keeps its own, and the
   dictionary of o's boundary grid is handed on to the boundary grid created for n. *)
Theorem C24_data_follows_replacement :
  forall ops o n, hist_ok sempty ops = true ->
    In o (pS (present ops)) -> ~ In n (pS (present ops)) -> fst n = fst o ->
    let g := final ops in let d := final_data ops in
    let d' := stepD g d (Replace [] [(o, n)]) in
    lookup n (vS d') = lookup o (vS d) /\
    (forall k, k <> n -> lookup k (vS d') = lookup k (vS d)) /\
    vI d' = vI d /\
    (forall bgo, 0 < fst o -> sd_to_bg g o = Some bgo ->
                 vB d' = copy bgo (fst n - 1, nbg g) (vB d)) /\
    (fst o = 0 -> vB d' = vB d).
Proof.
  intros ops o n H. apply data_replace; [apply reach_inv, H | apply (reach_data ops H)].
Qed.
Print Assumptions C24_data_follows_replacement.

(* Non-vacuity: a history with grids of all dimensions, interfaces of co-dimension 1, a
   subdomain coupled to itself, a rejected co-dimension-3 interface, a rejected
   re-addition and a rejected duplicate, replacement and removal of a 0-d subdomain and
   of the self-coupled subdomain (the calls that failed before the repairs) and removal
   of a subdomain that carries an interface. *)
Example C24_nonvacuous :
  let ops := [AddSd [(2, 1); (1, 2); (0, 3); (3, 0)];
              AddIntf (1, 0) (1, 2) (2, 1);
              AddIntf (0, 1) (0, 3) (1, 2);
              AddIntf (0, 2) (3, 0) (0, 3);
              Replace [] [((0, 3), (0, 4))];
              AddSd [(2, 1)];
              AddSd [(1, 7); (1, 7)];
              AddIntf (1, 3) (2, 1) (2, 1);
              Replace [] [((2, 1), (2, 5))];
              RemoveSd (2, 5);
              RemoveSd (0, 4)] in
  hist_ok sempty ops = true /\
  snd (run empty ops) = [Done; Done; Done; Raised ValueErr; Done; Raised ValueErr;
                         Raised ValueErr; Done; Done; Done; Done] /\
  pS (present ops) = [(1, 2); (3, 0)] /\ pI (present ops) = [] /\
  subdomains (final ops) None = Ok [(3, 0); (1, 2)] /\
  boundaries (final ops) None = Ok [(2, 2); (0, 1)] /\
  (let ops9 := firstn 9 ops in
   pI (present ops9) = [((1, 0), ((1, 2), (2, 5))); ((0, 1), ((0, 4), (1, 2)));
                        ((1, 3), ((2, 5), (2, 5)))] /\
   intf_pair (final ops9) (0, 1) = Ok ((1, 2), (0, 4)) /\
   intf_pair (final ops9) (1, 3) = Ok ((2, 5), (2, 5)) /\
   interfaces (final ops9) None = Ok [(1, 0); (1, 3); (0, 1)] /\
   interfaces_cd [((1, 3), 0)] (final ops9) None (Some 1) = Ok [(1, 0); (0, 1)] /\
   neighbours (final ops9) (2, 5) false false = Ok [(2, 5); (1, 2)] /\
   neighbours (final ops9) (1, 2) false true = Ok [(0, 4)] /\
   neighbours (final ops9) (1, 2) true true = Err ValueErr).
Proof. vm_compute. repeat split; reflexivity. Qed.

(* boundaries() with 0-d subdomains only (second clause of C24_boundaries_listing). *)
Example C24_boundaries_0d :
  let ops := [AddSd [(0, 0); (0, 1)]] in
  hist_ok sempty ops = true /\ boundaries (final ops) None = Err ValueErr.
Proof. vm_compute. split; reflexivity. Qed.

(* Data dictionaries: the replacement grid inherits the dictionary (token 1) of the grid
   it replaces, also through two replacements; removal and re-addition gives a new one. *)
Example C24_data_nonvacuous :
  let ops := [AddSd [(2, 0); (1, 1)]; AddIntf (1, 0) (2, 0) (1, 1);
              Replace [] [((1, 1), (1, 2))]; Replace [] [((1, 2), (1, 3)); ((2, 0), (2, 4))];
              RemoveSd (1, 3); AddSd [(1, 1)]] in
  hist_ok sempty ops = true /\
  data_of (sds (final ops)) (vS (final_data ops)) = [((2, 4), Some 0); ((1, 1), Some 5)] /\
  data_of (bgs (final ops)) (vB (final_data ops)) = [((1, 4), Some 2); ((0, 5), Some 6)] /\
  (let ops4 := firstn 4 ops in
   data_of (sds (final ops4)) (vS (final_data ops4)) = [((1, 3), Some 1); ((2, 4), Some 0)] /\
   data_of (intfs (final ops4)) (vI (final_data ops4)) = [((1, 0), Some 4)]).
Proof. vm_compute. repeat split; reflexivity. Qed.
