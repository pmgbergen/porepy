(* C42 — property theorems only.  Model: PP.Model.C42 (one polymorphic transcription of
   compute_saturations / chainrule_fractional_derivatives / normalize_rows of
   porepy/compositional/utils.py; executed over Q in the tie); the theorems are about its
   instance over the reals defined in PP.Proofs.C42 (closedR, build_matR, dxnR, satR, ...).
   [phases y rho]: y and rho have the same length (any number of phases), every y_j >= 0 and
   every rho_j > 0; together with [rsum y = 1] this is "fractions on the simplex, positive
   densities".  closedR y rho = [ (y_j/rho_j) / sum_k (y_k/rho_k) ]_j. *)
From Coq Require Import List QArith Qreals Reals Lra.
From Coquelicot Require Import Coquelicot.
Import ListNotations.
From PP Require Import Model.C42 Proofs.C42 Proofs.C42_chain Proofs.C42_unique Proofs.C42_chain2
  Proofs.C42_transfer.
From Coq Require Import Lia.
Open Scope R_scope.

(* Saturations are non-negative ... *)
Theorem C42_saturations_nonnegative :
  forall y rho, phases y rho -> rsum y = 1 -> List.Forall (fun s => 0 <= s) (closedR y rho).
Proof. exact closed_nonneg. Qed.
Print Assumptions C42_saturations_nonnegative.

(* ... sum to one ... *)
Theorem C42_saturations_sum_to_one :
  forall y rho, phases y rho -> rsum y = 1 -> rsum (closedR y rho) = 1.
Proof. exact closed_sum_one. Qed.
Print Assumptions C42_saturations_sum_to_one.

(* ... and reproduce the phase fractions as density-weighted saturation ratios:
   [ rho_j s_j / sum_k rho_k s_k ]_j = y. *)
Theorem C42_saturations_reproduce_fractions :
  forall y rho, phases y rho -> rsum y = 1 -> fractions_ofR (closedR y rho) rho = y.
Proof.
  intros y rho H Hy. rewrite closed_fractions by (assumption || lra). now apply normalize_one.
Qed.
Print Assumptions C42_saturations_reproduce_fractions.

(* Two phases: the analytic formula of the code is the closed form ... *)
Theorem C42_two_phase :
  forall y0 y1 rho0 rho1, 0 < rho0 -> 0 < rho1 -> 0 <= y1 -> y1 < 1 -> y0 + y1 = 1 ->
    let s0 := 1 / (1 + y1 / (1 - y1) * (rho0 / rho1)) in
    closedR [y0; y1] [rho0; rho1] = [s0; 1 - s0].
Proof.
  intros y0 y1 rho0 rho1 H0 H1 Hy1 Hy1' Hs. cbn zeta.
  assert (Hy0 : y0 = 1 - y1) by lra. subst y0.
  assert (Hd : (1 - y1) * rho1 + y1 * rho0 <> 0) by nra.
  unfold closedR, closed. cbn [map2 map tsum]. f_equal; [|f_equal]; field; repeat split; lra.
Qed.
Print Assumptions C42_two_phase.

(* ... and the whole call (both multi-saturation checks, the saturated-phase test, the final
   feasibility assertion) returns it when no phase is saturated; np.linalg.solve is not used. *)
Theorem C42_two_phase_call :
  forall solve y0 y1 rho0 rho1 eps,
    0 < eps -> eps < 1 / 2 -> 0 < rho0 -> 0 < rho1 -> 0 <= y1 -> y0 + y1 = 1 ->
    y0 < 1 - eps -> y1 < 1 - eps ->
    satR solve [y0; y1] [rho0; rho1] eps = inr (closedR [y0; y1] [rho0; rho1]).
Proof.
  intros solve y0 y1 rho0 rho1 eps He He2 H0 H1 Hy1 Hs Hy0s Hy1s.
  assert (Hp : phases [y0; y1] [rho0; rho1]) by (repeat constructor; lra).
  assert (Hsum : rsum [y0; y1] = 1) by (cbn; lra).
  apply satR_inr; auto using closed_nonneg, closed_sum_one; [apply (phases_nonneg _ _ Hp)|].
  rewrite inner_unsaturated by (try discriminate; repeat constructor; lra). f_equal.
  symmetry. apply C42_two_phase; lra.
Qed.
Print Assumptions C42_two_phase_call.

(* n phases: the closed form satisfies, row by row, the linear system the code assembles
   (matrix with zero diagonal and entries rho_j (y_j - 1) - rho_k y_j, right-hand side
   rho_j (y_j - 1)) ... *)
Theorem C42_n_phase_system :
  forall y rho, phases y rho -> rsum y = 1 ->
    forall j, (j < length y)%nat ->
      nth j (mat_vecR (build_matR y rho) (closedR y rho)) 0 = nth j (build_rhsR y rho) 0.
Proof. exact closed_solves_system. Qed.
Print Assumptions C42_n_phase_system.

(* ... and it is the ONLY solution (two or more phases): the assembled system is uniquely
   solvable on the simplex. *)
Theorem C42_n_phase_unique :
  forall y rho s, phases y rho -> rsum y = 1 -> (2 <= length y)%nat -> length s = length y ->
    (forall j, (j < length y)%nat ->
       nth j (mat_vecR (build_matR y rho) s) 0 = nth j (build_rhsR y rho) 0) ->
    s = closedR y rho.
Proof. exact system_unique. Qed.
Print Assumptions C42_n_phase_unique.

(* The whole call for three or more phases, none saturated, every fraction either exactly 0
   (vanished: dropped by the y > eps filter and scattered back as 0) or > eps: under the
   contract of np.linalg.solve (a solution is returned whenever one exists) the call returns
   the closed form. *)
Theorem C42_n_phase_call :
  forall solve : list (list R) -> list R -> list R,
    (forall M b s, length s = length b -> mat_vecR M s = b ->
                   mat_vecR M (solve M b) = b /\ length (solve M b) = length b) ->
    forall y rho eps, phases y rho -> rsum y = 1 -> (3 <= length y)%nat ->
      0 < eps -> eps < 1 / 2 ->
      List.Forall (fun a => a = 0 \/ eps < a) y -> List.Forall (fun a => a < 1 - eps) y ->
      satR solve y rho eps = inr (closedR y rho).
Proof.
  intros solve solve_spec y rho eps H Hy Hn He He2 Hpres Hunsat.
  apply satR_inr; auto using closed_nonneg, closed_sum_one, phases_length;
    [apply (phases_nonneg _ _ H)|].
  rewrite inner_unsaturated by (assumption || lia). f_equal.
  apply unsaturated_closed; auto. refine (Forall_impl _ _ Hunsat). intros a Ha. lra.
Qed.
Print Assumptions C42_n_phase_call.

(* The saturated-phase shortcut (any number >= 2 of phases): if y_j >= 1 - eps the call returns
   the indicator vector of the saturated phase; it is non-negative, sums to one, is reproduced
   exactly by the density-weighted ratios and deviates from y by at most eps per component. *)
Theorem C42_saturated_phase :
  forall solve y rho eps j, phases y rho -> rsum y = 1 -> (2 <= length y)%nat ->
    0 < eps -> eps < 1 / 2 -> (j < length y)%nat -> 1 - eps <= nth j y 0 ->
    let s := ind (satmask eps y) in
    satR solve y rho eps = inr s /\
    List.Forall (fun a => 0 <= a) s /\ rsum s = 1 /\ fractions_ofR s rho = s /\
    forall k, (k < length y)%nat -> Rabs (nth k s 0 - nth k y 0) <= eps.
Proof.
  intros solve y rho eps j H Hy Hn He He2 Hj Hsat. cbn zeta. pose proof (phases_length _ _ H) as Hlen.
  destruct (phases_nonneg _ _ H) as [Hnn Hpos].
  pose proof (one_saturated eps y j He2 Hnn Hy Hj Hsat) as Hc.
  assert (Hsum : rsum (ind (satmask eps y)) = 1) by (now rewrite rsum_ind, Hc).
  split; [|split; [apply ind_nonneg|split; [exact Hsum|split]]].
  - apply satR_inr; auto using ind_nonneg. apply inner_saturated; [lia|exact Hc].
  - apply fractions_ind; [unfold satmask; now rewrite map_length|assumption|lia].
  - intros k. now apply (ind_satmask_close eps y j k).
Qed.
Print Assumptions C42_saturated_phase.

(* Chain rule: entry (i,j) of the matrix the code multiplies with is the partial derivative of
   the i-th normalised fraction x_i / sum(x) with respect to x_j (derivative at 0 of
   e |-> normalize(x + e*unit_j)_i) ... *)
Theorem C42_chainrule_jacobian :
  forall x i j, (i < length x)%nat -> (j < length x)%nat -> rsum x <> 0 ->
    is_derive (fun e => nth i (normalizeR (add_at j e x)) 0) 0 (nth j (nth i (dxnR x) []) 0).
Proof.
  intros x i j Hi Hj HS. rewrite (dxn_entry x i j Hi Hj).
  set (S := rsum x) in *. set (xi := nth i x 0).
  apply (is_derive_ext (fun e => (xi + (if Nat.eqb i j then e else 0)) / (S + e))).
  { intros e. now rewrite normalize_add_at_nth. }
  destruct (Nat.eqb i j); auto_derive; try lra; field; lra.
Qed.
Print Assumptions C42_chainrule_jacobian.

(* ... the call returns the leading derivatives unchanged followed by gradient x Jacobian:
   entry j = sum_i g_i * dxn[i][j] ... *)
Theorem C42_chainrule_output :
  forall df x, (length x <= length df)%nat ->
    let n := length x in let k := (length df - n)%nat in
    chainruleR df x =
    inr (firstn k df ++
         map (fun j => rsum (map2 (fun gi row => gi * nth j row 0) (skipn k df) (dxnR x))) (seq 0 n)).
Proof.
  intros df x H. cbn zeta. unfold chainruleR, chainrule.
  destruct (Nat.ltb_spec (length df) (length x)); [lia|reflexivity].
Qed.
Print Assumptions C42_chainrule_output.

(* ... and that entry IS the derivative of the composed function: for every outer function f
   that is differentiable at the normalised point with gradient g (it obeys the chain rule
   along every componentwise differentiable curve through that point, as every
   Frechet-differentiable function does), d/de f(normalize(x + e unit_j)) at e = 0 equals
   sum_i g_i * dxn[i][j]. *)
Theorem C42_chainrule_composed :
  forall f x g j, rsum x <> 0 -> (j < length x)%nat ->
    differentiable_at f (normalizeR x) g ->
    is_derive (fun e => f (normalizeR (add_at j e x))) 0
              (rsum (map2 (fun gi row => gi * nth j row 0) g (dxnR x))).
Proof.
  intros f x g j HS Hj Hf.
  rewrite <- (map2_map_r Rmult (fun row => nth j row 0) g (dxnR x)).
  apply (Hf (fun e => normalizeR (add_at j e x))).
  - now rewrite add_at_0.
  - now rewrite map_length, dxn_length, normalize_length.
  - intros e. now rewrite !normalize_length, add_at_length.
  - intros i Hi. rewrite normalize_length in Hi. rewrite nth_column.
    now apply C42_chainrule_jacobian.
Qed.
Print Assumptions C42_chainrule_composed.

(* the differentiability hypothesis is satisfiable: every affine function c0 + g . v *)
Theorem C42_affine_differentiable :
  forall c0 g z, length g = length z ->
    differentiable_at (fun v => c0 + rsum (map2 Rmult g v)) z g.
Proof.
  intros c0 g z Hl c c' Hc0 Hlc' Hlc Hd. rewrite <- (Rplus_0_l (rsum _)).
  apply (is_derive_plus (fun _ => c0)); [exact (@is_derive_const R_AbsRing R_NormedModule c0 0)|].
  apply is_derive_dot; [lia|intros e; rewrite Hlc; lia|intros i Hi; apply Hd; lia].
Qed.
Print Assumptions C42_affine_differentiable.

Theorem C42_chainrule_short_rejected :
  forall df x, (length df < length x)%nat -> chainruleR df x = inl ValueErr.
Proof.
  intros df x H. unfold chainruleR, chainrule.
  destruct (Nat.ltb_spec (length df) (length x)); [reflexivity|lia].
Qed.
Print Assumptions C42_chainrule_short_rejected.

(* Row normalisation yields rows summing to one (rows with non-zero sum). *)
Theorem C42_normalize_rows :
  forall m, List.Forall (fun row => rsum row <> 0) m ->
    List.Forall (fun row => rsum row = 1) (normalize_rowsR m).
Proof. intros m H. apply Forall_map. exact (Forall_impl _ normalize_sum_one H). Qed.
Print Assumptions C42_normalize_rows.

(* Transfer: the Q instance executed by the tie and the R instance of the theorems are the same
   functions through the embedding Q2R (QR = map Q2R, QRres maps it under the error sum):
   compute_saturations (given that the two solvers agree and the two-phase formula does not
   divide by zero), the closed form, the chain rule and row normalisation. *)
Theorem C42_transfer_saturations :
  forall solveR y rho eps,
    (forall M b, QR (solveQ M b) = solveR (map QR M) (QR b)) ->
    (forall y0 y1 r0 r1, y = [y0; y1] -> rho = [r0; r1] ->
       nz (1 - y1)%Q /\ nz r1 /\ nz (1 + y1 / (1 - y1) * (r0 / r1))%Q) ->
    QRres (sat_Q y rho eps) = satR solveR (QR y) (QR rho) (Q2R eps).
Proof.
  intros solveR y rho eps Hsolve H2. unfold sat_Q, satR, compute_saturations.
  rewrite !QR_length, one_minus, mask_lt, <- (inner_QR solveR Hsolve y rho eps H2).
  destruct (negb _); [reflexivity|]. destruct (Nat.ltb 1 _); [reflexivity|].
  destruct (compute_saturations_inner Q _ _ _ _ _ _ _ _ _ _ _ _) as [e|s]; [reflexivity|].
  cbn [QRres]. rewrite mask_lt. now destruct (Nat.ltb 1 _).
Qed.
Print Assumptions C42_transfer_saturations.

Theorem C42_transfer_closed :
  forall y rho, List.Forall nz rho -> nz (tsum Q 0%Q Qplus (map2 Qdiv y rho)) ->
    QR (closed_Q y rho) = closedR (QR y) (QR rho).
Proof.
  intros y rho Hr HD. unfold closed_Q, closedR, closed.
  rewrite <- (map2_QR Qdiv Rdiv y rho), <- tsum_QR
    by (intros a b Hb; apply Q2R_div, (proj1 (Forall_forall _ _) Hr b Hb)).
  unfold QR. rewrite !map_map.
  apply map_ext. intros a. now apply Q2R_div.
Qed.
Print Assumptions C42_transfer_closed.

Theorem C42_transfer_chainrule :
  forall df x, nz (tsum Q 0%Q Qplus x) -> QRres (chainrule_Q df x) = chainruleR (QR df) (QR x).
Proof.
  intros df x HS. unfold chainrule_Q, chainruleR, chainrule. rewrite !QR_length.
  destruct (Nat.ltb (length df) (length x)); [reflexivity|]. cbn [QRres]. f_equal.
  unfold QR at 1. rewrite map_app. fold QR. rewrite vec_mat_QR, (dxn_QR x HS).
  unfold QR. now rewrite firstn_map, skipn_map.
Qed.
Print Assumptions C42_transfer_chainrule.

Theorem C42_transfer_normalize_rows :
  forall m, List.Forall (fun row => nz (tsum Q 0%Q Qplus row)) m ->
    map QR (normalize_rows_Q m) = normalize_rowsR (map QR m).
Proof.
  intros m H. unfold normalize_rows_Q, normalize_rowsR, normalize_rows. rewrite !map_map.
  apply map_ext_Forall. exact (Forall_impl _ normalize_QR H).
Qed.
Print Assumptions C42_transfer_normalize_rows.

(* Non-vacuity of the new hypotheses: a saturated three-phase input; a three-phase input with a
   vanished phase satisfying the data hypotheses of C42_n_phase_call, and a solution vector for
   C42_n_phase_unique. *)
Example C42_nonvacuous_2 :
  (phases [19/20; 1/20; 0] [1; 2; 4] /\ rsum [19/20; 1/20; 0] = 1 /\ 1 - 1/10 <= nth 0 [19/20; 1/20; 0] 0) /\
  (phases [1/2; 0; 1/4; 1/4] [1; 3; 2; 4] /\ rsum [1/2; 0; 1/4; 1/4] = 1 /\
   List.Forall (fun a => a = 0 \/ 1/10 < a) [1/2; 0; 1/4; 1/4] /\
   List.Forall (fun a => a < 1 - 1/10) [1/2; 0; 1/4; 1/4]) /\
  (exists s, length s = 3%nat /\
     forall j, (j < 3)%nat ->
       nth j (mat_vecR (build_matR [1/2; 1/4; 1/4] [1; 2; 4]) s) 0 = nth j (build_rhsR [1/2; 1/4; 1/4] [1; 2; 4]) 0).
Proof.
  split; [|split].
  - split; [repeat constructor; lra|]. split; cbn; lra.
  - split; [repeat constructor; lra|]. split; [cbn; lra|]. split; repeat constructor; lra.
  - exists (closedR [1/2; 1/4; 1/4] [1; 2; 4]). split; [reflexivity|].
    intros j Hj. apply closed_solves_system; [repeat constructor; lra|cbn; lra|exact Hj].
Qed.

(* Non-vacuity: three phases on the simplex with positive densities; the closed form. *)
Example C42_nonvacuous :
  phases [1/2; 1/4; 1/4] [1; 2; 4] /\ rsum [1/2; 1/4; 1/4] = 1 /\
  closedR [1/2; 1/4; 1/4] [1; 2; 4] = [8/11; 2/11; 1/11] /\
  (exists solve, satR solve [3/4; 1/4] [1; 2] (1/10) = inr [6/7; 1/7]).
Proof.
  split; [repeat constructor; lra|]. split; [cbn; lra|]. split.
  - unfold closedR, closed. cbn [map2 map tsum]. repeat (f_equal; try lra).
  - exists (fun _ b => b).
    rewrite (C42_two_phase_call _ (3/4) (1/4) 1 2 (1/10)) by lra.
    unfold closedR, closed. cbn [map2 map tsum]. repeat (f_equal; try lra).
Qed.
