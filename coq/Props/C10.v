(* C10 — property theorems only.  Model: PP.Model.C10 (time loop of run_time_dependent_model
   x NewtonSolver.solve x the SolutionStrategy hooks, composed from the C08 storage model and
   the C09 clock model; Newton increments and check_convergence verdicts are inputs).
   Proofs: PP.Proofs.C10 (storage; any vector type, any binary +=, any clock arithmetic),
   PP.Proofs.C10_clock (clock; exact real arithmetic, via C09's main theorem).

   Reading guide.  [simulate V vadd T O maxit a sched iti tsi v0 solves]: TimeManager
   arguments [a] and schedule [sched]; iterate_indices / time_step_indices [iti] / [tsi];
   initial values [v0]; [solves] = for every call of NewtonSolver.solve the list of
   (increment, converged flag, diverged flag) its iterations produce.  The result is the
   accepted configuration, the store after prepare_simulation and the trace: one [entry] per
   attempted time step ([e_res] = NConv k | NFail, [e_used] = the increments applied,
   [e_out] = what compute_time_step answered, [e_store] = both dictionaries after the
   convergence / failure hook) and how the loop stopped.  [slot_get d i] = d.get(i).
   [accepted vadd v0 tr] = the accepted solutions after [tr], most recent first, [v0] last. *)
From Coq Require Import List ZArith Bool Arith Lia Reals Lra PrimFloat.
Import ListNotations.
From PP Require Model.C08 Model.C09 Proofs.C09.
From PP Require Import Model.C10 Model.C10_ext Proofs.C10 Proofs.C10_clock Proofs.C10_ex
     Proofs.C10_gen Proofs.C10_term.

(* Claim 1.  For EVERY verdict pattern and every sequence of increments: after every step
   that converged (and whose compute_time_step did not raise), time-step index 0 and iterate
   index 0 both hold the converged iterate = the previous accepted solution plus that
   solve's increments added in order, and this vector is the newest accepted solution. *)
Theorem C10_after_convergence :
  forall (V : Type) (vadd : V -> V -> V) (T : Type) (O : C09.numops T) (dI dT : nat),
    1 <= dI -> 1 <= dT ->
    forall (maxit : Z) (v0 : V) (a : C09.args T) (sched : list T)
         (solves : list (list (V * bool * bool)))
         (c : C09.cfg T) (st0 : store V) (tr : list (entry V T)) (sp : stop)
         (pre : list (entry V T)) (e : entry V T) (post : list (entry V T)) (k : Z),
    simulate V vadd T O maxit a sched (map Z.of_nat (seq 0 dI)) (map Z.of_nat (seq 0 dT))
             v0 solves = inl (c, st0, (tr, sp)) ->
    tr = pre ++ e :: post -> e_res e = NConv k -> (forall x, e_out e <> C09.OErr x) ->
    let sol := fold_left vadd (e_used e) (hd v0 (accepted vadd v0 pre)) in
    slot_get (tss (e_store e)) 0 = Some sol /\
    slot_get (its (e_store e)) 0 = Some sol /\
    accepted vadd v0 (pre ++ [e]) = sol :: accepted vadd v0 pre.
Proof.
  intros V vadd T O dI dT HdI HdT maxit v0 a sched solves c st0 tr sp pre e post k Hs Htr Hres
         Hout sol.
  destruct (seq_lists_thm V vadd T O dI dT HdI HdT maxit v0 a sched solves c st0 tr sp Hs)
    as (_ & Hstep & _).
  destruct (Hstep pre e post Htr) as (_ & _ & Hts & Hit).
  assert (Hacc : accepted vadd v0 (pre ++ [e]) = sol :: accepted vadd v0 pre).
  { subst sol. rewrite accepted_snoc. unfold accept1. rewrite Hres.
    pose proof (accepted_nonempty V vadd T v0 pre) as Hne.
    destruct (accepted vadd v0 pre); [congruence|].
    destruct (e_out e) eqn:Eo; try reflexivity. destruct (Hout _ eq_refl). }
  rewrite Hacc in Hts, Hit. split; [|split; [|exact Hacc]].
  - rewrite Hts, map_length, seq_length. destruct dT; [lia|reflexivity].
  - apply Hit, no_exc_of; eauto.
Qed.
Print Assumptions C10_after_convergence.

(* Claim 2.  After every failed step (diverged flag, both flags, or iteration budget
   exhausted) whose recomputation request did not raise, iterate index 0 is reset to
   time-step index 0 = the last accepted solution, and nothing new is accepted. *)
Theorem C10_after_failure :
  forall (V : Type) (vadd : V -> V -> V) (T : Type) (O : C09.numops T) (dI dT : nat),
    1 <= dI -> 1 <= dT ->
    forall (maxit : Z) (v0 : V) (a : C09.args T) (sched : list T)
         (solves : list (list (V * bool * bool)))
         (c : C09.cfg T) (st0 : store V) (tr : list (entry V T)) (sp : stop)
         (pre : list (entry V T)) (e : entry V T) (post : list (entry V T)),
    simulate V vadd T O maxit a sched (map Z.of_nat (seq 0 dI)) (map Z.of_nat (seq 0 dT))
             v0 solves = inl (c, st0, (tr, sp)) ->
    tr = pre ++ e :: post -> e_res e = NFail -> (forall x, e_out e <> C09.OErr x) ->
    let prev := hd v0 (accepted vadd v0 pre) in
    slot_get (its (e_store e)) 0 = Some prev /\
    slot_get (tss (e_store e)) 0 = Some prev /\
    accepted vadd v0 (pre ++ [e]) = accepted vadd v0 pre.
Proof.
  intros V vadd T O dI dT HdI HdT maxit v0 a sched solves c st0 tr sp pre e post Hs Htr Hres
         Hout prev.
  destruct (seq_lists_thm V vadd T O dI dT HdI HdT maxit v0 a sched solves c st0 tr sp Hs)
    as (_ & Hstep & _).
  destruct (Hstep pre e post Htr) as (_ & _ & Hts & Hit).
  assert (Hacc : accepted vadd v0 (pre ++ [e]) = accepted vadd v0 pre).
  { rewrite accepted_snoc. unfold accept1. rewrite Hres. reflexivity. }
  rewrite Hacc in Hts, Hit. split; [|split; [|exact Hacc]].
  - apply Hit, no_exc_of; auto.
  - rewrite Hts, map_length, seq_length. subst prev.
    pose proof (accepted_nonempty V vadd T v0 pre) as Hne.
    destruct (accepted vadd v0 pre); [congruence|]. destruct dT; [lia|reflexivity].
Qed.
Print Assumptions C10_after_failure.

(* Claim 3, storage half.  No storage call ever raises; after EVERY attempted step (raising
   ones included) and in the state the run stops with, the time-step dictionary has exactly
   the keys 0..dT-1 and key i holds the i-th most recent accepted solution (the initial
   values once the accepted solutions are used up). *)
Theorem C10_history :
  forall (V : Type) (vadd : V -> V -> V) (T : Type) (O : C09.numops T) (dI dT : nat),
    1 <= dI -> 1 <= dT ->
    forall (maxit : Z) (v0 : V) (a : C09.args T) (sched : list T)
         (solves : list (list (V * bool * bool)))
         (c : C09.cfg T) (st0 : store V) (tr : list (entry V T)) (sp : stop),
    simulate V vadd T O maxit a sched (map Z.of_nat (seq 0 dI)) (map Z.of_nat (seq 0 dT))
             v0 solves = inl (c, st0, (tr, sp)) ->
    (forall e, sp <> RaisedStore e) /\
    (forall e, In e tr -> (forall x, e_res e <> NErr x) /\ e_res e <> NOut) /\
    (forall pre e post, tr = pre ++ e :: post -> forall i,
        slot_get (tss (e_store e)) i
        = if i <? dT then Some (nth i (accepted vadd v0 (pre ++ [e])) v0) else None) /\
    (forall i, slot_get (tss (final_store st0 tr)) i
               = if i <? dT then Some (nth i (accepted vadd v0 tr) v0) else None).
Proof.
  intros V vadd T O dI dT HdI HdT maxit v0 a sched solves c st0 tr sp Hs.
  destruct (seq_lists_thm V vadd T O dI dT HdI HdT maxit v0 a sched solves c st0 tr sp Hs)
    as (Hsp & Hstep & Hfin & _).
  rewrite map_length, seq_length in Hstep, Hfin.
  (* with as many initial keys as the depth, the padded window is [nth] with default v0 *)
  assert (Hwin : forall tr' i,
             (if i <? dT then nth_error (accepted vadd v0 tr' ++ repeat v0 (dT - 1)) i else None)
             = if i <? dT then Some (nth i (accepted vadd (T := T) v0 tr') v0) else None).
  { intros tr' i. destruct (Nat.ltb_spec i dT); [|reflexivity].
    apply nth_error_pad; [apply accepted_nonempty|assumption]. }
  split; [exact Hsp|split; [|split]].
  - intros e Hin. destruct (in_split _ _ Hin) as (pre & post & Htr).
    destruct (Hstep pre e post Htr) as (H1 & H2 & _). split; assumption.
  - intros pre e post Htr i. destruct (Hstep pre e post Htr) as (_ & _ & H3 & _).
    rewrite H3. apply Hwin.
  - intros i. rewrite Hfin. apply Hwin.
Qed.
Print Assumptions C10_history.

(* With index sets 0..d-1 the simulation can only fail in the TimeManager constructor. *)
Theorem C10_only_constructor_fails :
  forall (V : Type) (vadd : V -> V -> V) (T : Type) (O : C09.numops T) (dI dT : nat),
    1 <= dI -> 1 <= dT ->
    forall (maxit : Z) (v0 : V) (a : C09.args T) (sched : list T)
         (solves : list (list (V * bool * bool))) (f : failure),
    simulate V vadd T O maxit a sched (map Z.of_nat (seq 0 dI)) (map Z.of_nat (seq 0 dT))
             v0 solves = inr f ->
    exists e, f = CtorErr e /\ C09.construct T O a sched = inr e.
Proof.
  intros V vadd T O dI dT HdI HdT.
  exact (index_lists_only_constructor_fails V vadd T O _ _ dI dT (index_set_seq dI HdI)
                                            (index_set_seq dT HdT)).
Qed.
Print Assumptions C10_only_constructor_fails.

(* The clock of the product run IS the C09 time loop: running C09's [simulate] on the events
   derived from the solver verdicts (NConv k -> Converged k, NFail -> Failed) yields exactly
   the clock states, compute_time_step answers and stop reason of the product run.  Hence
   every theorem of C09 (C09_main: accepted times increase, hit the schedule, never exceed
   the final time, rewind on failure ...) holds of the product run, for any arithmetic. *)
Theorem C10_clock_is_C09 :
  forall (V : Type) (vadd : V -> V -> V) (T : Type) (O : C09.numops T) (dI dT : nat),
    1 <= dI -> 1 <= dT ->
    forall (maxit : Z) (v0 : V) (a : C09.args T) (sched : list T)
         (solves : list (list (V * bool * bool)))
         (c : C09.cfg T) (st0 : store V) (tr : list (entry V T)) (sp : stop),
    simulate V vadd T O maxit a sched (map Z.of_nat (seq 0 dI)) (map Z.of_nat (seq 0 dT))
             v0 solves = inl (c, st0, (tr, sp)) ->
    C09.simulate T O a sched (map ev_of tr) = inl (c, (map clock_of tr, stop_of sp)).
Proof.
  intros V vadd T O dI dT HdI HdT maxit v0 a sched solves c st0 tr sp Hs.
  apply (seq_lists_thm V vadd T O dI dT HdI HdT maxit v0 a sched solves c st0 tr sp Hs).
Qed.
Print Assumptions C10_clock_is_C09.

(* Claim 3, clock half (exact real arithmetic, C09_main's hypotheses): the loop never stops
   on a storage exception; if it raises, it is through the recomputation budget
   (recomputation attempts exhausted, or dt already at dt_min); if it finishes, the clock it
   ends with does not exceed the final time and is within isclose of it. *)
Local Open Scope R_scope.
Theorem C10_ends_at_final_time :
  forall (V : Type) (vadd : V -> V -> V) (dI dT : nat) (maxit : Z)
         (a : C09.args R) (sched : list R) (v0 : V) (solves : list (list (V * bool * bool)))
         (c : C09.cfg R) (st0 : store V) (tr : list (entry V R)) (sp : stop),
    (1 <= dI)%nat -> (1 <= dT)%nat ->
    simulate V vadd R C09.ROps maxit a sched (map Z.of_nat (seq 0 dI)) (map Z.of_nat (seq 0 dT))
             v0 solves = inl (c, st0, (tr, sp)) ->
    C09.a_constant a = false ->
    0 < C09.dt_min c -> 0 <= C09.a_rtol a -> 0 <= C09.a_atol a ->
    C09.well_separated (C09.a_rtol a) (C09.a_atol a) sched ->
    C09.a_dt_init a <= nth 1 sched 0 - nth 0 sched 0 ->
    let t_end := C09.time (final_clock (C09.init_state R C09.ROps c sched) tr) in
    (forall e, sp <> RaisedStore e) /\
    (forall e, sp = RaisedClock e -> e = C09.E_recomp_exhausted \/ e = C09.E_dt_at_min) /\
    (sp = Finished ->
       t_end <= last sched 0 /\ C09.isclose R C09.ROps c t_end (last sched 0) = true).
Proof.
  intros V vadd dI dT maxit a sched v0 solves c st0 tr sp HdI HdT.
  exact (ends_at_final_time V vadd _ _ dI dT maxit a sched v0 solves c st0 tr sp
                            (index_set_seq dI HdI) (index_set_seq dT HdT)).
Qed.
Print Assumptions C10_ends_at_final_time.
Local Close Scope R_scope.

(* Termination (exact real arithmetic, C09_main's hypotheses).  For EVERY verdict pattern the
   number of attempted time steps of the run is bounded by a number that depends only on the
   TimeManager configuration: every converged step either advances the clock by at least
   dt_min or lands exactly on the scheduled time it was shortened onto, and at most
   recomp_max failed steps fit between two converged ones (one more may raise).  So the time
   loop cannot run forever: with enough scripted inputs it finishes or raises through the
   recomputation budget (see C10_never_starved for "enough"). *)
Local Open Scope R_scope.
Theorem C10_terminates :
  forall (V : Type) (vadd : V -> V -> V) (dI dT : nat) (maxit : Z)
         (a : C09.args R) (sched : list R) (v0 : V) (solves : list (list (V * bool * bool)))
         (c : C09.cfg R) (st0 : store V) (tr : list (entry V R)) (sp : stop),
    (1 <= dI)%nat -> (1 <= dT)%nat ->
    simulate V vadd R C09.ROps maxit a sched (map Z.of_nat (seq 0 dI)) (map Z.of_nat (seq 0 dT))
             v0 solves = inl (c, st0, (tr, sp)) ->
    C09.a_constant a = false ->
    0 < C09.dt_min c -> 0 <= C09.a_rtol a -> 0 <= C09.a_atol a ->
    C09.well_separated (C09.a_rtol a) (C09.a_atol a) sched ->
    C09.a_dt_init a <= nth 1 sched 0 - nth 0 sched 0 ->
    INR (n_converged tr) * C09.dt_min c
      <= (last sched 0 - nth 0 sched 0) + INR (length sched - 1) * C09.dt_min c /\
    (Z.of_nat (n_failed tr) <= (Z.of_nat (n_converged tr) + 1) * C09.recomp_max c + 1)%Z /\
    length tr = (n_converged tr + n_failed tr)%nat.
Proof.
  intros V vadd dI dT maxit a sched v0 solves c st0 tr sp HdI HdT.
  exact (terminates V vadd _ _ dI dT maxit a sched v0 solves c st0 tr sp
                    (index_set_seq dI HdI) (index_set_seq dT HdT)).
Qed.
Print Assumptions C10_terminates.
Local Close Scope R_scope.

(* The model's OutOfEvents stop (an artefact of finite scripted inputs) only occurs when
   every scripted solve was consumed, or the solve that was cut short had been given fewer
   inputs than the iteration budget allows.  Any index sets, any arithmetic. *)
Theorem C10_never_starved :
  forall (V : Type) (vadd : V -> V -> V) (T : Type) (O : C09.numops T) (maxit : Z)
         (a : C09.args T) (sched : list T) (iti tsi : list Z) (v0 : V)
         (solves : list (list (V * bool * bool)))
         (c : C09.cfg T) (st0 : store V) (tr : list (entry V T)),
    simulate V vadd T O maxit a sched iti tsi v0 solves = inl (c, st0, (tr, OutOfEvents)) ->
    length tr = length solves \/
    exists inp, nth_error solves (length tr) = Some inp /\
                (Z.of_nat (length inp) <= maxit)%Z.
Proof.
  intros V vadd T O maxit a sched iti tsi v0 solves c st0 tr H. unfold simulate in H.
  destruct (C09.construct T O a sched) as [c'|e]; [|discriminate].
  destruct (init V vadd iti tsi v0) as [st [e|]]; [discriminate|].
  injection H as _ _ Hd. exact (drive_out V vadd T O maxit _ _ c' sched solves _ _ _ Hd).
Qed.
Print Assumptions C10_never_starved.

(* Claims 1-3 and the clock projection for index ARRAYS in any order and with repetitions:
   iterate_indices / time_step_indices are arbitrary lists of non-negative integers whose
   set is 0..m-1 (the shift depth is the length of the list, as in the code).  The
   time-step dictionary then starts with m keys and grows to the depth: key i holds the
   i-th entry of (accepted solutions, most recent first, initial values last) followed by
   m-1 further copies of the initial values.  With [no_exc e] (neither a storage exception
   nor a raising compute_time_step) iterate 0 is the newest accepted solution, which by the
   definition of [accepted] is the converged iterate after a converged step and the
   previous accepted solution after a failed one. *)
Theorem C10_index_lists :
  forall (V : Type) (vadd : V -> V -> V) (T : Type) (O : C09.numops T)
         (iti tsi : list Z) (mI mT : nat),
    index_set iti mI -> index_set tsi mT ->
    forall (maxit : Z) (v0 : V) (a : C09.args T) (sched : list T)
           (solves : list (list (V * bool * bool)))
           (c : C09.cfg T) (st0 : store V) (tr : list (entry V T)) (sp : stop),
    simulate V vadd T O maxit a sched iti tsi v0 solves = inl (c, st0, (tr, sp)) ->
    (forall e, sp <> RaisedStore e) /\
    (forall pre e post, tr = pre ++ e :: post ->
       (forall x, e_res e <> NErr x) /\ e_res e <> NOut /\
       (forall i, slot_get (tss (e_store e)) i
                  = if i <? length tsi
                    then nth_error (accepted vadd v0 (pre ++ [e]) ++ repeat v0 (mT - 1)) i
                    else None) /\
       (no_exc e = true ->
          slot_get (its (e_store e)) 0 = Some (hd v0 (accepted vadd v0 (pre ++ [e]))))) /\
    (forall i, slot_get (tss (final_store st0 tr)) i
               = if i <? length tsi
                 then nth_error (accepted vadd v0 tr ++ repeat v0 (mT - 1)) i else None) /\
    C09.simulate T O a sched (map ev_of tr) = inl (c, (map clock_of tr, stop_of sp)).
Proof. exact index_lists_thm. Qed.
Print Assumptions C10_index_lists.

Theorem C10_index_lists_only_constructor_fails :
  forall (V : Type) (vadd : V -> V -> V) (T : Type) (O : C09.numops T)
         (iti tsi : list Z) (mI mT : nat),
    index_set iti mI -> index_set tsi mT ->
    forall (maxit : Z) (v0 : V) (a : C09.args T) (sched : list T)
           (solves : list (list (V * bool * bool))) (f : failure),
    simulate V vadd T O maxit a sched iti tsi v0 solves = inr f ->
    exists e, f = CtorErr e /\ C09.construct T O a sched = inr e.
Proof. exact index_lists_only_constructor_fails. Qed.
Print Assumptions C10_index_lists_only_constructor_fails.

(* ---------------- non-vacuity ---------------- *)
(* A concrete run (vectors of integers, binary64 clock): depths 2/2, max_iterations = 3,
   schedule [0; 1], dt_init = 1/2; solve 1 diverges at its 2nd iteration, solve 2 converges
   after 2 iterations, solve 3 exhausts the budget (4 iterations), solves 4 and 5 converge.
   The hypotheses of claims 1-3 are met by a failed and by a converged entry, and the
   dictionaries hold what the theorems say. *)
Definition ex_fargs : C09.args float :=
  C09.Build_args float 0x1p-1%float false (Some (0x1p-4%float, 1%float)) 10 2 4
                 0x1p-1%float 2%float 0x1p-1%float 3 0x1.b7cdfd9d7bdbbp-34%float 0%float.
Definition ex_solves : list (list (list Z * bool * bool)) :=
  [ [([1; 1], false, false); ([2; 0], false, true)];
    [([5; 5], false, false); ([1; 2], true, false)];
    [([9; 9], false, false); ([9; 9], false, false); ([9; 9], false, false);
     ([9; 9], false, false); ([7; 7], true, false)];
    [([1; 0], true, false)];
    [([0; 1], true, false)] ]%Z.

Example C10_nonvacuous :
  match simulate (list Z) C08.vaddZ float C09.FOps 3 ex_fargs [0%float; 1%float]
                 (map Z.of_nat (seq 0 2)) (map Z.of_nat (seq 0 2)) [10; 20]%Z ex_solves with
  | inl (_, _, (tr, sp)) =>
      map (fun e => (e_res e, slot_get (its (e_store e)) 0, slot_get (tss (e_store e)) 0,
                     slot_get (tss (e_store e)) 1)) tr
      = [ (NFail, Some [10; 20], Some [10; 20], Some [10; 20]);
          (NConv 2, Some [16; 27], Some [16; 27], Some [10; 20]);
          (NFail, Some [16; 27], Some [16; 27], Some [10; 20]);
          (NConv 1, Some [17; 27], Some [17; 27], Some [16; 27]);
          (NConv 1, Some [17; 28], Some [17; 28], Some [17; 27]) ]%Z
      /\ sp = Finished
      /\ accepted C08.vaddZ [10; 20]%Z tr = [[17; 28]; [17; 27]; [16; 27]; [10; 20]]%Z
  | inr _ => False
  end.
Proof. vm_compute. repeat split; reflexivity. Qed.

(* The hypotheses of the clock theorem are satisfiable (real arithmetic): the configuration
   of C09's regression example, any solver verdicts. *)
Example C10_ends_at_final_time_nonvacuous :
  forall solves : list (list (list Z * bool * bool)),
  exists c st0 tr sp,
    simulate (list Z) C08.vaddZ R C09.ROps 3 ex_args ex_sched
             (map Z.of_nat (seq 0 2)) (map Z.of_nat (seq 0 1)) [0%Z] solves
      = inl (c, st0, (tr, sp)) /\
    C09.a_constant ex_args = false /\ (0 < C09.dt_min c)%R /\
    (0 <= C09.a_rtol ex_args)%R /\ (0 <= C09.a_atol ex_args)%R /\
    C09.well_separated (C09.a_rtol ex_args) (C09.a_atol ex_args) ex_sched /\
    (C09.a_dt_init ex_args <= nth 1 ex_sched 0 - nth 0 ex_sched 0)%R.
Proof.
  intros solves. destruct ex_construct as [c [Ec Emin]].
  destruct (init_general (list Z) C08.vaddZ _ _ 2 1 [0%Z] (index_set_seq 2 ltac:(lia))
                         (index_set_seq 1 ltac:(lia))) as (st & Ei & _).
  unfold simulate. rewrite Ec, Ei.
  destruct (drive (list Z) C08.vaddZ R C09.ROps 3 _ _ c ex_sched _ st solves) as [tr sp].
  exists c, st, tr, sp. split; [reflexivity|].
  destruct ex_guards as [G1 [G2 [G3 [G4 G5]]]].
  repeat split; try assumption. rewrite Emin. lra.
Qed.

(* Index arrays [1; 0; 0] (iterates: depth 3, two keys) and [2; 0; 1] (time steps) satisfy
   [index_set]; the run of C10_nonvacuous with them: the iterate dictionary starts with the
   keys 0, 1 and grows to depth 3. *)
Example C10_index_lists_nonvacuous :
  index_set [1; 0; 0]%Z 2 /\ index_set [2; 0; 1]%Z 3 /\
  match simulate (list Z) C08.vaddZ float C09.FOps 3 ex_fargs [0%float; 1%float]
                 [1; 0; 0]%Z [2; 0; 1]%Z [10; 20]%Z ex_solves with
  | inl (_, st0, (tr, sp)) =>
      map (fun i => slot_get (its st0) i) [0; 1; 2] = [Some [10; 20]; Some [10; 20]; None]%Z /\
      map (fun i => slot_get (its (final_store st0 tr)) i) [0; 1; 2; 3]
      = [Some [17; 28]; Some [17; 27]; Some [16; 27]; None]%Z /\
      map (fun i => slot_get (tss (final_store st0 tr)) i) [0; 1; 2; 3]
      = [Some [17; 28]; Some [17; 27]; Some [16; 27]; None]%Z /\ sp = Finished
  | inr _ => False
  end.
Proof.
  split; [|split].
  - split; [lia|split; [repeat constructor; lia|]]. intros j. split.
    + intros [H|[H|[H|[]]]]; lia.
    + intros H. destruct j as [|[|j]]; [right; left; reflexivity|left; reflexivity|lia].
  - split; [lia|split; [repeat constructor; lia|]]. intros j. split.
    + intros [H|[H|[H|[]]]]; lia.
    + intros H. destruct j as [|[|[|j]]];
        [right; left; reflexivity|right; right; left; reflexivity|left; reflexivity|lia].
  - vm_compute. repeat split; reflexivity.
Qed.

(* A run that is cut short by its scripted inputs (the second solve gets one input although
   max_iterations = 3 allows four iterations): the OutOfEvents stop of C10_never_starved. *)
Example C10_never_starved_nonvacuous :
  match simulate (list Z) C08.vaddZ float C09.FOps 3 ex_fargs [0%float; 1%float]
                 [0%Z] [0%Z] [10; 20]%Z
                 [ [([1; 1], true, false)]; [([5; 5], false, false)]; [([1; 1], true, false)] ]%Z with
  | inl (_, _, (tr, sp)) => sp = OutOfEvents /\ length tr = 1
  | inr _ => False
  end.
Proof. vm_compute. split; reflexivity. Qed.
