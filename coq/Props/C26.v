(* C26 — property theorems only.  Model: PP.Model.C26 (transcription of
   MortarGrid._init_projections / _set_projections / update_mortar / update_secondary /
   _check_mappings for 1-D mortar grids, match_1d weights from PP.Model.C33); proofs:
   PP.Proofs.C26.

   Vocabulary: matrices are coordinate lists (duplicates add up).  [row_sum a i], [col_sum a j]
   as in C33;  [csum p a j] : sum of column j over the rows selected by p (p = the mortar
   cells of ONE side);  [rsum p a i] : sum of row i over the columns selected by p;
   [last_state s0 (run nrm tol s0 ops)] : the state after the whole history (or its first
   exception).

   WHAT IS PROVED / NOT PROVED.  Full: the transpose relations after construction and after
   every history (C26_transposes, C26_transpose_sums); the weights of every block that
   update_mortar / update_secondary build (C26_block_weights, from C33); when the updates
   raise (C26_update_error).  Partial (suffix _partial): the preservation of unit row sums /
   per-side unit column sums is proved for the matrix product that the updates perform, with
   the facts about the block-diagonal / stacked arrangement of the blocks as hypotheses; NOT
   proved in Coq: (i) that sps.bmat's arrangement (bdiag / vstack of the model) of blocks with
   the proved weights satisfies those hypotheses (index bookkeeping), (ii) the sums right
   after _init_projections (stable sort + even/odd split), (iii) update_primary.  These are
   covered on every run by the execution correspondence and the oracle only. *)
From Coq Require Import List QArith Bool Arith Lia.
Import ListNotations.
From PP Require Import Model.C33 Proofs.C33 Model.C26 Proofs.C26.
Open Scope Q_scope.

(* After construction and after EVERY history of update_mortar / update_secondary (1-D mortars,
   and 2-D mortars with the overlap areas as data of the operation) that does not raise, the mortar-to-grid integrated maps are the transposes of the grid-to-mortar
   averaged maps and vice versa (all four pairs). *)
Theorem C26_transposes :
  forall nrm tol sg np ns ps fdi ops s0 s',
    init_projections sg np ns ps fdi = inr s0 ->
    last_state s0 (run nrm tol s0 ops) = inr s' ->
    m2p_int s' = mtrans (p2m_avg s') /\ m2p_avg s' = mtrans (p2m_int s') /\
    m2s_int s' = mtrans (s2m_avg s') /\ m2s_avg s' = mtrans (s2m_int s').
Proof.
  intros nrm tol sg np ns ps fdi ops s0 s' H0 H.
  exact (run_transposes _ _ _ _ _ (init_transposes _ _ _ _ _ _ H0) H).
Qed.
Print Assumptions C26_transposes.

(* Hence every row-sum statement about a mortar-to-grid map is the column-sum statement
   about the transposed grid-to-mortar map and vice versa, also per side. *)
Theorem C26_transpose_sums :
  forall (p : nat -> bool) (a : mat) (k : nat),
    row_sum (mtrans a) k == col_sum a k /\ col_sum (mtrans a) k == row_sum a k /\
    rsum p (mtrans a) k == csum p a k.
Proof.
  intros. unfold row_sum, col_sum, rsum, csum. rewrite !mtrans_sum.
  repeat split; try reflexivity.
  rewrite (filter_ext _ _ (fun e => andb_comm _ _)). reflexivity.
Qed.
Print Assumptions C26_transpose_sums.

(* Weights of the blocks: for a side grid and a replacement that tessellate the same
   segment, the 'averaged' block has unit row sums and the 'integrated' block unit column
   sums on every cell of positive length (C33's overlap theorem). *)
Theorem C26_block_weights :
  forall nrm tol new old lo hi,
    0 < nrm -> tessellates new lo hi -> tessellates old lo hi ->
    (forall m, match_cells nrm tol Averaged new old = inr m ->
       forall i, (i < length new)%nat -> ~ degenerate (nth i new (0, 0)) -> row_sum m i == 1) /\
    (forall m, match_cells nrm tol Integrated new old = inr m ->
       forall j, (j < length old)%nat -> ~ degenerate (nth j old (0, 0)) -> col_sum m j == 1).
Proof.
  intros nrm tol new old lo hi Hn T1 T2. unfold match_cells.
  destruct (lt_outer nrm 0 new old) as [|l] eqn:E; [split; discriminate|].
  destruct (cells_unit_sums nrm tol _ _ lo hi l Hn T1 T2 E) as [_ [R C]].
  split; intros m [= <-]; assumption.
Qed.
Print Assumptions C26_block_weights.

(* 2-D mortar grids (match_2d): the overlap areas of shapely are data of the operation; when
   they satisfy C33's area contract for a cell (they sum to its volume) the 'averaged' block
   has a unit row sum / the 'integrated' block a unit column sum there. *)
Theorem C26_block_weights_2d :
  forall tol b,
    (forall i, (i < length (kb_vnew b))%nat -> ~ nth i (kb_vnew b) 0 == 0 ->
       row_sum (kb_isect b) i == nth i (kb_vnew b) 0 ->
       row_sum (kmatch tol Averaged b) i == 1) /\
    (forall j, (j < length (kb_vold b))%nat -> ~ nth j (kb_vold b) 0 == 0 ->
       col_sum (kb_isect b) j == nth j (kb_vold b) 0 ->
       col_sum (kmatch tol Integrated b) j == 1).
Proof.
  intros tol b. split; intros; [apply avg_unit_row | apply int_unit_col]; assumption.
Qed.
Print Assumptions C26_block_weights_2d.

(* Averaged projections stay averaged: the update  P_avg := M * P_avg  keeps the sum of row i
   equal to that of M's row i (= 1 by C26_block_weights) when the rows of P_avg that M's
   row i refers to sum to 1.  [partial: the hypothesis about M = bmat(blocks) is not derived
   from the block arrangement in Coq] *)
Theorem C26_avg_rows_preserved_partial :
  forall (m p : mat) (i : nat),
    (forall x, In x m -> erow x = i -> row_sum p (ecol x) == 1) ->
    row_sum (mprod m p) i == row_sum m i.
Proof.
  intros m p i H. rewrite <- (mmul_unit_rows m p i H).
  exact (mcompress_wsum _ _ (key_respecting_idx (fun r _ => Nat.eqb r i))).
Qed.
Print Assumptions C26_avg_rows_preserved_partial.

(* Integrated projections stay integrated, side by side: if the column sums of M over the
   new mortar cells of a side (rows p') are 1 on the old mortar cells of that side (rows p)
   and 0 elsewhere — block-diagonal M with unit column sums per block — then the column sums
   of  M * P_int  over p' equal those of P_int over p: totals per side are preserved.
   [partial: as above] *)
Theorem C26_int_side_cols_preserved_partial :
  forall (p' p : nat -> bool) (m pint : mat) (j : nat),
    (forall y, In y pint -> ecol y = j ->
       csum p' m (erow y) == if p (erow y) then 1 else 0) ->
    csum p' (mprod m pint) j == csum p pint j.
Proof.
  intros p' p m pint j H. rewrite <- (mmul_side_cols p' p m pint j H).
  exact (mcompress_wsum _ _ (key_respecting_idx (fun r c => p' r && Nat.eqb c j))).
Qed.
Print Assumptions C26_int_side_cols_preserved_partial.

(* project_to_side_grids: in every state the side restrictions pick every mortar cell exactly
   once, side after side (their columns, concatenated, are 0..num_cells-1 — the offset of a
   side is the cumulative cell count of the preceding sides, whatever their sizes), row r of
   a side is its r-th cell and all weights are 1.  So "per side" in the oracle/tie and "through
   project_to_side_grids" are the same restriction. *)
Theorem C26_side_restrictions_partition :
  forall s,
    map ecol (concat (project_to_side_grids s)) = seq 0 (n_mortar s) /\
    Forall (fun e => ewt e = 1) (concat (project_to_side_grids s)) /\
    map (map erow) (project_to_side_grids s) = map (fun g => seq 0 (length g)) (sides s).
Proof. intros s. exact (proj_blocks_partition (sides s) 0). Qed.
Print Assumptions C26_side_restrictions_partition.

(* The updates raise IndexError only for zero-length cells in both grids of a pair. *)
Theorem C26_update_error :
  forall nrm tol sc new old e,
    match_cells nrm tol sc new old = inl e ->
    e = MIndexErr /\ exists a b, In a new /\ In b old /\ degenerate a /\ degenerate b.
Proof.
  intros nrm tol sc new old e H. unfold match_cells in H.
  destruct (lt_outer nrm 0 new old) eqn:E; [|discriminate]. injection H as <-.
  apply lt_outer_err in E. destruct E as [a [b E]]. split; [reflexivity|]. exists a, b. tauto.
Qed.
Print Assumptions C26_update_error.

(* ---------------- non-vacuity ---------------- *)
(* one fracture cell, two sides (faces 2 and 3 of 4); the left side is refined into
   [0,1/2],[1/2,1], then the fracture grid is replaced by [1,1/4],[1/4,0] *)
Example C26_nonvacuous :
  let sg := [[(0, 1)]; [(0, 1)]] in
  let ps := [(0%nat, 2%nat, 1); (0%nat, 3%nat, 1)] in
  let ops := [UpdMortar [Some [(0, 1 # 2); (1 # 2, 1)]; None];
              UpdSecondary [(1, 1 # 4); (1 # 4, 0)]] in
  exists s0 s', init_projections sg 4 1 ps None = inr s0 /\
    last_state s0 (run 1 (1 # 10000) s0 ops) = inr s' /\
    n_mortar s' = 3%nat /\
    forallb (fun m => Qeq_bool (row_sum (p2m_avg s') m) 1 && Qeq_bool (row_sum (s2m_avg s') m) 1)
            (seq 0 3) = true /\
    (* per side (rows 0-1 = left, row 2 = right): integrated columns sum to one *)
    Qeq_bool (csum (fun r => Nat.ltb r 2) (p2m_int s') 2) 1 = true /\
    Qeq_bool (csum (fun r => Nat.ltb r 2) (s2m_int s') 0) 1 = true /\
    Qeq_bool (csum (fun r => Nat.ltb r 2) (s2m_int s') 1) 1 = true /\
    Qeq_bool (csum (fun r => Nat.eqb r 2) (s2m_int s') 1) 1 = true.
Proof.
  cbv zeta. eexists. eexists.
  split; [vm_compute; reflexivity|]. split; [vm_compute; reflexivity|].
  repeat split; vm_compute; reflexivity.
Qed.

Example C26_nonvacuous_blocks :
  tessellates [(0, 1 # 2); (1 # 2, 1)] 0 1 /\ tessellates [(1, 0)] 0 1 /\
  exists m, match_cells 1 (1 # 10000) Averaged [(0, 1 # 2); (1 # 2, 1)] [(1, 0)] = inr m.
Proof.
  split; [|split].
  - exists [(0, 1 # 2); (1 # 2, 1)]. split; [apply Permutation.Permutation_refl|].
    cbn [chain]. repeat split; vm_compute; reflexivity.
  - exists [(1, 0)]. split; [apply Permutation.Permutation_refl|].
    cbn [chain]. repeat split; vm_compute; reflexivity.
  - eexists. vm_compute. reflexivity.
Qed.
