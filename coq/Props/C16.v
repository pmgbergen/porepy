(* C16 — TPSA is invariant under rigid translations: property theorems only.
   METHOD-LEVEL theorems (DESIGN.md §1.1 P-method): they are about sparse rows, the
   translation state and the finite-volume assembly, for ALL rational matrices, boundary
   flag assignments and translations.  They say nothing about tpsa.py by themselves; the
   harness evaluates the checkers of PP.Model.C16 (check) on the real matrices of
   Tpsa.discretize for every generated instance (certificate tie), and
   C16_certificate_sound / C16_exact_certificates connect those booleans to the theorems.

   Vocabulary (PP.Model.C16): columns = [u | rotation | solid pressure | boundary values g];
   cls j = Some k if column j carries component k of the translation (cell displacement
   component k, Dirichlet boundary component k) and None if it carries 0 (rotation, solid
   pressure, Neumann = zero traction);  sv cls t = the translation state of translation t;
   csum cls k r = sum of the entries of row r standing in columns of class Some k. *)
From Coq Require Import List ZArith QArith Qabs Bool Arith Lia.
Import ListNotations.
From PP Require Lib.RowLin Lib.RowInv.
From PP Require Import Model.C16 Proofs.C16.
Local Open Scope Q_scope.

(* A row written as weighted differences  sum_j w_j (v_j - v_i)  (interior face: the two
   cell values of one component; Dirichlet face: boundary value minus cell value) vanishes
   on the translation state, whatever the weights. *)
Theorem C16_stress_zero_differences :
  forall (cls : cls_t) (t : list Q) (ws : row) (i : nat),
    (forall jw, In jw ws -> cls (fst jw) = cls i) ->
    diffsum ws i (sv cls t) == 0.
Proof.
  intros cls t ws i. induction ws as [|[j w] ws IH]; intros H; cbn [diffsum fst snd]; [reflexivity|].
  rewrite IH by auto with datatypes.
  unfold sv. rewrite (H (j, w) (or_introl eq_refl) : cls j = cls i). ring.
Qed.
Print Assumptions C16_stress_zero_differences.

(* Row-sum certificate: a row whose entries sum to zero per translation component gives
   zero on the translation state of EVERY translation (of that many components). *)
Theorem C16_stress_zero :
  forall (cls : cls_t) (t : list Q) (r : row),
    (forall k, (k < length t)%nat -> csum cls k r == 0) ->
    rdot r (sv cls t) == 0.
Proof. exact stress_zero. Qed.
Print Assumptions C16_stress_zero.

(* Averaging rows: weights summing to one in component k (and to zero in the others)
   reproduce t_k. *)
Theorem C16_averages_reproduce_const :
  forall (cls : cls_t) (t : list Q) (r : row) (k : nat),
    (k < length t)%nat ->
    (forall k', (k' < length t)%nat -> csum cls k' r == if Nat.eqb k k' then 1 else 0) ->
    rdot r (sv cls t) == nth k t 0.
Proof.
  intros cls t r k Hk H.
  rewrite (row_exact cls t r (fun k' => if Nat.eqb k k' then 1 else 0) H), tsum_pick0. ring.
Qed.
Print Assumptions C16_averages_reproduce_const.

(* The assembled system.  If (certified I): every stress row sums to zero per component,
   every solid-mass row sums to the face normal, every rotation row sums to -(n x .)
   (2-D: (n_1, -n_0)), the signed face normals of every cell sum to zero and the incidence
   refers to existing faces, then for EVERY translation t the state (u = t, rotation = 0,
   solid pressure = 0) with boundary data t / zero traction makes every row of
   Div*[F | RHS] - [Accumulation | 0] vanish, i.e. it solves  A x = b. *)
Theorem C16_system_solution :
  forall (I : inst) (t : list Q),
    certified I -> length t = i_nd I ->
    forall r, In r (system_rows I) -> rdot r (sv (cls_of I) t) == 0.
Proof. exact system_solution. Qed.
Print Assumptions C16_system_solution.

(* ... and it is THE solution when the system matrix has a trivial kernel (hypothesis; the
   oracle observes it by solving): any x with the same boundary data and zero residual has
   x = t in every cell-displacement dof and 0 in every rotation / solid-pressure dof. *)
Theorem C16_unique_solution :
  forall (I : inst) (t : list Q) (x : vec),
    certified I -> length t = i_nd I ->
    (forall v : vec, (forall j, (ndof I <= j)%nat -> v j == 0) ->
                     (forall r, In r (system_rows I) -> rdot r v == 0) ->
                     forall j, (j < ndof I)%nat -> v j == 0) ->
    (forall j, (ndof I <= j)%nat -> x j == sv (cls_of I) t j) ->
    (forall r, In r (system_rows I) -> rdot r x == 0) ->
    forall j, (j < ndof I)%nat ->
      x j == if (j <? i_nd I * i_nc I)%nat then nth (j mod i_nd I) t 0 else 0.
Proof.
  intros I t x HC Hlen Hker Hbnd Hres j Hj.
  assert (E : x j == sv (cls_of I) t j).
  { apply (RowLin.unique_solution (system_rows I) (ndof I) x _ Hker Hbnd); [|exact Hj].
    intros r Hr. rewrite (Hres r Hr), (C16_system_solution I t HC Hlen r Hr). reflexivity. }
  rewrite E, sv_cells.
  destruct (j <? i_nd I * i_nc I)%nat; [reflexivity|].
  destruct (Nat.ltb_spec j (ndof I)); [reflexivity|lia].
Qed.
Print Assumptions C16_unique_solution.

(* Non-singularity per instance instead of a hypothesis: a left-inverse certificate
   N * A = d * I, d <> 0 (N, d computed by the harness in exact rationals, the identity verified
   exactly in Coq by RowInv.inv_ok on the assembled rows; part of check when i_inv is present,
   i.e. on small instances) gives the trivial kernel ... *)
Theorem C16_nonsingular_certificate :
  forall (tol : Q) (I : inst) (N : list (list Q)) (d : Q),
    check tol I = true -> i_inv I = Some (N, d) ->
    forall v : vec, (forall j, (ndof I <= j)%nat -> v j == 0) ->
                    (forall r, In r (system_rows I) -> rdot r v == 0) ->
                    forall j, (j < ndof I)%nat -> v j == 0.
Proof.
  intros tol I N d H E v.
  exact (RowInv.left_inverse_kernel _ _ N d v (check_inv tol I N d H E)).
Qed.
Print Assumptions C16_nonsingular_certificate.

(* ... so that on an exactly certified instance the translation state is THE solution, with no
   assumption left about the matrix. *)
Theorem C16_unique_solution_certified :
  forall (I : inst) (N : list (list Q)) (d : Q) (t : list Q) (x : vec),
    certified I -> RowInv.inv_ok (ndof I) (system_rows I) N d = true -> length t = i_nd I ->
    (forall j, (ndof I <= j)%nat -> x j == sv (cls_of I) t j) ->
    (forall r, In r (system_rows I) -> rdot r x == 0) ->
    forall j, (j < ndof I)%nat ->
      x j == if (j <? i_nd I * i_nc I)%nat then nth (j mod i_nd I) t 0 else 0.
Proof.
  intros I N d t x HC Hinv Hlen. apply (C16_unique_solution I t x HC Hlen).
  intros v. exact (RowInv.left_inverse_kernel _ _ N d v Hinv).
Qed.
Print Assumptions C16_unique_solution_certified.

(* Soundness of the checker the tie evaluates, tolerance included: if  check tol I = true
   then for every translation t, (1) every stress row, (2) every averaging row and (3) every
   row of the assembled system applied to the translation state is within
   tol * (1 + sum|row entries|) * sum_k |t_k|  of  0, t_k, 0  respectively. *)
Theorem C16_certificate_sound :
  forall (tol : Q) (I : inst) (t : list Q),
    check tol I = true -> length t = i_nd I ->
    (forall r, In r (i_srows I) -> Qabs (rdot r (sv (cls_of I) t)) <= bound tol r t)
    /\ (forall q, (q < i_nd I * i_nf I)%nat ->
          Qabs (rdot (nth q (i_arows I) []) (sv (cls_of I) t) - nth (q mod i_nd I) t 0)
          <= bound tol (nth q (i_arows I) []) t)
    /\ (forall r, In r (system_rows I) -> Qabs (rdot r (sv (cls_of I) t)) <= bound tol r t).
Proof.
  intros tol I t H Hlen.
  apply andb_prop in H as [[[[[[[_ Hstress]%andb_prop Havg]%andb_prop _]%andb_prop _]%andb_prop _]%andb_prop Hsys]%andb_prop _].
  split; [|split].
  - intros r Hr. exact (row_ok_zero_sound _ _ _ r t (proj1 (forallb_forall _ _) Hstress r Hr) Hlen).
  - intros q Hq. rewrite <- (tsum_unit t (q mod i_nd I)).
    exact (row_ok_sound _ _ _ _ _ t (proj1 (ListFacts.forallb_seq _ _) Havg q Hq) Hlen).
  - intros r Hr. exact (row_ok_zero_sound _ _ _ r t (proj1 (forallb_forall _ _) Hsys r Hr) Hlen).
Qed.
Print Assumptions C16_certificate_sound.

(* With tolerance 0 the checkers establish the exact hypotheses of C16_system_solution. *)
Theorem C16_exact_certificates :
  forall I : inst,
    shape_ok I = true -> stress_ok 0 I = true -> mass_ok 0 I = true -> rot_ok 0 I = true ->
    normals_ok 0 I = true -> certified I.
Proof. exact exact_certified. Qed.
Print Assumptions C16_exact_certificates.

(* Non-vacuity: the real TPSA matrices of CartGrid([2,1]) (mu = 1, lambda = 2, mixed
   Dirichlet / Neumann data) satisfy every certificate exactly, hence the hypotheses of
   C16_system_solution, and the translation (1, -2) leaves no residual in any of the
   2*2 + 2*1 + 2 = 8 equations. *)
Example C16_nonvacuous :
  check 0 ex_inst = true /\ certified ex_inst /\ length (system_rows ex_inst) = 8%nat /\
  (forall r, In r (system_rows ex_inst) -> rdot r (sv (cls_of ex_inst) [1; -(2)]) == 0) /\
  sv (cls_of ex_inst) [1; -(2)] 2%nat == 1 /\ sv (cls_of ex_inst) [1; -(2)] 3%nat == -(2).
Proof.
  split; [exact ex_inst_check|]. split; [exact (check_certified _ ex_inst_check)|].
  split; [vm_compute; reflexivity|].
  split; [exact (system_solution ex_inst [1; -(2)] (check_certified _ ex_inst_check) eq_refl)|].
  split; vm_compute; reflexivity.
Qed.

(* Non-vacuity of the non-singularity certificate: the concrete instance carries one (8 x 8),
   check accepts it, so its kernel is trivial and the translation is its unique solution. *)
Example C16_nonvacuous_nonsingular :
  exists N d, i_inv ex_inst = Some (N, d) /\ ~ d == 0 /\
    RowInv.inv_ok (ndof ex_inst) (system_rows ex_inst) N d = true /\ ndof ex_inst = 8%nat.
Proof.
  destruct (i_inv ex_inst) as [[N d]|] eqn:E; [|vm_compute in E; discriminate].
  exists N, d. split; [reflexivity|].
  assert (H : RowInv.inv_ok (ndof ex_inst) (system_rows ex_inst) N d = true)
    by (apply (check_inv 0 ex_inst N d ex_inst_check E)).
  split; [|split; [exact H|reflexivity]].
  intros Hd. unfold RowInv.inv_ok in H. apply andb_prop in H. destruct H as [H _].
  apply andb_prop in H. destruct H as [H _]. apply negb_true_iff in H.
  apply Qeq_bool_iff in Hd. congruence.
Qed.

(* Non-vacuity of the difference form: an interior-face row  w (u_{c2,k} - u_{c1,k})  and a
   Dirichlet-face row  w (g_{f,k} - u_{c,k}). *)
Example C16_nonvacuous_differences :
  diffsum [(2%nat, 3 # 2)] 0%nat (sv (cls_of ex_inst) [1; -(2)]) == 0 /\
  diffsum [(8%nat, 4)] 0%nat (sv (cls_of ex_inst) [1; -(2)]) == 0 /\
  cls_of ex_inst 8%nat = Some 0%nat.
Proof. split; [|split]; vm_compute; reflexivity. Qed.
