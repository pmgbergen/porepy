(* C36 — property theorems only.  Model: PP.Model.C36 (transcription of ArraySlicer after
   the repair commit); proofs: PP.Proofs.C36.
   [ext_scalar]/[ext_mat]/[ext_ad] stand for numpy/scipy/AdArray arithmetic in a pending
   operation (eval "A op sliced"); every theorem holds for ANY such functions. *)
From Coq Require Import List ZArith Arith Lia.
Import ListNotations.
From PP Require Import Lib.Csr Model.C36 Proofs.C36 Model.C36_flat Proofs.C36_flat.

(* S @ x = P x : for every well-formed slicer with distinct range indices and every operand
   with domain_size rows — vector, 2-D array, sparse matrix (stored rows; compared as dense
   matrices), AdArray (value and Jacobian), scalar (= np.full(domain_size, c)) — the
   slicing part of __matmul__ does not raise and returns the explicit rsize x dsize 0/1
   matrix [denote s] times the operand. *)
Theorem C36_apply_is_matrix :
  forall (s : slicer) (x : value),
    wf_slicer s -> NoDup (rng s) -> vfits (dsize s) x ->
    exists y, slice s x = Ok y /\ not_num y /\ vfits (rsize s) y /\
              forall n, dense n y = mat_apply (denote s) (dense (dsize s) x).
Proof. exact apply_is_matrix. Qed.
Print Assumptions C36_apply_is_matrix.

(* Whatever argument pattern the constructor accepts (domain only = the onto fast path,
   range only, both, with or without sizes), the object is well-formed as soon as the
   index arrays are equally long and respect the stored sizes; it has no pending operand. *)
Theorem C36_constructor_wf :
  forall d r rs ds s,
    construct d r rs ds = Ok s ->
    length (dom s) = length (rng s) ->
    Forall (fun i => i < dsize s) (dom s) -> Forall (fun i => i < rsize s) (rng s) ->
    wf_slicer s /\ pend s = [].
Proof.
  intros d r rs ds s Hc Hl Hd Hr. destruct (construct_inv _ _ _ _ _ Hc) as [Hp Ho].
  unfold wf_slicer. auto.
Qed.
Print Assumptions C36_constructor_wf.

(* S.T denotes the transposed matrix (any slicer), and is again well-formed. *)
Theorem C36_transpose :
  forall s : slicer,
    denote (transpose s) = mtranspose (rsize s) (dsize s) (denote s) /\
    (wf_slicer s -> wf_slicer (transpose s)) /\
    rng (transpose s) = dom s /\ pend (transpose s) = [].
Proof.
  intros s. split; [exact (transpose_denote s)|]. split; [exact (transpose_wf s)|].
  split; reflexivity.
Qed.
Print Assumptions C36_transpose.

(* COMPOSITION, no guard.  In any heap [h] produced by the repaired code, for ANY two
   objects S_i, S_j (each with or without pending pairs of its own):  S_i @ S_j  is a new
   object, S_i and S_j are untouched, and  (S_i @ S_j) @ x = S_i @ (S_j @ x)  — value or
   error.  (False for the code before the second repair: C36_overwrite_variant_refuted.) *)
Theorem C36_matmul_composes :
  forall ext_scalar ext_mat ext_ad h i j si sj x,
    closed h -> nth_error h i = Some si -> nth_error h j = Some sj ->
    let h' := fst (step ext_scalar ext_mat ext_ad h (SMatSS i j)) in
    snd (step ext_scalar ext_mat ext_ad h (SMatSS i j)) = ONew (length h) /\
    nth_error h' i = Some si /\ nth_error h' j = Some sj /\
    apply_top ext_scalar ext_mat ext_ad h' (length h) x
    = bind (apply_top ext_scalar ext_mat ext_ad h j x) (apply_top ext_scalar ext_mat ext_ad h i).
Proof.
  intros es em ea h i j si sj x Hc Hi Hj h'. subst h'.
  assert (Hil : i < length h) by (apply nth_error_Some; congruence).
  assert (Hjl : j < length h) by (apply nth_error_Some; congruence).
  destruct (matmul_step es em ea h i j Hc Hil Hjl) as [s [-> [_ Hm]]]. cbn [fst snd].
  rewrite !nth_error_app1 by assumption. auto.
Qed.
Print Assumptions C36_matmul_composes.

(* Likewise for a scalar, sparse-matrix or AdArray left operand and op in @ * / ** + - :
   (A op S_j) @ x = A op (S_j @ x)  for ANY object S_j (pending pairs included). *)
Theorem C36_rop_composes :
  forall ext_scalar ext_mat ext_ad h o p j sj x,
    closed h -> (forall id, o <> OSlicer id) -> nth_error h j = Some sj ->
    let h' := fst (step ext_scalar ext_mat ext_ad h (SROp o p j)) in
    snd (step ext_scalar ext_mat ext_ad h (SROp o p j)) = ONew (length h) /\
    nth_error h' j = Some sj /\
    apply_top ext_scalar ext_mat ext_ad h' (length h) x
    = bind (apply_top ext_scalar ext_mat ext_ad h j x) (ext_op ext_scalar ext_mat ext_ad o p).
Proof.
  intros es em ea h o p j sj x Hc Ho Hj h'. subst h'.
  destruct (rop_step es em ea h o p j sj Hc Ho Hj) as [s [-> Hm]]. cbn [fst snd].
  rewrite nth_error_app1 by (apply nth_error_Some; congruence). auto.
Qed.
Print Assumptions C36_rop_composes.

(* Chains of ANY length over ANY objects:  S_cur @ S_j1 @ ... @ S_jn @ x  (python evaluates
   from the left, each @ allocates) = S_cur @ (S_j1 @ ( ... (S_jn @ x))). *)
Theorem C36_chain_general :
  forall ext_scalar ext_mat ext_ad rest h cur x,
    closed h -> cur < length h -> Forall (fun j => j < length h) rest ->
    let h' := fst (run ext_scalar ext_mat ext_ad h (chain_prog cur rest (length h))) in
    apply_top ext_scalar ext_mat ext_ad h' (chain_top cur rest (length h)) x =
    bind (run_objs ext_scalar ext_mat ext_ad h (rev rest) x) (apply_top ext_scalar ext_mat ext_ad h cur).
Proof. exact chain_general. Qed.
Print Assumptions C36_chain_general.

(* ... and as explicit matrices: for plain slicers S_j* of fitting sizes and a leftmost
   member S_cur whose pending pairs (if any) are non-slicer operands A_k op_k,
       result = A_m op_m ( ... (A_1 op_1 (P_cur (P_j1 ( ... (P_jn x))))))            *)
Theorem C36_chain :
  forall ext_scalar ext_mat ext_ad h cur sc rest ss x n,
    closed h -> nth_error h cur = Some sc ->
    (forall j p, ~ In (OSlicer j, p) (pend sc)) ->
    Forall2 (fun j s => nth_error h j = Some s /\ pend s = []) rest ss ->
    chain_ok (rev (sc :: ss)) n -> vfits n x ->
    let h' := fst (run ext_scalar ext_mat ext_ad h (chain_prog cur rest (length h))) in
    exists y,
      apply_top ext_scalar ext_mat ext_ad h' (chain_top cur rest (length h)) x
      = tail_op ext_scalar ext_mat ext_ad sc y /\
      dense (out_size (rev (sc :: ss)) n) y
      = fold_right (fun s acc => mat_apply (denote s) acc) (dense n x) (sc :: ss).
Proof.
  intros es em ea h cur sc rest ss x n Hc Hcur Hns HF Hok Hfit h'. subst h'.
  rewrite (chain_plain es em ea h cur sc rest ss x Hc Hcur Hns HF).
  destruct (run_slices_matrix (rev (sc :: ss)) n x Hok Hfit) as [y [-> [_ Hd]]].
  exists y. split; [reflexivity|].
  rewrite Hd, <- (fold_left_rev_right _ (rev (sc :: ss))), rev_involutive. reflexivity.
Qed.
Print Assumptions C36_chain.

(* Pending right operand on a plain slicer:  (A op S) @ x = A op (P x). *)
Theorem C36_pending :
  forall ext_scalar ext_mat ext_ad h o p j sj x,
    closed h -> (forall id, o <> OSlicer id) -> nth_error h j = Some sj -> pend sj = [] ->
    wf_slicer sj -> NoDup (rng sj) -> vfits (dsize sj) x ->
    let h' := fst (step ext_scalar ext_mat ext_ad h (SROp o p j)) in
    snd (step ext_scalar ext_mat ext_ad h (SROp o p j)) = ONew (length h) /\
    nth_error h' j = Some sj /\
    exists y, apply_top ext_scalar ext_mat ext_ad h' (length h) x
              = ext_op ext_scalar ext_mat ext_ad o p y /\
              forall n, dense n y = mat_apply (denote sj) (dense (dsize sj) x).
Proof.
  intros es em ea h o p j sj x Hc Ho Hj Hp Hwf Hnd Hfit h'. subst h'.
  destruct (rop_step es em ea h o p j sj Hc Ho Hj) as [s [-> Hm]]. cbn [fst snd].
  rewrite nth_error_app1 by (apply nth_error_Some; congruence). repeat split; [exact Hj|].
  destruct (apply_is_matrix sj x Hwf Hnd Hfit) as [y [Hy [_ [_ Hd]]]].
  exists y. split; [|exact Hd]. rewrite Hm, (apply_top_plain es em ea h j sj x Hj Hp), Hy. reflexivity.
Qed.
Print Assumptions C36_pending.

(* REUSE.  For EVERY history prog1 (from the empty heap) and EVERY continuation prog2
   (constructions, transposes, copies, slicer @ slicer, A op slicer, applications): an
   object that exists after prog1 is the same object after prog2, and applying it gives the
   same answer (value or error) as before. *)
Theorem C36_reuse :
  forall ext_scalar ext_mat ext_ad prog1 prog2 i x,
    let h1 := fst (run ext_scalar ext_mat ext_ad [] prog1) in
    let h2 := fst (run ext_scalar ext_mat ext_ad h1 prog2) in
    i < length h1 ->
    nth_error h2 i = nth_error h1 i /\
    apply_top ext_scalar ext_mat ext_ad h2 i x = apply_top ext_scalar ext_mat ext_ad h1 i x /\
    snd (step ext_scalar ext_mat ext_ad h2 (SApply i x))
    = snd (step ext_scalar ext_mat ext_ad h1 (SApply i x)).
Proof.
  intros es em ea prog1 prog2 i x h1 h2 Hi.
  destruct (run_frame es em ea prog1 [] closed_nil) as [_ [_ C1]]. fold h1 in C1.
  destruct (extends_keeps es em ea h1 h2 i x C1 (run_frame es em ea prog2 h1 C1) Hi) as [Hn Ht].
  rewrite !step_apply, Ht. auto.
Qed.
Print Assumptions C36_reuse.

(* The original code (x._pending_operand = self on the right operand itself) violates
   C36_reuse: witness S0 = [1,0], S1 = [0,2], x = [10,20,30]. *)
Theorem C36_reuse_inplace_variant_refuted :
  exists h i j x,
    closed h /\
    let h' := fst (matmul_ss_inplace h i j) in
    apply_top ext_scalarZ ext_matZ ext_adZ h' j x <> apply_top ext_scalarZ ext_matZ ext_adZ h j x.
Proof.
  exists [S_10; S_02], 0, 1, (VVec [10; 20; 30]%Z).
  split; [apply closedb_sound; reflexivity | vm_compute; discriminate].
Qed.
Print Assumptions C36_reuse_inplace_variant_refuted.

(* The code between the two repairs (copy, then overwrite the single pending pair) violates
   C36_matmul_composes:  X @ (Y @ S)  answered  X (S x). *)
Theorem C36_overwrite_variant_refuted :
  exists h i j x,
    closed h /\
    let h' := fst (matmul_ss_overwrite h i j) in
    apply_top ext_scalarZ ext_matZ ext_adZ h' (length h) x
    <> bind (apply_top ext_scalarZ ext_matZ ext_adZ h j x) (apply_top ext_scalarZ ext_matZ ext_adZ h i).
Proof.
  exists [P_201; P_102; P_021; with_pend (copy P_021) (OSlicer 1) PMatmul], 0, 3,
         (VVec [10; 20; 30]%Z).
  split; [apply closedb_sound; reflexivity | vm_compute; discriminate].
Qed.
Print Assumptions C36_overwrite_variant_refuted.

(* INDEX-POINTER ARITHMETIC of _slice_matrix (general path), on the flat CSR record
   (indptr / indices / data): argsort of the range indices, per-row counts behind a leading
   zero, cumsum, expansion of the row ranges, take.  For every well-formed stored matrix
   with domain_size rows and every well-formed non-onto slicer with distinct range indices
   the stored rows of the flat result are exactly what the row-level model [slice_csr]
   (used by all theorems above) returns; shape = range_size x ncols. *)
Theorem C36_slice_matrix_index_arithmetic :
  forall (s : slicer) (A : csr),
    wf_slicer s -> onto s = false -> NoDup (rng s) -> wf A = true -> nmaj A = dsize s ->
    slice_csr s (rows A) = Ok (rows (slice_matrix_flat s A)) /\
    nmaj (slice_matrix_flat s A) = rsize s /\ nmin (slice_matrix_flat s A) = nmin A.
Proof.
  intros s A Hwf _ Hnd HA Hn. split; [|split; reflexivity].
  pose proof (C35_csr.wf_wfP A HA) as W.
  assert (Hlen : length (rows A) = dsize s) by (rewrite <- Hn; apply C35_csr.rows_length, W).
  rewrite slice_csr_rows, slice_rows_eq, slice_matrix_flat_rows by assumption. reflexivity.
Qed.
Print Assumptions C36_slice_matrix_index_arithmetic.

(* ---------------- non-vacuity ---------------- *)
Definition ex_s := mkS [0; 2; 3] [0; 4; 1] 7 4 false false [].   (* docstring example 4 *)

Example C36_nonvacuous_apply :
  wf_slicer ex_s /\ NoDup (rng ex_s) /\
  vfits (dsize ex_s) (VCsr 2 [[(0, 5%Z)]; []; [(1, 7%Z); (0, 0%Z)]; [(1, (-1)%Z)]]) /\
  slice ex_s (VVec [10; 20; 30; 40]%Z) = Ok (VVec [10; 40; 0; 0; 30; 0; 0]%Z) /\
  construct (Some [0; 2; 3]) (Some [0; 4; 1]) (Some 7) None = Ok ex_s.
Proof.
  unfold wf_slicer, ex_s; cbn. repeat split; try reflexivity; try discriminate;
    repeat constructor; cbn; try lia; intuition (try discriminate; try lia).
Qed.

Example C36_nonvacuous_chain :
  let h := [S_10; S_02; mkS [2; 1; 0] [0; 1; 2] 3 3 false false []] in
  closed h /\
  Forall2 (fun j s => nth_error h j = Some s /\ pend s = []) [1; 2] [S_02; nth 2 h S_10] /\
  chain_ok (rev [S_10; S_02; nth 2 h S_10]) 3 /\
  snd (run ext_scalarZ ext_matZ ext_adZ h
           (chain_prog 0 [1; 2] 3 ++ [SApply 4 (VVec [10; 20; 30]%Z); SApply 1 (VVec [10; 20; 30]%Z)]))
  = [ONew 3; ONew 4; OVal (VVec [10; 30]%Z); OVal (VVec [10; 30]%Z)].
Proof.
  cbn zeta. split; [apply closedb_sound; reflexivity|]. split; [repeat constructor|].
  split; [|vm_compute; reflexivity].
  unfold S_10, S_02, chain_ok, wf_slicer; cbn.
  repeat split; try reflexivity; try discriminate; repeat constructor; cbn; try lia;
    intuition (try discriminate; try lia).
Qed.

(* composition with pending pairs on both sides:  (S0 @ S1) @ (3 + S2)  and  2 * (3 + S2) *)
Example C36_nonvacuous_composition :
  let h := [P_201; P_102; P_021] in
  closed h /\
  snd (run ext_scalarZ ext_matZ ext_adZ h
           [SMatSS 0 1; SROp (OScalar 3) PAdd 2; SMatSS 3 4; SROp (OScalar 2) PMul 4;
            SApply 5 (VVec [10; 20; 30]%Z); SApply 6 (VVec [10; 20; 30]%Z);
            SApply 2 (VVec [10; 20; 30]%Z)])
  = [ONew 3; ONew 4; ONew 5; ONew 6; OVal (VVec [23; 33; 13]%Z); OVal (VVec [26; 66; 46]%Z);
     OVal (VVec [10; 30; 20]%Z)].
Proof. cbn zeta. split; [apply closedb_sound; reflexivity|vm_compute; reflexivity]. Qed.

Example C36_nonvacuous_flat :
  let A := mkcsr 4 3 [0; 2; 2; 4; 5] [2; 0; 1; 1; 0] [1; 0; 3; 4; 7]%Z in
  let s := mkS [2; 0; 3] [3; 1; 0] 5 4 false false [] in
  wf_slicer s /\ NoDup (rng s) /\ wf A = true /\ nmaj A = dsize s /\
  slice_matrix_flat s A = mkcsr 5 3 [0; 1; 3; 3; 5; 5] [0; 2; 0; 1; 1] [7; 1; 0; 3; 4]%Z /\
  argsort (rng s) = [2; 1; 0].
Proof.
  cbn zeta. unfold wf_slicer; cbn.
  repeat split; try reflexivity; try discriminate; repeat constructor; cbn; try lia;
    intuition (try discriminate; try lia).
Qed.
