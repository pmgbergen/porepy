(* C15 — Biot coupling terms are consistent: property theorems only.
   METHOD-LEVEL theorems (DESIGN.md §1.1 P-method) about (1) the face-sum form of the
   divergence of a linear displacement, (2) sparse rows applied to sampled linear fields,
   (3) rows applied to constant pressures, for ALL rational data.  They say nothing about
   biot.py by themselves: the harness evaluates the checkers of PP.Model.C15 (check) on the
   real Biot matrices and geometry arrays of every generated instance (certificate tie);
   C15_certificate_sound / C15_exact_certificates connect those booleans to the theorems.

   Vocabulary (PP.Model.C15): columns of a cell row = [cell displacements nd*nc |
   boundary displacements nd*nf];  ustate I theta = the samples of u = A x + b with
   theta = [A row-major; b] at cell centres and boundary face centres (0 on interior
   faces);  basis I m = the samples of the basis fields e_k x_l (m = k*nd + l) and e_k
   (m = nd*nd + k);  al I k l = entry (k,l) of the symmetric coupling tensor alpha (a scalar
   coefficient a is a*I: scalar_alpha I a);  div_target I c m = alpha_kl * |K_c| resp. 0;
   grad_target I q = -(alpha n_f)_k. *)
From Coq Require Import List ZArith QArith Qabs Bool Arith Lia.
Import ListNotations.
From PP Require Import Lib.ListFacts Lib.RowLin Model.C15 Proofs.C15.
Local Open Scope Q_scope.

(* For any cell given by signed faces (sign, normal, centre), any A and b:
   sum_f s_f (A x_f + b).n_f = sum_ij A_ij M_ij + sum_i b_i N_i  with the geometric moments
   N_i = sum_f s n_fi,  M_ij = sum_f s x_fj n_fi. *)
Theorem C15_div_u_identity :
  forall (fs : list face) (A : m3) (b : v3),
    face_div fs A b ==
      cmp 0 (mrow 0 A) * Mom fs 0 0 + cmp 1 (mrow 0 A) * Mom fs 0 1 + cmp 2 (mrow 0 A) * Mom fs 0 2
    + cmp 0 (mrow 1 A) * Mom fs 1 0 + cmp 1 (mrow 1 A) * Mom fs 1 1 + cmp 2 (mrow 1 A) * Mom fs 1 2
    + cmp 0 (mrow 2 A) * Mom fs 2 0 + cmp 1 (mrow 2 A) * Mom fs 2 1 + cmp 2 (mrow 2 A) * Mom fs 2 2
    + cmp 0 b * Nrm fs 0 + cmp 1 b * Nrm fs 1 + cmp 2 b * Nrm fs 2.
Proof.
  intros fs A b. rewrite face_div_moments. unfold theta3, tsum, gmom. index_eval. ring.
Qed.
Print Assumptions C15_div_u_identity.

(* With the divergence-theorem identities  sum_f s n_f = 0  and  sum_f s x_f n_f^T = |K| I
   (C19's identities, validated per instance by geo_ok): exact face displacements of
   u = A x + b give  sum_f s u(x_f).n_f = tr(A) |K|. *)
Theorem C15_div_u :
  forall (fs : list face) (A : m3) (b : v3) (V : Q),
    (forall i, (i < 3)%nat -> Nrm fs i == 0) ->
    (forall i j, (i < 3)%nat -> (j < 3)%nat -> Mom fs i j == if Nat.eqb i j then V else 0) ->
    face_div fs A b == trace A * V.
Proof.
  intros fs A b V HN HM. rewrite face_div_moments, (trace_gtgt A b V).
  apply tsum_ext. intros m Hm. apply gmom_exact; [exact HN|exact HM|exact (proj2 Hm)].
Qed.
Print Assumptions C15_div_u.

Theorem C15_div_u_2d :
  forall (fs : list face) (a00 a01 a10 a11 b0 b1 V : Q),
    (forall i, (i < 2)%nat -> Nrm fs i == 0) ->
    (forall i j, (i < 2)%nat -> (j < 2)%nat -> Mom fs i j == if Nat.eqb i j then V else 0) ->
    face_div fs ((a00, a01, 0), (a10, a11, 0), (0, 0, 0)) (b0, b1, 0) == (a00 + a11) * V.
Proof.
  intros fs a00 a01 a10 a11 b0 b1 V HN HM.
  rewrite face_div_moments_2d, (trace_gtgt_2d a00 a01 a10 a11 b0 b1 V).
  apply tsum_ext. intros m Hm. apply gmom_exact; [exact HN|exact HM|exact (proj2 Hm)].
Qed.
Print Assumptions C15_div_u_2d.

(* The sampled state really is the linear field: u_k = sum_l A_kl x_l + b_k at the point of
   the column (cell centre / boundary face centre), 0 on interior-face columns. *)
Theorem C15_ustate_is_linear_field :
  (forall I j a00 a01 a10 a11 b0 b1,
    i_nd I = 2%nat ->
    ustate I [a00; a01; a10; a11; b0; b1] j ==
      if col_active I j then
        match col_comp I j with
        | 0%nat => a00 * col_x I j 0 + a01 * col_x I j 1 + b0
        | 1%nat => a10 * col_x I j 0 + a11 * col_x I j 1 + b1
        | _ => 0
        end
      else 0)
  /\
  (forall I j a00 a01 a02 a10 a11 a12 a20 a21 a22 b0 b1 b2,
    i_nd I = 3%nat ->
    ustate I [a00; a01; a02; a10; a11; a12; a20; a21; a22; b0; b1; b2] j ==
      if col_active I j then
        match col_comp I j with
        | 0%nat => a00 * col_x I j 0 + a01 * col_x I j 1 + a02 * col_x I j 2 + b0
        | 1%nat => a10 * col_x I j 0 + a11 * col_x I j 1 + a12 * col_x I j 2 + b1
        | 2%nat => a20 * col_x I j 0 + a21 * col_x I j 1 + a22 * col_x I j 2 + b2
        | _ => 0
        end
      else 0).
Proof.
  split; intros * Hnd; unfold ustate, lin_state, tsum, basis; rewrite Hnd; index_eval;
    (destruct (col_active I j); [|ring]).
  - destruct (col_comp I j) as [|[|k]]; cbn [Nat.eqb]; ring.
  - destruct (col_comp I j) as [|[|[|k]]]; cbn [Nat.eqb]; ring.
Qed.
Print Assumptions C15_ustate_is_linear_field.

(* Basis-field certificates + linearity: if the row of cell c of
   [displacement_divergence | boundary_displacement_divergence] returns alpha_kl * |K_c| on
   e_k x_l and 0 on e_k, it returns (alpha : A) * |K_c| = sum_kl alpha_kl A_kl |K_c| on EVERY
   linear field u = A x + b (tensor coupling coefficient) ... *)
Theorem C15_linear_fields_2d :
  forall (I : inst) (c : nat) (a00 a01 a10 a11 b0 b1 : Q),
    i_nd I = 2%nat ->
    (forall m, (m < nparam I)%nat ->
       rdot (nth c (i_drows I) []) (basis I m) == div_target I c m) ->
    rdot (nth c (i_drows I) []) (ustate I [a00; a01; a10; a11; b0; b1])
    == (al I 0 0 * a00 + al I 0 1 * a01 + al I 1 0 * a10 + al I 1 1 * a11) * nth c (i_vols I) 0.
Proof.
  intros I c a00 a01 a10 a11 b0 b1 Hnd H.
  rewrite (linear_fields I _ (div_target I c)); [apply trace_target_2d; exact Hnd| |exact H].
  unfold nparam. rewrite Hnd. reflexivity.
Qed.
Print Assumptions C15_linear_fields_2d.

Theorem C15_linear_fields_3d :
  forall (I : inst) (c : nat) (a00 a01 a02 a10 a11 a12 a20 a21 a22 b0 b1 b2 : Q),
    i_nd I = 3%nat ->
    (forall m, (m < nparam I)%nat ->
       rdot (nth c (i_drows I) []) (basis I m) == div_target I c m) ->
    rdot (nth c (i_drows I) []) (ustate I [a00; a01; a02; a10; a11; a12; a20; a21; a22; b0; b1; b2])
    == (al I 0 0 * a00 + al I 0 1 * a01 + al I 0 2 * a02
        + al I 1 0 * a10 + al I 1 1 * a11 + al I 1 2 * a12
        + al I 2 0 * a20 + al I 2 1 * a21 + al I 2 2 * a22) * nth c (i_vols I) 0.
Proof.
  intros I c a00 a01 a02 a10 a11 a12 a20 a21 a22 b0 b1 b2 Hnd H.
  rewrite (linear_fields I _ (div_target I c)); [apply trace_target_3d; exact Hnd| |exact H].
  unfold nparam. rewrite Hnd. reflexivity.
Qed.
Print Assumptions C15_linear_fields_3d.

(* ... and alpha * tr(A) * |K_c| = alpha * div(u) * |K_c| for a scalar coefficient. *)
Theorem C15_linear_fields_scalar :
  (forall (I : inst) (c : nat) (a a00 a01 a10 a11 b0 b1 : Q),
    i_nd I = 2%nat -> scalar_alpha I a ->
    (forall m, (m < nparam I)%nat ->
       rdot (nth c (i_drows I) []) (basis I m) == div_target I c m) ->
    rdot (nth c (i_drows I) []) (ustate I [a00; a01; a10; a11; b0; b1])
    == a * (a00 + a11) * nth c (i_vols I) 0)
  /\
  (forall (I : inst) (c : nat) (a a00 a01 a02 a10 a11 a12 a20 a21 a22 b0 b1 b2 : Q),
    i_nd I = 3%nat -> scalar_alpha I a ->
    (forall m, (m < nparam I)%nat ->
       rdot (nth c (i_drows I) []) (basis I m) == div_target I c m) ->
    rdot (nth c (i_drows I) []) (ustate I [a00; a01; a02; a10; a11; a12; a20; a21; a22; b0; b1; b2])
    == a * (a00 + a11 + a22) * nth c (i_vols I) 0).
Proof.
  split; intros * Hnd Ha H; unfold scalar_alpha in Ha.
  - rewrite (C15_linear_fields_2d I c a00 a01 a10 a11 b0 b1 Hnd H).
    rewrite !Ha by lia. cbn [Nat.eqb]. ring.
  - rewrite (C15_linear_fields_3d I c a00 a01 a02 a10 a11 a12 a20 a21 a22 b0 b1 b2 Hnd H).
    rewrite !Ha by lia. cbn [Nat.eqb]. ring.
Qed.
Print Assumptions C15_linear_fields_scalar.

(* Constant pressure: a scalar-gradient row whose entries sum to -(alpha n_f)_k gives
   -p (alpha n_f)_k for every p (for a scalar coefficient: -alpha p n_fk). *)
Theorem C15_grad_p :
  forall (r : row) (p an : Q),
    rdot r ones == - an -> rdot r (fun _ => p) == - (p * an).
Proof. intros r p an H. rewrite rdot_const, H. ring. Qed.
Print Assumptions C15_grad_p.

(* Soundness of the checker the tie evaluates, tolerance included: if check tol I = true then
   for EVERY linear field theta = [A; b] the divergence row of every cell is within
   sum_m |theta_m| * tol * (1 + sum|terms of row . basis_m|) of  sum_m theta_m * target_m
   (= alpha tr(A) |K_c|, lemmas trace_target_2d/_3d), and for every constant pressure p every
   scalar-gradient row is within |p| * tol * (1 + sum|row|) of  -alpha p n_fk. *)
Theorem C15_certificate_sound :
  forall (tol : Q) (I : inst),
    check tol I = true ->
    (forall c theta, (c < i_nc I)%nat -> length theta = nparam I ->
       Qabs (rdot (nth c (i_drows I) []) (ustate I theta) - tsum 0 theta (div_target I c))
       <= div_bound tol I c theta)
    /\ (forall q p, (q < i_nd I * i_nf I)%nat ->
       Qabs (rdot (nth q (i_grows I) []) (fun _ => p) - p * grad_target I q)
       <= Qabs p * (tol * (1 + rabs (nth q (i_grows I) []) ones))).
Proof.
  intros tol I H. apply andb_prop in H as [[[[_ Hdiv]%andb_prop Hgrad]%andb_prop _]%andb_prop _]. split.
  - intros c theta Hc Hlen. apply near_lin_sound. rewrite Hlen.
    exact (proj1 (forallb_seq _ _) Hdiv c Hc).
  - intros q p Hq.
    pose proof (near_sound _ _ _ _ (proj1 (forallb_seq _ _) Hgrad q Hq)) as Hq'.
    rewrite rdot_const.
    setoid_replace (p * rdot (nth q (i_grows I) []) ones - p * grad_target I q)
      with ((rdot (nth q (i_grows I) []) ones - grad_target I q) * p) by ring.
    rewrite Qabs_Qmult, (Qmult_comm (Qabs p)).
    apply Qmult_le_compat_r; [exact Hq'|apply Qabs_nonneg].
Qed.
Print Assumptions C15_certificate_sound.

(* The divergence-theorem form on the cells of an instance, UNDER THE GUARD i_planar I = true
   (all faces planar).  check evaluates the geometric identities sum_f s n_f = 0 and
   sum_f s x_f n_f^T = |K| I only on such instances; they are NOT expected of porepy's face
   centres / normals on grids with non-planar faces (3-D hexahedra with moved corners), see
   C15_nonplanar_example.  On a planar instance that passed check, for every cell c and every
   linear field the face sum  sum_f s u(x_f).n_f  over the real geometry is within the stated
   bound of tr(A) |K_c|. *)
Theorem C15_div_u_on_planar_instance :
  (forall (tol : Q) (I : inst) (c : nat) (A : m3) (b : v3),
    check tol I = true -> i_planar I = true -> i_nd I = 3%nat -> (c < i_nc I)%nat ->
    Qabs (face_div (cell_faces_of I c) A b - trace A * nth c (i_vols I) 0)
    <= tsum 0 (map Qabs (theta3 A b)) (geo_eps3 tol I c))
  /\
  (forall (tol : Q) (I : inst) (c : nat) (a00 a01 a10 a11 b0 b1 : Q),
    check tol I = true -> i_planar I = true -> i_nd I = 2%nat -> (c < i_nc I)%nat ->
    Qabs (face_div (cell_faces_of I c) ((a00, a01, 0), (a10, a11, 0), (0, 0, 0)) (b0, b1, 0)
          - (a00 + a11) * nth c (i_vols I) 0)
    <= tsum 0 (map Qabs [a00; a01; a10; a11; b0; b1]) (geo_eps2 tol I c)).
Proof.
  split; intros * H Hpl Hnd Hc.
  - rewrite face_div_moments, (trace_gtgt A b).
    apply (face_sum_bound tol I c 3 _ _ H Hpl Hnd); [lia|exact Hc|reflexivity|apply geo_eps3_geps].
  - rewrite face_div_moments_2d, (trace_gtgt_2d a00 a01 a10 a11 b0 b1).
    apply (face_sum_bound tol I c 2 _ _ H Hpl Hnd); [lia|exact Hc|reflexivity|apply geo_eps2_geps].
Qed.
Print Assumptions C15_div_u_on_planar_instance.

(* Scale-free accuracy: check also holds the basis-field values of every divergence row and the
   row sum of every scalar-gradient row to a PURELY RELATIVE tolerance (no absolute floor; a
   scalar-gradient component is measured relative to its own terms plus the magnitude of the
   expected force vector of ITS face, so a component whose exact value is 0 may carry rounding
   noise of the size of the other components), so
   matrices with tiny entries (micrometre cells, tiny coupling coefficients) are held to the same
   relative accuracy as unit-scale ones. *)
Theorem C15_relative_certificate :
  forall (tol : Q) (I : inst),
    check tol I = true ->
    (forall c m, (c < i_nc I)%nat -> (m < nparam I)%nat ->
       Qabs (rdot (nth c (i_drows I) []) (basis I m) - div_target I c m)
       <= tol * (rabs (nth c (i_drows I) []) (basis I m) + Qabs (div_target I c m)))
    /\ (forall q, (q < i_nd I * i_nf I)%nat ->
       Qabs (rdot (nth q (i_grows I) []) ones - grad_target I q)
       <= tol * (rabs (nth q (i_grows I) []) ones + Qabs (grad_target I q) + face_mag I q)).
Proof.
  intros tol I H. apply andb_prop in H as [_ [Hd Hg]%andb_prop]. split.
  - intros c m Hc Hm. apply Qle_bool_iff, (forallb_seq2 _ _ _ Hd c m Hc Hm).
  - intros q Hq. apply Qle_bool_iff, (proj1 (forallb_seq _ _) Hg q Hq).
Qed.
Print Assumptions C15_relative_certificate.

(* With tolerance 0 the checkers give the exact hypotheses of C15_linear_fields / C15_grad_p. *)
Theorem C15_exact_certificates :
  forall I : inst,
    div_ok 0 I = true -> grad_ok 0 I = true ->
    (forall c m, (c < i_nc I)%nat -> (m < nparam I)%nat ->
       rdot (nth c (i_drows I) []) (basis I m) == div_target I c m)
    /\ (forall q, (q < i_nd I * i_nf I)%nat ->
       rdot (nth q (i_grows I) []) ones == grad_target I q).
Proof.
  intros I Hdiv Hgrad. split.
  - intros c m Hc Hm.
    exact (near_zero_exact _ _ _ (forallb_seq2 _ _ _ Hdiv c m Hc Hm)).
  - intros q Hq. exact (near_zero_exact _ _ _ (proj1 (forallb_seq _ _) Hgrad q Hq)).
Qed.
Print Assumptions C15_exact_certificates.

(* Non-vacuity: the real Biot matrices of CartGrid([2,1]) (scalar coefficient 1/2) satisfy every
   certificate exactly; for u = (x + 2y + 1, 3x + 4y - 1) the divergence rows give
   alpha * tr(A) * |K| = 1/2 * 5 * 1 in both cells, the scalar-gradient row of face 1
   (normal (1,0)), x-component, gives -alpha * p * n = -3/2 for p = 3, and the instance is planar,
   so the face sums of its cells are exactly tr(A)|K| (bound 0 at tolerance 0). *)
Example C15_nonvacuous :
  check 0 ex_inst = true /\ scalar_alpha ex_inst (1 # 2) /\ i_planar ex_inst = true /\
  rdot (nth 0 (i_drows ex_inst) []) (ustate ex_inst [1; 2; 3; 4; 1; -(1)]) == 5 # 2 /\
  rdot (nth 1 (i_drows ex_inst) []) (ustate ex_inst [1; 2; 3; 4; 1; -(1)]) == 5 # 2 /\
  rdot (nth 2 (i_grows ex_inst) []) (fun _ => 3) == -(3 # 2) /\
  face_div (cell_faces_of ex_inst 1) ((1, 2, 0), (3, 4, 0), (0, 0, 0)) (1, -(1), 0) == 5.
Proof.
  split; [exact ex_inst_check|].
  assert (Hs : scalar_alpha ex_inst (1 # 2)).
  { intros k l Hk Hl. change (i_nd ex_inst) with 2%nat in Hk, Hl.
    destruct k as [|[|k]]; destruct l as [|[|l]]; try lia; vm_compute; reflexivity. }
  split; [exact Hs|]. split; [reflexivity|].
  assert (Hd : div_ok 0 ex_inst = true) by (vm_compute; reflexivity).
  assert (Hg : grad_ok 0 ex_inst = true) by (vm_compute; reflexivity).
  destruct (C15_exact_certificates ex_inst Hd Hg) as [H1 H2].
  assert (Hrow : forall c, (c < 2)%nat ->
            rdot (nth c (i_drows ex_inst) []) (ustate ex_inst [1; 2; 3; 4; 1; -(1)]) == 5 # 2).
  { intros c Hc.
    rewrite (proj1 C15_linear_fields_scalar ex_inst c (1 # 2) 1 2 3 4 1 (-(1)) eq_refl Hs
               (fun m => H1 c m Hc)).
    destruct c as [|[|c]]; [vm_compute; reflexivity..|lia]. }
  split; [apply Hrow; lia|]. split; [apply Hrow; lia|]. split.
  - rewrite (C15_grad_p _ 3 (1 # 2)); [vm_compute; reflexivity|].
    rewrite (H2 2%nat) by (cbn; lia). vm_compute. reflexivity.
  - vm_compute. reflexivity.
Qed.

(* The guard is not idle: a single hexahedron with moved corners (non-planar faces), real
   pp.Biot matrices and real geometry arrays.  The Biot certificates hold (check accepts with
   tolerance 1e-9, the geometric identities being skipped because i_planar = false), while the
   first-moment identity is violated at the 1e-3 level. *)
Example C15_nonplanar_example :
  i_planar ex_nonplanar = false /\ check (1 # 1000000000) ex_nonplanar = true /\
  geo_ok (1 # 1000) ex_nonplanar = false.
Proof. split; [|split; [apply check_red_sound|]]; vm_compute; reflexivity. Qed.

(* Non-vacuity of the divergence-theorem form: the unit square. *)
Example C15_nonvacuous_div_u :
  (forall i, (i < 2)%nat -> Nrm ex_square i == 0) /\
  (forall i j, (i < 2)%nat -> (j < 2)%nat -> Mom ex_square i j == if Nat.eqb i j then 1 else 0) /\
  face_div ex_square ((1, 2, 0), (3, 4, 0), (0, 0, 0)) (1, -(1), 0) == 5.
Proof.
  split; [|split].
  - intros i Hi. destruct i as [|[|i]]; [vm_compute; reflexivity..|lia].
  - intros i j Hi Hj. destruct i as [|[|i]]; destruct j as [|[|j]]; try lia; vm_compute; reflexivity.
  - vm_compute. reflexivity.
Qed.
