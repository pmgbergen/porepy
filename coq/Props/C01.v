(* C01 — property theorems only.
   Model: PP.Model.C01 (rule table of forward_mode.py / functions.py, polymorphic in the
   number type) and PP.Model.C01R (its instance over the reals).
   Proofs: PP.Proofs.C01 (arithmetic rules), PP.Proofs.C01_fun (function library),
   PP.Proofs.C01_comp (linear maps, l2_norm, composition).

   Reading: [eval_ad ROps e x v i] is entry i of the AdArray the implementation builds
   for the expression tree e at the point x, as (value, (Jacobian @ v)_i); with v the
   j-th unit vector its second component is the Jacobian entry (i, j).
   [eval_plain ROps e x i] is entry i of the plain numpy evaluation of the same tree. *)
From Coq Require Import Reals ZArith List Lra.
From Coquelicot Require Import Coquelicot.
From PP Require Import Model.C01 Model.C01R Model.C01X Proofs.C01 Proofs.C01_fun Proofs.C01_comp
  Proofs.C01_lin Proofs.C01X.
Import ListNotations.
Open Scope R_scope.

(* Values: for EVERY expression tree, point and entry (no smoothness needed) the value
   part of the AD evaluation is the plain evaluation. *)
Theorem C01_value :
  forall (e : expr R) (x v : env (T:=R)) (i : nat),
    fst (eval_ad ROps e x v i) = eval_plain ROps e x i.
Proof. exact value_thm. Qed.
Print Assumptions C01_value.

(* Jacobians: for EVERY expression tree e (all overloads incl. the reflected ones, sparse
   left products, slicing, all library functions, l2_norm, maximum, composed to any
   depth), every point x at which entry i of e is evaluated inside the smooth domain of
   each rule it uses, and every direction v: the plain evaluation of e along the line
   x + t v is differentiable at t = 0 and its derivative is what the rule table
   computes.  (v = unit vector j: Jacobian entry (i, j) is the partial derivative.) *)
Theorem C01_jacobian :
  forall (e : expr R) (x v : env (T:=R)) (i : nat),
    smooth e x i ->
    is_derive (fun t => eval_plain ROps e (shift x v t) i) 0 (snd (eval_ad ROps e x v i)).
Proof. exact jacobian_thm. Qed.
Print Assumptions C01_jacobian.

(* functions.py: for every function of the table (exp log abs sin cos tan arcsin arccos
   arctan sinh cosh tanh arcsinh arccosh arctanh heaviside heaviside_smooth
   characteristic_function) the factor the code scales the Jacobian with is the
   derivative of the value expression, on the function's smooth domain. *)
Theorem C01_function_table :
  forall (f : fn R) (x : R),
    fsmooth f x -> is_derive (fval ROps f) x (ffac ROps f x).
Proof. exact fun_rule. Qed.
Print Assumptions C01_function_table.

(* forward_mode.py, the rules with a genuine chain-rule content, for arbitrary
   differentiable operands u, w (du, dw their derivatives at t) *)
Theorem C01_rule_mul :
  forall (u w : R -> R) (t du dw : R), is_derive u t du -> is_derive w t dw ->
    is_derive (fun s => u s * w s) t (snd (d_mul_ad ROps (u t, du) (w t, dw))).
Proof. exact rule_mul_ad. Qed.
Print Assumptions C01_rule_mul.

Theorem C01_rule_truediv :
  forall (u w : R -> R) (t du dw : R), is_derive u t du -> is_derive w t dw ->
    w t <> 0 ->
    is_derive (fun s => u s / w s) t (snd (d_div_ad ROps (u t, du) (w t, dw))).
Proof. exact rule_div_ad. Qed.
Print Assumptions C01_rule_truediv.

Theorem C01_rule_rtruediv :
  forall (u : R -> R) (t du : R), is_derive u t du ->
    forall c : R, u t <> 0 ->
    is_derive (fun s => c / u s) t (snd (d_rdiv_s ROps (u t, du) c)).
Proof. exact rule_rdiv_s. Qed.
Print Assumptions C01_rule_rtruediv.

Theorem C01_rule_pow_int :
  forall (u : R -> R) (t du : R), is_derive u t du ->
    forall n : Z, (u t <> 0 \/ (1 <= n)%Z) ->
    is_derive (fun s => powerRZ (u s) n) t (snd (d_powz_k ROps (u t, du) n)).
Proof. exact rule_powz_k. Qed.
Print Assumptions C01_rule_pow_int.

Theorem C01_rule_pow_real :
  forall (u : R -> R) (t du : R), is_derive u t du ->
    forall p : R, 0 < u t ->
    is_derive (fun s => Rpower (u s) p) t (snd (d_powr_k ROps (u t, du) p)).
Proof. exact rule_powr_k. Qed.
Print Assumptions C01_rule_pow_real.

Theorem C01_rule_pow_ad :
  forall (u w : R -> R) (t du dw : R), is_derive u t du -> is_derive w t dw ->
    0 < u t ->
    is_derive (fun s => Rpower (u s) (w s)) t (snd (d_pow_ad ROps (u t, du) (w t, dw))).
Proof. exact rule_pow_ad. Qed.
Print Assumptions C01_rule_pow_ad.

Theorem C01_rule_rpow :
  forall (u : R -> R) (t du : R), is_derive u t du ->
    forall c : R,
    is_derive (fun s => Rpower c (u s)) t (snd (d_rpow_k ROps (u t, du) c)).
Proof. exact rule_rpow_k. Qed.
Print Assumptions C01_rule_rpow.

Theorem C01_rule_rsub :
  forall (u : R -> R) (t du : R), is_derive u t du ->
    forall c : R,
    is_derive (fun s => c - u s) t (snd (d_rsub_k ROps (u t, du) c)).
Proof. exact rule_rsub_k. Qed.
Print Assumptions C01_rule_rsub.

(* maximum(a, b) away from ties *)
Theorem C01_rule_maximum :
  forall (u w : R -> R) (t du dw : R), is_derive u t du -> is_derive w t dw ->
    u t <> w t ->
    is_derive (fun s => max_plain ROps (u s) (w s)) t
              (snd (d_max ROps (u t, du) (w t, dw))).
Proof. exact rule_max. Qed.
Print Assumptions C01_rule_maximum.

(* one row of a sparse left product A @ a *)
Theorem C01_rule_matmul_row :
  forall (row : list (nat * R)) (U : nat -> R -> R) (dU : nat -> R) (t : R),
    (forall j, In j (map fst row) -> is_derive (U j) t (dU j)) ->
    is_derive (fun s => lin_plain ROps row (fun j => U j s)) t
              (snd (lin_dual ROps row (fun j => (U j t, dU j)))).
Proof. intros row U dU t. exact (rule_lin row U (fun j => (U j t, dU j)) t). Qed.
Print Assumptions C01_rule_matmul_row.

(* one block of l2_norm(dim, a), dim > 1, block norm above the code's 1e-12 switch *)
Theorem C01_rule_l2_block :
  forall (js : list nat) (U : nat -> R -> R) (dU : nat -> R) (t : R),
    (forall j, In j js -> is_derive (U j) t (dU j)) ->
    l2_tol ROps < l2_val ROps (map (fun j => U j t) js) ->
    is_derive (fun s => l2_val ROps (map (fun j => U j s) js)) t
              (snd (l2_dual ROps (map (fun j => (U j t, dU j)) js))).
Proof.
  intros js U dU t H. apply (rule_l2 js U (fun j => (U j t, dU j))).
  intros j Hj. split; [reflexivity | exact (H j Hj)].
Qed.
Print Assumptions C01_rule_l2_block.

(* Non-vacuity: exp(x0) / (x0 * x1 + 2) at (1, 1), direction d/dx0, is inside the smooth
   domain and the rule table yields 2e/9. *)
Example C01_nonvacuous :
  let e := Div (Fun Fexp (Var 0)) (AddK (Mul (Var 0) (Var 1)) (CS 2)) in
  let x := (fun (k i : nat) => 1) : env (T:=R) in
  let v := (fun (k i : nat) => match k with O => 1 | _ => 0 end) : env (T:=R) in
  smooth e x 0 /\ snd (eval_ad ROps e x v 0%nat) = 2 * exp 1 / 9.
Proof.
  cbv zeta. split.
  - cbn. repeat split; auto. lra.
  - cbn [eval_ad cget]. unf. change (-1 - 1)%Z with (-2)%Z. rewrite pz_m1, pz_m2. field.
Qed.

(* Non-vacuity of the guarded domains: restricted functions have points in their domain,
   and a tree using sparse product, slicing, l2_norm and maximum is smooth somewhere. *)
Example C01_domains_inhabited :
  fsmooth Farccosh 2 /\ fsmooth Farcsin (1 / 2) /\ fsmooth (Fcharacteristic (1 / 4)) 1 /\
  fsmooth Ftan 0 /\
  let e := Max (L2 2 (Slice [1; 0]%nat (Var 0)))
               (MatMul [[(0%nat, 2); (1%nat, 3)]] (Fun Fabs (Var 0))) in
  let x := (fun (k i : nat) => match i with O => 3 | _ => 4 end) : env (T:=R) in
  smooth e x 0.
Proof.
  assert (E : sqrt (4 * 4 + (3 * 3 + 0)) = 5).
  { replace (4 * 4 + (3 * 3 + 0)) with (5 * 5) by ring. apply sqrt_square. lra. }
  cbv zeta. split; [|split; [|split; [|split]]].
  - simpl. lra.
  - simpl. lra.
  - simpl. rewrite Rabs_right; lra.
  - simpl. rewrite cos_0. lra.
  - cbn [smooth Nat.eqb]. split; [split|split].
    + intros j _. exact I.
    + unfold l2_tol, l2_val, sumsq, block. simpl. rewrite E. lra.
    + intros j Hj. simpl in Hj. destruct Hj as [<-|[<-|[]]]; simpl; split; try exact I; lra.
    + unfold l2_val, sumsq, block, max_plain, lin_plain. simpl.
      rewrite E, !np_abs_pos by lra. lra.
Qed.

(* ---------------------------------------------------------------- second round *)

(* The derivative part of the rule table is linear in the direction (every tree, every
   point, no smoothness needed): the table defines a Jacobian MATRIX. *)
Theorem C01_jacobian_linear :
  forall (e : expr R) (x v w : env (T:=R)) (a b : R) (i : nat),
    snd (eval_ad ROps e x (lincomb a b v w) i)
    = a * snd (eval_ad ROps e x v i) + b * snd (eval_ad ROps e x w i).
Proof. exact linear_thm. Qed.
Print Assumptions C01_jacobian_linear.

(* Matrix form: along any finite combination  sum_j c_j d_j  of directions the plain
   evaluation is differentiable with derivative  sum_j c_j * (Jacobian row i applied to
   d_j); with the d_j unit vectors this is row i of the Jacobian matrix times the
   coefficient vector. *)
Theorem C01_jacobian_matrix :
  forall (e : expr R) (x : env (T:=R)) (i : nat) (cs : list (R * env (T:=R))),
    smooth e x i ->
    is_derive (fun t => eval_plain ROps e (shift x (comb cs) t) i) 0
      (fold_right (fun cd acc => fst cd * snd (eval_ad ROps e x (snd cd) i) + acc) 0 cs).
Proof.
  intros e x i cs Hs. rewrite <- matrix_thm. apply jacobian_thm. exact Hs.
Qed.
Print Assumptions C01_jacobian_matrix.

(* safe_power(power, zero_val, tol, var) (after the repair of its Jacobian): away from the
   switch |x| = tol the factor is the derivative of the value, for any differentiable
   argument *)
Theorem C01_rule_safe_power :
  forall (p : pexp R) (zv tol : R) (u : R -> R) (t du : R),
    is_derive u t du -> sp_smooth p tol (u t) ->
    is_derive (fun s => sp_val ROps p zv tol (u s)) t
              (snd (d_safe_power ROps p zv tol (u t, du))).
Proof.
  intros p zv tol u t du Hu Hs. exact (chain _ u t _ du (sp_rule p zv tol (u t) Hs) Hu).
Qed.
Print Assumptions C01_rule_safe_power.

(* a[idx] = b: every row of the result is row k of b (idx[k] = i, last such k) or row i of
   a when i is not assigned; holds for (value, derivative) pairs alike *)
Theorem C01_setitem_rows :
  forall (A : Type) (idx : list nat) (a b : nat -> A) (i : nat),
    (exists k, set_rows idx a b i = b k /\ nth_error idx k = Some i) \/
    (set_rows idx a b i = a i /\ ~ In i idx).
Proof. exact @set_rows_cases. Qed.
Print Assumptions C01_setitem_rows.

Example C01_round2_nonvacuous :
  sp_smooth (PZ (-1)) (1 / 1000) 2 /\ sp_smooth (PR (1 / 2)) (1 / 1000) 2 /\
  sp_smooth (PZ 2) (1 / 1000) 0 /\
  snd (d_safe_power ROps (PZ (-1)) 7 (1 / 1000) (2, 1)) = - / 4 /\
  set_rows [1; 0; 1]%nat (fun i => (10 + i)%nat) (fun k => (20 + k)%nat) 1%nat = 22%nat.
Proof.
  split; [|split; [|split; [|split]]].
  - unfold sp_smooth. rewrite Rabs_right by lra. repeat split; try lra; try (intros; exact I).
  - unfold sp_smooth. rewrite Rabs_right by lra. repeat split; try lra; try (intros; lra).
  - unfold sp_smooth. rewrite Rabs_R0. repeat split; try lra; try (intros; exact I).
  - unfold d_safe_power, sp_fac. rewrite np_abs_Rabs. cbn [fst snd oltb ROps].
    rewrite ltbR_true by (rewrite Rabs_right; lra).
    unf. change (-1 - 1)%Z with (-2)%Z. rewrite pz_m2. field.
  - reflexivity.
Qed.
