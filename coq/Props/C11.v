(* C11 — MPFA reproduces linear pressure fields exactly.  Property theorems only.

   METHOD-LEVEL theorems (level P-method): they are about the mathematical scheme, stated
   over the field-polymorphic definitions of PP.Model.C11 instantiated at the reals
   (RO = (0, 1, +, -, *, opp) of R; r... = the model function at R).  The link to the Python
   code is the per-instance certificate evaluated on every run by vm_compute on the real
   matrices (Model.C11.check_case, same definitions instantiated with exact dyadic rationals).

   Vocabulary (Model/C11.v):
     subcell = {sc_x; sc_p; sc_K}       centre / centre pressure / tensor of the sub-cell's cell
     subface = Interior k1 k2 n xc | DirichletF k n xc pD | NeumannF k n q
     local_system cells faces           the local equations (sparse rows over the gradients)
     lhs e G, rhs e                     left/right side of an equation for gradients G
     apply_inv Inv r                    gradients = inverse matrix times right-hand side
     subflux cells G k n                -(K_k n).G_k        (discrete sub-face flux)
     subpressure cells G k x            p_k + (x - x_k).G_k (reconstructed pressure at x)
     linl b a x                         b + a.x
     cell_ok / face_wf / face_data_ok   data of the region taken from p = b + a.x, one K
     inst                               four matrices (coordinate lists) + geometry + flags
     flux_of I c f                      (flux p_cells + bound_flux bdata)_f for the field c=(b,a)
     facep_of I c f                     (bound_pressure_cell p_cells + bound_pressure_face bdata)_f
     exact I c f                        -n_f.(K a);   lin c x = b + a.x
     res_flux = flux_of - exact, res_bp = facep_of - lin (fcen f);  e0..e3 = fields 1, x, y, z *)
From Coq Require Import List ZArith Bool Arith Lia Reals Lra.
Import ListNotations.
From PP Require Import Model.C11 Model.C13 Proofs.C11 Proofs.C11_inv Proofs.C11_dyadic.
From Coq Require Import QArith Qabs.
Local Open Scope R_scope.

(* For ANY interaction region (any dimension d, any number m of sub-cells, any list of
   interior / Dirichlet / Neumann sub-faces, any continuity points): if all sub-cells carry
   the same tensor K, the cell pressures and the boundary data are taken from
   p(x) = b + a.x, then the constant gradient a satisfies every local equation. *)
Theorem C11_linear_solves_local :
  forall (d m : nat) (K : list (list R)) (b : R) (a : list R)
         (cells : list (subcell R)) (faces : list (subface R)),
    length a = d -> length cells = m ->
    Forall (rcell_ok d K b a) cells ->
    Forall (rface_wf d m) faces ->
    Forall (rface_data_ok K b a) faces ->
    forall e, In e (rlocal_system cells faces) -> rlhs e (repeat a m) = rhs e.
Proof. exact linear_solves_local. Qed.
Print Assumptions C11_linear_solves_local.

(* If the local matrix has a left inverse Inv (Inv (A G) = G for every gradient vector G of
   the right shape), the gradients the scheme computes, Inv * rhs, ARE the constant
   gradient a; hence every discrete sub-face flux equals -(K n).a (= -n.K a for symmetric
   K) and the pressure reconstructed at any point x (in particular a boundary face centre)
   equals p(x). *)
Theorem C11_unique_exact :
  forall (d m : nat) (K : list (list R)) (b : R) (a : list R)
         (cells : list (subcell R)) (faces : list (subface R)) (Inv : list (list (list R))),
    length a = d -> length cells = m ->
    Forall (rcell_ok d K b a) cells ->
    Forall (rface_wf d m) faces ->
    Forall (rface_data_ok K b a) faces ->
    (forall G, shape d m G -> rapply_inv Inv (rlhs_all (rlocal_system cells faces) G) = G) ->
    let G := rapply_inv Inv (rrhs_all (rlocal_system cells faces)) in
    G = repeat a m /\
    (forall k n, (k < m)%nat -> rsubflux cells G k n = - rdotl (rnK n K) a) /\
    (forall k x, (k < m)%nat -> length x = d -> rsubpressure cells G k x = rlinl b a x).
Proof. exact unique_exact. Qed.
Print Assumptions C11_unique_exact.

(* Constant pressure b in all cells, Dirichlet data b, zero Neumann data: every discrete
   sub-face flux vanishes. *)
Theorem C11_constant_zero :
  forall (d m : nat) (K : list (list R)) (b : R)
         (cells : list (subcell R)) (faces : list (subface R)) (Inv : list (list (list R))),
    length cells = m ->
    Forall (cell_const d K b) cells ->
    Forall (rface_wf d m) faces ->
    Forall (face_const b) faces ->
    (forall G, shape d m G -> rapply_inv Inv (rlhs_all (rlocal_system cells faces) G) = G) ->
    let G := rapply_inv Inv (rrhs_all (rlocal_system cells faces)) in
    forall k n, (k < m)%nat -> rsubflux cells G k n = 0.
Proof.
  intros d m K b cells faces Inv Hm Hc Hw Hd Hinv G k n Hk.
  destruct (unique_exact d m K b (repeat 0 d) cells faces Inv (repeat_length _ _) Hm
              (Forall_impl _ (cell_const_ok d K b) Hc) Hw (Forall_impl _ (face_const_ok K b d) Hd) Hinv)
    as (_ & Hf & _).
  fold G in Hf. rewrite Hf, dotl_zeros_r by exact Hk. ring.
Qed.
Print Assumptions C11_constant_zero.

(* Matrix level, ANY four matrices and geometry: a bound on the flux residual of the basis
   fields 1, x, y, z on face f bounds the residual of EVERY linear field b + a.x on f.
   (The run-time certificate establishes t_i = 1e-9 (1 + |exact e_i f|) for every face of
   every generated instance.) *)
Theorem C11_linear_extension_flux :
  forall (I : inst R) (f : nat) (t0 t1 t2 t3 : R),
    Rabs (rres_flux I re0 f) <= t0 -> Rabs (rres_flux I re1 f) <= t1 ->
    Rabs (rres_flux I re2 f) <= t2 -> Rabs (rres_flux I re3 f) <= t3 ->
    forall b ax ay az : R,
      Rabs (rflux_of I (b, (ax, ay, az)) f - rexact I (b, (ax, ay, az)) f)
      <= Rabs b * t0 + Rabs ax * t1 + Rabs ay * t2 + Rabs az * t3.
Proof. exact (fun I f => lin4_bound _ (lin4_res_flux I f)). Qed.
Print Assumptions C11_linear_extension_flux.

(* The same for the boundary pressure reconstruction. *)
Theorem C11_linear_extension_bound_pressure :
  forall (I : inst R) (f : nat) (t0 t1 t2 t3 : R),
    Rabs (rres_bp I re0 f) <= t0 -> Rabs (rres_bp I re1 f) <= t1 ->
    Rabs (rres_bp I re2 f) <= t2 -> Rabs (rres_bp I re3 f) <= t3 ->
    forall b ax ay az : R,
      Rabs (rfacep_of I (b, (ax, ay, az)) f - rlin (b, (ax, ay, az)) (fcen I f))
      <= Rabs b * t0 + Rabs ax * t1 + Rabs ay * t2 + Rabs az * t3.
Proof. exact (fun I f => lin4_bound _ (lin4_res_bp I f)). Qed.
Print Assumptions C11_linear_extension_bound_pressure.

(* Exact versions: equality for the four basis fields gives equality for every linear
   field. *)
Theorem C11_linear_extension_exact :
  forall (I : inst R) (f : nat),
    rres_flux I re0 f = 0 -> rres_flux I re1 f = 0 -> rres_flux I re2 f = 0 ->
    rres_flux I re3 f = 0 ->
    forall b ax ay az : R, rflux_of I (b, (ax, ay, az)) f = rexact I (b, (ax, ay, az)) f.
Proof. exact (fun I f => lin4_equal _ _ (lin4_flux_of I f) (lin4_exact I f)). Qed.
Print Assumptions C11_linear_extension_exact.

Theorem C11_linear_extension_bound_pressure_exact :
  forall (I : inst R) (f : nat),
    rres_bp I re0 f = 0 -> rres_bp I re1 f = 0 -> rres_bp I re2 f = 0 -> rres_bp I re3 f = 0 ->
    forall b ax ay az : R, rfacep_of I (b, (ax, ay, az)) f = rlin (b, (ax, ay, az)) (fcen I f).
Proof. exact (fun I f => lin4_equal _ _ (lin4_facep_of I f) (lin4_lin (fcen I f))). Qed.
Print Assumptions C11_linear_extension_bound_pressure_exact.

(* Matrix level: a constant field b gives a flux of at most |b| t0 when the constant basis
   field has residual at most t0 (zero flux when t0 = 0). *)
Theorem C11_constant_zero_matrix :
  forall (I : inst R) (f : nat) (t0 : R),
    Rabs (rres_flux I re0 f) <= t0 ->
    forall b : R, Rabs (rflux_of I (b, (0, 0, 0)) f) <= Rabs b * t0.
Proof.
  intros I f t0 H0 b.
  replace (rflux_of I (b, (0, 0, 0)) f) with (b * rres_flux I re0 f); [apply Rabs_scal_le, H0|].
  rewrite (lin4_decomp _ (lin4_flux_of I f)). unfold res_flux. rewrite exact_e0. ro. ring.
Qed.
Print Assumptions C11_constant_zero_matrix.

(* Certificate (ii), the link between model (A) and the code's local systems: for ANY
   captured local matrix LA and right-hand side matrices (in the FL / BF slots of I), a bound
   on the residual "LA (constant gradient of the field) - right-hand side built from the
   field" for the four basis fields on row r bounds it for every linear field — i.e. the
   hypothesis C11_linear_solves_local holds on the ACTUAL rows (up to the band) once the
   run-time check has established it for 1, x, y, z. *)
Theorem C11_local_rows_linear_extension :
  forall (I : inst R) (LA : coo R) (nd r : nat) (t0 t1 t2 t3 : R),
    Rabs (res_local R RO I LA nd re0 r) <= t0 -> Rabs (res_local R RO I LA nd re1 r) <= t1 ->
    Rabs (res_local R RO I LA nd re2 r) <= t2 -> Rabs (res_local R RO I LA nd re3 r) <= t3 ->
    forall b ax ay az : R,
      Rabs (rrow_apply LA r (gstar R (b, (ax, ay, az)) nd) - rflux_of I (b, (ax, ay, az)) r)
      <= Rabs b * t0 + Rabs ax * t1 + Rabs ay * t2 + Rabs az * t3.
Proof. exact (fun I LA nd r => lin4_bound _ (lin4_res_local I LA nd r)). Qed.
Print Assumptions C11_local_rows_linear_extension.

(* Certificate (iii), invertibility per instance instead of a blanket hypothesis: if some
   matrix B is an APPROXIMATE left inverse of the n x n local matrix A — every row of
   B A - I has 1-norm at most q < 1 — then the system A x = r has at most one solution.
   (prodBA n A B i j = sum_k B i k * A k j; mulv n A x i = sum_j A i j * x j; idn = identity.)
   The run-time check Model.C11_inv.check_inv establishes the row bound with q = 1/2, in exact
   arithmetic, for the matrix of all local systems the code hands to its block inverter and
   the matrix the inverter returns; together with certificate (ii) (the constant gradient
   solves the captured equations) the constant gradient is THE solution of the captured local
   systems. *)
Theorem C11_local_unique_solution :
  forall (n : nat) (A B : nat -> nat -> R) (q : R),
    q < 1 ->
    (forall i, (i < n)%nat -> sumn R RO n (fun j => Rabs (prodBA n A B i j - idn i j)) <= q) ->
    forall (r x y : nat -> R),
      (forall i, (i < n)%nat -> mulv n A x i = r i) ->
      (forall i, (i < n)%nat -> mulv n A y i = r i) ->
      forall j, (j < n)%nat -> x j = y j.
Proof. exact unique_solution. Qed.
Print Assumptions C11_local_unique_solution.

(* Non-vacuity of the above: an explicit 2 x 2 pair. *)
Example C11_nonvacuous_approx_inverse :
  (1/2 < 1) /\
  forall i, (i < 2)%nat -> sumn R RO 2 (fun j => Rabs (prodBA 2 exA2 exB2 i j - idn i j)) <= 1/2.
Proof.
  split; [lra|]. intros i Hi.
  assert (E : forall j, (j < 2)%nat -> prodBA 2 exA2 exB2 i j - idn i j = 0).
  { intros j Hj. destruct i as [|[|i]], j as [|[|j]]; try lia;
      unfold prodBA, idn, exA2, exB2; cbn [sumn Nat.eqb]; ro; field. }
  cbn [sumn]; ro. rewrite !E, Rabs_R0 by lia. lra.
Qed.

(* The arithmetic the certificates are executed with is exact: every binary64 value is a
   pair (mantissa, exponent); the value map dy : dyad -> Q commutes with the executed ring
   operations DO = (dadd, dsub, dmul, dopp, (0,0), (1,0)) and with the absolute value used in
   the bands.  (Transfer of the operations only; the comparison dleb and the transfer of the
   whole model functions to R are not proved.) *)
Theorem C11_dyadic_exact :
  ((forall a b, dy (dadd a b) == dy a + dy b) /\
   (forall a b, dy (dmul a b) == dy a * dy b) /\
   (forall a, dy (dopp a) == - dy a) /\
   (forall a b, dy (dsub a b) == dy a - dy b) /\
   (forall a, dy (dabs a) == Qabs (dy a)) /\
   dy (o0 DO) == 0 /\ dy (o1 DO) == 1)%Q.
Proof. exact (conj dy_dadd (conj dy_dmul (conj dy_dopp (conj dy_dsub (conj dy_dabs (conj dy_zero dy_one)))))). Qed.
Print Assumptions C11_dyadic_exact.

(* Non-vacuity (A): a concrete 2-D boundary interaction region (two sub-cells, interior,
   Dirichlet and Neumann sub-face, K = [[2,1],[1,3]], p = 3 + x - 2y) with an explicit left
   inverse satisfies all hypotheses of C11_unique_exact. *)
Example C11_nonvacuous_region :
  length exa = 2%nat /\ length excells = 2%nat /\
  Forall (rcell_ok 2 exK exb exa) excells /\
  Forall (rface_wf 2 2) exfaces /\
  Forall (rface_data_ok exK exb exa) exfaces /\
  (forall G, shape 2 2 G -> rapply_inv exInv (rlhs_all (rlocal_system excells exfaces) G) = G) /\
  exa <> repeat 0 2.
Proof.
  repeat split; try reflexivity.
  - repeat constructor.
  - repeat constructor.
  - repeat constructor.
  - intros G [HL HF].
    destruct G as [|g0 [|g1 [|g2 G]]]; cbn in HL; try discriminate.
    inversion HF as [|? ? H0 HF']; subst. inversion HF' as [|? ? H1 _]; subst.
    destruct g0 as [|a0 [|a1 [|a2 g0]]]; cbn in H0; try discriminate.
    destruct g1 as [|b0 [|b1 [|b2 g1]]]; cbn in H1; try discriminate.
    unfold apply_inv, lhs_all, local_system, exInv, exfaces, excells, exK, lhs, grad_of.
    cbn [flat_map face_eqs app map terms rhs fold_right fst snd cell_of nth sc_x sc_K sc_p
         nK mvl dotl vsubl voppl]; ro.
    repeat f_equal; lra.
  - intros H. inversion H. lra.
Qed.

(* Non-vacuity (B): a concrete instance (two cells, Dirichlet and Neumann end faces) whose
   basis residuals all vanish. *)
Example C11_nonvacuous_instance :
  forall f, (f < 3)%nat ->
    rres_flux exinst re0 f = 0 /\ rres_flux exinst re1 f = 0 /\
    rres_flux exinst re2 f = 0 /\ rres_flux exinst re3 f = 0 /\
    (f <> 1%nat ->
     rres_bp exinst re0 f = 0 /\ rres_bp exinst re1 f = 0 /\
     rres_bp exinst re2 f = 0 /\ rres_bp exinst re3 f = 0).
Proof.
  (* the residuals vanish for every field, in particular for the basis fields *)
  intros f Hf.
  assert (H : forall c, rres_flux exinst c f = 0 /\ (f <> 1%nat -> rres_bp exinst c f = 0)).
  { intros [b [[ax ay] az]].
    destruct f as [|[|[|f]]]; [| | |lia];
      unfold res_flux, res_bp, flux_of, facep_of, bdata, exact, pcell, lin, mulmv3, dot3, row_apply, exinst;
      cbn [nf ccen fcen normal perm btype bsgn FL BF BPC BPF fold_right fst snd Nat.eqb INR]; ro;
      (split; [lra | intros Hne; first [contradiction Hne; reflexivity | lra]]). }
  repeat apply conj; try exact (proj1 (H _)). intros Hne. repeat apply conj; exact (proj2 (H _) Hne).
Qed.
