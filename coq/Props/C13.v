(* C13 — MPSA reproduces linear displacement fields exactly.  Property theorems only.

   METHOD-LEVEL theorems (level P-method) over the field-polymorphic definitions of
   PP.Model.C13 instantiated at the reals (r... = the model function at R, RO from
   Proofs/C11.v).  The link to the Python code is the per-instance certificate evaluated on
   every run by vm_compute on the real matrices (Model.C13.check_caseV).

   Vocabulary (Model/C13.v, Proofs/C13.v):
     subcellV = {sv_x; sv_u; sv_mu; sv_la}   centre / centre displacement / Lame parameters
     subfaceV = InteriorV k1 k2 n xc | DirichletV k n xc uD | NeumannV k n t
     local_systemV d m w cells weak faces    local equations (functionals of the m gradients);
                                             w = averaging weights; weak = the averaged
                                             ("asymmetric") part of Hooke's law is kept
     keep_asym m faces                       #Neumann sub-faces <= m   (_eliminate_ncasym)
     hooke d mu la A                         2 mu sym(A) + lambda tr(A) I
     tractionW d m w cells weak G k n        discrete sub-face traction from sub-cell k
     subdisp d cells G k x                   u_k + G_k (x - x_k)
     ulin d b A x                            b + A x
     cell_okV / face_okV                     data of the region taken from u = b + A x
     instV                                   four matrices (coordinate lists) + geometry + flags
     stress_of I c r, disp_of I c r          row r of stress*u_cells + bound_stress*bdata, resp.
                                             bound_displacement_cell*u_cells + .._face*bdata
     exactT_row, exactU_row                  component of sigma n_f, resp. of u(x_f)
     res_T, res_U                            the differences; basisV t = t-th basis field;
     comb terms                              sum_t s_t basisV t;  bound_of eps terms = sum |s_t| eps_t *)
From Coq Require Import List ZArith Bool Arith Lia Reals Lra.
Import ListNotations.
From PP Require Import Model.C11 Model.C13 Model.C13_local Proofs.C11 Proofs.C13 Proofs.C11_inv
     Proofs.C13_adm.
Local Open Scope R_scope.

(* For ANY admissible interaction region (dimension d, m sub-cells, any sub-faces, weights
   summing to one, not more Neumann sub-faces than sub-cells): with one pair of Lame
   parameters and cell displacements / boundary data taken from u(x) = b + A x — A ANY
   constant matrix, symmetric or not — the constant gradient A satisfies every local
   equation of the weakly symmetric scheme. *)
Theorem C13_linear_solves_local :
  forall (d m : nat) (w : nat -> R) (cells : nat -> subcellV R) (faces : list (subfaceV R))
         (mu la : R) (b : nat -> R) (A : nat -> nat -> R),
    rsumn m w = 1 ->
    (forall k, (k < m)%nat -> cell_okV d mu la b A (cells k)) ->
    Forall (face_okV d m mu la b A) faces ->
    rkeep_asym m faces = true ->
    forall e, In e (rlocal_systemV d m w cells (rkeep_asym m faces) faces) ->
              elhs e (fun _ => A) = erhs e.
Proof. exact linear_solves_local. Qed.
Print Assumptions C13_linear_solves_local.

(* If the local system has a left inverse Inv, the gradients the scheme computes
   (Inv applied to the right-hand side) equal A, every discrete sub-face traction equals
   (2 mu sym A + lambda tr A I) n, and the displacement reconstructed at any point x
   equals u(x).
   _partial: the statement carries the guard "the local system has a left inverse"; without
   it the claim is false for valid grids (C13_unique_exact_refuted below; known finding
   singular-local-system).  The same guard is carried by C13_bound_displacement,
   C13_translation_zero and C13_rotation_zero.  Missing for a full-strength statement: a
   geometric characterisation of the regions whose local system is invertible. *)
Theorem C13_unique_exact_partial :
  forall (d m : nat) (w : nat -> R) (cells : nat -> subcellV R) (faces : list (subfaceV R))
         (mu la : R) (b : nat -> R) (A : nat -> nat -> R)
         (Inv : list R -> nat -> nat -> nat -> R),
    rsumn m w = 1 ->
    (forall k, (k < m)%nat -> cell_okV d mu la b A (cells k)) ->
    Forall (face_okV d m mu la b A) faces ->
    rkeep_asym m faces = true ->
    let sys := rlocal_systemV d m w cells (rkeep_asym m faces) faces in
    (forall G k i j, (k < m)%nat -> (i < d)%nat -> (j < d)%nat ->
                     Inv (lhs_allV R sys G) k i j = G k i j) ->
    let Gc := Inv (rhs_allV R sys) in
    (forall k i j, (k < m)%nat -> (i < d)%nat -> (j < d)%nat -> Gc k i j = A i j) /\
    (forall k n i, (k < m)%nat -> (i < d)%nat ->
                   rtractionW d m w cells true Gc k n i = rmulmvf d (rhooke d mu la A) n i) /\
    (forall k x i, (k < m)%nat -> (i < d)%nat -> rsubdisp d cells Gc k x i = rulin d b A x i).
Proof. exact unique_exact. Qed.
Print Assumptions C13_unique_exact_partial.

(* The guard cannot be dropped: a valid corner region (two triangles, both boundary faces
   Dirichlet, the two cell centres and the two boundary face centres collinear — the grid of
   corpus/C13/singular_local_system.json) satisfies every data hypothesis, yet two different
   families of gradients give the same left-hand sides, so no left inverse exists and the
   "computed" gradients are not determined by the equations.  On this grid pp.Mpsa returns
   matrices with O(100) errors without raising. *)
Theorem C13_unique_exact_refuted :
  rsumn 2 sgw = 1 /\
  (forall k, (k < 2)%nat -> cell_okV 2 1 2 exbV exAV (sgcells k)) /\
  Forall (face_okV 2 2 1 2 exbV exAV) sgfaces /\
  rkeep_asym 2 sgfaces = true /\
  let sys := rlocal_systemV 2 2 sgw sgcells (rkeep_asym 2 sgfaces) sgfaces in
  sgG1 0%nat 0%nat 0%nat <> sgG0 0%nat 0%nat 0%nat /\
  lhs_allV R sys sgG1 = lhs_allV R sys sgG0 /\
  forall Inv : list R -> nat -> nat -> nat -> R,
    ~ (forall G k i j, (k < 2)%nat -> (i < 2)%nat -> (j < 2)%nat ->
                       Inv (lhs_allV R sys G) k i j = G k i j).
Proof.
  split; [unfold sgw; cbn; ro; lra|].
  split; [intros k Hk; destruct k as [|[|k]]; [| |lia]; repeat split; reflexivity|].
  split; [repeat constructor; intros; reflexivity|].
  split; [reflexivity|].
  intros sys.
  (* gradients with rows orthogonal to (1,-1) are invisible to every local equation *)
  assert (E : lhs_allV R sys sgG1 = lhs_allV R sys sgG0).
  { unfold sys, lhs_allV, local_systemV, sgfaces, keep_asym.
    cbn [filter is_neuV length Nat.leb flat_map face_eqsV app map seq elhs].
    unfold tractionS, mulmvf, hookeS, trace, vsubf, delta, sgcells, sgG1, sgG0, mat2, vec2.
    cbn [sumn sv_x sv_u sv_mu sv_la Nat.eqb]; ro.
    repeat (match goal with |- (_ :: _) = (_ :: _) => apply f_equal2; [lra|] end). reflexivity. }
  split; [unfold sgG1, sgG0, mat2; lra|]. split; [exact E|].
  intros Inv H.
  pose proof (H sgG1 0%nat 0%nat 0%nat ltac:(lia) ltac:(lia) ltac:(lia)) as H1.
  rewrite E, H in H1 by lia. unfold sgG1, sgG0, mat2 in H1. lra.
Qed.
Print Assumptions C13_unique_exact_refuted.

(* The boundary displacement reconstruction (third part of the above, stated on its own):
   the displacement reconstructed at any point x from any sub-cell is u(x). *)
Theorem C13_bound_displacement :
  forall (d m : nat) (w : nat -> R) (cells : nat -> subcellV R) (faces : list (subfaceV R))
         (mu la : R) (b : nat -> R) (A : nat -> nat -> R)
         (Inv : list R -> nat -> nat -> nat -> R),
    rsumn m w = 1 ->
    (forall k, (k < m)%nat -> cell_okV d mu la b A (cells k)) ->
    Forall (face_okV d m mu la b A) faces ->
    rkeep_asym m faces = true ->
    let sys := rlocal_systemV d m w cells (rkeep_asym m faces) faces in
    (forall G k i j, (k < m)%nat -> (i < d)%nat -> (j < d)%nat ->
                     Inv (lhs_allV R sys G) k i j = G k i j) ->
    forall k x i, (k < m)%nat -> (i < d)%nat ->
                  rsubdisp d cells (Inv (rhs_allV R sys)) k x i = rulin d b A x i.
Proof. exact bound_displacement. Qed.
Print Assumptions C13_bound_displacement.

(* Rigid translations (u = b in all cells, Dirichlet data b, zero Neumann traction): every
   discrete sub-face traction vanishes. *)
Theorem C13_translation_zero :
  forall (d m : nat) (w : nat -> R) (cells : nat -> subcellV R) (faces : list (subfaceV R))
         (mu la : R) (b : nat -> R) (Inv : list R -> nat -> nat -> nat -> R),
    rsumn m w = 1 ->
    (forall k, (k < m)%nat -> cell_transl d mu la b (cells k)) ->
    Forall (face_transl d m b) faces ->
    rkeep_asym m faces = true ->
    let sys := rlocal_systemV d m w cells (rkeep_asym m faces) faces in
    (forall G k i j, (k < m)%nat -> (i < d)%nat -> (j < d)%nat ->
                     Inv (lhs_allV R sys G) k i j = G k i j) ->
    let Gc := Inv (rhs_allV R sys) in
    forall k n i, (k < m)%nat -> (i < d)%nat -> rtractionW d m w cells true Gc k n i = 0.
Proof.
  intros d m w cells faces mu la b Inv Hw Hc Hf Hadm sys Hinv.
  apply (zero_traction d m w cells faces mu la b (fun _ _ => 0) Inv Hw); try assumption.
  - intros k Hk. apply cell_transl_okV, Hc, Hk.
  - exact (Forall_impl _ (face_transl_okV d m mu la b) Hf).
  - apply hooke_zero.
Qed.
Print Assumptions C13_translation_zero.

(* Rigid rotations (skew gradient): zero traction as well. *)
Theorem C13_rotation_zero :
  forall (d m : nat) (w : nat -> R) (cells : nat -> subcellV R) (faces : list (subfaceV R))
         (mu la : R) (b : nat -> R) (A : nat -> nat -> R)
         (Inv : list R -> nat -> nat -> nat -> R),
    (forall i j, (i < d)%nat -> (j < d)%nat -> A j i = - A i j) ->
    rsumn m w = 1 ->
    (forall k, (k < m)%nat -> cell_okV d mu la b A (cells k)) ->
    Forall (face_okV d m mu la b A) faces ->
    rkeep_asym m faces = true ->
    let sys := rlocal_systemV d m w cells (rkeep_asym m faces) faces in
    (forall G k i j, (k < m)%nat -> (i < d)%nat -> (j < d)%nat ->
                     Inv (lhs_allV R sys G) k i j = G k i j) ->
    let Gc := Inv (rhs_allV R sys) in
    forall k n i, (k < m)%nat -> (i < d)%nat -> rtractionW d m w cells true Gc k n i = 0.
Proof.
  intros d m w cells faces mu la b A Inv Hskew Hw Hc Hf Hadm sys Hinv.
  exact (zero_traction d m w cells faces mu la b A Inv Hw Hc Hf Hadm Hinv (hooke_skew d mu la A Hskew)).
Qed.
Print Assumptions C13_rotation_zero.

(* Matrix level, ANY four matrices and geometry: bounds on the traction residual of basis
   fields on row r bound the residual of every linear combination of them on r.  (The
   run-time certificate establishes eps t = 1e-9 (1 + |exact|) for every row of every
   non-Neumann face and every basis field of the instance's dimension.) *)
Theorem C13_linear_extension_traction :
  forall (I : instV R) (r : nat) (eps : nat -> R) (terms : list (R * nat)),
    (forall st, In st terms -> Rabs (rres_T I (rbasisV (snd st)) r) <= eps (snd st)) ->
    Rabs (rstress_of I (rcomb terms) r - rexactT_row I (rcomb terms) r) <= bound_of eps terms.
Proof. exact (fun I r => comb_bound _ (linV_res_T I r)). Qed.
Print Assumptions C13_linear_extension_traction.

(* The same for the displacement reconstruction (certified on Dirichlet faces). *)
Theorem C13_linear_extension_displacement :
  forall (I : instV R) (r : nat) (eps : nat -> R) (terms : list (R * nat)),
    (forall st, In st terms -> Rabs (rres_U I (rbasisV (snd st)) r) <= eps (snd st)) ->
    Rabs (rdisp_of I (rcomb terms) r - rexactU_row I (rcomb terms) r) <= bound_of eps terms.
Proof. exact (fun I r => comb_bound _ (linV_res_U I r)). Qed.
Print Assumptions C13_linear_extension_displacement.

(* Every linear field u = b + A x is such a combination: of the twelve basis fields in 3-D,
   of the six in-plane ones in 2-D. *)
Theorem C13_every_field_3d :
  forall (b : vec3 R) (A : mat3 R), rcomb (terms3 b A) = (b, A).
Proof.
  intros [[b1 b2] b3] [[[[a11 a12] a13] [[a21 a22] a23]] [[a31 a32] a33]].
  unfold terms3, comb, basisV, cadd, cscale, czero, zm, z3, unit3, vadd3, vscale3.
  cbn [fold_right fst snd Nat.ltb Nat.leb Nat.sub Nat.div Nat.modulo Nat.divmod]; ro.
  repeat f_equal; lra.
Qed.
Print Assumptions C13_every_field_3d.

Theorem C13_every_field_2d :
  forall b1 b2 a11 a12 a21 a22 : R,
    rcomb (terms2 b1 b2 a11 a12 a21 a22)
    = ((b1, b2, 0), ((a11, a12, 0), (a21, a22, 0), (0, 0, 0))).
Proof.
  intros. unfold terms2, comb, basisV, cadd, cscale, czero, zm, z3, unit3, vadd3, vscale3.
  cbn [fold_right fst snd Nat.ltb Nat.leb Nat.sub Nat.div Nat.modulo Nat.divmod]; ro.
  repeat f_equal; lra.
Qed.
Print Assumptions C13_every_field_2d.

(* The property's 3-D restriction implies the local admissibility condition: at a node v, let
   neu be the Neumann boundary faces containing v and cell_of f the cell of boundary face f.
   If two boundary faces of one cell that meet in v share an edge (cells that are simple
   polytopes at their vertices: tetrahedra, hexahedra, prisms) and no two Neumann faces share
   an edge, then there are at most as many Neumann sub-faces as sub-cells at v, i.e. the
   averaged part of Hooke's law is kept (keep_asym = true, the guard of the theorems above). *)
Theorem C13_edge_disjoint_admissible :
  forall (share_edge : nat -> nat -> Prop) (cell_of : nat -> nat)
         (F : Type) (neu cells : list nat) (faces : list (subfaceV F)),
    NoDup neu ->
    (forall f, In f neu -> In (cell_of f) cells) ->
    (forall f g, In f neu -> In g neu -> f <> g -> cell_of f = cell_of g -> share_edge f g) ->
    (forall f g, In f neu -> In g neu -> f <> g -> ~ share_edge f g) ->
    length (filter (is_neuV F) faces) = length neu ->
    keep_asym F (length cells) faces = true.
Proof. exact edge_disjoint_admissible. Qed.
Print Assumptions C13_edge_disjoint_admissible.

(* Non-vacuity: a boundary-edge node of a hexahedral grid with the edge-disjoint Neumann
   faces 0 and 3. *)
Example C13_nonvacuous_admissible :
  NoDup [0; 3]%nat /\
  (forall f, In f [0; 3]%nat -> In (ex_cell_of f) [10; 11]%nat) /\
  (forall f g, In f [0; 3]%nat -> In g [0; 3]%nat -> f <> g -> ex_cell_of f = ex_cell_of g -> ex_share f g) /\
  (forall f g, In f [0; 3]%nat -> In g [0; 3]%nat -> f <> g -> ~ ex_share f g).
Proof.
  repeat split.
  - repeat constructor; cbn; intuition lia.
  - intros f [H|[H|[]]]; subst f; cbn; auto.
  - intros f g [H|[H|[]]] [H'|[H'|[]]]; subst f g; cbn; intros; try congruence; try lia; discriminate.
  - intros f g [H|[H|[]]] [H'|[H'|[]]]; subst f g; cbn; intros; try congruence; auto.
Qed.

(* Invertibility per instance (same statement as C11_local_unique_solution, used for the
   MPSA local systems): an approximate left inverse with row defect q < 1 makes the solution
   of the local system unique; Model.C11_inv.check_inv establishes the bound with q = 1/2 on
   the captured MPSA matrices. *)
Theorem C13_local_unique_solution :
  forall (n : nat) (A B : nat -> nat -> R) (q : R),
    q < 1 ->
    (forall i, (i < n)%nat -> rsumn n (fun j => Rabs (prodBA n A B i j - idn i j)) <= q) ->
    forall (r x y : nat -> R),
      (forall i, (i < n)%nat -> mulv n A x i = r i) ->
      (forall i, (i < n)%nat -> mulv n A y i = r i) ->
      forall j, (j < n)%nat -> x j = y j.
Proof. exact unique_solution. Qed.
Print Assumptions C13_local_unique_solution.

(* Certificate (ii) for MPSA, the link between model (A) and the code's local systems: for ANY
   captured local matrix LA (gradient entry G_ij of a sub-cell in column i*nd + j of its
   block) and right-hand side matrices (in the ST / BS slots of I), a bound on the residual
   "LA (constant gradient of the field) - right-hand side built from the field" for basis
   fields on row r bounds it for every linear combination — i.e. the hypothesis
   C13_linear_solves_local holds on the ACTUAL rows (up to the band) once the run-time check
   (Model.C13_local.check_localV: all rows except the Neumann rows) has established it for
   the basis fields. *)
Theorem C13_local_rows_linear_extension :
  forall (I : instV R) (LA : coo R) (nd r : nat) (eps : nat -> R) (terms : list (R * nat)),
    (forall st, In st terms -> Rabs (res_localV R RO I LA nd (rbasisV (snd st)) r) <= eps (snd st)) ->
    Rabs (rrow_apply LA r (gstarV R (rcomb terms) nd) - rstress_of I (rcomb terms) r)
    <= bound_of eps terms.
Proof. exact (fun I LA nd r => comb_bound _ (linV_res_localV I LA nd r)). Qed.
Print Assumptions C13_local_rows_linear_extension.

(* Non-vacuity: a concrete 2-D boundary interaction region (two sub-cells, interior,
   Dirichlet and Neumann sub-face, mu = 1, lambda = 2, non-symmetric A) with an explicit
   left inverse satisfies all hypotheses of C13_unique_exact. *)
Example C13_nonvacuous_region :
  rsumn 2 exw = 1 /\
  (forall k, (k < 2)%nat -> cell_okV 2 1 2 exbV exAV (excellsV k)) /\
  Forall (face_okV 2 2 1 2 exbV exAV) exfacesV /\
  rkeep_asym 2 exfacesV = true /\
  (forall G k i j, (k < 2)%nat -> (i < 2)%nat -> (j < 2)%nat ->
     exInvV (lhs_allV R (rlocal_systemV 2 2 exw excellsV (rkeep_asym 2 exfacesV) exfacesV) G) k i j
     = G k i j) /\
  exAV 0%nat 1%nat <> exAV 1%nat 0%nat.
Proof.
  split; [unfold exw; cbn; ro; lra|].
  split; [intros k Hk; destruct k as [|[|k]]; [| |lia]; repeat split; reflexivity|].
  split; [repeat constructor; intros; reflexivity|].
  split; [reflexivity|].
  split.
  - intros G k i j Hk Hi Hj.
    destruct k as [|[|k]]; [| |lia]; destruct i as [|[|i]]; try lia; destruct j as [|[|j]]; try lia;
      unfold exInvV, exInvM, lhs_allV, local_systemV, exfacesV, keep_asym;
      cbn [filter is_neuV length Nat.leb flat_map face_eqsV app map seq elhs nth Nat.add Nat.mul dotl];
      unfold tractionS, tractionW, mulmvf, hookeW, hookeS, hookeA, trace, wavg, vsubf, delta, excellsV,
             exw, vec2;
      cbn [sumn sv_x sv_u sv_mu sv_la Nat.eqb]; ro; lra.
  - unfold exAV, mat2. lra.
Qed.
