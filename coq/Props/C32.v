(* C32 — property theorems only.  Model: PP.Model.C32 (transcription of rotation_matrix,
   project_plane_matrix, project_line_matrix, compute_normal, compute_tangent,
   compute_normals_1d, TangentialNormalProjection); proofs: PP.Proofs.C32 (real instance
   [RO] of the model: sqrt is the real square root, comparisons are the real order). *)
From Coq Require Import Reals Lra List QArith.
Import ListNotations.
From PP Require Import Model.C32 Proofs.C32.
Open Scope R_scope.

(* rotation_matrix(a, vect) with sn = sin a, cs = cos a: for EVERY angle and EVERY vector
   (zero / inside numpy's allclose band: identity; otherwise Rodrigues about the
   normalised vector) the result is orthogonal with determinant +1. *)
Theorem C32_rodrigues_SO3 :
  forall (sn cs : R) (vect : v3 R),
    sn * sn + cs * cs = 1 ->
    let Rm := rotation_matrix R RO sn cs vect in
    mm R RO (mT R Rm) Rm = ident R RO /\ det R RO Rm = 1.
Proof. exact rotation_matrix_SO3. Qed.
Print Assumptions C32_rodrigues_SO3.

(* ... and it fixes its axis (any sn, cs). *)
Theorem C32_rotation_fixes_axis :
  forall (sn cs : R) (vect : v3 R), mv R RO (rotation_matrix R RO sn cs vect) vect = vect.
Proof. exact rotation_matrix_fixes_axis. Qed.
Print Assumptions C32_rotation_fixes_axis.

(* Orthogonal maps preserve (squared) distances and dot products. *)
Theorem C32_isometry :
  forall (A : m3 R) (x y : v3 R),
    mm R RO (mT R A) A = ident R RO ->
    normsq R RO (vsub R RO (mv R RO A x) (mv R RO A y)) = normsq R RO (vsub R RO x y) /\
    dot R RO (mv R RO A x) (mv R RO A y) = dot R RO x y.
Proof. intros A x y H. split; [apply isometry | apply orth_dot]; exact H. Qed.
Print Assumptions C32_isometry.

(* project_plane_matrix(pts, normal, reference=r, check_planar=False): for every nonzero
   normal and unit reference the call succeeds with a matrix in SO(3); outside the
   allclose band of normal x r the unit normal is mapped EXACTLY onto r; inside the band
   the identity is returned and the unit normal lies within sqrt(3)*1e-8 of the axis line. *)
Theorem C32_plane_maps_normal_to_axis :
  forall (normal r : v3 R),
    0 < dot R RO normal normal -> dot R RO r r = 1 ->
    let u := normalize R RO normal in
    exists Rm, plane_matrix_normal R RO normal r = Ok Rm /\
      mm R RO (mT R Rm) Rm = ident R RO /\ det R RO Rm = 1 /\
      (in_band u r = false -> mv R RO Rm u = r) /\
      (in_band u r = true ->
         Rm = ident R RO /\
         normsq R RO (vsub R RO u (vscale R RO (dot R RO u r) r))
           <= 3 * (n_atol R RO * n_atol R RO)).
Proof. exact plane_matrix_normal_spec. Qed.
Print Assumptions C32_plane_maps_normal_to_axis.

(* project_line_matrix(pts, tangent, reference=r): the same for tangents. *)
Theorem C32_line_maps_tangent_to_axis :
  forall (tangent r : v3 R),
    0 < dot R RO tangent tangent -> dot R RO r r = 1 ->
    let u := normalize R RO tangent in
    exists Rm, line_matrix_tangent R RO tangent r = Ok Rm /\
      mm R RO (mT R Rm) Rm = ident R RO /\ det R RO Rm = 1 /\
      (in_band u r = false -> mv R RO Rm u = r) /\
      (in_band u r = true ->
         Rm = ident R RO /\
         normsq R RO (vsub R RO u (vscale R RO (dot R RO u r) r))
           <= 3 * (n_atol R RO * n_atol R RO)).
Proof. exact plane_matrix_normal_spec. Qed.
Print Assumptions C32_line_maps_tangent_to_axis.

(* compute_normal: for every point set contained in a plane m.p = d (m <> 0), any
   tolerance: whenever a normal is returned it is a unit vector, orthogonal to every
   vector of the plane and to every difference of two points of the set. *)
Theorem C32_normal_orthogonal_to_planar_set :
  forall (pts : list (v3 R)) (tol : R) (m : v3 R) (d : R) (n : v3 R),
    0 < dot R RO m m -> Forall (fun p => dot R RO m p = d) pts ->
    compute_normal R RO pts tol = Ok n ->
    dot R RO n n = 1 /\
    (forall x, dot R RO m x = 0 -> dot R RO n x = 0) /\
    (forall p q, In p pts -> In q pts -> dot R RO n (vsub R RO p q) = 0).
Proof. exact compute_normal_spec. Qed.
Print Assumptions C32_normal_orthogonal_to_planar_set.

(* project_plane_matrix(pts, tol, reference=r) on a planar set: the matrix is in SO(3);
   outside the band the computed normal goes exactly to r and all points get the same
   coordinate along r (the set is mapped into a plane normal to the reference axis). *)
Theorem C32_plane_matrix_of_planar_set :
  forall (pts : list (v3 R)) (tol : R) (r m : v3 R) (d : R) (Rm : m3 R),
    0 < dot R RO m m -> Forall (fun p => dot R RO m p = d) pts -> dot R RO r r = 1 ->
    plane_matrix_pts R RO pts tol r = Ok Rm ->
    exists n, compute_normal R RO pts tol = Ok n /\
      mm R RO (mT R Rm) Rm = ident R RO /\ det R RO Rm = 1 /\
      (in_band n r = false ->
         mv R RO Rm n = r /\
         forall p q, In p pts -> In q pts ->
           dot R RO r (mv R RO Rm (vsub R RO p q)) = 0) /\
      (in_band n r = true ->
         Rm = ident R RO /\
         normsq R RO (vsub R RO n (vscale R RO (dot R RO n r) r))
           <= 3 * (n_atol R RO * n_atol R RO)).
Proof.
  intros pts tol r m d Rm Hm Hall Hr H.
  destruct (plane_matrix_pts_spec pts tol r m d Rm Hm Hall Hr H)
    as (n & E & (Ho & Hd & Hout & Hin) & Hpq).
  exists n. repeat split; auto; apply Hin; assumption.
Qed.
Print Assumptions C32_plane_matrix_of_planar_set.

(* compute_tangent on a set contained in a line with direction t (p x t constant): the
   returned tangent is a unit vector parallel to t and every difference of two points is
   a multiple of it. *)
Theorem C32_tangent_of_collinear_set :
  forall (pts : list (v3 R)) (t w tg : v3 R),
    0 < dot R RO t t -> Forall (fun p => cross R RO p t = w) pts ->
    compute_tangent R RO pts = Ok tg ->
    dot R RO tg tg = 1 /\ cross R RO tg t = zero3 R RO /\
    forall p q, In p pts -> In q pts ->
      vsub R RO p q = vscale R RO (dot R RO (vsub R RO p q) tg) tg.
Proof. exact compute_tangent_spec. Qed.
Print Assumptions C32_tangent_of_collinear_set.

(* project_line_matrix(pts, reference=r) on a collinear set: SO(3); outside the band every
   difference of two points is mapped onto the reference axis with its length kept. *)
Theorem C32_line_matrix_of_collinear_set :
  forall (pts : list (v3 R)) (r t w : v3 R) (Rm : m3 R),
    0 < dot R RO t t -> Forall (fun p => cross R RO p t = w) pts -> dot R RO r r = 1 ->
    line_matrix_pts R RO pts r = Ok Rm ->
    exists tg, compute_tangent R RO pts = Ok tg /\
      mm R RO (mT R Rm) Rm = ident R RO /\ det R RO Rm = 1 /\
      (in_band tg r = false ->
         mv R RO Rm tg = r /\
         forall p q, In p pts -> In q pts ->
           mv R RO Rm (vsub R RO p q) = vscale R RO (dot R RO (vsub R RO p q) tg) r) /\
      (in_band tg r = true ->
         Rm = ident R RO /\
         normsq R RO (vsub R RO tg (vscale R RO (dot R RO tg r) r))
           <= 3 * (n_atol R RO * n_atol R RO)).
Proof.
  intros pts r t w Rm Ht Hall Hr H.
  destruct (line_matrix_pts_spec pts r t w Rm Ht Hall Hr H)
    as (tg & E & (Ho & Hd & Hout & Hin) & Hpq).
  exists tg. repeat split; auto; apply Hin; assumption.
Qed.
Print Assumptions C32_line_matrix_of_collinear_set.

(* compute_normals_1d: whenever it returns, the two vectors are orthonormal and orthogonal
   to the (unit) tangent computed from the points. *)
Theorem C32_normals_1d_orthonormal :
  forall (pts : list (v3 R)) (n1 n2 : v3 R),
    compute_normals_1d R RO pts = Ok (n1, n2) ->
    exists tg, compute_tangent R RO pts = Ok tg /\
      (dot R RO tg tg = 1 ->
       dot R RO n1 n1 = 1 /\ dot R RO n2 n2 = 1 /\ dot R RO n1 n2 = 0 /\
       dot R RO n1 tg = 0 /\ dot R RO n2 tg = 0).
Proof.
  intros pts n1 n2 H. destruct (normals_1d_spec pts n1 n2 H) as (tg & E & Hn).
  exists tg. split; [exact E | intros _; exact Hn].
Qed.
Print Assumptions C32_normals_1d_orthonormal.

(* TangentialNormalProjection in 3-d, EVERY nonzero normal (axis-aligned, inside the 1e-8
   band, general): the basis (t1, t2, n) has n = normal/|normal|, is orthonormal with
   determinant +1; the stored projection block (inverse of the matrix with these columns)
   is the matrix with ROWS t1, t2, n, and sends n to the last axis (0,0,1). *)
Theorem C32_tn3_basis_orthonormal :
  forall nrm : v3 R,
    0 < dot R RO nrm nrm ->
    let '(t1, t2, n) := tn3_basis R RO nrm in
    n = normalize R RO nrm /\
    dot R RO t1 t1 = 1 /\ dot R RO t2 t2 = 1 /\ dot R RO n n = 1 /\
    dot R RO t1 t2 = 0 /\ dot R RO t1 n = 0 /\ dot R RO t2 n = 0 /\
    det R RO (t1, t2, n) = 1 /\
    tn3_projection R RO nrm = Ok (t1, t2, n) /\
    mv R RO (t1, t2, n) n = (0, 0, 1).
Proof.
  intros nrm H. destruct (tn3_spec nrm H) as (t1 & t2 & E & G).
  unfold tn3_projection. rewrite E. split; [reflexivity | exact G].
Qed.
Print Assumptions C32_tn3_basis_orthonormal.

(* TangentialNormalProjection in 2-d, every nonzero normal: (t1, n) is orthonormal, the
   projection block has rows t1, n and sends n to (0,1); its determinant is +1 or -1,
   and +1 exactly when n_y > 0 or n = (-1, 0) (the code's convention: the tangent points
   in the positive x direction). *)
Theorem C32_tn2_basis_orthonormal :
  forall nrm : v2 R,
    0 < dot2 R RO nrm nrm ->
    let '(t1, n) := tn2_basis R RO nrm in
    n = normalize2 R RO nrm /\
    dot2 R RO t1 t1 = 1 /\ dot2 R RO n n = 1 /\ dot2 R RO t1 n = 0 /\
    tn2_projection R RO nrm = Ok (t1, n) /\
    (dot2 R RO t1 n, dot2 R RO n n) = (0, 1) /\
    det2 R RO (t1, n) * det2 R RO (t1, n) = 1 /\
    (det2 R RO (t1, n) = 1 <-> (0 < snd n \/ (snd n = 0 /\ fst n < 0))).
Proof.
  intros nrm H. destruct (tn2_spec nrm H) as (t & E & Hn & Ht & Htn & Hs).
  unfold tn2_projection. rewrite E. pose proof (lagrange2 t (normalize2 R RO nrm)) as Hdd.
  rewrite Ht, Hn, Htn in Hdd. rewrite Htn, Hn.
  repeat split; try tauto; [apply inv2_orth; assumption | lra].
Qed.
Print Assumptions C32_tn2_basis_orthonormal.

(* The trigonometric rewriting used by the model. *)
Theorem C32_trig_of_arccos :
  forall d : R, -1 <= d <= 1 -> cos (acos d) = d /\ sin (acos d) = sqrt (1 - d * d).
Proof. exact trig_of_arccos. Qed.
Print Assumptions C32_trig_of_arccos.

(* ------------------------------------------------------------------ non-vacuity *)
(* hypotheses of the algebraic theorems are satisfiable by non-trivial reals *)
Example C32_nonvacuous_angles_axes :
  (3 / 5) * (3 / 5) + (4 / 5) * (4 / 5) = 1 /\
  0 < dot R RO (1, 2, 2) (1, 2, 2) /\ dot R RO (0, 0, 1) (0, 0, 1) = 1 /\
  0 < dot2 R RO (3, -4) (3, -4) /\
  Forall (fun p => dot R RO (1, 2, 2) p = 3) [(3, 0, 0); (1, 1, 0); (1, 0, 1); (-1, 1, 1)] /\
  Forall (fun p => cross R RO p (1, 2, 2) = (2, -2, 1)) [(1, 1, 0); (2, 3, 2); (-1, -3, -4)].
Proof.
  cbv [dot dot2 cross vx vy vz fst snd n_mul n_add n_sub RO].
  repeat split; try lra; repeat constructor; try lra; f_equal; try f_equal; lra.
Qed.

(* the branchy functions return Ok on such inputs (executed on the rational instance of
   the same polymorphic model, on planar / collinear sets whose normal / direction has a
   rational norm) *)
Example C32_nonvacuous_model_runs :
  compute_normal Q QO [(3, 0, 0); (1, 1, 0); (1, 0, 1); (-1, 1, 1)]%Q (1 # 100000)
    = Ok (1 # 3, 2 # 3, 2 # 3)%Q /\
  is_ok (plane_matrix_pts Q QO [(0, 0, 0); (4, -3, 0); (0, 12, -4); (4, 9, -4)]%Q
           (1 # 100000) (0, 0, 1)%Q) = true /\
  is_ok (line_matrix_pts Q QO [(1, 1, 0); (4, 5, 12); (-5, -7, -24)]%Q (0, 0, 1)%Q) = true /\
  is_ok (compute_normals_1d Q QO [(1, 1, 0); (4, 5, 12); (-5, -7, -24)]%Q) = true /\
  tn3_projection Q QO (3, 4, 12)%Q
    = Ok (-4 # 5, 3 # 5, 0, (-36 # 65, -48 # 65, 5 # 13), (3 # 13, 4 # 13, 12 # 13))%Q /\
  tn2_projection Q QO (3, -4)%Q = Ok (4 # 5, 3 # 5, (3 # 5, -4 # 5))%Q.
Proof. vm_compute. repeat split. Qed.
