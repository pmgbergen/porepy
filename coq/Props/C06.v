(* C06 — property theorems only.  Model: PP.Model.C06 (transcription of EquationSystem's
   equation bookkeeping and assemble) on top of PP.Model.C05 (dof layout); proofs:
   PP.Proofs.C06.

   Vocabulary (PP.Proofs.C06; efinal and cut are the model's):
     efinal .. g s ops   equation-side state after running ANY list of set_equation /
                         remove_equation / assemble calls (failing ones included) from the
                         empty system; [s] is the variable-side state (C05)
     eval op             the rows (dense Jacobian row, value) operator [op] evaluates to —
                         an input; [sized eval es]: every registered operator yields as many
                         rows as set_equation recorded for it (set_equation does not check)
     full eval es        all equations stacked in the order they were set
     kept a name         how the argument [equations] mentions an equation LAST: not at all,
                         unrestricted, or restricted to a grid list
     arg_ok es a         every mentioned equation is known and every grid of a restriction
                         belongs to the equation's domain
     local_rows es a nm  the rows of equation nm the argument keeps (whole equation, or the
                         blocks of the listed grids in the order of the stored image)
     rows_spec es a      the rows of the full system the argument keeps: equation by equation
                         in insertion order, offset by the sizes of the equations before
     ind_spec es a       consecutive index ranges, one per mentioned equation
     cut vzero cols x    the entries cols of a row x  (A * projection^T) *)
From Coq Require Import List ZArith Arith Lia Sorted Permutation.
Import ListNotations.
From PP Require Import Model.C05 Proofs.C05 Model.C06 Proofs.C06 Model.C07 Model.C06_schur
     Proofs.C06_schur.

(* The parser accepts exactly the well-formed arguments (anything else: ValueError) and
   returns, in equation-insertion order, one entry per mentioned equation, determined by
   its last mention (a later mention overrides an earlier one; in a dictionary every entry
   is a restriction). *)
Theorem C06_parse :
  forall (V : Type) (vzero : V) (vopp : V -> V) (eval : nat -> list (@prow V)) g s ops a,
  let es := efinal vzero vopp eval g s ops in
  parse_equations es a = if arg_ok es a then inl (blocks_spec es a) else inr ValueErr.
Proof. intros. apply parse_equations_spec, efinal_EInv. Qed.
Print Assumptions C06_parse.

(* After ANY history, for ANY accepted argument and ANY variable selection whose projection
   exists (columns cols): the full assembly is the stack of the equations in insertion order
   cut to the columns; the restricted assembly consists of exactly the rows rows_spec of
   that full system (matrix and right-hand side), which are strictly increasing — i.e. the
   restricted system is a slice of the full one, in the order the equations were set. *)
Theorem C06_rows :
  forall (V : Type) (vzero : V) (vopp : V -> V) (eval : nat -> list (@prow V))
         g s ops a r cols n,
  let es := efinal vzero vopp eval g s ops in
  sized eval es -> arg_ok es a = true ->
  projection_to s (asm_vars s r) = OProjM cols n ->
  let Af := map (fun rw => cut vzero cols (fst rw)) (full eval es) in
  let bf := map (fun rw => vopp (snd rw)) (full eval es) in
  let R := rows_spec es a in
  assemble vzero vopp eval s es true ENone r =
    (with_aei es (ind_spec es ENone), AJac Af bf (length cols)) /\
  assemble vzero vopp eval s es true a r =
    (with_aei es (ind_spec es a),
     AJac (map (fun i => nth i Af []) R) (map (fun i => nth i bf (vopp vzero)) R)
          (length cols)) /\
  StronglySorted lt R /\ Forall (fun i => i < length Af) R /\ length bf = length Af.
Proof. intros. apply slice_general with (n := n); auto. apply efinal_EInv. Qed.
Print Assumptions C06_rows.

(* The columns: for registered variables (or variables=None) the projection exists, its
   columns are sorted and are exactly the dof indices of the selected variables (C05). *)
Theorem C06_cols :
  forall g vops r, Forall (wf_op g) vops ->
  let s := final g vops in
  truthy (asm_vars s r) = true ->
  (r = None \/ forall id, In id (parse s r) -> In id (block_ids s)) ->
  exists cols, projection_to s (asm_vars s r) = OProjM cols (num_dofs s) /\
    StronglySorted le cols /\
    Permutation cols (concat (map (block_of s) (parse s (asm_vars s r)))) /\
    (forall i, In i cols <-> exists id, In id (parse s (asm_vars s r)) /\ In i (block_of s id)).
Proof. intros g vops r Hw s. apply (cols_registered g), final_Inv, Hw. Qed.
Print Assumptions C06_cols.

(* assembled_equation_indices after a Jacobian assembly: one consecutive range per mentioned
   equation, in insertion order, of the length of the rows kept for it (empty ranges
   included); together they enumerate 0 .. n_rows-1. *)
Theorem C06_indices :
  forall (V : Type) (vzero : V) (vopp : V -> V) (eval : nat -> list (@prow V))
         g s ops a r cols n,
  let es := efinal vzero vopp eval g s ops in
  sized eval es -> arg_ok es a = true ->
  projection_to s (asm_vars s r) = OProjM cols n ->
  let ind := aei (fst (assemble vzero vopp eval s es true a r)) in
  ind = ind_spec es a /\
  concat (map snd ind) = seq 0 (length (rows_spec es a)) /\
  map fst ind = map fst (filter (fun kv => match kept a (fst kv) with
                                           | Some _ => true | None => false end)
                                (equations es)) /\
  (forall name rows, In (name, rows) ind ->
     exists start, rows = seq start (length (local_rows es a name))).
Proof. intros. apply indices_general with (cols := cols) (n := n); auto. apply efinal_EInv. Qed.
Print Assumptions C06_indices.

(* Residual-only assembly returns the right-hand side of the Jacobian assembly of the same
   argument and leaves the state (hence the reported indices) untouched — any state, any
   argument, no size assumption. *)
Theorem C06_residual_only :
  forall (V : Type) (vzero : V) (vopp : V -> V) (eval : nat -> list (@prow V))
         g s ops a r r' es' A b n,
  let es := efinal vzero vopp eval g s ops in
  assemble vzero vopp eval s es true a r = (es', AJac A b n) ->
  assemble vzero vopp eval s es false a r' = (es, ARes b).
Proof. intros until es. apply assemble_residual. Qed.
Print Assumptions C06_residual_only.

(* An argument the parser rejects: ValueError, state untouched (both kinds of assembly). *)
Theorem C06_rejected :
  forall (V : Type) (vzero : V) (vopp : V -> V) (eval : nat -> list (@prow V))
         g s ops jac a r,
  let es := efinal vzero vopp eval g s ops in
  arg_ok es a = false ->
  assemble vzero vopp eval s es jac a r = (es, AErr ValueErr).
Proof. intros. apply assemble_rejects; auto. apply efinal_EInv. Qed.
Print Assumptions C06_rejected.

(* What a successful set_equation stores: the equation is appended to the insertion order;
   its image has one block per listed grid, in md-grid order (subdomains, then interfaces),
   numbered consecutively from 0, of size cells*c + faces*f + nodes*n (cells*c on an
   interface); other equations are untouched. *)
Theorem C06_layout :
  forall g es name op grids info es',
  set_equation g es name op grids info = (es', None) ->
  img_of es' name = img_spec g info (filter (fun d => domin d grids) (grid_order g)) 0 /\
  equations es' = equations es ++ [(name, op)] /\
  (forall n, n <> name -> img_of es' n = img_of es n).
Proof. exact set_equation_layout. Qed.
Print Assumptions C06_layout.

(* The Schur assembly is an assemble-method as well: after ANY history, a successful
   assemble_schur_complement_system (model: schur_step, repaired code) leaves in
   assembled_equation_indices exactly what assemble(equations=primary_equations) reports
   (C06_indices): one consecutive range per primary equation, the rows of the primary block;
   the equations themselves are untouched. *)
Theorem C06_schur_indices :
  forall (V : Type) (vzero : V) (vopp : V -> V) (eval : nat -> list (@prow V))
         g s ops pe pv es',
  let es := efinal vzero vopp eval g s ops in
  sized eval es ->
  schur_step vzero vopp eval s es pe pv = (es', XDone) ->
  arg_ok es pe = true /\ aei es' = ind_spec es pe /\
  equations es' = equations es /\ comp es' = comp es.
Proof. intros until es. apply schur_step_indices, efinal_EInv. Qed.
Print Assumptions C06_schur_indices.

(* update_equation (grids / size info defaulting to the stored ones): a successful call
   moves the equation to the END of the insertion order and stores the image set_equation
   stores for the resulting grids and size info. *)
Theorem C06_update :
  forall g es name op grids info es',
  update_equation g es name op grids info = (es', None) ->
  exists gs i,
    (match grids with Some x => Some x | None => option_map (map fst) (dget (comp es) name) end)
      = Some gs /\
    (match info with Some x => Some x | None => dget (sinfo es) name end) = Some i /\
    equations es' = ddel (equations es) name ++ [(name, op)] /\
    img_of es' name = img_spec g i (filter (fun d => domin d gs) (grid_order g)) 0.
Proof. exact update_equation_layout. Qed.
Print Assumptions C06_update.

(* C06_rows over histories that also contain update_equation calls and Schur assemblies
   (sfinal: any list of set / remove / assemble / update / Schur-assembly calls, failing ones
   included): the slice statement is unchanged. *)
Theorem C06_rows_histories :
  forall (V : Type) (vzero : V) (vopp : V -> V) (eval : nat -> list (@prow V))
         g s ops a r cols n,
  let es := sfinal vzero vopp eval g s ops in
  sized eval es -> arg_ok es a = true ->
  projection_to s (asm_vars s r) = OProjM cols n ->
  let Af := map (fun rw => cut vzero cols (fst rw)) (full eval es) in
  let bf := map (fun rw => vopp (snd rw)) (full eval es) in
  let R := rows_spec es a in
  assemble vzero vopp eval s es true ENone r =
    (with_aei es (ind_spec es ENone), AJac Af bf (length cols)) /\
  assemble vzero vopp eval s es true a r =
    (with_aei es (ind_spec es a),
     AJac (map (fun i => nth i Af []) R) (map (fun i => nth i bf (vopp vzero)) R)
          (length cols)) /\
  StronglySorted lt R /\ Forall (fun i => i < length Af) R /\ length bf = length Af.
Proof. intros. apply slice_general with (n := n); auto. apply sfinal_EInv. Qed.
Print Assumptions C06_rows_histories.

(* The size hypothesis [sized] of the theorems above is decidable; the checker evaluated by
   the execution correspondence on every generated history is sound and complete for it. *)
Theorem C06_sized_checker :
  forall (V : Type) (eval : nat -> list (@prow V)) (es : est),
  sizedb eval es = true <-> sized eval es.
Proof. exact @sizedb_sound. Qed.
Print Assumptions C06_sized_checker.

(* Non-vacuity: two subdomains and one interface; a cell variable on both subdomains and an
   interface variable (5 dofs); three equations set in the order 4, 0, 2 (one failing call in
   between, one removal and re-insertion); a restriction given as a list with an overriding
   dictionary item. *)
Definition ex6_g : mdgrid := {| sds := [(2, 7, 6); (1, 2, 2)]; intfs := [2] |}.
Definition ex6_vops : list op :=
  [ OpCreate 0 None false (Some [0; 1]) None; OpCreate 1 None false None (Some [0]) ].
Definition ex6_eval (o : nat) : list (@prow Z) :=
  match o with
  | 0 => [([1; 0; 0; 0; 2], 10); ([0; 3; 0; 0; 0], 11); ([0; 0; 4; 5; 0], 12)]%Z
  | 1 => [([6; 0; 0; 7; 0], 20); ([0; 0; 0; 0; 8], 21)]%Z
  | 2 => [([0; 9; 9; 0; 0], 30)]%Z
  | _ => []
  end.
Definition ex6_ops : list eop :=
  [ ESet 0 1 [Intf 0] (1, 0, 0);
    ESet 4 0 [Sd 1; Sd 0] (1, 0, 0);
    ESet 4 2 [Sd 0] (1, 0, 0);                 (* name in use: ValueError *)
    ERemove 0;
    ESet 0 1 [Intf 0] (1, 0, 0);
    ESet 2 2 [Sd 1] (1, 0, 0);
    EAssemble true ENone None ].
Definition ex6_arg : eqarg := EList [IName 4; IName 2; IDict [(4, [Sd 1]); (0, [])]].

Example C06_nonvacuous :
  let s := final ex6_g ex6_vops in
  let es := efinal 0%Z Z.opp ex6_eval ex6_g s ex6_ops in
  Forall (wf_op ex6_g) ex6_vops /\ sized ex6_eval es /\ arg_ok es ex6_arg = true /\
  map fst (equations es) = [4; 0; 2] /\
  rows_spec es ex6_arg = [2; 5] /\
  ind_spec es ex6_arg = [(4, [0]); (0, []); (2, [1])] /\
  projection_to s (asm_vars s (Some [ByName 1; ById 0])) = OProjM [0; 1; 3; 4] 5 /\
  snd (assemble 0%Z Z.opp ex6_eval s es true ex6_arg (Some [ByName 1; ById 0])) =
    AJac [[0; 0; 5; 0]; [0; 9; 0; 0]]%Z [-12; -30]%Z 4 /\
  snd (assemble 0%Z Z.opp ex6_eval s es false ex6_arg None) = ARes [-12; -30]%Z /\
  arg_ok es (EDict [(4, [Intf 0])]) = false /\
  schur_step 0%Z Z.opp ex6_eval s es (EList [IName 0; IName 4]) (Some [ById 0; ByName 1]) =
    (with_aei es [(4, [0; 1; 2]); (0, [3; 4])], XDone) /\
  map fst (equations (sfinal 0%Z Z.opp ex6_eval ex6_g s
                             (map SBase ex6_ops ++ [SUpdate 4 0 None (Some (1, 0, 0))])))
    = [0; 2; 4].
Proof.
  split; [|split].
  - unfold ex6_vops, wf_op, grids_ok. repeat constructor; cbn; lia.
  - intros name o H. vm_compute in H.
    repeat (destruct H as [H|H]; [inversion H; subst; vm_compute; reflexivity|]).
    destruct H.
  - vm_compute. repeat split; reflexivity.
Qed.
