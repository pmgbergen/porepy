(* C37 — property theorems only.  Models: PP.Lib.Dense (dense matrices over any ring),
   PP.Lib.Csr (compressed storage), PP.Model.C37 (transcription of invert_diagonal_blocks,
   block location, permutation post-processing, slicer applications);
   proofs: PP.Proofs.C37_dense, PP.Proofs.C37_perm, PP.Proofs.C37. *)
From Coq Require Import List ZArith Arith Bool Lia Ring.
Import ListNotations.
From PP Require Import Lib.Csr Lib.Dense Model.C37 Proofs.C37_dense Proofs.C37_perm Proofs.C37.
From PP Require Import Proofs.C37_slicer.

(* (1) Over any commutative ring: if [inv] returns a two-sided inverse of every block
   (np.linalg.inv is trusted, [inv_ok]), then block_diag(inv B_i) is a two-sided inverse of
   block_diag(B_i) -- any number of square blocks of any sizes. *)
Theorem C37_blocks_inverse :
  forall (T : Type) (zero one : T) (add mul sub : T -> T -> T) (opp : T -> T),
    ring_theory zero one add mul sub opp eq ->
  forall (inv : list (list T) -> list (list T)) (Bs : list (list (list T))),
    Forall (square T) Bs -> Forall (inv_ok T zero one add mul inv) Bs ->
    mat_mul zero add mul (total T Bs) (block_diag zero Bs) (block_diag zero (map inv Bs))
      = identity zero one (total T Bs) /\
    mat_mul zero add mul (total T Bs) (block_diag zero (map inv Bs)) (block_diag zero Bs)
      = identity zero one (total T Bs).
Proof. exact blocks_inverse. Qed.
Print Assumptions C37_blocks_inverse.

(* (2) Q . B^-1 . P is the two-sided inverse of A when P . A . Q = B, for invertible P, Q
   (n x n matrices over any commutative ring) ... *)
Theorem C37_perm_inverse :
  forall (T : Type) (zero one : T) (add mul sub : T -> T -> T) (opp : T -> T),
    ring_theory zero one add mul sub opp eq ->
  forall n A B Bi P P' Q Q',
    sq T n A -> sq T n B -> sq T n Bi -> sq T n P -> sq T n P' -> sq T n Q -> sq T n Q' ->
    mat_mul zero add mul n P P' = identity zero one n -> mat_mul zero add mul n P' P = identity zero one n ->
    mat_mul zero add mul n Q Q' = identity zero one n -> mat_mul zero add mul n Q' Q = identity zero one n ->
    mat_mul zero add mul n B Bi = identity zero one n -> mat_mul zero add mul n Bi B = identity zero one n ->
    mat_mul zero add mul n (mat_mul zero add mul n P A) Q = B ->
    mat_mul zero add mul n A (mat_mul zero add mul n (mat_mul zero add mul n Q Bi) P) = identity zero one n /\
    mat_mul zero add mul n (mat_mul zero add mul n (mat_mul zero add mul n Q Bi) P) A = identity zero one n.
Proof. exact perm_inverse. Qed.
Print Assumptions C37_perm_inverse.

(* ... permutation matrices of mutually inverse index lists are mutually inverse
   (orthogonality: perm_mat p' is the transpose of perm_mat p) ... *)
Theorem C37_perm_matrix_inverse :
  forall (T : Type) (zero one : T) (add mul sub : T -> T -> T) (opp : T -> T),
    ring_theory zero one add mul sub opp eq ->
  forall n p p', length p = n -> length p' = n ->
    Forall (fun x => x < n) p -> Forall (fun x => x < n) p' ->
    map (fun x => nth x p' 0) p = seq 0 n -> map (fun x => nth x p 0) p' = seq 0 n ->
    mat_mul zero add mul n (perm_mat zero one n p) (perm_mat zero one n p') = identity zero one n /\
    mat_mul zero add mul n (perm_mat zero one n p') (perm_mat zero one n p) = identity zero one n.
Proof. exact perm_mat_inverse. Qed.
Print Assumptions C37_perm_matrix_inverse.

(* ... and the row slicer A[p, :] is the product with the permutation matrix of p. *)
Theorem C37_row_slicer_is_perm_matrix :
  forall (T : Type) (zero one : T) (add mul sub : T -> T -> T) (opp : T -> T),
    ring_theory zero one add mul sub opp eq ->
  forall n w p A, length A = n -> width T w A -> Forall (fun x => x < n) p ->
    mat_mul zero add mul w (perm_mat zero one n p) A = select_rows zero A p w.
Proof. exact perm_mat_select. Qed.
Print Assumptions C37_row_slicer_is_perm_matrix.

(* (2') The slicer model of invert_permuted_block_diag_matrix itself: for ALL index
   permutations rp, cp (duplicate-free lists of length n with entries below n) and every
   n x n matrix A over a commutative ring, if Bi is a two-sided inverse of the block form
   A[rp,:][:,cp] = row_slicer @ (col_slicer.T @ A.T).T, then
   col_slicer @ (row_slicer.T @ Bi.T).T is a two-sided inverse of A. *)
Theorem C37_permuted_inverse :
  forall (T : Type) (zero one : T) (add mul sub : T -> T -> T) (opp : T -> T),
    ring_theory zero one add mul sub opp eq ->
  forall n A Bi rp cp,
    nn T n A -> nn T n Bi -> is_perm n rp -> is_perm n cp ->
    mat_mul zero add mul n (to_block_form zero n A rp cp) Bi = identity zero one n ->
    mat_mul zero add mul n Bi (to_block_form zero n A rp cp) = identity zero one n ->
    mat_mul zero add mul n A (from_block_form zero n Bi rp cp) = identity zero one n /\
    mat_mul zero add mul n (from_block_form zero n Bi rp cp) A = identity zero one n.
Proof. exact permuted_inverse. Qed.
Print Assumptions C37_permuted_inverse.

(* the block form has the entries A[rp_i][cp_j] (row and column slicers, transposes included) *)
Theorem C37_block_form_entries :
  forall (T : Type) (zero : T) n (A : list (list T)) rp cp i j,
    is_perm n rp -> is_perm n cp -> length A = n -> i < n -> j < n ->
    mget zero (to_block_form zero n A rp cp) i j = mget zero A (nth i rp 0) (nth j cp 0).
Proof. exact mget_block_form. Qed.
Print Assumptions C37_block_form_entries.

(* the permutation test evaluated on every computed permutation (tie) is sound *)
Theorem C37_perm_certificate_sound :
  forall n p, is_permb n p = true -> is_perm n p.
Proof. exact is_permb_sound. Qed.
Print Assumptions C37_perm_certificate_sound.

(* (3) np.searchsorted (bisection) on an array that the key partitions returns the
   partition point, although the array is not sorted. *)
Theorem C37_searchsorted_partition :
  forall l1 l2 key, Forall (fun x => x < key) l1 -> Forall (fun x => key <= x) l2 ->
    searchsorted (l1 ++ l2) key = length l1.
Proof. exact searchsorted_partition. Qed.
Print Assumptions C37_searchsorted_partition.

(* For every well-formed compressed matrix (unsorted indices within lines, empty lines,
   duplicates allowed) none of whose stored entries straddles a block boundary, the
   boundaries searchsorted(indices, cumsum(sizes)) are the index pointers of the block
   starts ... *)
Theorem C37_block_boundaries :
  forall (A : csr) (sz : list nat), wf A = true -> block_monotone A sz = true ->
    Forall (fun b => b <= nmaj A) (idx_blocks sz) ->
    idx_nnz A sz = map (fun b => nth b (indptr A) 0) (idx_blocks sz).
Proof.
  intros A sz WF BM FB. apply map_ext_in. intros b Hb. rewrite Forall_forall in FB.
  apply boundary_search; auto. exact (proj1 (block_monotone_spec A sz) BM b Hb).
Qed.
Print Assumptions C37_block_boundaries.

(* ... so that the slice of (indices, data) taken for a block is exactly the
   concatenation of the block's own lines: the data array is cut into the blocks. *)
Theorem C37_block_slice :
  forall (A : csr) (b0 b1 : nat), wf A = true -> b0 <= b1 -> b1 <= nmaj A ->
    seg (nth b0 (indptr A) 0) (nth b1 (indptr A) 0) (entries A) = concat (seg b0 b1 (rows A)).
Proof. exact block_slice. Qed.
Print Assumptions C37_block_slice.

(* The repair: eliminate_zeros does not change the matrix, leaves no stored zero, and
   re-establishes the premise of C37_block_boundaries for every matrix whose NON-ZERO stored
   entries lie inside the diagonal blocks, whatever zeros are stored elsewhere. *)
Theorem C37_eliminate_zeros_dense :
  forall A : csr, to_dense (eliminate_zeros A) = to_dense A.
Proof.
  intros A. unfold to_dense. rewrite rows_eliminate, map_map. apply map_ext. intros r.
  apply map_ext. intros j. apply entry_sum_filter.
Qed.
Print Assumptions C37_eliminate_zeros_dense.

Theorem C37_eliminate_zeros_restores_premise :
  forall (A : csr) (sz : list nat),
    (forall b, In b (idx_blocks sz) -> forall i r, In (i, r) (combine (seq 0 (nmaj A)) (rows A)) ->
       forall e, In e r -> snd e <> 0%Z -> (i <? b) = (fst e <? b)) ->
    block_monotone (eliminate_zeros A) sz = true.
Proof.
  intros A sz H. apply block_monotone_spec. intros b Hb i r Hir e He.
  rewrite rows_eliminate, combine_map_r in Hir. apply in_map_iff in Hir.
  destruct Hir as [[i0 r0] [[= <- <-] Hir]]. apply filter_In in He.
  apply (H b Hb i0 r0 Hir e); [|apply nonzero_entry_spec]; apply He.
Qed.
Print Assumptions C37_eliminate_zeros_restores_premise.

(* The premise FAILS for a block-diagonal matrix with an explicitly stored zero outside
   the blocks (diag(2,4) stored as data [2,0,4]); without the repair the python backend
   raises IndexError or reads a neighbour's entry and the numba backend raises its
   size-mismatch AssertionError; with the repair both return the blocks. *)
Theorem C37_stored_zero_witness :
  exists A sz, wf A = true /\ to_dense A = [[2; 0]; [0; 4]]%Z /\
    block_monotone A sz = false /\
    extract_blocks_unrepaired Numba A sz = Err AssertErr /\
    extract_blocks_unrepaired Python A sz = Err IndexErr /\
    extract_blocks Numba A sz = Ok [[[2]]; [[4]]]%Z /\
    extract_blocks Python A sz = Ok [[[2]]; [[4]]]%Z.
Proof.
  exists {| nmaj := 2; nmin := 2; indptr := [0; 1; 3]; indices := [0; 0; 1]; data := [2; 0; 4]%Z |}, [1; 1].
  vm_compute. repeat split; reflexivity.
Qed.
Print Assumptions C37_stored_zero_witness.

(* ---------------------------------------------------------------- non-vacuity *)

(* integer blocks with integer inverses (products of unit-triangular matrices) *)
Definition C37_B1 : list (list Z) := [[1; 2]; [3; 7]]%Z.
Definition C37_B2 : list (list Z) := [[-1]]%Z.
Definition C37_inv (B : list (list Z)) : list (list Z) :=
  if eqb_matZ B C37_B1 then [[7; -2]; [-3; 1]]%Z else B.

Example C37_nonvacuous_blocks :
  Forall (square Z) [C37_B1; C37_B2] /\
  Forall (inv_ok Z 0%Z 1%Z Z.add Z.mul C37_inv) [C37_B1; C37_B2] /\
  block_diag 0%Z [C37_B1; C37_B2] = [[1; 2; 0]; [3; 7; 0]; [0; 0; -1]]%Z.
Proof.
  split; [|split].
  - repeat constructor.
  - repeat constructor.
  - reflexivity.
Qed.

(* a row/column permuted block-diagonal matrix: P A Q = B with the code's slicers *)
Example C37_nonvacuous_perm :
  let A := [[0; 0; 3]; [0; 5; 0]; [7; 0; 1]]%Z in
  generate_permutation 3 A = Ok ([0; 2; 1], [0; 2; 1], [2; 1]) /\
  to_block_form 0%Z 3 A [0; 2; 1] [0; 2; 1] = [[0; 3; 0]; [7; 1; 0]; [0; 0; 5]]%Z /\
  mat_mul 0%Z Z.add Z.mul 3 (mat_mul 0%Z Z.add Z.mul 3 (perm_mat 0%Z 1%Z 3 [0; 2; 1]) A)
          (perm_mat 0%Z 1%Z 3 (invperm 3 [0; 2; 1]))
    = to_block_form 0%Z 3 A [0; 2; 1] [0; 2; 1] /\
  map (fun x => nth x (invperm 3 [0; 2; 1]) 0) [0; 2; 1] = seq 0 3.
Proof. vm_compute. repeat split; reflexivity. Qed.

(* unsorted indices within lines, an empty-free 2+1 block layout: premise holds *)
Definition C37_ex : csr :=
  {| nmaj := 3; nmin := 3; indptr := [0; 2; 4; 5]; indices := [1; 0; 1; 0; 2];
     data := [2; 1; 7; 3; -1]%Z |}.

Example C37_nonvacuous_csr :
  wf C37_ex = true /\ block_monotone C37_ex [2; 1] = true /\
  Forall (fun b => b <= nmaj C37_ex) (idx_blocks [2; 1]) /\
  idx_nnz C37_ex [2; 1] = [0; 4; 5] /\
  extract_blocks Python C37_ex [2; 1] = Ok [C37_B1; C37_B2] /\
  extract_blocks Numba C37_ex [2; 1] = Ok [C37_B1; C37_B2] /\
  block_diag 0%Z [C37_B1; C37_B2] = to_dense C37_ex.
Proof.
  split; [reflexivity|]. split; [reflexivity|]. split; [repeat constructor|].
  vm_compute. repeat split; reflexivity.
Qed.

Example C37_nonvacuous_permuted_inverse :
  let A := [[0; 0; 3]; [0; 5; 0]; [7; 0; 1]]%Z in
  let A1 := [[0; 0; 1]; [0; 1; 0]; [1; 2; 0]]%Z in
  let rp := [0; 2; 1] in let cp := [2; 1; 0] in
  is_permb 3 rp = true /\ is_permb 3 cp = true /\
  to_block_form 0%Z 3 A1 rp cp = [[1; 0; 0]; [0; 2; 1]; [0; 1; 0]]%Z /\
  mat_mul 0%Z Z.add Z.mul 3 (to_block_form 0%Z 3 A1 rp cp) [[1; 0; 0]; [0; 0; 1]; [0; 1; -2]]%Z
    = identity 0%Z 1%Z 3 /\
  mat_mul 0%Z Z.add Z.mul 3 A1 (from_block_form 0%Z 3 [[1; 0; 0]; [0; 0; 1]; [0; 1; -2]]%Z rp cp)
    = identity 0%Z 1%Z 3.
Proof. vm_compute. repeat split; reflexivity. Qed.
