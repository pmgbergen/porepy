(* C07 — property theorems only.  Models: PP.Model.C07 (Schur bookkeeping, permutation cache)
   on PP.Model.C06 (equations, assemble) and PP.Model.C05 (dof layout); proofs: PP.Proofs.C07.

   Vocabulary:
     cgroup T            a commutative group structure on T (vectors under addition)
     block_system, reduced_system, expand
                         the 2x2 block system, the Schur complement system
                         (A_pp - A_ps inv A_sp) x_p = b_p - A_ps inv b_s and
                         x_s = inv (b_s - A_sp x_p), exactly the formulas of
                         assemble_schur_complement_system / expand_schur_complement_solution
     prim_rows es a      rows of the full system (C06) in the primary block = C06's rows_spec
     sec_rows es a       rows in the secondary block, in the order the code stacks them:
                         excluded rows of the primary equations, then the other equations
     excl_spec es a      what _gridbased_equation_complement must return
     proj_cols s ids     columns of projection_to(ids) (C05)
     inverter_run        the permutation cache of default_schur_complement_inverter over a
                         sequence of secondary blocks (sparsity patterns) *)
From Coq Require Import List ZArith Arith Lia Sorted Permutation.
Import ListNotations.
From PP Require Import Model.C05 Proofs.C05 Model.C06 Proofs.C06 Model.C07 Proofs.C07
     Proofs.C07_blocks.

(* (1) Block elimination.  For additive blocks over commutative groups and a two-sided
   inverse [inv] of A_ss:  (x_p, x_s) solves the block system  iff  x_p solves the reduced
   system and x_s is the expansion of x_p.  In particular the expanded solution of the
   reduced system solves the block system, and every solution arises this way. *)
Theorem C07_schur :
  forall (P S : Type) (GP : cgroup P) (GS : cgroup S)
         (App : P -> P) (Aps : S -> P) (Asp : P -> S) (Ass : S -> S) (inv : S -> S),
  (forall a b, Aps (gadd GS a b) = gadd GP (Aps a) (Aps b)) ->
  (forall a b, Ass (gadd GS a b) = gadd GS (Ass a) (Ass b)) ->
  (forall y, inv (Ass y) = y) -> (forall y, Ass (inv y) = y) ->
  forall (bp : P) (bs : S) (xp : P) (xs : S),
  block_system GP GS App Aps Asp Ass bp bs xp xs <->
  reduced_system GP App Aps Asp inv bp bs xp /\ xs = expand GS Asp inv bs xp.
Proof. exact @schur_equivalence. Qed.
Print Assumptions C07_schur.

(* (2a) Rows, after ANY history of set/remove/assemble calls and for ANY primary-equation
   argument: primary rows ++ secondary rows contain every row of the full system exactly
   once (no row lost or duplicated by a grid restriction).
   This statement is about the specification-level row lists prim_rows / sec_rows; that the
   two loops of assemble_schur_complement_system (model: schur_blocks) stack exactly these
   rows is theorem C07_blocks below (hence _partial in the name: taken alone this theorem
   does not speak of the loops). *)
Theorem C07_rows_partial :
  forall (V : Type) (vzero : V) (vopp : V -> V) (eval : nat -> list (@prow V)) g s ops a,
  let es := efinal vzero vopp eval g s ops in
  Permutation (prim_rows es a ++ sec_rows es a)
              (seq 0 (length (flat_map (fun kv => seq 0 (esize es (fst kv))) (equations es)))).
Proof. intros. apply split_rows_permutation, efinal_EInv. Qed.
Print Assumptions C07_rows_partial.

(* (2a, closed) What assemble_schur_complement_system builds, after ANY history: if the
   operators have the declared sizes, the primary-equation argument is accepted, no
   restricted primary equation lives on no grid, the projections exist and are non-empty,
   there is at least one block for the secondary list and the secondary block is square,
   then the model of the code succeeds and A_pp, A_ps, A_sp, A_ss, b_p, b_s are exactly the
   rows prim_rows / sec_rows of the full system (all equations stacked in insertion order,
   negated right-hand side), cut to the primary / secondary columns.
     selA .. rows = the Jacobian rows [rows] of the full system over all dofs,
     selb .. rows = the (negated) residual entries [rows] of the full system. *)
Theorem C07_blocks :
  forall (V : Type) (vzero : V) (vopp : V -> V) (eval : nat -> list (@prow V))
         g s ops pe pv allcols nall colsp colss,
  let es := efinal vzero vopp eval g s ops in
  sized eval es -> arg_ok es pe = true -> restricted_nonempty es pe ->
  projection_to s (asm_vars s None) = OProjM allcols nall ->
  proj_cols s (parse s pv) = inl colsp ->
  proj_cols s (filter (fun id => negb (memb id (parse s pv))) (map vid (vars s))) = inl colss ->
  blocks_spec es pe <> [] -> colsp <> [] -> colss <> [] ->
  nres pe (equations es) + nsecq pe (equations es) <> 0 ->
  length (sec_rows es pe) = length colss ->
  let AP := selA vzero eval allcols es (prim_rows es pe) in
  let AS := selA vzero eval allcols es (sec_rows es pe) in
  schur_blocks vzero vopp eval s es pe pv =
  SOk (map (cut vzero colsp) AP) (map (cut vzero colss) AP)
      (map (cut vzero colsp) AS) (map (cut vzero colss) AS)
      (selb vzero vopp eval es (prim_rows es pe)) (selb vzero vopp eval es (sec_rows es pe))
      colsp colss.
Proof. intros. apply schur_blocks_spec with (nall := nall); auto. apply efinal_EInv. Qed.
Print Assumptions C07_blocks.

(* (2a') _gridbased_equation_complement: for every restricted primary equation exactly the
   rows of the equation that were not kept (unrestricted ones: None), provided no restricted
   primary equation is defined on no grid at all (then the code raises ValueError). *)
Theorem C07_complement :
  forall (V : Type) (vzero : V) (vopp : V -> V) (eval : nat -> list (@prow V)) g s ops a,
  let es := efinal vzero vopp eval g s ops in
  restricted_nonempty es a ->
  complement es (blocks_spec es a) = inl (excl_spec es a).
Proof. intros until es. apply complement_spec, efinal_EInv. Qed.
Print Assumptions C07_complement.

(* (2b) Columns, after ANY history of variable operations: for a duplicate-free list of
   registered primary variables, the primary and the secondary projection exist and their
   columns together are every dof index exactly once. *)
Theorem C07_cols :
  forall g vops P, Forall (wf_op g) vops ->
  let s := final g vops in
  NoDup P -> (forall id, In id P -> In id (block_ids s)) ->
  let Sv := filter (fun id => negb (memb id P)) (map vid (vars s)) in
  exists cp cs, proj_cols s P = inl cp /\ proj_cols s Sv = inl cs /\
                Permutation (cp ++ cs) (seq 0 (num_dofs s)).
Proof. intros g vops P Hw s. apply (split_cols_permutation g), final_Inv, Hw. Qed.
Print Assumptions C07_cols.

(* (2c) Hence: if the rows and the columns of the blocks are such permutations and a vector
   satisfies every row of the block system (term i c = A[i,c] * X[c] over any commutative
   monoid), it satisfies every row of the ORIGINAL system. *)
Theorem C07_original :
  forall (T : Type) (tadd : T -> T -> T) (tzero : T),
  (forall a b c, tadd a (tadd b c) = tadd (tadd a b) c) ->
  (forall a b, tadd a b = tadd b a) -> (forall a, tadd tzero a = a) ->
  forall (term : nat -> nat -> T) (b : nat -> T) rows_p rows_s cols_p cols_s n N,
  Permutation (rows_p ++ rows_s) (seq 0 n) ->
  Permutation (cols_p ++ cols_s) (seq 0 N) ->
  (forall i, In i (rows_p ++ rows_s) ->
     tadd (tsum T tadd tzero (term i) cols_p) (tsum T tadd tzero (term i) cols_s) = b i) ->
  forall i, i < n -> tsum T tadd tzero (term i) (seq 0 N) = b i.
Proof. exact original_system_solved. Qed.
Print Assumptions C07_original.

(* (3) The algebra of invert_permuted_block_diag_matrix: if P A Q = B, P has a left inverse,
   Q a right inverse and Binv is a two-sided inverse of B, then Q Binv P is a two-sided
   inverse of A. *)
Theorem C07_perm_inverse :
  forall (X Y : Type) (A : X -> Y) (Pm : Y -> Y) (Qm : X -> X) (B : X -> Y) (Binv : Y -> X)
         (Pinv : Y -> Y) (Qinv : X -> X),
  (forall x, Pm (A (Qm x)) = B x) ->
  (forall y, Pinv (Pm y) = y) -> (forall x, Qm (Qinv x) = x) ->
  (forall y, B (Binv y) = y) -> (forall x, Binv (B x) = x) ->
  (forall y, A (Qm (Binv (Pm y))) = y) /\ (forall x, Qm (Binv (Pm (A x))) = x).
Proof. exact @permuted_inverse. Qed.
Print Assumptions C07_perm_inverse.

(* (4) The permutation cache of the default inverter (repaired code): over ANY sequence of
   secondary blocks on one EquationSystem, the permutation handed to the block inverter is
   the one generated from the CURRENT block's sparsity pattern. *)
Theorem C07_cache :
  forall (Pat Perm : Type) (pat_eqb : Pat -> Pat -> bool) (genperm : Pat -> Perm),
  (forall a b, pat_eqb a b = true -> a = b) ->
  forall ps, snd (inverter_run Pat Perm pat_eqb genperm None ps) = map genperm ps.
Proof.
  intros Pat Perm pat_eqb genperm H ps. now apply (cache_always_current Pat Perm pat_eqb genperm H).
Qed.
Print Assumptions C07_cache.

(* Non-vacuity: two subdomains, one interface, 5 dofs; equation 4 on both subdomains (3 rows),
   equation 0 on the interface (2 rows); primary block = equation 4 restricted to the second
   subdomain with the variable on that subdomain. *)
Definition ex7_g : mdgrid := {| sds := [(2, 7, 6); (1, 2, 2)]; intfs := [2] |}.
Definition ex7_vops : list op :=
  [ OpCreate 0 None false (Some [0; 1]) None; OpCreate 1 None false None (Some [0]) ].
Definition ex7_eval (o : nat) : list (@prow Z) :=
  match o with
  | 0 => [([9; 1; 0; 0; 2], 10); ([1; 9; 0; 0; 0], 11); ([0; 0; 8; 1; 0], 12)]%Z
  | 1 => [([1; 0; 0; 7; 0], 20); ([0; 0; 1; 0; 8], 21)]%Z
  | _ => []
  end.
Definition ex7_ops : list eop :=
  [ ESet 4 0 [Sd 1; Sd 0] (1, 0, 0); ESet 0 1 [Intf 0] (1, 0, 0) ].
Definition ex7_arg : eqarg := EDict [(4, [Sd 1])].

Example C07_nonvacuous :
  let s := final ex7_g ex7_vops in
  let es := efinal 0%Z Z.opp ex7_eval ex7_g s ex7_ops in
  Forall (wf_op ex7_g) ex7_vops /\ restricted_nonempty es ex7_arg /\
  sized ex7_eval es /\ arg_ok es ex7_arg = true /\
  projection_to s (asm_vars s None) = OProjM [0; 1; 2; 3; 4] 5 /\
  nres ex7_arg (equations es) + nsecq ex7_arg (equations es) = 2 /\
  prim_rows es ex7_arg = [2] /\ sec_rows es ex7_arg = [0; 1; 3; 4] /\
  complement es (blocks_spec es ex7_arg) = inl [(4, Some [0; 1])] /\
  schur_blocks 0%Z Z.opp ex7_eval s es ex7_arg (Some [ById 1]) =
    SOk [[8]]%Z [[0; 0; 1; 0]]%Z [[0]; [0]; [0]; [1]]%Z
        [[9; 1; 0; 2]; [1; 9; 0; 0]; [1; 0; 7; 0]; [0; 0; 0; 8]]%Z
        [-12]%Z [-10; -11; -20; -21]%Z [2] [0; 1; 3; 4] /\
  schur_blocks 0%Z Z.opp ex7_eval s es (EList [IName 0; IName 4]) (Some [ByName 0]) =
    SErr ValueErr /\
  snd (inverter_run (list Z) (list Z) pat_eqbZ (fun p => p) None [[1]; [2]; [2]; [1]]%Z)
    = [[1]; [2]; [2]; [1]]%Z.
Proof.
  split; [|split; [|split]].
  - unfold ex7_vops, wf_op, grids_ok. repeat constructor; cbn; lia.
  - intros name gs Hn Hk. vm_compute in Hn.
    destruct Hn as [E|[E|[]]]; subst name; vm_compute; discriminate.
  - intros name o H. vm_compute in H.
    repeat (destruct H as [H|H]; [inversion H; subst; vm_compute; reflexivity|]).
    destruct H.
  - vm_compute. repeat split; reflexivity.
Qed.
