(* C39 — property theorems only.  Model: PP.Model.C39 (transcription of bc.py after the
   repair commit); proofs: PP.Proofs.C39.
   [Inv g cs]: in EVERY component of the object, every boundary face of the grid (tagged
   domain boundary, fracture or tip) carries exactly one of Dirichlet / Neumann / Robin and
   every other face carries none; the flag arrays have one entry per face. *)
From Coq Require Import List Bool Arith Lia.
Import ListNotations.
From PP Require Import Model.C39 Proofs.C39.

Definition ex_g0 : grid := [mkT true false false; mkT true false false; mkT false true false].

(* Both constructors: any grid, scalar or vectorial class, any dimension, faces given as an
   index array or a boolean mask (repeated faces allowed), condition given as one string or
   a list — whenever the constructor does not raise, the object satisfies the partition
   (per component) and has the right number of components. *)
Theorem C39_partition_constructor :
  forall g vect dim fs cd o x,
    construct assign g vect dim fs cd = (Some o, x) ->
    Inv g (comps o) /\ vectorial o = vect /\ length (comps o) = (if vect then dim else 1).
Proof. exact constructor_partition. Qed.
Print Assumptions C39_partition_constructor.

(* Boundary faces the constructor call does not name are Neumann (in every component). *)
Theorem C39_default_neumann :
  forall g vect dim fs cd o x,
    construct assign g vect dim fs cd = (Some o, x) ->
    forall c f, In c (comps o) -> is_bf g f = true -> ~ In f (named fs) ->
                flags c f = (false, true, false).
Proof. exact default_neumann. Qed.
Print Assumptions C39_default_neumann.

(* ANY later history of set_bc calls (index/mask, string/list, successful or raising — a
   call that raises midway keeps its partial assignments), internal_to_dirichlet calls and
   manual per-component assignments on boundary faces: the partition holds after every
   single call. *)
Theorem C39_partition_history :
  forall g ps o,
    Forall (op_ok g) ps -> Inv g (comps o) ->
    Forall (fun ox => Inv g (comps (fst ox))) (run assign g o ps).
Proof. exact history_partition. Qed.
Print Assumptions C39_partition_history.

(* A successful uniform assignment (constructor or set_bc with one condition string) gives
   exactly the named faces the requested type, in every component, and changes no flag of
   any other face. *)
Theorem C39_assignment_exact :
  forall g w cs fs c0 t cs' x,
    parse c0 = Some t -> Forall (lens g) cs ->
    set_faces assign w g cs (Some fs) (Some (COne c0)) = (cs', Done x) ->
    exists F, cs' = map F cs /\
              (forall c f, In c cs -> In f (named (Some fs)) -> flags (F c) f = triple t) /\
              (forall c f, ~ In f (named (Some fs)) -> flags (F c) f = flags c f).
Proof.
  intros g w cs fs c0 t cs' x Hp Hl Hs. rewrite Forall_forall in Hl.
  destruct (set_faces_done g w cs fs (COne c0) cs' x Hs) as [Hlt [_ ->]].
  rewrite (parsed_repeat _ _ _ Hp). eexists. split; [reflexivity|]. split.
  - intros c f Hc. apply (assigns_uniform g); auto.
  - intros c f. apply assigns_notin.
Qed.
Print Assumptions C39_assignment_exact.

(* List conditions with repeated faces (constructor or set_bc): a successful call gives every
   named face the type of the LAST condition listed for it, in every component, and changes
   no flag of any other face; every listed keyword was one of dir / neu / rob. *)
Theorem C39_assignment_list_last_wins :
  forall g w cs fs cl cs' x,
    Forall (lens g) cs ->
    set_faces assign w g cs (Some fs) (Some (CList cl)) = (cs', Done x) ->
    exists ts, Forall2 (fun c t => parse c = Some t) cl ts /\
    exists F, cs' = map F cs /\
              forall c f, In c cs ->
                flags (F c) f = match last_ty (named (Some fs)) ts f with
                                | Some t => triple t
                                | None => flags c f
                                end.
Proof.
  intros g w cs fs cl cs' x Hl Hs. rewrite Forall_forall in Hl.
  destruct (set_faces_done g w cs fs (CList cl) cs' x Hs) as [Hlt [HF ->]].
  eexists. split; [exact HF|]. eexists. split; [reflexivity|].
  intros c f Hc. apply (assigns_flags g); auto.
Qed.
Print Assumptions C39_assignment_list_last_wins.

Example C39_nonvacuous_list :
  set_faces assign false ex_g0 [init_comp ex_g0]
            (Some (FIdx [2; 0; 2; 1])) (Some (CList [CDir; CRob; CNeu; CDir]))
  = ([mkC [false; true; false] [false; false; true] [true; false; false]], Done false) /\
  last_ty [2; 0; 2; 1] [Dir; Rob; Neu; Dir] 2 = Some Neu.
Proof. split; vm_compute; reflexivity. Qed.

(* The pre-fix assignment (vectorial 'dir' keeps is_rob, 'neu' is a no-op) violates the
   partition: BoundaryConditionVectorial(g, all faces, 'rob'); set_bc([0,1], 'dir'). *)
Theorem C39_prefix_variant_refuted :
  exists g fs1 fs2 o,
    fst (construct (assign_prefix true) g true 2 (Some fs1) (Some (COne CRob))) = Some o /\
    ~ Inv g (comps (fst (step (assign_prefix true) g o (OpSet (Some fs2) (Some (COne CDir)))))).
Proof.
  (* CartGrid([1,1]): four boundary faces *)
  exists (repeat (mkT true false false) 4), (FIdx [0; 1; 2; 3]), (FIdx [0; 1]). eexists.
  split; [vm_compute; reflexivity|]. intros H. cbn in H.
  inversion H as [|c r [_ Hw] _]; subst. destruct (Hw 0) as [H1 _].
  specialize (H1 eq_refl). vm_compute in H1. discriminate.
Qed.
Print Assumptions C39_prefix_variant_refuted.

(* ---------------- non-vacuity ---------------- *)
(* a split grid: faces 0,1 domain boundary, 2 fracture, 3 interior, 4 tip *)
Definition ex_g : grid :=
  [mkT true false false; mkT true false false; mkT false true false; mkT false false false;
   mkT false false true].

Example C39_nonvacuous :
  exists o,
    construct assign ex_g true 2 (Some (FMask [true; false; true; false; false])) (Some (COne CRob))
    = (Some o, Done false) /\
    Forall (op_ok ex_g) [OpSet (Some (FIdx [2; 0; 2])) (Some (CList [CDir; CDir; CNeu]));
                         OpInternal; OpUser 1 4 Rob; OpSet (Some (FIdx [3])) (Some (COne CDir))] /\
    map (fun ox => (map (fun c => (c_dir c, c_neu c, c_rob c)) (comps (fst ox)), snd ox))
        (run assign ex_g o [OpSet (Some (FIdx [2; 0; 2])) (Some (CList [CDir; CDir; CNeu]));
                            OpInternal; OpUser 1 4 Rob; OpSet (Some (FIdx [3])) (Some (COne CDir))])
    = [ ([([true; false; false; false; false], [false; true; true; false; true], [false; false; false; false; false]);
          ([true; false; false; false; false], [false; true; true; false; true], [false; false; false; false; false])],
         Done false);
        ([([true; false; true; false; false], [false; true; false; false; true], [false; false; false; false; false]);
          ([true; false; true; false; false], [false; true; false; false; true], [false; false; false; false; false])],
         Done false);
        ([([true; false; true; false; false], [false; true; false; false; true], [false; false; false; false; false]);
          ([true; false; true; false; false], [false; true; false; false; false], [false; false; false; false; true])],
         Done false);
        ([([true; false; true; false; false], [false; true; false; false; true], [false; false; false; false; false]);
          ([true; false; true; false; false], [false; true; false; false; false], [false; false; false; false; true])],
         Fail false ValueErr) ].
Proof.
  eexists. split; [vm_compute; reflexivity|]. split; [|vm_compute; reflexivity].
  repeat constructor.
Qed.
