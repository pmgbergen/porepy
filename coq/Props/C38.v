(* C38 — property theorems only.  Model: PP.Model.C38 (transcription of the exporter's
   cell-id bookkeeping, _write, import_state_from_vtu as repaired, the restart step of
   import_from_pvd as repaired, write/load_time_information,
   set_time_and_dt_from_exported_steps); proofs: PP.Proofs.C38.
   A grid is the list of its cells' types; [total grids] is the number of cells of all
   grids of the dimension. *)
From Coq Require Import List ZArith Bool Arith Lia Permutation Sorted.
Import ListNotations.
From PP Require Import Model.C38 Proofs.C38.

(* For ANY assignment of cell types to cells and ANY number / order of grids: the per-type
   cell-id lists, concatenated in block order, are a permutation of 0..N-1. *)
Theorem C38_cell_ids_permutation :
  forall grids : list (list Z),
    Permutation (concat (cell_ids grids)) (seq 0 (total grids)).
Proof. exact cell_ids_perm. Qed.
Print Assumptions C38_cell_ids_permutation.

(* Export then import of one field on one dimension returns every entity's array exactly:
   any value type (scalars, vector tuples), any grids, any split of the N cells among the
   entities (subdomains, or interfaces whose side grids are the grids), any content of the
   uninitialised buffer the importer scatters into. *)
Theorem C38_roundtrip :
  forall (A : Type) (d : A) (garbage : list A) (grids : list (list Z))
         (per_entity : list (list A)),
    length (concat per_entity) = total grids ->
    length garbage = total grids ->
    roundtrip A d garbage grids per_entity = per_entity.
Proof.
  intros A d garbage grids per_entity Hn Hg.
  apply roundtrip_ids_id; rewrite Hn; [apply cell_ids_perm | exact Hg].
Qed.
Print Assumptions C38_roundtrip.

(* 3-D grids exported as polyhedral blocks (as repaired in /repo d6f81ecfd): the blocks are
   written in non-decreasing order of the nodes per cell (what meshio's reader assumes), the
   ids are still a permutation, and the round trip is the identity. *)
Theorem C38_poly3d_blocks_sorted :
  forall grids : list (list Z),
    StronglySorted Z.le (map fst (sort_blocks (cell_blocks [] grids 0))) /\
    Permutation (concat (cell_ids_3d grids)) (seq 0 (total grids)).
Proof. split; [apply sort_blocks_sorted | apply cell_ids_3d_perm]. Qed.
Print Assumptions C38_poly3d_blocks_sorted.

Theorem C38_roundtrip_poly3d :
  forall (A : Type) (d : A) (garbage : list A) (grids : list (list Z))
         (per_entity : list (list A)),
    length (concat per_entity) = total grids ->
    length garbage = total grids ->
    roundtrip_3d A d garbage grids per_entity = per_entity.
Proof.
  intros A d garbage grids per_entity Hn Hg.
  apply roundtrip_ids_id; rewrite Hn; [apply cell_ids_3d_perm | exact Hg].
Qed.
Print Assumptions C38_roundtrip_poly3d.

(* The restart entry read from a pvd file is the one with the numerically largest timestep
   attribute (whatever was passed as write_pvd(times=...): physical times; by default the
   step indices), the files imported are exactly the files LISTED with that timestep, and
   the time index returned is the largest numeric suffix among them. *)
Theorem C38_pvd_latest :
  forall (F : Type) (suffix : F -> Z) (entries : list (Z * F)),
    entries <> [] ->
    exists m,
      restart_files suffix entries
      = Some (max_suffix suffix (map snd (filter (fun e => Z.eqb (fst e) m) entries)),
              map snd (filter (fun e => Z.eqb (fst e) m) entries)) /\
      In m (map fst entries) /\ Forall (fun e => (fst e <= m)%Z) entries.
Proof. exact @restart_latest. Qed.
Print Assumptions C38_pvd_latest.

(* Whenever the most recent export was written at a time larger than all earlier ones, the
   files imported are exactly the files of that most recent export and the index returned
   is its time-step index (the files' suffix) — for ANY times (non-integer, larger than the
   number of steps, equal to another step's index). *)
Theorem C38_pvd_most_recent :
  forall (F : Type) (suffix : F -> Z) (older : list (Z * F)) (t : Z) (f : F) (last : list F),
    Forall (fun e => (fst e < t)%Z) older ->
    restart_files suffix (older ++ map (fun g => (t, g)) (f :: last))
    = Some (max_suffix suffix (f :: last), f :: last).
Proof. exact @restart_most_recent. Qed.
Print Assumptions C38_pvd_most_recent.

(* ... and when these files all carry the time-step index k, the index returned is k. *)
Theorem C38_pvd_index :
  forall (F : Type) (suffix : F -> Z) (k : Z) (f : F) (r : list F),
    suffix f = k -> Forall (fun g => suffix g = k) r -> max_suffix suffix (f :: r) = k.
Proof.
  intros F suffix k f r Hf Hr. cbn [max_suffix].
  induction Hr as [|g r Hg Hr IH]; [exact Hf|]. cbn [fold_right]. rewrite IH, Hg. apply Z.max_id.
Qed.
Print Assumptions C38_pvd_index.

(* Time information: after ANY non-empty sequence of (time, dt) writes by a time manager
   with an empty history, the file on disk loaded by any other time manager gives back the
   whole history (json.dump / json.load enter as print / parse with parse (print v) = v). *)
Theorem C38_time_roundtrip :
  forall (V T : Type) (print : V -> T) (parse : T -> V),
    (forall v, parse (print v) = v) ->
    forall (steps : list (V * V)) (s0 s1 : tm V),
      steps <> [] -> exported_times s0 = [] -> exported_dt s0 = [] ->
      exists file,
        snd (run_writes V T print s0 steps) = Some file /\
        exported_times (load_time V T parse s1 file) = map fst steps /\
        exported_dt (load_time V T parse s1 file) = map snd steps.
Proof. exact time_roundtrip. Qed.
Print Assumptions C38_time_roundtrip.

(* Restoring at index i (python indexing, -1 = the most recent entry): time and dt are the
   i-th exported pair, the histories are cut before it. *)
Theorem C38_time_restore :
  forall (V : Type) (v0 : V) (s : tm V) (i : Z),
    length (exported_times s) = length (exported_dt s) ->
    (- Z.of_nat (length (exported_times s)) <= i < Z.of_nat (length (exported_times s)))%Z ->
    let k := if (0 <=? i)%Z then Z.to_nat i
             else Z.to_nat (Z.of_nat (length (exported_times s)) + i) in
    exists s',
      set_from_exported V v0 s i = Some s' /\
      time s' = nth k (exported_times s) v0 /\ dt s' = nth k (exported_dt s) v0 /\
      exported_times s' = firstn k (exported_times s) /\
      exported_dt s' = firstn k (exported_dt s).
Proof. exact time_restore. Qed.
Print Assumptions C38_time_restore.

(* ---- non-vacuity and the regression witness ------------------------------------------ *)
(* three 2-D subdomains with triangle, quad, triangle cells (the witness of the defect
   repaired in /repo 7fbb4e335): cell ids, the round trip, and what the importer returned
   before the repair (the data of the 2nd and 3rd grid swapped). *)
Example C38_nonvacuous :
  let grids := [[3; 3]; [4; 4]; [3; 3]]%Z in
  let data := [[10; 11]; [20; 21]; [30; 31]]%Z in
  cell_ids grids = [[0; 1; 4; 5]; [2; 3]] /\
  length (concat data) = total grids /\
  roundtrip Z 0%Z (repeat 7%Z 6) grids data = data /\
  import_blocks_unrepaired Z (map (@length Z) data)
    (export_blocks Z 0%Z (cell_ids grids) (concat data)) = [[10; 11]; [30; 31]; [20; 21]]%Z.
Proof. repeat split; vm_compute; reflexivity. Qed.

(* one grid mixing a triangle between two quads and a pentagon *)
Example C38_nonvacuous_mixed_grid :
  cell_ids [[4; 3; 5; 4]; [3]]%Z = [[1; 4]; [0; 3]; [2]] /\
  (* hex, tet, hex in 3-D: first-seen order would be (8-node, 4-node) *)
  cell_ids_3d [[8; 8]; [4; 4; 4]; [8]]%Z = [[2; 3; 4]; [0; 1; 5]] /\
  restart_files (fun f : Z => f) [(8, 8); (9, 9); (10, 10); (10, 10)]%Z = Some (10, [10; 10])%Z /\
  (* steps 0..3 written at times 0, 0.5, 1.0, 1.5 (unit 1/2): the files of step 3, index 3 *)
  restart_files (fun f : Z => f) [(0, 0); (1, 1); (2, 2); (3, 3)]%Z = Some (3, [3])%Z.
Proof. repeat split; vm_compute; reflexivity. Qed.
