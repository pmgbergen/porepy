(* C08 — property theorems only.  Model: PP.Model.C08 (transcription of
   set/get/shift_solution_values); proofs: PP.Proofs.C08. *)
From Coq Require Import List ZArith Arith Lia.
Import ListNotations.
From PP Require Import Model.C08 Proofs.C08 Proofs.C08_var.

(* For every value type, every depth d >= 1 and EVERY history of overwrites / additive
   writes at index 0, reads at any index and shifts with maximum depth d, starting from
   an empty data dictionary: index i < d holds the i-th entry of the history view
   (current value, then the value index 0 held at each earlier shift, most recent
   first), indices >= d hold nothing, and every call answers as the window says
   (reads return the stored value or KeyError, an additive write to an empty slot is
   rejected with ValueError, nothing else raises). *)
Theorem C08_window :
  forall (V : Type) (vadd : V -> V -> V) (d : nat) (ops : list (@op V)) (s0 : @st V),
    1 <= d -> Forall (disciplined V d) ops ->
    (s0 = None \/ s0 = Some []) ->   (* fresh data dictionary, or the empty per-name
                                        dictionary that create_variables pre-creates *)
    let h := hrun V vadd [] ops in
    (forall i, i < d ->
       match fst (run vadd s0 ops) with
       | None => h = []
       | Some dct => lookup dct i = nth_error h i
       end) /\
    (forall i, d <= i ->
       match fst (run vadd s0 ops) with
       | None => True | Some dct => lookup dct i = None end) /\
    snd (run vadd s0 ops) = houts V vadd d [] ops.
Proof.
  intros V vadd d ops s0 Hd Hall Hs0 h.
  assert (Hvar : Forall (disciplined_var V) ops).
  { eapply Forall_impl; [|exact Hall]. intros o Ho. apply (disciplined_var_of V d o Ho). }
  destruct (run_refines_var V vadd ops s0 [] (Rw_fresh V s0 Hs0) Hvar) as [HR Hout].
  destruct (window_of_history V vadd d Hd ops [] Hall) as [Hw Ho]. rewrite firstn_nil in Hw, Ho.
  rewrite Hw in HR. fold h in HR. rewrite Ho in Hout. split; [|split; [|exact Hout]].
  - intros i Hi. destruct (fst (run vadd s0 ops)) as [dct|]; cbn [Rw] in HR.
    + rewrite HR, nth_error_firstn_if, (proj2 (Nat.ltb_lt i d) Hi). reflexivity.
    + apply (firstn_eq_nil V d h Hd HR).
  - intros i Hi. destruct (fst (run vadd s0 ops)) as [dct|]; [|exact I]. cbn [Rw] in HR.
    rewrite HR, nth_error_firstn_if, (proj2 (Nat.ltb_ge i d) Hi). reflexivity.
Qed.
Print Assumptions C08_window.

(* Reads never modify the store (any state, any index). *)
Theorem C08_reads_pure :
  forall (V : Type) (vadd : V -> V -> V) (s : @st V) (i : Z), fst (step vadd s (OpGet i)) = s.
Proof. exact get_pure. Qed.
Print Assumptions C08_reads_pure.

(* Additive writes to an empty slot are rejected and leave every stored value as it was
   (any state, any index). *)
Theorem C08_add_empty_rejected :
  forall (V : Type) (vadd : V -> V -> V) (s : @st V) (i : Z) (v : V),
    (0 <= i)%Z ->
    (match s with None => True | Some d => lookup d (Z.to_nat i) = None end) ->
    snd (step vadd s (OpAdd i v)) = OErr ValueErr /\
    forall j, (match fst (step vadd s (OpAdd i v)) with
               | Some d' => lookup d' j | None => None end)
              = (match s with Some d => lookup d j | None => None end).
Proof.
  intros V vadd s i v Hi Hs. cbn [step]. destruct (Z.ltb_spec i 0); [lia|].
  destruct s as [d|].
  - rewrite Hs. split; reflexivity.
  - rewrite lookup_nil. split; [reflexivity|]. intros j. apply lookup_nil.
Qed.
Print Assumptions C08_add_empty_rejected.

(* An overwrite at any index changes exactly that index (any state). *)
Theorem C08_set_is_map_update :
  forall (V : Type) (vadd : V -> V -> V) (s : @st V) (i : Z) (v : V) (j : nat),
    (0 <= i)%Z ->
    match fst (step vadd s (OpSet i v)) with
    | Some d' => lookup d' j = if Nat.eqb (Z.to_nat i) j then Some v
                               else match s with Some d => lookup d j | None => None end
    | None => False
    end.
Proof. exact set_is_map_update. Qed.
Print Assumptions C08_set_is_map_update.

(* DEPTH CHANGES.  For EVERY history of writes at index 0, reads anywhere and shifts whose
   maximum depth is arbitrary and may change from call to call (any max_index >= 0,
   including 0 and 1 which move nothing, or None which moves everything): the slot stays a
   contiguous dictionary (keys 0..n-1, no holes), its contents are exactly the abstract
   window [wrun] (shift = wshift: new[i] = old[i-1] for 1 <= i <= min(depth-1, n)), and
   every call answers as that window says. *)
Theorem C08_contiguous_any_depths :
  forall (V : Type) (vadd : V -> V -> V) (ops : list (@op V)) (s0 : @st V),
    Forall (disciplined_var V) ops -> (s0 = None \/ s0 = Some []) ->
    (match fst (run vadd s0 ops) with
     | None => wrun V vadd [] ops = []
     | Some dct => (forall i, lookup dct i = nth_error (wrun V vadd [] ops) i) /\
                   num_stored dct = length (wrun V vadd [] ops)
     end) /\
    snd (run vadd s0 ops) = wouts V vadd [] ops.
Proof.
  intros V vadd ops s0 Hall Hs0.
  destruct (run_refines_var V vadd ops s0 [] (Rw_fresh V s0 Hs0) Hall) as [HR Hout].
  split; [|exact Hout].
  destruct (fst (run vadd s0 ops)) as [dct|]; [|exact HR].
  split; [exact HR|]. apply num_stored_of_lookup, HR.
Qed.
Print Assumptions C08_contiguous_any_depths.

(* ... and as long as every shift in the history uses a depth of at least d (a different
   one each time, or None), every index below d holds the i-th most recent value written
   at index 0 (the i-th entry of the history view of C08_window). *)
Theorem C08_window_varying_depths :
  forall (V : Type) (vadd : V -> V -> V) (d : nat) (ops : list (@op V)) (s0 : @st V),
    1 <= d -> Forall (disciplined_var V) ops -> Forall (deep_enough V d) ops ->
    (s0 = None \/ s0 = Some []) ->
    forall i, i < d ->
      match fst (run vadd s0 ops) with
      | None => hrun V vadd [] ops = []
      | Some dct => lookup dct i = nth_error (hrun V vadd [] ops) i
      end.
Proof.
  intros V vadd d ops s0 Hd Hdis Hdeep Hs0 i Hi.
  destruct (run_refines_var V vadd ops s0 [] (Rw_fresh V s0 Hs0) Hdis) as [HR _].
  pose proof (fresh_run V vadd d Hd ops [] [] eq_refl Hdis Hdeep) as Hf.
  destruct (fst (run vadd s0 ops)) as [dct|]; cbn [Rw] in HR.
  - rewrite HR. apply (fresh_nth V d); assumption.
  - (* no dictionary was ever created: no write happened *)
    rewrite HR in Hf. unfold fresh in Hf. rewrite firstn_nil in Hf.
    apply (firstn_eq_nil V d); [exact Hd|symmetry; exact Hf].
Qed.
Print Assumptions C08_window_varying_depths.

(* A shift of depth m leaves every index >= m as it was once the window holds m values:
   the window is exactly as deep as the depth used, older entries are neither moved nor
   dropped. *)
Theorem C08_shift_leaves_deep_indices :
  forall (V : Type) (w : list V) (m i : nat),
    w <> [] -> m <= length w -> m <= i -> nth_error (wshift m w) i = nth_error w i.
Proof.
  intros V w m i _ Hlen Hmi. rewrite wshift_nth. unfold kdepth.
  destruct (Nat.ltb_spec (length w) m), (Nat.leb_spec 1 i), (Nat.leb_spec i (m - 1));
    try reflexivity; lia.
Qed.
Print Assumptions C08_shift_leaves_deep_indices.

(* Non-vacuity for changing depths: depth 3, then None, then 2, then 0; indices 0 and 1
   (below the smallest non-trivial depth, 2) hold the two most recent values, index 2
   is stale after the depth-2 shift. *)
Example C08_varying_nonvacuous :
  let ops := [OpSet 0 [1]; OpShift (Some 3); OpSet 0 [2]; OpShift None; OpSet 0 [3];
              OpShift (Some 2); OpSet 0 [4]; OpGet 2]%Z in
  Forall (disciplined_var (list Z)) ops /\ Forall (deep_enough (list Z) 2) ops /\
  wrun (list Z) vaddZ [] ops = [[4]; [3]; [1]]%Z /\
  hrun (list Z) vaddZ [] ops = [[4]; [3]; [2]; [1]]%Z /\
  snd (run vaddZ None ops) = [ODone; ODone; ODone; ODone; ODone; ODone; ODone; OVal [1]]%Z.
Proof.
  split; [|split; [|split; [|split]]]; try (vm_compute; reflexivity);
    repeat constructor; cbn; try reflexivity; try lia.
Qed.

(* Non-vacuity: a concrete disciplined history with depth 2 and what the window holds. *)
Example C08_nonvacuous :
  let ops := [OpSet 0 [1]; OpShift (Some 2); OpAdd 0 [5]; OpShift (Some 2); OpSet 0 [9];
              OpShift (Some 2); OpGet 1]%Z in
  Forall (disciplined (list Z) 2) ops /\
  hrun (list Z) vaddZ [] ops = [[9]; [9]; [6]; [1]]%Z /\
  snd (run vaddZ None ops) = [ODone; ODone; ODone; ODone; ODone; ODone; OVal [9]]%Z.
Proof.
  split; [|split; vm_compute; reflexivity].
  repeat constructor; cbn; try reflexivity; try lia.
Qed.
