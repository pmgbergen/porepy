(* C03 — property theorems only.  Model: PP.Model.C03 over the rule table PP.Model.C01;
   proofs: PP.Proofs.C03 (corollary of the C01 composition theorem). *)
From Coq Require Import Reals List Arith Lra.
From Coquelicot Require Import Coquelicot.
From PP Require Import Model.C01 Model.C01R Model.C03 Proofs.C01 Proofs.C01_fun
  Proofs.C01_comp Proofs.C03.
Import ListNotations.
Open Scope R_scope.

(* For EVERY system of equations whose trees are built from variables, constants (fixed
   discretisation matrices, parameter arrays, previous-time values) and the operators /
   functions of the verified rule table: at every state x where the row's tree is
   evaluated inside the smooth domain, and for every direction v, row r of the assembled
   Jacobian applied to v is the derivative of row r of the residual along v (matrices held
   fixed: they are constants of the tree). *)
Theorem C03_compose :
  forall (eqs : system (T:=R)) (x v : env (T:=R)) (r : nat) (e : expr R) (i : nat),
    locate eqs r = Some (e, i) -> smooth e x i ->
    is_derive (fun t => residual ROps eqs (shift x v t) r) 0
              (snd (assembled ROps eqs x v r)).
Proof.
  intros eqs x v r e i Hl Hs. rewrite assembled_locate, Hl.
  apply (is_derive_ext (fun t => eval_plain ROps e (shift x v t) i)).
  - intros t. now rewrite residual_locate, Hl.
  - now apply jacobian_thm.
Qed.
Print Assumptions C03_compose.

(* The residual assembled together with the Jacobian is the plain residual (any state). *)
Theorem C03_residual_value :
  forall (eqs : system (T:=R)) (x v : env (T:=R)) (r : nat),
    fst (assembled ROps eqs x v r) = residual ROps eqs x r.
Proof.
  intros eqs x v r. rewrite assembled_locate, residual_locate.
  destruct (locate eqs r) as [[e i]|]; [apply value_thm | reflexivity].
Qed.
Print Assumptions C03_residual_value.

(* Every row below the total row count belongs to exactly one equation entry. *)
Theorem C03_rows_located :
  forall (eqs : system (T:=R)) (r : nat),
    (r < fold_right (fun ne acc => fst ne + acc) 0 eqs)%nat ->
    exists e i, locate eqs r = Some (e, i).
Proof. exact locate_total. Qed.
Print Assumptions C03_rows_located.

(* Non-vacuity: two equations, (x0 * x1, 2 rows) and (exp(x0) / x1, 1 row); row 2 is the
   first row of the second equation and is smooth at x = 1. *)
Example C03_nonvacuous :
  let eqs := [(2%nat, Mul (Var 0) (Var 1)); (1%nat, Div (Fun Fexp (Var 0)) (Var 1))] in
  let x := (fun (k i : nat) => 1) : env (T:=R) in
  exists e i, locate eqs 2 = Some (e, i) /\ smooth e x i.
Proof.
  cbv zeta. eexists. eexists. split.
  - reflexivity.
  - simpl. repeat split; auto; try lra.
Qed.
