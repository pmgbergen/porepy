(* C21 — property theorems only.  Model: PP.Model.C21 (transcription of the connectivity
   queries of porepy/grids/grid.py on the stored entries (row, col, value) of cell_faces and
   face_nodes); proofs: PP.Proofs.C21.
   [wf nf nc cf]: indices in range, every face has one or two stored entries with values
   +1/-1 (opposite when two), one stored entry per (face, cell).
   [one_adjacent cf f]: face f has exactly one adjacent cell. *)
From Coq Require Import List ZArith Bool Arith Lia.
Import ListNotations.
From Coq Require Import Permutation.
From PP Require Import Lib.ListFacts Model.C21 Proofs.C21 Model.C21_ext Proofs.C21_ext.
Open Scope Z_scope.

(* The executable well-formedness check the tie evaluates on every real grid implies the
   hypothesis used below. *)
Theorem C21_wf_checker_sound :
  forall nf nc cf, wf_b nf nc cf = true -> wf nf nc cf.
Proof.
  intros nf nc cf H. unfold wf_b in H.
  apply andb_true_iff in H. destruct H as [H H3]. apply andb_true_iff in H. destruct H as [H1 H2].
  rewrite forallb_forall in H1, H2. split; [|split].
  - intros e He. specialize (H1 e He). rewrite !andb_true_iff in H1. lia.
  - intros f Hf. specialize (H2 (Z.to_nat f)). rewrite Z2Nat.id in H2 by lia.
    cbn zeta in H2. rewrite !orb_true_iff in H2.
    destruct H2 as [[[H2|H2]|H2]|H2]; [apply in_seq; lia|..]; apply eqb_lz_true in H2; auto.
  - apply nodup_keys_true, H3.
Qed.
Print Assumptions C21_wf_checker_sound.

(* cell_faces_as_dense: two rows of length num_faces; row 0 holds, per face, the cell with
   sign +1, row 1 the cell with sign -1, and -1 exactly where there is no such cell. *)
Theorem C21_dense :
  forall nf nc cf, wf nf nc cf ->
    length (fst (dense nf cf)) = nf /\ length (snd (dense nf cf)) = nf /\
    forall f, (f < nf)%nat ->
      (forall c, In (Z.of_nat f, c, 1) cf -> nth f (fst (dense nf cf)) (-1) = c) /\
      ((forall c, ~ In (Z.of_nat f, c, 1) cf) -> nth f (fst (dense nf cf)) (-1) = -1) /\
      (forall c, In (Z.of_nat f, c, -1) cf -> nth f (snd (dense nf cf)) (-1) = c) /\
      ((forall c, ~ In (Z.of_nat f, c, -1) cf) -> nth f (snd (dense nf cf)) (-1) = -1).
Proof.
  intros nf nc cf Hwf. unfold dense. destruct (Nat.eqb_spec nf 0) as [->|Hn].
  - cbn. repeat split; auto; intros; lia.
  - cbn [fst snd]. rewrite !fill_length, !repeat_length. do 2 (split; [reflexivity|]).
    intros f Hf.
    destruct (dense_row nf nc cf (fun v => 0 <? v) 1 f Hwf Hf) as [A B]; auto.
    destruct (dense_row nf nc cf (fun v => v <? 0) (-1) f Hwf Hf) as [C D]; auto.
Qed.
Print Assumptions C21_dense.

(* update_boundary_face_tag (grids of dimension > 0): the tagged faces are exactly those
   with one adjacent cell. *)
Theorem C21_boundary_faces :
  forall dim nf nc cf, wf nf nc cf -> 0 < dim ->
    length (bnd_tag dim nf cf) = nf /\
    forall f, (f < nf)%nat ->
      (nth f (bnd_tag dim nf cf) false = true <-> one_adjacent cf (Z.of_nat f)).
Proof.
  intros dim nf nc cf Hwf Hd. unfold bnd_tag. destruct (Z.ltb_spec 0 dim) as [_|]; [|lia].
  split; [rewrite map_length, seq_length; reflexivity|].
  intros f Hf. rewrite nth_map_seq by exact Hf.
  rewrite Nat.eqb_eq. apply cnt_one_iff, (wf_keys nf nc), Hwf.
Qed.
Print Assumptions C21_boundary_faces.

(* 0-d grids: no face is tagged. *)
Theorem C21_boundary_faces_0d :
  forall dim nf cf, dim <= 0 -> bnd_tag dim nf cf = repeat false nf.
Proof.
  intros dim nf cf H. unfold bnd_tag. destruct (Z.ltb_spec 0 dim); [lia|reflexivity].
Qed.
Print Assumptions C21_boundary_faces_0d.

(* cell_connection_map is symmetric — for ANY list of stored entries. *)
Theorem C21_connection_symmetric :
  forall cf i j, conn_true cf i j = conn_true cf j i.
Proof.
  intros cf i j. apply eq_true_iff_eq. rewrite !conn_spec_any.
  split; intros (f & v & w & H1 & H2 & Hv & Hw); exists f, w, v; auto.
Qed.
Print Assumptions C21_connection_symmetric.

(* cell_connection_map relates exactly the cells that share a face ... *)
Theorem C21_connection_map :
  forall nf nc cf i j, wf nf nc cf ->
    (conn_true cf i j = true <-> exists f v w, In (f, i, v) cf /\ In (f, j, w) cf).
Proof.
  intros nf nc cf i j Hwf. rewrite conn_spec_any. split.
  - intros (f & v & w & H1 & H2 & _). eauto.
  - intros (f & v & w & H1 & H2). exists f, v, w.
    pose proof (wf_sign _ _ _ _ Hwf H1) as S1. pose proof (wf_sign _ _ _ _ Hwf H2) as S2.
    cbn in S1, S2. repeat split; auto; lia.
Qed.
Print Assumptions C21_connection_map.

(* ... in particular the diagonal is set for every cell that has a face (the code does
   not make the map irreflexive). *)
Theorem C21_connection_diagonal :
  forall nf nc cf i, wf nf nc cf ->
    (conn_true cf i i = true <-> exists f v, In (f, i, v) cf).
Proof.
  intros nf nc cf i Hwf. rewrite (C21_connection_map nf nc) by exact Hwf. split.
  - intros (f & v & _ & H & _). eauto.
  - intros (f & v & H). eauto.
Qed.
Print Assumptions C21_connection_diagonal.

(* signs_and_cells_of_boundary_faces, for EVERY list of in-range faces (any order,
   duplicates allowed): if all listed faces have one adjacent cell the call succeeds and
   returns, position by position, the sign and the cell of the face's unique stored entry;
   if some listed face has two adjacent cells it raises ValueError. *)
Theorem C21_signs_and_cells :
  forall nf nc cf faces, wf nf nc cf ->
    (forall f, In f faces -> 0 <= f < Z.of_nat nf) ->
    ((forall f, In f faces -> one_adjacent cf f) ->
       exists sgn ci, signs_cells cf faces = Ok (sgn, ci) /\
         length sgn = length faces /\ length ci = length faces /\
         forall j c v, (j < length faces)%nat -> In (nth j faces 0, c, v) cf ->
                       nth j ci 0 = c /\ nth j sgn 0 = v) /\
    ((exists f, In f faces /\ ~ one_adjacent cf f) -> signs_cells cf faces = Err ValueErr).
Proof.
  intros nf nc cf faces Hwf Hr.
  exact (signs_cells_perm_spec nf nc cf faces _ Hwf (argsort_perm faces) Hr).
Qed.
Print Assumptions C21_signs_and_cells.

(* cell_nodes: node n belongs to cell c iff n is a node of some face of c. *)
Theorem C21_cell_nodes :
  forall nf nc fn cf n c, wf nf nc cf -> (forall a, In a fn -> e_v a = 1) ->
    (cn_true fn cf n c = true <-> exists f v, In (n, f, 1) fn /\ In (f, c, v) cf).
Proof.
  intros nf nc fn cf n c Hwf Hfn.
  rewrite cn_spec_any by (intros a Ha; rewrite (Hfn a Ha); lia). split.
  - intros (f & w & v & H1 & H2 & _). exists f, v. split; auto.
    pose proof (Hfn _ H1) as E. cbn in E. subst w. exact H1.
  - intros (f & v & H1 & H2). exists f, 1, v.
    pose proof (wf_sign _ _ _ _ Hwf H2) as S. cbn in S. repeat split; auto; lia.
Qed.
Print Assumptions C21_cell_nodes.

(* divergence(1) is the transpose of the incidence — for ANY stored entries (dense
   semantics: duplicates add up). *)
Theorem C21_divergence_scalar :
  forall cf, exists m, divergence cf 1 = Ok m /\ forall c f, entry m c f = entry cf f c.
Proof.
  intros cf. eexists. split; [reflexivity|]. intros c f. apply entry_transpose.
Qed.
Print Assumptions C21_divergence_scalar.

(* divergence(dim), dim > 1, is the scalar divergence expanded per component: rows
   c*dim+k, columns f*dim+l; block (k,l) is the transposed incidence when k = l and zero
   otherwise — for ANY stored entries.  (Every row/column index has exactly one such
   decomposition with 0 <= k, l < dim.) *)
Theorem C21_divergence_vector :
  forall cf dim, 1 < dim -> exists m, divergence cf dim = Ok m /\
    forall c f k l, 0 <= k < dim -> 0 <= l < dim ->
      entry m (c * dim + k) (f * dim + l) = if k =? l then entry cf f c else 0.
Proof.
  intros cf dim Hd. unfold divergence. destruct (Z.eqb_spec dim 1); [lia|].
  destruct (Z.ltb_spec 1 dim); [|lia]. eexists. split; [reflexivity|].
  intros c f k l Hk Hl. apply entry_kron; assumption.
Qed.
Print Assumptions C21_divergence_vector.

(* divergence(dim) with dim < 1 raises ValueError. *)
Theorem C21_divergence_error :
  forall cf dim, dim < 1 -> divergence cf dim = Err ValueErr.
Proof.
  intros cf dim H. unfold divergence. destruct (Z.eqb_spec dim 1); [lia|].
  destruct (Z.ltb_spec 1 dim); [lia|reflexivity].
Qed.
Print Assumptions C21_divergence_error.

(* numpy's default argsort is not stable: with repeated face numbers np.argsort(faces) may be
   ANY sorting permutation.  The result of signs_and_cells_of_boundary_faces is the same for
   every permutation IA of the positions used in its place (the model's [signs_cells] is the
   instance IA = stable argsort); the later argsorts act on distinct keys. *)
Theorem C21_signs_and_cells_any_argsort :
  forall nf nc cf faces IA, wf nf nc cf ->
    Permutation IA (seq 0 (length faces)) ->
    (forall f, In f faces -> 0 <= f < Z.of_nat nf) ->
    ((forall f, In f faces -> one_adjacent cf f) ->
       exists sgn ci, signs_cells_perm cf faces IA = Ok (sgn, ci) /\
         length sgn = length faces /\ length ci = length faces /\
         forall j c v, (j < length faces)%nat -> In (nth j faces 0, c, v) cf ->
                       nth j ci 0 = c /\ nth j sgn 0 = v) /\
    ((exists f, In f faces /\ ~ one_adjacent cf f) -> signs_cells_perm cf faces IA = Err ValueErr).
Proof. exact signs_cells_perm_spec. Qed.
Print Assumptions C21_signs_and_cells_any_argsort.

Theorem C21_signs_and_cells_is_instance :
  forall cf faces, signs_cells cf faces = signs_cells_perm cf faces (argsort faces).
Proof. reflexivity. Qed.
Print Assumptions C21_signs_and_cells_is_instance.

(* Face numbers as numpy reads them: a number outside [-num_faces, num_faces) raises IndexError
   (before anything else); numbers in [-num_faces, 0) denote face f + num_faces; then as above. *)
Theorem C21_signs_and_cells_index_handling :
  forall nf nc cf faces, wf nf nc cf ->
    ((exists f, In f faces /\ ~ (- Z.of_nat nf <= f < Z.of_nat nf)) ->
       signs_cells_idx nf cf faces = Err2 IndexErr2) /\
    ((forall f, In f faces -> - Z.of_nat nf <= f < Z.of_nat nf) ->
       let fw := map (wrap nf) faces in
       ((forall f, In f fw -> one_adjacent cf f) ->
          exists sgn ci, signs_cells_idx nf cf faces = Ok2 (sgn, ci) /\
            length sgn = length faces /\ length ci = length faces /\
            forall j c v, (j < length faces)%nat -> In (nth j fw 0, c, v) cf ->
                          nth j ci 0 = c /\ nth j sgn 0 = v) /\
       ((exists f, In f fw /\ ~ one_adjacent cf f) -> signs_cells_idx nf cf faces = Err2 ValueErr2)).
Proof.
  intros nf nc cf faces Hwf. split; [apply signs_cells_idx_out|].
  intros Hin. cbn zeta. rewrite signs_cells_idx_in by exact Hin.
  destruct (signs_cells_perm_spec nf nc cf (map (wrap nf) faces) (argsort faces) Hwf)
    as [Hok Herr].
  - rewrite map_length. apply argsort_perm.
  - intros f Hf. apply in_map_iff in Hf. destruct Hf as (x & <- & Hx). apply wrap_range. auto.
  - rewrite map_length in Hok. split.
    + intro Hb. destruct (Hok Hb) as (sgn & ci & -> & Hrest). eauto.
    + intro Hb. rewrite (Herr Hb). reflexivity.
Qed.
Print Assumptions C21_signs_and_cells_index_handling.

(* set_periodic_map: a valid map (two rows, not empty, all entries face numbers) is stored and
   clears the domain-boundary tag of exactly the listed faces; every other map is rejected with
   ValueError and nothing is stored.  (So after update_boundary_face_tag and set_periodic_map the
   tagged faces are the one-cell faces that are not periodic: C21_boundary_faces.) *)
Theorem C21_periodic_map :
  forall tag nf pm, length tag = nf ->
    (pm_valid nf pm ->
       exists t, set_periodic tag nf pm = (Ok2 t, true) /\ length t = nf /\
         forall f, (f < nf)%nat ->
           nth f t false = nth f tag false && negb (existsb (Z.eqb (Z.of_nat f)) (concat pm))) /\
    (~ pm_valid nf pm -> set_periodic tag nf pm = (Err2 ValueErr2, false)).
Proof.
  intros tag nf pm Ht. destruct (set_periodic_cases tag nf pm) as [[V E]|[V E]]; (split; [|tauto]).
  - intros _. eexists. split; [exact E|]. split; [rewrite clear_length; exact Ht|].
    intros f Hf. destruct V as (_ & _ & Hr). apply clear_nth; [lia|]. intros i Hi. apply Hr, Hi.
  - intro V'. contradiction.
Qed.
Print Assumptions C21_periodic_map.

(* Non-vacuity of the extension theorems on the same incidence. *)
Example C21_ext_nonvacuous :
  let cf := [(0, 0, -1); (1, 0, 1); (3, 0, -1); (5, 0, 1);
             (1, 1, -1); (2, 1, 1); (4, 1, -1); (6, 1, 1)] in
  Permutation [1; 2; 0]%nat (seq 0 3) /\
  signs_cells_perm cf [6; 0; 6] [1; 2; 0]%nat = Ok ([1; -1; 1], [1; 0; 1]) /\
  signs_cells_idx 7 cf [-1; 0; 3] = Ok2 ([1; -1; -1], [1; 0; 0]) /\
  signs_cells_idx 7 cf [0; 7] = Err2 IndexErr2 /\
  signs_cells_idx 7 cf [0; -6] = Err2 ValueErr2 /\
  pm_valid 7 [[0]; [2]] /\
  set_periodic [true; false; true; true; true; true; true] 7 [[0]; [2]]
    = (Ok2 [false; false; false; true; true; true; true], true) /\
  ~ pm_valid 7 [[0]; [7]] /\
  set_periodic [true; false; true; true; true; true; true] 7 [[0]; [7]] = (Err2 ValueErr2, false).
Proof.
  cbn zeta. split.
  - apply Permutation_sym. exact (Permutation_cons_append [1; 2]%nat 0%nat).
  - assert (pm_valid 7 [[0]; [2]]) as V1.
    { split; [reflexivity|]. split; [discriminate|]. intros i Hi. cbn in Hi. lia. }
    assert (~ pm_valid 7 [[0]; [7]]) as V2.
    { intros (_ & _ & H). specialize (H 7). cbn in H. lia. }
    split; [vm_compute; reflexivity|]. split; [vm_compute; reflexivity|].
    split; [vm_compute; reflexivity|]. split; [vm_compute; reflexivity|].
    split; [exact V1|]. split; [vm_compute; reflexivity|]. split; [exact V2|]. vm_compute. reflexivity.
Qed.

(* Non-vacuity: the incidence of pp.CartGrid([2, 1]) (7 faces, 2 cells) is well-formed;
   face 1 is internal, all others have one adjacent cell; the queries on it. *)
Example C21_nonvacuous :
  let cf := [(0, 0, -1); (1, 0, 1); (3, 0, -1); (5, 0, 1);
             (1, 1, -1); (2, 1, 1); (4, 1, -1); (6, 1, 1)] in
  wf 7 2 cf /\
  dense 7 cf = ([-1; 0; 1; -1; -1; 0; 1], [0; 1; -1; 0; 1; -1; -1]) /\
  bnd_tag 2 7 cf = [true; false; true; true; true; true; true] /\
  (one_adjacent cf 0 /\ ~ one_adjacent cf 1) /\
  signs_cells cf [6; 0; 3] = Ok ([1; -1; -1], [1; 0; 0]) /\
  signs_cells cf [6; 1; 3] = Err ValueErr /\
  conn_true cf 0 1 = true /\
  divergence cf 2 = Ok [(0, 0, -1); (1, 1, -1); (0, 2, 1); (1, 3, 1); (0, 6, -1); (1, 7, -1);
                        (0, 10, 1); (1, 11, 1); (2, 2, -1); (3, 3, -1); (2, 4, 1); (3, 5, 1);
                        (2, 8, -1); (3, 9, -1); (2, 12, 1); (3, 13, 1)].
Proof.
  cbn zeta.
  assert (wf 7 2 [(0, 0, -1); (1, 0, 1); (3, 0, -1); (5, 0, 1);
                  (1, 1, -1); (2, 1, 1); (4, 1, -1); (6, 1, 1)]) as Hwf
      by (apply C21_wf_checker_sound; vm_compute; reflexivity).
  split; [exact Hwf|].
  split; [vm_compute; reflexivity|]. split; [vm_compute; reflexivity|].
  split.
  - split.
    + apply cnt_one_iff; [apply (wf_keys 7 2), Hwf|vm_compute; reflexivity].
    + intro H. apply cnt_one_iff in H; [|apply (wf_keys 7 2), Hwf]. vm_compute in H. discriminate.
  - repeat split; vm_compute; reflexivity.
Qed.
