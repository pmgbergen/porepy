(* C25 — property theorems only.  Model: PP.Model.C25 (Part A: incidence model of
   split_grid.split_faces = duplicate_faces + _update_face_cells + update_cell_connectivity;
   Part B: the conformity certificate evaluated on the real md-grid); proofs: PP.Proofs.C25.

   Incidences are (face, cell, sign) triples; face geometry is (centre, normal, area);
   [relabel nf0 d left cf] is the cell_faces map produced by the "split" branch of
   update_cell_connectivity (C25_split_step_is_relabel), d = the duplicated faces, the copy
   of d[k] has number nf0 + k, [left c] = the half-space side test of cell c. *)
From Coq Require Import List QArith ZArith.
Import ListNotations.
From PP Require Import Model.C29 Model.C25 Proofs.C25.
Open Scope Q_scope.

(* The split branch of update_cell_connectivity changes nothing but cell_faces, and the
   new cell_faces is [relabel]. *)
Theorem C25_split_step_is_relabel :
  forall g nf0 d left g2,
    update_cell_connectivity g nf0 d left = inr (g2, Split) ->
    g_cf g2 = relabel nf0 d left (g_cf g) /\ g_geom g2 = g_geom g /\ g_nf g2 = g_nf g /\
    g_tF g2 = g_tF g /\ g_tT g2 = g_tT g /\ g_tB g2 = g_tB g.
Proof. exact ucc_split. Qed.
Print Assumptions C25_split_step_is_relabel.

(* Each duplicated pair has identical face geometry (centre, normal, area): the copy of
   d[k] is face nf + k and carries the geometry of d[k]; no old face changes; the number of
   faces grows by |d|; cell_faces is not touched by the duplication. *)
Theorem C25_split_pair_geometry :
  forall g fc g1 d k f,
    duplicate_faces g fc = (g1, d) -> length (g_geom g) = g_nf g ->
    nth_error d k = Some f ->
    nth (g_nf g + k) (g_geom g1) gdef = nth f (g_geom g) gdef /\
    (forall f', (f' < g_nf g)%nat -> nth f' (g_geom g1) gdef = nth f' (g_geom g) gdef) /\
    g_nf g1 = (g_nf g + length d)%nat /\ g_cf g1 = g_cf g.
Proof. exact dup_geometry. Qed.
Print Assumptions C25_split_pair_geometry.

(* After the split, the face d[k] = f and its copy nf0 + k each keep neighbours of one
   side only (f: not-left cells, copy: left cells), with the signs the undivided face had;
   on a well-formed grid (two different neighbours of a face carry opposite signs) the
   signs are opposite, so with the identical normal (previous theorem) the outward normals
   sign * n of the two faces of the pair are opposite. *)
Theorem C25_split_pair_opposite :
  forall nf0 d left cf k f c s c' s',
    (forall t, In t cf -> (tface t < nf0)%nat) ->
    (forall f c s c' s', In (f, c, s) cf -> In (f, c', s') cf -> c <> c' -> (s + s' = 0)%Z) ->
    nth_error d k = Some f -> NoDup d -> In f d ->
    In (f, c, s) (relabel nf0 d left cf) ->
    In ((nf0 + k)%nat, c', s') (relabel nf0 d left cf) ->
    left c = false /\ left c' = true /\ In (f, c, s) cf /\ In (f, c', s') cf /\ (s + s' = 0)%Z.
Proof. exact split_pair_opposite. Qed.
Print Assumptions C25_split_pair_opposite.

(* Every cell keeps exactly its faces' geometry and signs (in the same order), for any
   side predicate: whatever is computed per cell from face geometry and signs — volume
   (divergence theorem), centre — is unchanged by the split; in particular the host volume. *)
Theorem C25_cells_unchanged :
  forall nf0 d left geom0 cf c,
    length geom0 = nf0 ->
    (forall t, In t cf -> (tface t < nf0)%nat) ->
    let geom1 := geom0 ++ map (fun f => nth f geom0 gdef) d in
    map (fun t => (nth (tface t) geom1 gdef, tsign t))
        (filter (fun t => (tcell t =? c)%nat) (relabel nf0 d left cf)) =
    map (fun t => (nth (tface t) geom0 gdef, tsign t))
        (filter (fun t => (tcell t =? c)%nat) cf).
Proof. exact relabel_cells. Qed.
Print Assumptions C25_cells_unchanged.

(* The face-cell map after the split couples a lower-dimensional cell to f', iff it was
   coupled to f' before or f' is the copy of a face it was coupled to: each cell of a
   duplicated face is coupled to the face and to its copy — one face per side by
   C25_split_pair_opposite — and to nothing else. *)
Theorem C25_face_cells_both_sides :
  forall nf0 d fc c f',
    In (c, f') (extend_fmap nf0 d fc) <->
    In (c, f') fc \/ exists k f, f' = (nf0 + k)%nat /\ nth_error d k = Some f /\ In (c, f) fc.
Proof. exact extend_fmap_spec. Qed.
Print Assumptions C25_face_cells_both_sides.

(* The incidences move as follows (completeness of the description used above). *)
Theorem C25_relabel_incidences :
  forall nf0 d left cf f' c s,
    (forall t, In t cf -> (tface t < nf0)%nat) ->
    In (f', c, s) (relabel nf0 d left cf) ->
    ((f' < nf0)%nat /\ In (f', c, s) cf /\ (In f' d -> left c = false)) \/
    (exists k f, f' = (nf0 + k)%nat /\ nth_error d k = Some f /\ In (f, c, s) cf /\ left c = true).
Proof. exact relabel_backward. Qed.
Print Assumptions C25_relabel_incidences.

(* Certificate soundness (tie K): if the boolean checker accepts the data extracted from a
   real md-grid, then — within the relative tolerance 1e-9 — for every interface each
   lower-dimensional cell is coupled to exactly one host face per side (1 or 2 sides), these
   faces coincide with the cell in centre and measure, belong to exactly one host cell
   (are split), are tagged as fracture faces, and when there are two they are different
   faces with opposite outward normals; every mortar cell matches one lower cell and one
   of the faces coupled to it with unit weights, same centre and measure, and there are
   sides x cells mortar cells; the points of the fracture grids satisfy their fracture's
   line/plane equation; per host grid the fracture-face tags are exactly the coupled faces;
   the host volume equals the domain volume. *)
Theorem C25_certificate_sound :
  forall d, conform d = true -> Conforming d.
Proof. exact conform_sound. Qed.
Print Assumptions C25_certificate_sound.

(* The md-grid against what was REQUESTED: acceptance of the extended certificate also
   gives that every fracture grid (in 3-D with two rectangles also the intersection-line
   grids together) has the measure of the requested fracture, the host grid spans exactly
   the requested domain box on every axis, and there is one fracture grid per requested
   fracture (all within 1e-9). *)
Theorem C25_certificate_request_sound :
  forall d r, conform_req d r = true -> Conforming d /\ RequestConf r.
Proof.
  intros d r H. apply andb_prop in H.
  split; [apply C25_certificate_sound|apply request_sound]; apply H.
Qed.
Print Assumptions C25_certificate_request_sound.

Example C25_nonvacuous_request :
  request_ok (mkREQ [([1 # 2; 1 # 2; 1], 2)] [(0, 4); (-1, 3)] [(0, 4); (-1, 3)] 1 1) = true /\
  request_ok (mkREQ [([1 # 2; 1 # 2], 2)] [(0, 4); (-1, 3)] [(0, 4); (-1, 3)] 1 1) = false /\
  request_ok (mkREQ [] [(0, 3)] [(1, 3)] 0 0) = false.
Proof. vm_compute. repeat split; reflexivity. Qed.

(* Third round: acceptance of the certificate with extents also gives that every fracture
   grid spans, on every axis, exactly the extent of the fracture it discretises (for
   structured grids: the requested fracture snapped to the nearest grid planes, computed
   exactly by the harness), within 1e-9. *)
Theorem C25_certificate_extents_sound :
  forall d r ext, conform_req2 d r ext = true ->
  Conforming d /\ RequestConf r /\ ExtentsConf ext.
Proof.
  intros d r ext H. apply andb_prop in H. destruct H as [H E].
  split; [|split]; [apply (C25_certificate_request_sound d r H)..|apply extents_sound, E].
Qed.
Print Assumptions C25_certificate_extents_sound.

Example C25_nonvacuous_extents :
  qsum_r [1 # 3; 1 # 6; 1 # 2] = 1 /\
  extents_ok [([(29 # 100, 29 # 100); (0, 1)], [(29 # 100, 29 # 100); (0, 1)])] = true /\
  extents_ok [([(28 # 100, 28 # 100); (0, 1)], [(29 # 100, 29 # 100); (0, 1)])] = false.
Proof. vm_compute. repeat split; reflexivity. Qed.

(* The certificate the tie evaluates ([conform_req3]: sums normalised after every addition,
   for speed) is the same boolean as [conform_req2], hence sound in the same sense. *)
Theorem C25_certificate_fast_sound :
  forall d r ext, conform_req3 d r ext = true ->
  Conforming d /\ RequestConf r /\ ExtentsConf ext.
Proof.
  intros d r ext H. rewrite conform_req3_eq in H. apply C25_certificate_extents_sound, H.
Qed.
Print Assumptions C25_certificate_fast_sound.

(* Coupling completeness: acceptance also gives that, for every pair (grid of dimension d,
   grid of dimension d-1), the faces of the first whose centre coincides with a cell centre of
   the second are exactly the faces coupled by an interface between the two (in particular a
   missing interface at a T- or L-ending is rejected). *)
Theorem C25_certificate_coupling_complete :
  forall d r ext inc, conform_req4 d r ext inc = true ->
  Conforming d /\ RequestConf r /\ ExtentsConf ext /\ IncidenceConf inc.
Proof.
  intros d r ext inc H. apply andb_prop in H. destruct H as [H I].
  destruct (C25_certificate_fast_sound d r ext H) as (A & B & C).
  auto using incidence_sound.
Qed.
Print Assumptions C25_certificate_coupling_complete.

Example C25_nonvacuous_coupling :
  incidence_ok [([1; 3]%nat, [3; 1]%nat); ([2]%nat, [2]%nat)] = true /\
  incidence_ok [([1; 3]%nat, [3; 1]%nat); ([2]%nat, [])] = false.
Proof. vm_compute. split; reflexivity. Qed.

(* Non-vacuity: a host of two cells [0,1], [1,2] with faces at 0, 1, 2; the lower cell 0
   sits on face 1.  The split gives face 3 = copy of 1 attached to the left cell 0, face 1
   keeps the right cell 1, frac_pairs (1,3), face-cell map {(0,1),(0,3)}; and a matching
   certificate is accepted. *)
Definition ex_grid : grid :=
  mkGrid 3 [(0%nat, 0%nat, (-1)%Z); (1%nat, 0%nat, 1%Z); (1%nat, 1%nat, (-1)%Z); (2%nat, 1%nat, 1%Z)]
         [([0], [1], 1); ([1], [1], 1); ([2], [1], 1)]
         [false; false; false] [false; false; false] [true; false; true] [].

Example C25_nonvacuous_split :
  match split_faces [[1 # 2]; [3 # 2]] ex_grid [[(0, 1)]]%nat with
  | inr (g, fcs) =>
      g_nf g = 4%nat /\ g_cf g = [(0%nat, 0%nat, (-1)%Z); (3%nat, 0%nat, 1%Z); (1%nat, 1%nat, (-1)%Z); (2%nat, 1%nat, 1%Z)] /\
      g_pairs g = [(1, 3)]%nat /\ fcs = [[(0, 1); (0, 3)]]%nat /\
      g_tF g = [false; true; false; true] /\ nth 3 (g_geom g) gdef = ([1], [1], 1)
  | inl _ => False
  end.
Proof. vm_compute. repeat split; reflexivity. Qed.

Example C25_nonvacuous_certificate :
  conform (mkMDG
    [mkIF 2 [mkLC [1] 1 [mkHF 1 [1] 1 [-1] 1 true; mkHF 3 [1] 1 [1] 1 true]]
          [mkMC [1] 1 [(0%nat, 1)] [(1%nat, 1)]; mkMC [1] 1 [(0%nat, 1)] [(3%nat, 1)]]
          NoFrac []]
    [([1; 3]%nat, [1; 3]%nat)] [1; 1] 2) = true.
Proof. vm_compute. reflexivity. Qed.
