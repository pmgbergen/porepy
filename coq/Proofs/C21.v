(* C21 — proofs about the connectivity-query model (PP.Model.C21): well-formed incidences,
   cell_faces_as_dense, update_boundary_face_tag, cell_connection_map, cell_nodes, divergence. *)
From Coq Require Import List ZArith Bool Arith Lia FinFun.
Import ListNotations.
From PP Require Import Model.C21.
Open Scope Z_scope.

Lemma length_one_eq {A} (l : list A) a b : length l = 1%nat -> In a l -> In b l -> a = b.
Proof. destruct l as [|x [|y l]]; try discriminate. intros _ [<-|[]] [<-|[]]. reflexivity. Qed.

Lemma NoDup_map_inj {A B} (g : A -> B) l a b :
  NoDup (map g l) -> In a l -> In b l -> g a = g b -> a = b.
Proof.
  induction l as [|x l IH]; cbn; [intros _ []|]. intros H Ha Hb E.
  apply NoDup_cons_iff in H. destruct H as [Hx Hl].
  destruct Ha as [->|Ha], Hb as [->|Hb]; auto; exfalso; apply Hx.
  - rewrite E. apply in_map, Hb.
  - rewrite <- E. apply in_map, Ha.
Qed.

Lemma seqZ_NoDup s n : NoDup (map Z.of_nat (seq s n)).
Proof. apply Injective_map_NoDup; [exact Nat2Z.inj|apply seq_NoDup]. Qed.

(* the terms of a sparse product: pairs (a, b) selected by p a and q a b *)
Lemma in_flat_map_filter {A B C} (p : A -> bool) (q : A -> B -> bool) (g : A -> B -> C) l1 l2 x :
  In x (flat_map (fun a => if p a then map (g a) (filter (q a) l2) else []) l1) <->
  exists a b, In a l1 /\ In b l2 /\ p a = true /\ q a b = true /\ x = g a b.
Proof.
  rewrite in_flat_map. split.
  - intros (a & Ha & Hx). destruct (p a) eqn:Ep; [|destruct Hx].
    apply in_map_iff in Hx. destruct Hx as (b & <- & Hb). apply filter_In in Hb.
    exists a, b. tauto.
  - intros (a & b & Ha & Hb & Ep & Eq & ->). exists a. split; [exact Ha|]. rewrite Ep.
    apply in_map, filter_In. auto.
Qed.

Definition key (e : ent) : Z * Z := (e_r e, e_c e).

Definition wf (nf nc : nat) (cf : list ent) : Prop :=
  (forall e, In e cf -> 0 <= e_r e < Z.of_nat nf /\ 0 <= e_c e < Z.of_nat nc) /\
  (forall f, 0 <= f < Z.of_nat nf ->
     vals cf f = [1] \/ vals cf f = [-1] \/ vals cf f = [1; -1] \/ vals cf f = [-1; 1]) /\
  NoDup (map key cf).

Lemma eqb_lz_true a b : eqb_lz a b = true -> a = b.
Proof.
  unfold eqb_lz. revert b. induction a as [|x a IH]; intros [|y b] H; try discriminate; auto.
  cbn in H. rewrite !andb_true_iff, Z.eqb_eq in H. destruct H as [Hl [-> H]].
  f_equal. apply IH. rewrite Hl. exact H.
Qed.

Lemma nodup_keys_true l : nodup_keys l = true -> NoDup l.
Proof.
  induction l as [|x l IH]; cbn; intro H; [constructor|].
  apply andb_true_iff in H. destruct H as [H1 H2]. constructor; auto.
  intro Hin. apply negb_true_iff in H1. rewrite (proj2 (existsb_exists _ _)) in H1; [discriminate|].
  exists x. rewrite !Z.eqb_refl. auto.
Qed.

Lemma ent_eta (e : ent) : e = (e_r e, e_c e, e_v e).
Proof. destruct e as [[r c] v]. reflexivity. Qed.

Definition row (cf : list ent) (f : Z) : list ent := filter (fun e => e_r e =? f) cf.

Lemma in_row cf f e : In e (row cf f) <-> In e cf /\ e_r e = f.
Proof. unfold row. rewrite filter_In, Z.eqb_eq. reflexivity. Qed.

Lemma in_vals cf f e : In e cf -> e_r e = f -> In (e_v e) (vals cf f).
Proof. intros He Hr. apply in_map, in_row. auto. Qed.

Lemma cnt_vals cf f : cnt cf f = length (vals cf f).
Proof. unfold cnt, vals. rewrite map_length. reflexivity. Qed.

Lemma cnt_pos cf f : (1 <= cnt cf f)%nat -> exists e, In e cf /\ e_r e = f.
Proof.
  unfold cnt. fold (row cf f). destruct (row cf f) as [|e l] eqn:E; cbn; [lia|]. intros _.
  exists e. apply in_row. rewrite E. left. reflexivity.
Qed.

Lemma cnt_one_unique cf f e e' : cnt cf f = 1%nat -> In e cf -> In e' cf ->
  e_r e = f -> e_r e' = f -> e = e'.
Proof. intros H He He' Hr Hr'. apply (length_one_eq (row cf f)); auto; apply in_row; auto. Qed.

Lemma wf_range nf nc cf e : wf nf nc cf -> In e cf ->
  0 <= e_r e < Z.of_nat nf /\ 0 <= e_c e < Z.of_nat nc.
Proof. intros [H _] He. auto. Qed.

(* what the four admissible value lists of a row have in common *)
Lemma wf_row nf nc cf f : wf nf nc cf -> 0 <= f < Z.of_nat nf ->
  NoDup (vals cf f) /\ (forall v, In v (vals cf f) -> v = 1 \/ v = -1) /\
  (cnt cf f = 1 \/ cnt cf f = 2)%nat.
Proof.
  intros (_ & Hv & _) Hf. rewrite cnt_vals.
  destruct (Hv f Hf) as [E|[E|[E|E]]]; rewrite E;
    (split; [repeat constructor; cbn; lia|split; cbn; lia]).
Qed.

Lemma wf_sign nf nc cf e : wf nf nc cf -> In e cf -> e_v e = 1 \/ e_v e = -1.
Proof.
  intros Hwf He. destruct (wf_row nf nc cf (e_r e) Hwf) as (_ & Hs & _).
  - apply (wf_range nf nc cf e Hwf He).
  - apply Hs, in_vals; auto.
Qed.

Lemma wf_unique_sign nf nc cf e e' : wf nf nc cf -> In e cf -> In e' cf ->
  e_r e = e_r e' -> e_v e = e_v e' -> e = e'.
Proof.
  intros Hwf He He' Hr Hv. destruct (wf_row nf nc cf (e_r e) Hwf) as (Hnd & _).
  - apply (wf_range nf nc cf e Hwf He).
  - apply (NoDup_map_inj e_v (row cf (e_r e))); auto; apply in_row; auto.
Qed.

Lemma wf_keys nf nc cf : wf nf nc cf -> NoDup (map key cf).
Proof. intros (_ & _ & H). exact H. Qed.

Lemma wf_cnt nf nc cf f : wf nf nc cf -> 0 <= f < Z.of_nat nf ->
  cnt cf f = 1%nat \/ cnt cf f = 2%nat.
Proof. intros Hwf Hf. apply (wf_row nf nc cf f Hwf Hf). Qed.

Lemma upd_length l : forall i x, length (upd l i x) = length l.
Proof. induction l; intros [|i] x; cbn; auto. Qed.

Lemma nth_upd_same l : forall i x d, (i < length l)%nat -> nth i (upd l i x) d = x.
Proof. induction l; intros [|i] x d H; cbn in *; try lia; auto. apply IHl. lia. Qed.

Lemma nth_upd_other l : forall i j x d, i <> j -> nth j (upd l i x) d = nth j l d.
Proof. induction l; intros [|i] [|j] x d H; cbn; auto; congruence. Qed.

Lemma fill_snoc sel cf e init :
  fill sel (cf ++ [e]) init =
  if sel (e_v e) then upd (fill sel cf init) (Z.to_nat (e_r e)) (e_c e) else fill sel cf init.
Proof. unfold fill. rewrite fold_left_app. reflexivity. Qed.

Lemma fill_length sel cf init : length (fill sel cf init) = length init.
Proof.
  induction cf as [|e cf IH] using rev_ind; [reflexivity|].
  rewrite fill_snoc. destruct (sel (e_v e)); rewrite ?upd_length; exact IH.
Qed.

(* the last selected entry of row f wins *)
Lemma fill_nth sel cf init f d :
  (f < length init)%nat -> (forall e, In e cf -> 0 <= e_r e) ->
  nth f (fill sel cf init) d =
  match find (fun e => sel (e_v e) && (e_r e =? Z.of_nat f)) (rev cf) with
  | Some e => e_c e
  | None => nth f init d
  end.
Proof.
  intro Hf. induction cf as [|e cf IH] using rev_ind; intro Hpos; [reflexivity|].
  rewrite fill_snoc, rev_unit. cbn [find].
  assert (0 <= e_r e) as He by (apply Hpos, in_or_app; right; left; reflexivity).
  assert (IH' := IH (fun x Hx => Hpos x (in_or_app _ _ x (or_introl Hx)))).
  destruct (sel (e_v e)); cbn [andb]; [|exact IH'].
  destruct (Z.eqb_spec (e_r e) (Z.of_nat f)) as [E|E].
  - rewrite E, Nat2Z.id. apply nth_upd_same. rewrite fill_length. exact Hf.
  - rewrite nth_upd_other by lia. exact IH'.
Qed.

Lemma dense_row nf nc cf sel s f :
  wf nf nc cf -> (f < nf)%nat -> (s = 1 \/ s = -1) -> sel s = true -> sel (- s) = false ->
  (forall c, In (Z.of_nat f, c, s) cf -> nth f (fill sel cf (repeat (-1) nf)) (-1) = c) /\
  ((forall c, ~ In (Z.of_nat f, c, s) cf) -> nth f (fill sel cf (repeat (-1) nf)) (-1) = -1).
Proof.
  intros Hwf Hf Hs Hsel Hnsel. rewrite fill_nth.
  2: rewrite repeat_length; exact Hf.
  2: intros e He; apply (wf_range nf nc cf e Hwf He).
  destruct (find _ (rev cf)) as [e|] eqn:Efind.
  - apply find_some in Efind. destruct Efind as [Hin Hp]. apply in_rev in Hin.
    apply andb_true_iff in Hp. destruct Hp as [Hse Hr]. apply Z.eqb_eq in Hr.
    assert (e_v e = s) as Hv.
    { destruct (wf_sign nf nc cf e Hwf Hin) as [E|E], Hs as [-> | ->];
        rewrite E in Hse |- *; cbn in Hnsel; congruence. }
    split.
    + intros c Hc. rewrite (wf_unique_sign nf nc cf e _ Hwf Hin Hc Hr Hv). reflexivity.
    + intro Hnone. destruct (Hnone (e_c e)). rewrite <- Hr, <- Hv, <- ent_eta. exact Hin.
  - split; [|intros _; apply nth_repeat].
    intros c Hc. apply in_rev in Hc. apply (find_none _ _ Efind) in Hc.
    cbn in Hc. rewrite Z.eqb_refl, Hsel in Hc. discriminate.
Qed.

Definition one_adjacent (cf : list ent) (f : Z) : Prop :=
  exists c, (exists v, In (f, c, v) cf) /\ forall c' v', In (f, c', v') cf -> c' = c.

(* with one stored entry per (face, cell), one stored entry in row f means one adjacent cell *)
Lemma cnt_one_iff cf f : NoDup (map key cf) -> (cnt cf f = 1%nat <-> one_adjacent cf f).
Proof.
  intros Hnd. split.
  - intro H1. destruct (cnt_pos cf f) as (a & Ha & Hra); [lia|].
    exists (e_c a). split.
    + exists (e_v a). rewrite <- Hra, <- ent_eta. exact Ha.
    + intros c' v' Hc. rewrite (cnt_one_unique cf f a _ H1 Ha Hc Hra eq_refl). reflexivity.
  - intros (c & (v & Hv) & Huniq).
    (* all entries of row f have the key (f, c), and keys are distinct *)
    assert (forall a, In a (row cf f) -> In a cf /\ key a = (f, c)) as Hc.
    { intros a Ha. apply in_row in Ha. destruct Ha as [Ha <-]. split; [exact Ha|].
      unfold key. f_equal. apply (Huniq _ (e_v a)). rewrite <- ent_eta. exact Ha. }
    assert (NoDup (row cf f)) as Hr by (apply NoDup_filter, (NoDup_map_inv _ _ Hnd)).
    assert (In (f, c, v) (row cf f)) as Hin by (apply in_row; auto).
    unfold cnt. fold (row cf f).
    destruct (row cf f) as [|a [|b l]]; [destruct Hin|reflexivity|]. exfalso.
    apply NoDup_cons_iff in Hr. apply (proj1 Hr). left.
    destruct (Hc a) as [Ha Ka], (Hc b) as [Hb Kb]; cbn; auto.
    apply (NoDup_map_inj key cf); auto; congruence.
Qed.

Lemma sumZ_cons a l : sumZ (a :: l) = a + sumZ l.
Proof. reflexivity. Qed.

Lemma sumZ_nonneg l : (forall x, In x l -> 0 <= x) -> 0 <= sumZ l.
Proof.
  induction l as [|a l IH]; intro H; [cbn; lia|]. rewrite sumZ_cons.
  assert (0 <= a) by (apply H; left; auto).
  assert (0 <= sumZ l) by (apply IH; intros; apply H; right; auto). lia.
Qed.

Lemma sumZ_pos l : (forall x, In x l -> 0 <= x) -> (0 < sumZ l <-> exists x, In x l /\ 0 < x).
Proof.
  induction l as [|a l IH]; intro H.
  - split; [cbn; lia|intros (x & [] & _)].
  - rewrite sumZ_cons.
    assert (0 <= a) as Ha by (apply H; left; auto).
    assert (forall x, In x l -> 0 <= x) as Hl by (intros; apply H; right; auto).
    pose proof (sumZ_nonneg l Hl). specialize (IH Hl). split.
    + intro Hs. destruct (Z.eq_dec a 0) as [E|E].
      * destruct (proj1 IH) as (x & Hx & Hp); [lia|]. exists x. split; [right|]; assumption.
      * exists a. split; [left; reflexivity|lia].
    + intros (x & [<-|Hx] & Hp); [lia|]. assert (0 < sumZ l) by (apply IH; eauto). lia.
Qed.

Lemma conn_terms_in cf i j x :
  In x (conn_terms cf i j) <->
  exists e1 e2, In e1 cf /\ In e2 cf /\ e_c e1 = i /\ e_c e2 = j /\ e_r e2 = e_r e1 /\
                x = Z.abs (e_v e1) * Z.abs (e_v e2).
Proof.
  unfold conn_terms. rewrite in_flat_map_filter.
  setoid_rewrite andb_true_iff. setoid_rewrite Z.eqb_eq.
  split; intros (e1 & e2 & H); exists e1, e2; tauto.
Qed.

Lemma conn_true_pos cf i j : conn_true cf i j = true <-> 0 < conn_val cf i j.
Proof. unfold conn_true, clip01. rewrite negb_true_iff, Z.eqb_neq. lia. Qed.

Lemma conn_spec_any cf i j :
  conn_true cf i j = true <->
  exists f v w, In (f, i, v) cf /\ In (f, j, w) cf /\ v <> 0 /\ w <> 0.
Proof.
  rewrite conn_true_pos. unfold conn_val. rewrite sumZ_pos.
  - split.
    + intros (x & Hx & Hp). apply conn_terms_in in Hx.
      destruct Hx as (e1 & e2 & H1 & H2 & <- & <- & Hr & ->).
      exists (e_r e1), (e_v e1), (e_v e2). rewrite <- Hr at 2. rewrite <- !ent_eta.
      repeat split; auto; nia.
    + intros (f & v & w & H1 & H2 & Hv & Hw). exists (Z.abs v * Z.abs w). split; [|nia].
      apply conn_terms_in. exists (f, i, v), (f, j, w). auto 10.
  - intros x Hx. apply conn_terms_in in Hx. destruct Hx as (e1 & e2 & _ & _ & _ & _ & _ & ->). nia.
Qed.

Lemma cn_terms_in fn cf n c x :
  In x (cn_terms fn cf n c) <->
  exists a e, In a fn /\ In e cf /\ e_r a = n /\ e_r e = e_c a /\ e_c e = c /\
              x = e_v a * Z.abs (e_v e).
Proof.
  unfold cn_terms. rewrite in_flat_map_filter.
  setoid_rewrite andb_true_iff. setoid_rewrite Z.eqb_eq.
  split; intros (a & e & H); exists a, e; tauto.
Qed.

Lemma cn_spec_any fn cf n c : (forall a, In a fn -> 0 <= e_v a) ->
  (cn_true fn cf n c = true <->
   exists f w v, In (n, f, w) fn /\ In (f, c, v) cf /\ w <> 0 /\ v <> 0).
Proof.
  intro Hfn. unfold cn_true, cn_val. rewrite Z.ltb_lt, sumZ_pos.
  - split.
    + intros (x & Hx & Hp). apply cn_terms_in in Hx.
      destruct Hx as (a & e & Ha & He & <- & Hr & <- & ->).
      exists (e_c a), (e_v a), (e_v e). rewrite <- Hr at 2. rewrite <- !ent_eta.
      repeat split; auto; nia.
    + intros (f & w & v & H1 & H2 & Hw & Hv). exists (w * Z.abs v). split.
      * apply cn_terms_in. exists (n, f, w), (f, c, v). auto 10.
      * specialize (Hfn _ H1). cbn in Hfn. nia.
  - intros x Hx. apply cn_terms_in in Hx. destruct Hx as (a & e & Ha & _ & _ & _ & _ & ->).
    specialize (Hfn _ Ha). nia.
Qed.

Lemma entry_nil r c : entry [] r c = 0.
Proof. reflexivity. Qed.

Lemma entry_cons e m r c :
  entry (e :: m) r c = (if (e_r e =? r) && (e_c e =? c) then e_v e else 0) + entry m r c.
Proof.
  unfold entry. cbn [filter]. destruct ((e_r e =? r) && (e_c e =? c)); reflexivity.
Qed.

Lemma entry_app m1 m2 r c : entry (m1 ++ m2) r c = entry m1 r c + entry m2 r c.
Proof.
  induction m1 as [|e m1 IH]; [reflexivity|].
  rewrite <- app_comm_cons, !entry_cons, IH. lia.
Qed.

Lemma entry_transpose cf c f : entry (map (fun e => (e_c e, e_r e, e_v e)) cf) c f = entry cf f c.
Proof.
  induction cf as [|e cf IH]; [reflexivity|].
  cbn [map]. rewrite !entry_cons, IH, (andb_comm (e_r e =? f)). reflexivity.
Qed.

Lemma entry_sum m r c :
  entry m r c = sumZ (map (fun e => if (e_r e =? r) && (e_c e =? c) then e_v e else 0) m).
Proof. induction m as [|e m IH]; [reflexivity|]. rewrite entry_cons, IH. reflexivity. Qed.

Lemma range_In d k : In k (range d) <-> 0 <= k < d.
Proof.
  unfold range. rewrite in_map_iff. split.
  - intros (i & <- & Hi). apply in_seq in Hi. lia.
  - intro H. exists (Z.to_nat k). rewrite in_seq. lia.
Qed.

Lemma range_count d k : 0 <= k < d -> count_occ Z.eq_dec (range d) k = 1%nat.
Proof.
  intro H. apply (proj1 (NoDup_count_occ' Z.eq_dec (range d))); [apply seqZ_NoDup|apply range_In, H].
Qed.

Lemma sumZ_indicator l k v :
  sumZ (map (fun q => if q =? k then v else 0) l) = v * Z.of_nat (count_occ Z.eq_dec l k).
Proof.
  induction l as [|q l IH]; [cbn; lia|]. cbn [map count_occ]. rewrite sumZ_cons, IH.
  destruct (Z.eq_dec q k), (Z.eqb_spec q k); try contradiction; lia.
Qed.

(* kron(A, I) index convention: block and component are recovered from an index *)
Lemma kron_index d a b q k : 0 <= q < d -> 0 <= k < d ->
  (a * d + q =? b * d + k) = (a =? b) && (q =? k).
Proof.
  intros Hq Hk. apply eq_true_iff_eq. rewrite andb_true_iff, !Z.eqb_eq. split.
  - intro H. assert (a = b) by nia. lia.
  - intros [-> ->]. reflexivity.
Qed.

Lemma entry_expand dim e c f k l : 0 <= k < dim -> 0 <= l < dim ->
  entry (map (fun q => (e_c e * dim + q, e_r e * dim + q, e_v e * 1)) (range dim))
        (c * dim + k) (f * dim + l)
  = if k =? l then (if (e_r e =? f) && (e_c e =? c) then e_v e else 0) else 0.
Proof.
  intros Hk Hl. rewrite entry_sum, map_map.
  rewrite (map_ext_in _ (fun q => if q =? k then
     (if (e_c e =? c) && ((e_r e =? f) && (k =? l)) then e_v e else 0) else 0)).
  - rewrite sumZ_indicator, range_count by exact Hk.
    destruct (e_c e =? c), (e_r e =? f), (k =? l); cbn [andb]; lia.
  - intros q Hq. apply range_In in Hq. cbn [e_r e_c e_v fst snd].
    rewrite !kron_index by lia.
    destruct (Z.eqb_spec q k) as [->|]; [|rewrite andb_false_r; reflexivity].
    rewrite andb_true_r, Z.mul_1_r. reflexivity.
Qed.

(* kron(cf, I_dim) transposed: block (k, l) is the transposed incidence when k = l, else zero *)
Lemma entry_kron dim cf c f k l : 0 <= k < dim -> 0 <= l < dim ->
  entry (flat_map (fun e => map (fun q => (e_c e * dim + q, e_r e * dim + q, e_v e * 1))
                                (range dim)) cf) (c * dim + k) (f * dim + l)
  = if k =? l then entry cf f c else 0.
Proof.
  intros Hk Hl. induction cf as [|e cf IH]; cbn [flat_map].
  - rewrite !entry_nil. destruct (k =? l); reflexivity.
  - rewrite entry_app, IH, entry_cons, entry_expand by assumption. destruct (k =? l); lia.
Qed.
