(* C35 — block matrices from sparse blocks. *)
From Coq Require Import List ZArith Bool Arith Lia.
Import ListNotations.
From PP Require Import Lib.Csr Model.C35 Proofs.C35 Proofs.C35_csr.

(* reference: the lines of the blocks one after the other, minor indices shifted by the
   total minor extent of the earlier blocks *)
Fixpoint bd_rows (off : nat) (bs : list csr) : list (list (nat * Z)) :=
  match bs with
  | [] => []
  | b :: r => map (map (shift_entry off)) (rows b) ++ bd_rows (off + nmin b) r
  end.

(* dense reference: block diagonal matrix of (rectangular) dense blocks, total width N *)
Fixpoint bd_dense (off N : nat) (bs : list csr) : list (list Z) :=
  match bs with
  | [] => []
  | b :: r => map (fun row => repeat 0%Z off ++ row ++ repeat 0%Z (N - off - nmin b)) (to_dense b)
              ++ bd_dense (off + nmin b) N r
  end.

Lemma blocks_ptr : forall bs io po, Forall wfP bs ->
  concat (map2 (fun m o => map (fun p => p + o) (tl (indptr m))) bs
               (po :: cumsumN po (map (fun m => last (indptr m) 0) bs)))
  = cumsumN po (map (@length _) (bd_rows io bs)).
Proof.
  induction bs as [|b r IH]; intros io po HW; [reflexivity|].
  inversion HW as [|b' r' W Wr]; subst b' r'.
  cbn [map cumsumN map2 concat bd_rows]. rewrite map_app, cumsumN_app, map_length_map.
  rewrite (wf_indptr b W), last_cumsumN. cbn [tl Nat.add]. rewrite cumsumN_shift.
  f_equal. apply IH. exact Wr.
Qed.

Lemma blocks_entries : forall bs io, Forall wfP bs ->
  combine (concat (map2 (fun m o => map (fun j => j + o) (indices m)) bs (io :: cumsumN io (map nmin bs))))
          (concat (map data bs))
  = concat (bd_rows io bs).
Proof.
  induction bs as [|b r IH]; intros io HW; [reflexivity|].
  inversion HW as [|b' r' W Wr]; subst b' r'.
  cbn [map cumsumN map2 concat bd_rows].
  rewrite combine_app' by (rewrite map_length; symmetry; apply (wf_data b W)).
  rewrite shifted_entries. fold (entries b).
  rewrite (wf_entries b W), concat_map, concat_app, (IH _ Wr). reflexivity.
Qed.

Lemma shift_entry_0 : forall r, map (shift_entry 0) r = r.
Proof.
  intros r. rewrite <- (map_id r) at 2. apply map_ext. intros [j v].
  unfold shift_entry. cbn [fst snd]. rewrite Nat.add_0_r. reflexivity.
Qed.

Lemma bd_dense_rows : forall bs off N, Forall wfP bs -> off + sum_nat (map nmin bs) = N ->
  map (dense_row N) (bd_rows off bs) = bd_dense off N bs.
Proof.
  induction bs as [|b r IH]; intros off N HW HN; [reflexivity|].
  inversion HW as [|b' r' W Wr]; subst b' r'. cbn [map sum_nat fold_right] in HN. fold (sum_nat (map nmin r)) in HN.
  cbn [bd_rows bd_dense]. rewrite map_app. f_equal; [|apply IH; [exact Wr|lia]].
  unfold to_dense. rewrite !map_map. apply map_ext_in. intros row Hr.
  replace N with (off + (nmin b + (N - off - nmin b))) at 1 by lia.
  rewrite dense_row_pad_l, dense_row_pad_r; [reflexivity|exact (rows_minor b row W Hr)].
Qed.
