(* C05 — projection columns of pairwise distinct variables, additive writes onto arbitrary
   stored values. *)
From Coq Require Import List ZArith Bool Arith Lia Sorted Permutation.
Import ListNotations.
From PP Require Import Model.C05 Proofs.C05_lists Proofs.C05.

(* for pairwise distinct registered variables the columns are strictly increasing and are
   the blocks of the selected variables in global (block) order: exactly the positions
   set/get_variable_values use *)
Lemma projection_distinct g s r :
  Inv g s -> truthy r = true -> NoDup (parse s r) ->
  (forall id, In id (parse s r) -> In id (block_ids s)) ->
  projection_to s r =
    OProjM (concat (map (block_of s) (selected_ids s r))) (num_dofs s) /\
  StronglySorted lt (concat (map (block_of s) (selected_ids s r))) /\
  length (concat (map (block_of s) (selected_ids s r))) = need s r.
Proof.
  intros HI Ht Hnd Hreg.
  assert (Hsorted : StronglySorted lt (concat (map (block_of s) (selected_ids s r)))).
  { apply SS_concat_filter. rewrite (partition_cover g s HI). apply SS_seq. }
  repeat split; auto.
  destruct (projection_ok g s r HI Ht Hreg) as (cols & -> & Hs & Hp & _). f_equal.
  (* both lists are sorted and hold the blocks of the same ids *)
  apply sorted_perm_unique; auto using SS_lt_le.
  rewrite Hp. apply Permutation_concat_map, NoDup_Permutation; auto.
  - apply NoDup_filter, (layout g s HI).
  - intro id. unfold selected_ids. rewrite filter_In, memb_In. split; [auto|tauto].
Qed.

Definition values_present (g : mdgrid) (s : st) (r : refs) (w : wloc) : Prop :=
  forall v l, In v (vars s) -> memb (vid v) (parse s r) = true -> In l (wlocs w) ->
    exists a, slookup (store s) (l, vname v, vdom v) = Some a /\ length a = ndofv g v.

Lemma set_additive_any g s r xs w :
  Inv2 g s -> length xs = need s r -> values_present g s r w ->
  exists s', set_values s r xs w true = (s', ODone) /\
    vars s' = vars s /\ numbers s' = numbers s /\ sizes s' = sizes s /\
    forall l, In l (wlocs w) -> exists old,
      get_values s r l = OVals old /\ length old = need s r /\
      get_values s' r l = OVals (vadd old xs).
Proof.
  intros HI Hx Hpres.
  destruct (add_ids g s (parse s r) xs w HI Hx) as (sto' & E & G).
  { intros v l Hv Hl. apply filter_In in Hv. destruct Hv as [Hv Em].
    apply in_order in Hv. apply Hpres; tauto. }
  exists (with_store s sto'). unfold set_values, get_values. rewrite E, Nat.eqb_refl.
  repeat split; auto. intros l Hl. destruct (G l Hl) as (old & -> & Lo & Gn).
  exists old. rewrite parse_with_store. cbn [with_store numbers]. rewrite Gn, <- Hx. auto.
Qed.
