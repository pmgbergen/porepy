(* C28 — proofs about the 2-D model (exact-arithmetic correctness away from the
   tolerance bands) and about the 3-D model (refutations + soundness of a returned point).
   The geometry is done with the parameter of a point on a line ([at_par]): a point of a
   segment between two points of a line is a parameter between theirs. *)
From Coq Require Import List QArith Qabs Bool ZArith Lia Lqa.
Import ListNotations.
From PP Require Import Model.C28.
Open Scope Q_scope.

Lemma qleb_false : forall x y, Qle_bool x y = false <-> y < x.
Proof.
  intros x y. rewrite <- not_true_iff_false, Qle_bool_iff.
  split; [apply Qnot_le_lt|apply Qlt_not_le].
Qed.

Lemma qltb_true : forall x y, qltb x y = true <-> x < y.
Proof. intros x y. unfold qltb. rewrite negb_true_iff. apply qleb_false. Qed.

Lemma qltb_false : forall x y, qltb x y = false <-> y <= x.
Proof. intros x y. unfold qltb. rewrite negb_false_iff. apply Qle_bool_iff. Qed.

Lemma qeqb_false : forall x y, Qeq_bool x y = false <-> ~ x == y.
Proof. intros x y. rewrite <- not_true_iff_false, Qeq_bool_iff. reflexivity. Qed.

Lemma qmax_cases : forall x y, (x < y /\ qmax x y = y) \/ (y <= x /\ qmax x y = x).
Proof.
  intros x y. unfold qmax.
  destruct (qltb x y) eqn:E; [left; rewrite <- qltb_true|right; rewrite <- qltb_false]; auto.
Qed.

Lemma qmin_cases : forall x y, (y < x /\ qmin x y = y) \/ (x <= y /\ qmin x y = x).
Proof.
  intros x y. unfold qmin.
  destruct (qltb y x) eqn:E; [left; rewrite <- qltb_true|right; rewrite <- qltb_false]; auto.
Qed.

Lemma qmax_le_iff : forall x y t, qmax x y <= t <-> x <= t /\ y <= t.
Proof. intros x y t. destruct (qmax_cases x y) as [[L ->]|[L ->]]; lra. Qed.

Lemma le_qmax_iff : forall x y t, t <= qmax x y <-> t <= x \/ t <= y.
Proof. intros x y t. destruct (qmax_cases x y) as [[L ->]|[L ->]]; lra. Qed.

Lemma qmin_le_iff : forall x y t, qmin x y <= t <-> x <= t \/ y <= t.
Proof. intros x y t. destruct (qmin_cases x y) as [[L ->]|[L ->]]; lra. Qed.

Lemma le_qmin_iff : forall x y t, t <= qmin x y <-> t <= x /\ t <= y.
Proof. intros x y t. destruct (qmin_cases x y) as [[L ->]|[L ->]]; lra. Qed.

Lemma tol8_pos : 0 < tol8.
Proof. reflexivity. Qed.

Lemma sq_nonneg : forall x : Q, 0 <= x * x.
Proof. intro x. nra. Qed.

Definition on_seg (p a b : pt2) : Prop :=
  exists t, 0 <= t /\ t <= 1 /\
            fst p == fst a + t * (fst b - fst a) /\ snd p == snd a + t * (snd b - snd a).

Definition common (p a b c d : pt2) : Prop := on_seg p a b /\ on_seg p c d.

Definition peq (p q : pt2) : Prop := fst p == fst q /\ snd p == snd q.

(* the result describes exactly the set  seg(a,b) ∩ seg(c,d)  and is not an error *)
Definition correct2 (a b c d : pt2) (r : res2) : Prop :=
  match r with
  | R2None => forall p, ~ common p a b c d
  | R2Pt q => forall p, common p a b c d <-> peq p q
  | R2Seg q1 q2 => ~ peq q1 q2 /\ forall p, common p a b c d <-> on_seg p q1 q2
  | R2Err _ => False
  end.

Lemma peq_refl : forall p, peq p p.
Proof. intro p. split; reflexivity. Qed.

Lemma peq_sym : forall p q, peq p q -> peq q p.
Proof. intros p q [H1 H2]. split; symmetry; assumption. Qed.

Lemma peq_trans : forall p q r, peq p q -> peq q r -> peq p r.
Proof. intros p q r [H1 H2] [H3 H4]. split; [rewrite H1|rewrite H2]; assumption. Qed.

(* q = s + t (e - s); [on_seg q s e] says: for some t in [0, 1] *)
Definition at_par (s e q : pt2) (t : Q) : Prop :=
  fst q == fst s + t * (fst e - fst s) /\ snd q == snd s + t * (snd e - snd s).

Lemma at_par_0 : forall s e, at_par s e s 0.
Proof. intros s e. split; ring. Qed.

Lemma at_par_1 : forall s e, at_par s e e 1.
Proof. intros s e. split; ring. Qed.

Lemma at_par_point : forall s e q q' t, peq q q' -> at_par s e q t -> at_par s e q' t.
Proof. intros s e q q' t [Q1 Q2] [Hx Hy]. split; [rewrite <- Q1|rewrite <- Q2]; assumption. Qed.

Lemma at_par_eq : forall s e p t t', t == t' -> at_par s e p t -> at_par s e p t'.
Proof. intros s e p t t' E [Hx Hy]. split; [rewrite Hx|rewrite Hy]; rewrite E; reflexivity. Qed.

Lemma at_par_peq : forall s e a b t t', at_par s e a t -> at_par s e b t' -> t == t' -> peq a b.
Proof.
  intros s e a b t t' [Ax Ay] [Bx By] E.
  split; [rewrite Ax, Bx|rewrite Ay, By]; rewrite E; reflexivity.
Qed.

Lemma at_par_inj : forall s e q t t', ~ peq s e -> at_par s e q t -> at_par s e q t' -> t == t'.
Proof.
  intros s e q t t' N [Hx Hy] [Hx' Hy'].
  assert (Ex : (t - t') * (fst e - fst s) == 0) by lra.
  assert (Ey : (t - t') * (snd e - snd s) == 0) by lra.
  destruct (Qmult_integral _ _ Ex) as [E|E]; [lra|].
  destruct (Qmult_integral _ _ Ey) as [E'|E']; [lra|].
  exfalso. apply N. split; lra.
Qed.

Lemma on_seg_start : forall a b, on_seg a a b.
Proof. intros a b. exists 0. split; [lra|]. split; [lra|apply at_par_0]. Qed.

Lemma on_seg_end : forall a b, on_seg b a b.
Proof. intros a b. exists 1. split; [lra|]. split; [lra|apply at_par_1]. Qed.

Lemma on_seg_rev : forall p a b, on_seg p a b <-> on_seg p b a.
Proof.
  assert (H : forall p a b, on_seg p a b -> on_seg p b a).
  { intros p a b [t [H0 [H1 [Hx Hy]]]]. exists (1 - t).
    split; [lra|]. split; [lra|]. split; [rewrite Hx | rewrite Hy]; ring. }
  intros p a b. split; apply H.
Qed.

Lemma on_seg_peq : forall p p' a a' b b',
  peq p p' -> peq a a' -> peq b b' -> on_seg p a b -> on_seg p' a' b'.
Proof.
  intros p p' a a' b b' [P1 P2] [A1 A2] [B1 B2] [t [H0 [H1 [Hx Hy]]]].
  exists t. split; [exact H0|]. split; [exact H1|].
  rewrite <- P1, <- P2, <- A1, <- A2, <- B1, <- B2. split; assumption.
Qed.

Lemma on_seg_ordered : forall s e a b p ta tb,
  at_par s e a ta -> at_par s e b tb -> ta <= tb ->
  (on_seg p a b <-> exists t, at_par s e p t /\ ta <= t /\ t <= tb).
Proof.
  intros s e a b p ta tb [Ax Ay] [Bx By] L. split.
  - intros [u [U0 [U1 [Px Py]]]]. exists (ta + u * (tb - ta)). split; [|nra].
    split; [rewrite Px, Ax, Bx|rewrite Py, Ay, By]; ring.
  - intros [t [[Px Py] [L1 L2]]]. destruct (Qeq_dec ta tb) as [E|E].
    + exists 0. split; [lra|]. split; [lra|].
      assert (Et : t == ta) by lra.
      split; [rewrite Px, Ax|rewrite Py, Ay]; rewrite Et; ring.
    + exists ((t - ta) / (tb - ta)).
      split; [apply Qle_shift_div_l; lra|]. split; [apply Qle_shift_div_r; lra|].
      split; [rewrite Px, Ax, Bx|rewrite Py, Ay, By]; field; lra.
Qed.

Lemma on_seg_line : forall s e a b p ta tb,
  at_par s e a ta -> at_par s e b tb ->
  (on_seg p a b <->
   exists t, at_par s e p t /\ ((ta <= t /\ t <= tb) \/ (tb <= t /\ t <= ta))).
Proof.
  intros s e a b p ta tb A B. destruct (Qlt_le_dec tb ta) as [L|L];
    [rewrite on_seg_rev, (on_seg_ordered s e b a p tb ta B A) by lra
    |rewrite (on_seg_ordered s e a b p ta tb A B L)];
    split; intros (t & P & H); exists t; (split; [exact P|lra]).
Qed.

Lemma on_seg_convex : forall p a b s e,
  on_seg a s e -> on_seg b s e -> on_seg p a b -> on_seg p s e.
Proof.
  intros p a b s e (ta & A0 & A1 & A) (tb & B0 & B1 & B) O.
  apply (on_seg_line s e a b p ta tb A B) in O. destruct O as (t & P & H).
  exists t. split; [lra|]. split; [lra|exact P].
Qed.

(* segments_2d with every tolerance test replaced by its exact counterpart *)
Definition seg2d_x (s1 e1 s2 e2 : pt2) : res2 :=
  let d1x := fst e1 - fst s1 in let d1y := snd e1 - snd s1 in
  let d2x := fst e2 - fst s2 in let d2y := snd e2 - snd s2 in
  let dsx := fst s2 - fst s1 in let dsy := snd s2 - snd s1 in
  let discr := d1x * (- d2y) - d1y * (- d2x) in
  if Qeq_bool discr 0 then
    let scl := dsx * d1y - dsy * d1x in
    if Qeq_bool scl 0 then
      let tt := if Qeq_bool d1x 0
                then ((snd s2 - snd s1) / d1y, (snd e2 - snd s1) / d1y)
                else ((fst s2 - fst s1) / d1x, (fst e2 - fst s1) / d1x) in
      let ts := fst tt in let te := snd tt in
      if qltb ts 0 && qltb te 0 then R2None
      else if qltb 1 ts && qltb 1 te then R2None
      else
        let tmin := qmax (qmin ts te) 0 in
        let tmax := qmin (qmax ts te) 1 in
        if Qle_bool tmax tmin then
          R2Pt (fst s1 + d1x * tmin, snd s1 + d1y * tmin)
        else
          R2Seg (fst s1 + d1x * tmin, snd s1 + d1y * tmin)
                (fst s1 + d1x * tmax, snd s1 + d1y * tmax)
    else R2None
  else
    let t1 := (dsx * (- d2y) - dsy * (- d2x)) / discr in
    let t2 := (d1x * dsy - d1y * dsx) / discr in
    if Qle_bool 0 t1 && Qle_bool t1 1 && Qle_bool 0 t2 && Qle_bool t2 1
    then R2Pt (fst s1 + t1 * d1x, snd s1 + t1 * d1y)
    else R2None.

(* "away from the tolerance bands": every tolerance test the model evaluates on this
   input gives the same answer as the exact test.  Decidable, so it can be evaluated. *)
Definition separated (tol : Q) (s1 e1 s2 e2 : pt2) : bool :=
  let d1x := fst e1 - fst s1 in let d1y := snd e1 - snd s1 in
  let d2x := fst e2 - fst s2 in let d2y := snd e2 - snd s2 in
  let n1 := d1x * d1x + d1y * d1y in
  let n2 := d2x * d2x + d2y * d2y in
  let dsx := fst s2 - fst s1 in let dsy := snd s2 - snd s1 in
  let discr := d1x * (- d2y) - d1y * (- d2x) in
  Bool.eqb (qltb (discr * discr) (tol * tol * (n1 * n2))) (Qeq_bool discr 0) &&
  if Qeq_bool discr 0 then
    let scl := dsx * d1y - dsy * d1x in
    Bool.eqb (qltb (scl * scl) (tol * tol * qmax n1 n2)) (Qeq_bool scl 0) &&
    if Qeq_bool scl 0 then
      Bool.eqb (qltb (tol * tol * n1) (d1x * d1x)) (negb (Qeq_bool d1x 0)) &&
      implb (Qeq_bool d1x 0) (qltb (tol * tol * n2) (d1y * d1y)) &&
      let tt := if Qeq_bool d1x 0
                then ((snd s2 - snd s1) / d1y, (snd e2 - snd s1) / d1y)
                else ((fst s2 - fst s1) / d1x, (fst e2 - fst s1) / d1x) in
      let ts := fst tt in let te := snd tt in
      let tmin := qmax (qmin ts te) 0 in
      let tmax := qmin (qmax ts te) 1 in
      Bool.eqb (qltb (tmax - tmin) tol) (Qle_bool tmax tmin)
    else true
  else
    let t1 := (dsx * (- d2y) - dsy * (- d2x)) / discr in
    let t2 := (d1x * dsy - d1y * dsx) / discr in
    Bool.eqb (Qle_bool (- tol) t1) (Qle_bool 0 t1) &&
    Bool.eqb (Qle_bool t1 (1 + tol)) (Qle_bool t1 1) &&
    Bool.eqb (Qle_bool (- tol) t2) (Qle_bool 0 t2) &&
    Bool.eqb (Qle_bool t2 (1 + tol)) (Qle_bool t2 1).

(* Cramer's rule, written as the code writes it: the system
   s (d1x, d1y) - u (d2x, d2y) = (dsx, dsy)  has exactly one solution *)
Lemma cramer : forall d1x d1y d2x d2y dsx dsy s u : Q,
  ~ d1x * (- d2y) - d1y * (- d2x) == 0 ->
  (s * d1x - u * d2x == dsx /\ s * d1y - u * d2y == dsy <->
   s == (dsx * (- d2y) - dsy * (- d2x)) / (d1x * (- d2y) - d1y * (- d2x)) /\
   u == (d1x * dsy - d1y * dsx) / (d1x * (- d2y) - d1y * (- d2x))).
Proof.
  intros d1x d1y d2x d2y dsx dsy s u Hd. split.
  - intros [Hx Hy]. split; rewrite <- Hx, <- Hy; field; exact Hd.
  - intros [Es Eu]. rewrite Es, Eu. split; field; exact Hd.
Qed.

Lemma close1_refl : forall tol x y, 0 <= tol -> x == y -> close1 tol x y = true.
Proof.
  intros tol x y Ht E. unfold close1. apply Qle_bool_iff.
  assert (Z0 : x - y == 0) by lra.
  rewrite Z0. change (Qabs 0) with 0.
  assert (A := Qabs_nonneg y).
  assert (0 <= tol * Qabs y) by (apply Qmult_le_0_compat; assumption).
  unfold np_atol. lra.
Qed.

Lemma separated_exact : forall tol a b c d,
  0 <= tol -> separated tol a b c d = true -> seg2d tol a b c d = seg2d_x a b c d.
Proof.
  intros tol [ax ay] [bx by_] [cx cy] [dx dy] Ht.
  unfold separated, seg2d, seg2d_x, colinear_params. cbn [fst snd]. cbv zeta.
  set (d1x := bx - ax). set (d1y := by_ - ay). set (d2x := dx - cx). set (d2y := dy - cy).
  set (dsx := cx - ax). set (dsy := cy - ay).
  set (discr := d1x * - d2y - d1y * - d2x).
  intro S.
  apply andb_prop in S. destruct S as [S1 S]. rewrite (eqb_prop _ _ S1).
  destruct (Qeq_bool discr 0) eqn:ED.
  - apply andb_prop in S. destruct S as [S2 S]. rewrite (eqb_prop _ _ S2).
    destruct (Qeq_bool (dsx * d1y - dsy * d1x) 0); [|reflexivity].
    apply andb_prop in S. destruct S as [S S5].
    apply andb_prop in S. destruct S as [S3 S4]. rewrite (eqb_prop _ _ S3).
    destruct (Qeq_bool d1x 0); cbn [negb implb fst snd] in *;
      [rewrite S4|]; rewrite (eqb_prop _ _ S5); reflexivity.
  - apply qeqb_false in ED.
    set (t1 := (dsx * - d2y - dsy * - d2x) / discr) in *.
    set (t2 := (d1x * dsy - d1y * dsx) / discr) in *.
    destruct (proj2 (cramer d1x d1y d2x d2y dsx dsy t1 t2 ED)) as [Cx Cy]; [split; reflexivity|].
    rewrite (close1_refl tol (ax + t1 * d1x) (cx + t2 * d2x) Ht) by (unfold dsx in Cx; lra).
    rewrite (close1_refl tol (ay + t1 * d1y) (cy + t2 * d2y) Ht) by (unfold dsy in Cy; lra).
    cbn [andb negb].
    apply andb_prop in S. destruct S as [S S9].
    apply andb_prop in S. destruct S as [S S8].
    apply andb_prop in S. destruct S as [S6 S7].
    rewrite (eqb_prop _ _ S6), (eqb_prop _ _ S7), (eqb_prop _ _ S8), (eqb_prop _ _ S9).
    reflexivity.
Qed.

Definition discr2 (a b c d : pt2) : Q :=
  (fst b - fst a) * - (snd d - snd c) - (snd b - snd a) * - (fst d - fst c).

(* zero iff c lies on the line through a and b *)
Definition scl2 (a b c : pt2) : Q :=
  (fst c - fst a) * (snd b - snd a) - (snd c - snd a) * (fst b - fst a).

(* the parameter of a point q of the line through a and b, as the code computes it *)
Definition line_t (a b q : pt2) : Q :=
  if Qeq_bool (fst b - fst a) 0 then (snd q - snd a) / (snd b - snd a)
  else (fst q - fst a) / (fst b - fst a).

(* the collinear branch, from the parameters of c and d on the line through a and b *)
Definition overlap_x (a b : pt2) (ts te : Q) : res2 :=
  let at_ t := (fst a + (fst b - fst a) * t, snd a + (snd b - snd a) * t) in
  if qltb ts 0 && qltb te 0 then R2None
  else if qltb 1 ts && qltb 1 te then R2None
  else
    let tmin := qmax (qmin ts te) 0 in
    let tmax := qmin (qmax ts te) 1 in
    if Qle_bool tmax tmin then R2Pt (at_ tmin) else R2Seg (at_ tmin) (at_ tmax).

Definition cramer_x (a b c d : pt2) : res2 :=
  let d1x := fst b - fst a in let d1y := snd b - snd a in
  let d2x := fst d - fst c in let d2y := snd d - snd c in
  let dsx := fst c - fst a in let dsy := snd c - snd a in
  let discr := d1x * (- d2y) - d1y * (- d2x) in
  let t1 := (dsx * (- d2y) - dsy * (- d2x)) / discr in
  let t2 := (d1x * dsy - d1y * dsx) / discr in
  if Qle_bool 0 t1 && Qle_bool t1 1 && Qle_bool 0 t2 && Qle_bool t2 1
  then R2Pt (fst a + t1 * d1x, snd a + t1 * d1y)
  else R2None.

Lemma seg2d_x_eq : forall a b c d,
  seg2d_x a b c d =
  if Qeq_bool (discr2 a b c d) 0 then
    if Qeq_bool (scl2 a b c) 0 then overlap_x a b (line_t a b c) (line_t a b d) else R2None
  else cramer_x a b c d.
Proof.
  intros a b c d. unfold seg2d_x, overlap_x, line_t.
  destruct (Qeq_bool (fst b - fst a) 0); reflexivity.
Qed.

Lemma line_t_par : forall a b q, ~ peq a b -> scl2 a b q == 0 -> at_par a b q (line_t a b q).
Proof.
  intros a b q N C. unfold scl2 in C. unfold line_t, at_par.
  destruct (Qeq_bool (fst b - fst a) 0) eqn:EX.
  - apply Qeq_bool_iff in EX.
    assert (NY : ~ snd b - snd a == 0) by (intro E; apply N; split; lra).
    split; [|field; exact NY]. rewrite EX in *.
    assert (E : (fst q - fst a) * (snd b - snd a) == 0) by lra.
    destruct (Qmult_integral _ _ E); [lra|contradiction].
  - apply qeqb_false in EX. split; [field; exact EX|].
    field_simplify_eq; [lra|exact EX].
Qed.

(* along the line through c and d the signed area with respect to (a, b) grows with the
   discriminant *)
Lemma scl2_on_line : forall a b c d p u,
  at_par c d p u -> scl2 a b p == scl2 a b c + u * discr2 a b c d.
Proof. intros a b c d p u [Hx Hy]. unfold scl2, discr2. rewrite Hx, Hy. ring. Qed.

(* lines that are parallel and meet coincide *)
Lemma parallel_meet : forall a b c d p s u,
  discr2 a b c d == 0 -> at_par a b p s -> at_par c d p u -> scl2 a b c == 0.
Proof.
  intros a b c d p s u D [Hx Hy] Hu. pose proof (scl2_on_line a b c d p u Hu) as E.
  rewrite D in E. assert (Z : scl2 a b p == 0) by (unfold scl2; rewrite Hx, Hy; ring). lra.
Qed.

Lemma collinear_end : forall a b c d,
  discr2 a b c d == 0 -> scl2 a b c == 0 -> scl2 a b d == 0.
Proof.
  intros a b c d D C. rewrite (scl2_on_line a b c d d 1 (at_par_1 c d)), D, C. reflexivity.
Qed.

Lemma at_par_at : forall a b t,
  at_par a b (fst a + (fst b - fst a) * t, snd a + (snd b - snd a) * t) t.
Proof. intros a b t. split; cbn [fst snd]; ring. Qed.

Lemma overlap_x_correct : forall a b c d ts te,
  ~ peq a b -> at_par a b c ts -> at_par a b d te -> correct2 a b c d (overlap_x a b ts te).
Proof.
  intros a b c d ts te N Hc Hd.
  (* the common points are those with a parameter in [tmin, tmax] *)
  assert (K : forall p, common p a b c d <->
                exists t, at_par a b p t /\ qmax (qmin ts te) 0 <= t /\ t <= qmin (qmax ts te) 1).
  { intro p. unfold common. rewrite (on_seg_line a b c d p ts te Hc Hd). split.
    - intros [(s & S0 & S1 & Hs) (t & Ht & B)]. exists t. split; [exact Ht|].
      pose proof (at_par_inj a b p s t N Hs Ht) as E.
      rewrite qmax_le_iff, qmin_le_iff, le_qmin_iff, le_qmax_iff. lra.
    - intros (t & Ht & B). rewrite qmax_le_iff, qmin_le_iff, le_qmin_iff, le_qmax_iff in B.
      split; [exists t; split; [lra|]; split; [lra|exact Ht]|exists t; split; [exact Ht|lra]]. }
  unfold overlap_x. cbv zeta.
  set (tmin := qmax (qmin ts te) 0) in *. set (tmax := qmin (qmax ts te) 1) in *.
  pose proof (at_par_at a b tmin) as A1. pose proof (at_par_at a b tmax) as A2.
  destruct (qltb ts 0 && qltb te 0) eqn:N1.
  { rewrite andb_true_iff, !qltb_true in N1. intros p Hp. apply K in Hp.
    destruct Hp as (t & _ & B). unfold tmin, tmax in B.
    rewrite qmax_le_iff, le_qmin_iff, le_qmax_iff in B. lra. }
  destruct (qltb 1 ts && qltb 1 te) eqn:N2.
  { rewrite andb_true_iff, !qltb_true in N2. intros p Hp. apply K in Hp.
    destruct Hp as (t & _ & B). unfold tmin, tmax in B.
    rewrite qmax_le_iff, le_qmin_iff, qmin_le_iff in B. lra. }
  assert (Hmm : tmin <= tmax).
  { rewrite andb_false_iff, !qltb_false in N1, N2. unfold tmin, tmax.
    rewrite qmax_le_iff, !le_qmin_iff, !qmin_le_iff, !le_qmax_iff. lra. }
  destruct (Qle_bool tmax tmin) eqn:EP.
  - apply Qle_bool_iff in EP. intro p. rewrite K. split.
    + intros (t & Ht & B). apply (at_par_peq a b _ _ t tmin Ht A1). lra.
    + intro P. exists tmin. split; [|lra]. apply (at_par_point a b _ p tmin (peq_sym _ _ P) A1).
  - apply qleb_false in EP. split.
    + intro P. assert (tmin == tmax); [|lra].
      apply (at_par_inj a b _ tmin tmax N A1 (at_par_point a b _ _ tmax (peq_sym _ _ P) A2)).
    + intro p. rewrite K. symmetry. apply (on_seg_ordered a b _ _ p tmin tmax A1 A2 Hmm).
Qed.

Lemma cramer_x_correct : forall a b c d,
  ~ discr2 a b c d == 0 -> correct2 a b c d (cramer_x a b c d).
Proof.
  intros a b c d ND. unfold discr2 in ND. unfold cramer_x. cbv zeta.
  set (d1x := fst b - fst a) in *. set (d1y := snd b - snd a) in *.
  set (d2x := fst d - fst c) in *. set (d2y := snd d - snd c) in *.
  pose proof (fun s u => cramer d1x d1y d2x d2y (fst c - fst a) (snd c - snd a) s u ND) as CR.
  set (D := d1x * - d2y - d1y * - d2x) in *.
  set (t1 := ((fst c - fst a) * - d2y - (snd c - snd a) * - d2x) / D) in *.
  set (t2 := (d1x * (snd c - snd a) - d1y * (fst c - fst a)) / D) in *.
  (* a point of both lines has the parameters t1, t2 *)
  assert (M : forall p s u, at_par a b p s -> at_par c d p u -> s == t1 /\ u == t2).
  { intros p s u [Hx Hy] [Hx' Hy']. apply CR; unfold d1x, d1y, d2x, d2y; lra. }
  assert (A1 : at_par a b (fst a + t1 * d1x, snd a + t1 * d1y) t1) by (split; reflexivity).
  assert (A2 : at_par c d (fst a + t1 * d1x, snd a + t1 * d1y) t2).
  { destruct (proj2 (CR t1 t2)) as [Cx Cy]; [split; reflexivity|].
    split; cbn [fst snd]; fold d2x d2y; lra. }
  destruct (Qle_bool 0 t1 && Qle_bool t1 1 && Qle_bool 0 t2 && Qle_bool t2 1) eqn:ER.
  - rewrite !andb_true_iff, !Qle_bool_iff in ER. intro p. split.
    + intros [(s & _ & _ & Hs) (u & _ & _ & Hu)]. destruct (M p s u Hs Hu) as [Es _].
      apply (at_par_peq a b _ _ s t1 Hs A1 Es).
    + intro P. apply peq_sym in P. split;
        [exists t1|exists t2]; (split; [lra|]); (split; [lra|]);
        [apply (at_par_point _ _ _ _ _ P A1)|apply (at_par_point _ _ _ _ _ P A2)].
  - intros p [(s & S0 & S1 & Hs) (u & U0 & U1 & Hu)]. destruct (M p s u Hs Hu) as [Es Eu].
    rewrite <- not_true_iff_false, !andb_true_iff, !Qle_bool_iff in ER. lra.
Qed.

Lemma seg2d_x_correct : forall a b c d, ~ peq a b -> correct2 a b c d (seg2d_x a b c d).
Proof.
  intros a b c d N. rewrite seg2d_x_eq.
  destruct (Qeq_bool (discr2 a b c d) 0) eqn:ED.
  - apply Qeq_bool_iff in ED. destruct (Qeq_bool (scl2 a b c) 0) eqn:EC.
    + apply Qeq_bool_iff in EC.
      apply overlap_x_correct; [exact N| |]; apply line_t_par; eauto using collinear_end.
    + apply qeqb_false in EC. intros p [(s & _ & _ & Hs) (u & _ & _ & Hu)].
      apply EC, (parallel_meet a b c d p s u ED Hs Hu).
  - apply qeqb_false in ED. apply cramer_x_correct, ED.
Qed.

Lemma seg2d_correct_separated : forall tol a b c d,
  0 <= tol -> ~ peq a b -> ~ peq c d -> separated tol a b c d = true ->
  correct2 a b c d (seg2d tol a b c d).
Proof.
  intros tol a b c d Ht Hab _ S. rewrite (separated_exact tol a b c d Ht S).
  apply seg2d_x_correct, Hab.
Qed.

Definition is_endpoint (q a b c d : pt2) : Prop := peq q a \/ peq q b \/ peq q c \/ peq q d.

Lemma is_endpoint_swap : forall q a b c d, is_endpoint q a b c d -> is_endpoint q c d a b.
Proof. unfold is_endpoint. tauto. Qed.

Lemma overlap_x_ends : forall a b c d ts te q1 q2,
  at_par a b c ts -> at_par a b d te -> overlap_x a b ts te = R2Seg q1 q2 ->
  is_endpoint q1 a b c d /\ is_endpoint q2 a b c d.
Proof.
  intros a b c d ts te q1 q2 Hc Hd. unfold overlap_x. cbv zeta.
  do 2 (destruct (_ && _); [discriminate|]). destruct (Qle_bool _ _); [discriminate|].
  intro H. injection H as <- <-.
  assert (K : forall t, t == 0 \/ t == 1 \/ t == ts \/ t == te ->
              is_endpoint (fst a + (fst b - fst a) * t, snd a + (snd b - snd a) * t) a b c d).
  { intros t H. pose proof (at_par_at a b t) as A. unfold is_endpoint.
    destruct H as [E|[E|[E|E]]]; [left|right; left|right; right; left|right; right; right];
      (eapply at_par_peq; [exact A| |exact E]); auto using at_par_0, at_par_1. }
  split; apply K.
  - destruct (qmax_cases (qmin ts te) 0) as [[_ ->]|[_ ->]]; [left; reflexivity|].
    destruct (qmin_cases ts te) as [[_ ->]|[_ ->]]; right; right; [right|left]; reflexivity.
  - destruct (qmin_cases (qmax ts te) 1) as [[_ ->]|[_ ->]]; [right; left; reflexivity|].
    destruct (qmax_cases ts te) as [[_ ->]|[_ ->]]; right; right; [right|left]; reflexivity.
Qed.

Lemma seg_ends : forall tol a b c d q1 q2,
  0 <= tol -> ~ peq a b -> separated tol a b c d = true ->
  seg2d tol a b c d = R2Seg q1 q2 ->
  is_endpoint q1 a b c d /\ is_endpoint q2 a b c d.
Proof.
  intros tol a b c d q1 q2 T N S. rewrite (separated_exact tol a b c d T S), seg2d_x_eq.
  destruct (Qeq_bool (discr2 a b c d) 0) eqn:ED;
    [|unfold cramer_x; cbv zeta; destruct (_ && _); discriminate].
  destruct (Qeq_bool (scl2 a b c) 0) eqn:EC; [|discriminate].
  apply Qeq_bool_iff in ED, EC.
  apply overlap_x_ends; apply line_t_par; eauto using collinear_end.
Qed.

Definition isint (q : Q) : Prop := exists z : Z, q == inject_Z z.

Lemma isint_eq : forall x y, x == y -> isint x -> isint y.
Proof. intros x y E [z H]. exists z. rewrite <- E. exact H. Qed.
Lemma isint_inj : forall z, isint (inject_Z z).
Proof. intro z. exists z. reflexivity. Qed.
Lemma isint_add : forall x y, isint x -> isint y -> isint (x + y).
Proof. intros x y [a Ha] [b Hb]. exists (a + b)%Z. rewrite Ha, Hb, inject_Z_plus. reflexivity. Qed.
Lemma isint_opp : forall x, isint x -> isint (- x).
Proof. intros x [a Ha]. exists (- a)%Z. rewrite Ha, inject_Z_opp. reflexivity. Qed.
Lemma isint_sub : forall x y, isint x -> isint y -> isint (x - y).
Proof. intros x y Hx Hy. apply isint_add; [exact Hx|apply isint_opp; exact Hy]. Qed.
Lemma isint_mul : forall x y, isint x -> isint y -> isint (x * y).
Proof. intros x y [a Ha] [b Hb]. exists (a * b)%Z. rewrite Ha, Hb, inject_Z_mult. reflexivity. Qed.
#[export] Hint Resolve isint_inj isint_add isint_opp isint_sub isint_mul : isint.

Lemma isint_pos_ge1 : forall q, isint q -> 0 < q -> 1 <= q.
Proof.
  intros q [z E] P. rewrite E in *. rewrite <- (Zlt_Qlt 0) in P. rewrite <- (Zle_Qle 1). lia.
Qed.

Lemma isint_abs_ge1 : forall q, isint q -> ~ q == 0 -> 1 <= Qabs q.
Proof.
  intros q I N. destruct (Qlt_le_dec q 0) as [L | L].
  - rewrite Qabs_neg by lra. apply isint_pos_ge1; [auto with isint|lra].
  - rewrite Qabs_pos by lra. apply isint_pos_ge1; [exact I|lra].
Qed.

Lemma isint_sq_ge1 : forall q, isint q -> ~ q == 0 -> 1 <= q * q.
Proof.
  intros q I N. pose proof (isint_abs_ge1 q I N) as H.
  destruct (Qlt_le_dec q 0); [rewrite Qabs_neg in H by lra|rewrite Qabs_pos in H by lra]; nra.
Qed.

Definition inbox (z : Z) : Prop := (-1000 <= z <= 1000)%Z.
Definition zpt (x y : Z) : pt2 := (inject_Z x, inject_Z y).

Lemma diff_bound : forall x y, inbox x -> inbox y ->
  isint (inject_Z x - inject_Z y) /\ -2000 <= inject_Z x - inject_Z y <= 2000.
Proof.
  assert (B : forall z, inbox z -> -1000 <= inject_Z z <= 1000).
  { intros z [L H]. rewrite (Zle_Qle (-1000)), (Zle_Qle z) in *. split; assumption. }
  intros x y Hx Hy. apply B in Hx, Hy. split; [auto with isint|lra].
Qed.

Definition bigM : Q := 8000000.

Lemma det_bound : forall p q r s,
  -2000 <= p <= 2000 -> -2000 <= q <= 2000 -> -2000 <= r <= 2000 -> -2000 <= s <= 2000 ->
  - bigM <= p * (- q) - r * (- s) <= bigM.
Proof. intros p q r s Hp Hq Hr Hs. unfold bigM. split; nra. Qed.

Lemma norm_bound : forall x y, isint x -> isint y -> ~ (x == 0 /\ y == 0) ->
  -2000 <= x <= 2000 -> -2000 <= y <= 2000 -> 1 <= x * x + y * y <= bigM.
Proof.
  intros x y Ix Iy N Bx By_. unfold bigM. split; [|nra].
  destruct (Qeq_dec x 0) as [Z|Z].
  - assert (Z' : ~ y == 0) by tauto. pose proof (isint_sq_ge1 y Iy Z'). nra.
  - pose proof (isint_sq_ge1 x Ix Z). nra.
Qed.

Lemma prod_bound : forall a b, 1 <= a <= bigM -> 1 <= b <= bigM -> 0 < a * b <= bigM * bigM.
Proof. intros a b A B. unfold bigM in *. split; nra. Qed.

Lemma qmax_bound : forall a b, 1 <= a <= bigM -> 1 <= b <= bigM -> 0 < qmax a b <= bigM * bigM.
Proof. intros a b A B. unfold bigM in *. destruct (qmax_cases a b) as [[_ ->]|[_ ->]]; lra. Qed.

(* the squared tolerance tests: an integer is below tol * (a length below 8e6) iff it is 0 *)
Lemma sq_test : forall x n, isint x -> 0 < n <= bigM * bigM ->
  qltb (x * x) (tol8 * tol8 * n) = Qeq_bool x 0.
Proof.
  intros x n I [L H]. unfold bigM, tol8 in *. destruct (Qeq_bool x 0) eqn:E.
  - apply Qeq_bool_iff in E. apply qltb_true. rewrite E. lra.
  - apply qeqb_false in E. apply qltb_false. pose proof (isint_sq_ge1 x I E). lra.
Qed.

Lemma sq_test_rev : forall x n, isint x -> 0 <= n <= bigM ->
  qltb (tol8 * tol8 * n) (x * x) = negb (Qeq_bool x 0).
Proof.
  intros x n I [L H]. unfold bigM, tol8 in *. destruct (Qeq_bool x 0) eqn:E; cbn [negb].
  - apply Qeq_bool_iff in E. apply qltb_false. rewrite E. lra.
  - apply qeqb_false in E. apply qltb_true. pose proof (isint_sq_ge1 x I E). lra.
Qed.

(* q is a multiple of 1/dq: two such numbers that differ are at least 1/|dq| apart *)
Definition on_grid (dq q : Q) : Prop := isint (q * dq).

Lemma grid_gap : forall dq x y,
  isint dq -> ~ dq == 0 -> - bigM <= dq <= bigM -> on_grid dq x -> on_grid dq y ->
  x - y <= tol8 -> x <= y.
Proof.
  intros dq x y Id Nd B Gx Gy H.
  destruct (Qlt_le_dec y x) as [L | L]; [exfalso|exact L].
  assert (I : isint ((x - y) * dq)).
  { apply (isint_eq (x * dq - y * dq)); [ring|unfold on_grid in *; auto with isint]. }
  apply isint_abs_ge1 in I; [|intro Z; apply Qmult_integral in Z; lra].
  rewrite Qabs_Qmult, (Qabs_pos (x - y)) in I by lra.
  assert (Qabs dq <= bigM) by (apply Qabs_Qle_condition; exact B).
  unfold tol8, bigM in *. pose proof (Qabs_nonneg dq). nra.
Qed.

Lemma grid_qmax : forall dq x y, on_grid dq x -> on_grid dq y -> on_grid dq (qmax x y).
Proof. intros dq x y Gx Gy. destruct (qmax_cases x y) as [[_ ->] | [_ ->]]; assumption. Qed.

Lemma grid_qmin : forall dq x y, on_grid dq x -> on_grid dq y -> on_grid dq (qmin x y).
Proof. intros dq x y Gx Gy. destruct (qmin_cases x y) as [[_ ->] | [_ ->]]; assumption. Qed.

Lemma grid_div : forall dq n, isint n -> ~ dq == 0 -> on_grid dq (n / dq).
Proof.
  intros dq n I N. apply (isint_eq n); [field; exact N|exact I].
Qed.

Section GridTests.
  Variable dq : Q.
  Hypothesis (Id : isint dq) (Nd : ~ dq == 0) (Bd : - bigM <= dq <= bigM).

  Lemma grid_0 : on_grid dq 0.
  Proof. exists 0%Z. apply Qmult_0_l. Qed.

  Lemma grid_1 : on_grid dq 1.
  Proof. apply (isint_eq dq); [ring|exact Id]. Qed.

  (* the parameter range tests of the Cramer branch *)
  Lemma range_test : forall n, isint n ->
    Qle_bool (- tol8) (n / dq) = Qle_bool 0 (n / dq) /\
    Qle_bool (n / dq) (1 + tol8) = Qle_bool (n / dq) 1.
  Proof.
    intros n I. pose proof (grid_div dq n I Nd) as G.
    split; apply eq_true_iff_eq; rewrite !Qle_bool_iff; (split; [intro H|unfold tol8; lra]).
    - apply (grid_gap dq 0 (n / dq) Id Nd Bd grid_0 G). lra.
    - apply (grid_gap dq (n / dq) 1 Id Nd Bd G grid_1). lra.
  Qed.

  (* the length test of the collinear overlap *)
  Lemma overlap_test : forall p r, isint p -> isint r ->
    let ts := p / dq in let te := r / dq in
    let tmin := qmax (qmin ts te) 0 in let tmax := qmin (qmax ts te) 1 in
    qltb (tmax - tmin) tol8 = Qle_bool tmax tmin.
  Proof.
    intros p r Ip Ir ts te tmin tmax. pose proof grid_0 as G0. pose proof grid_1 as G1.
    pose proof (grid_div dq p Ip Nd) as Gs. pose proof (grid_div dq r Ir Nd) as Ge.
    apply eq_true_iff_eq. rewrite qltb_true, Qle_bool_iff. split; [intro H|unfold tol8; lra].
    apply (grid_gap dq tmax tmin Id Nd Bd); [| |lra].
    - apply grid_qmin; [apply grid_qmax|]; assumption.
    - apply grid_qmax; [apply grid_qmin|]; assumption.
  Qed.
End GridTests.

Lemma zpt_neq : forall ax ay bx by_, (ax, ay) <> (bx, by_) -> ~ peq (zpt ax ay) (zpt bx by_).
Proof.
  intros ax ay bx by_ N [E1 E2]. apply N. unfold zpt in *. cbn [fst snd] in *.
  rewrite inject_Z_injective in E1, E2. congruence.
Qed.

Lemma int_separated : forall ax ay bx by_ cx cy dx dy : Z,
  inbox ax -> inbox ay -> inbox bx -> inbox by_ ->
  inbox cx -> inbox cy -> inbox dx -> inbox dy ->
  (ax, ay) <> (bx, by_) -> (cx, cy) <> (dx, dy) ->
  separated tol8 (zpt ax ay) (zpt bx by_) (zpt cx cy) (zpt dx dy) = true.
Proof.
  intros ax ay bx by_ cx cy dx dy Bax Bay Bbx Bby Bcx Bcy Bdx Bdy Nab Ncd.
  apply zpt_neq in Nab, Ncd. unfold peq in Nab, Ncd.
  unfold separated, zpt in *. cbn [fst snd] in *. cbv zeta.
  destruct (diff_bound bx ax Bbx Bax) as [I1x B1x]. destruct (diff_bound by_ ay Bby Bay) as [I1y B1y].
  destruct (diff_bound dx cx Bdx Bcx) as [I2x B2x]. destruct (diff_bound dy cy Bdy Bcy) as [I2y B2y].
  destruct (diff_bound cx ax Bcx Bax) as [Isx _]. destruct (diff_bound cy ay Bcy Bay) as [Isy _].
  destruct (diff_bound dx ax Bdx Bax) as [Iex _]. destruct (diff_bound dy ay Bdy Bay) as [Iey _].
  set (d1x := inject_Z bx - inject_Z ax) in *. set (d1y := inject_Z by_ - inject_Z ay) in *.
  set (d2x := inject_Z dx - inject_Z cx) in *. set (d2y := inject_Z dy - inject_Z cy) in *.
  set (dsx := inject_Z cx - inject_Z ax) in *. set (dsy := inject_Z cy - inject_Z ay) in *.
  set (dex := inject_Z dx - inject_Z ax) in *. set (dey := inject_Z dy - inject_Z ay) in *.
  assert (N1 : ~ (d1x == 0 /\ d1y == 0)) by (intro Z; apply Nab; unfold d1x, d1y in Z; split; lra).
  assert (N2 : ~ (d2x == 0 /\ d2y == 0)) by (intro Z; apply Ncd; unfold d2x, d2y in Z; split; lra).
  pose proof (norm_bound d1x d1y I1x I1y N1 B1x B1y) as Bn1.
  pose proof (norm_bound d2x d2y I2x I2y N2 B2x B2y) as Bn2.
  set (n1 := d1x * d1x + d1y * d1y) in *. set (n2 := d2x * d2x + d2y * d2y) in *.
  set (discr := d1x * - d2y - d1y * - d2x).
  assert (Idiscr : isint discr) by (unfold discr; auto 6 with isint).
  pose proof (det_bound d1x d2y d1y d2x B1x B2y B1y B2x) as Bdiscr. fold discr in Bdiscr.
  rewrite (sq_test discr (n1 * n2) Idiscr (prod_bound n1 n2 Bn1 Bn2)), eqb_reflx.
  destruct (Qeq_bool discr 0) eqn:ED; cbn [andb].
  - set (scl := dsx * d1y - dsy * d1x).
    rewrite (sq_test scl (qmax n1 n2)), eqb_reflx
      by (unfold scl; auto using qmax_bound with isint).
    destruct (Qeq_bool scl 0); cbn [andb]; [|reflexivity].
    rewrite (sq_test_rev d1x n1), eqb_reflx by (trivial; lra). cbn [andb].
    unfold bigM in *.
    destruct (Qeq_bool d1x 0) eqn:EX; cbn [implb fst snd].
    + apply Qeq_bool_iff in EX. assert (Z2 : ~ d1y == 0) by tauto.
      rewrite (sq_test_rev d1y n2) by (trivial; unfold bigM; lra).
      rewrite (proj2 (qeqb_false d1y 0) Z2), (overlap_test d1y I1y Z2), eqb_reflx by (trivial; unfold bigM; lra).
      reflexivity.
    + apply qeqb_false in EX.
      rewrite (overlap_test d1x I1x EX), eqb_reflx by (trivial; unfold bigM; lra). reflexivity.
  - apply qeqb_false in ED.
    destruct (range_test discr Idiscr ED Bdiscr (dsx * - d2y - dsy * - d2x)) as [R1 R2];
      [auto 6 with isint|].
    destruct (range_test discr Idiscr ED Bdiscr (d1x * dsy - d1y * dsx)) as [R3 R4];
      [auto 6 with isint|].
    rewrite R1, R2, R3, R4, !eqb_reflx. reflexivity.
Qed.

Definition same_set (r r' : res2) : Prop :=
  match r, r' with
  | R2None, R2None => True
  | R2Pt p, R2Pt q => peq p q
  | R2Seg p1 p2, R2Seg q1 q2 => forall p, on_seg p p1 p2 <-> on_seg p q1 q2
  | _, _ => False
  end.

Lemma correct2_unique : forall a b c d a' b' c' d' r r',
  correct2 a b c d r -> correct2 a' b' c' d' r' ->
  (forall p, common p a b c d <-> common p a' b' c' d') ->
  same_set r r'.
Proof.
  intros a b c d a' b' c' d' r r' C C' EQ.
  (* a point and a proper segment are different sets *)
  assert (K : forall q q1 q2, ~ peq q1 q2 -> ~ forall p, on_seg p q1 q2 <-> peq p q).
  { intros q q1 q2 N H. apply N.
    apply (peq_trans _ q); [|apply peq_sym]; apply H; [apply on_seg_start|apply on_seg_end]. }
  destruct r as [|q|q1 q2|e]; destruct r' as [|q'|q1' q2'|e']; cbn in *; try contradiction;
    try exact I.
  - apply (C q'). apply EQ. apply C'. apply peq_refl.
  - destruct C' as [_ C']. apply (C q1'). apply EQ. apply C'. apply on_seg_start.
  - apply (C' q). apply EQ. apply C. apply peq_refl.
  - apply C'. apply EQ. apply C. apply peq_refl.
  - destruct C' as [N C']. apply (K q q1' q2' N). intro p. rewrite <- C', <- EQ. apply C.
  - destruct C as [_ C]. apply (C' q1). apply EQ. apply C. apply on_seg_start.
  - destruct C as [N C]. apply (K q' q1 q2 N). intro p. rewrite <- C, EQ. apply C'.
  - destruct C as [_ C]. destruct C' as [_ C']. intro p.
    rewrite <- C, <- C'. apply EQ.
Qed.

(* independence of argument order: swap the segments, reverse either segment *)
Lemma correct2_symmetric : forall a b c d r r1 r2 r3,
  correct2 a b c d r -> correct2 c d a b r1 -> correct2 b a c d r2 -> correct2 a b d c r3 ->
  same_set r r1 /\ same_set r r2 /\ same_set r r3.
Proof.
  intros a b c d r r1 r2 r3 K K1 K2 K3.
  split; [|split]; eapply correct2_unique; try eassumption; intro p; unfold common.
  - tauto.
  - rewrite (on_seg_rev p a b). tauto.
  - rewrite (on_seg_rev p c d). tauto.
Qed.

Definition on_seg3 (p a b : pt3) : Prop :=
  exists t, 0 <= t /\ t <= 1 /\
            forall i, (i < 3)%nat -> c3 p i == c3 a i + t * (c3 b i - c3 a i).

Definition common3 (p a b c d : pt3) : Prop := on_seg3 p a b /\ on_seg3 p c d.

Definition peq3 (p q : pt3) : Prop := forall i, (i < 3)%nat -> c3 p i == c3 q i.

Lemma peq3_refl : forall p, peq3 p p.
Proof. intros p k _. reflexivity. Qed.
Lemma peq3_sym : forall p q, peq3 p q -> peq3 q p.
Proof. intros p q H k Hk. symmetry. exact (H k Hk). Qed.
Lemma peq3_trans : forall p q r, peq3 p q -> peq3 q r -> peq3 p r.
Proof. intros p q r H1 H2 k Hk. rewrite (H1 k Hk). exact (H2 k Hk). Qed.

Definition correct3 (a b c d : pt3) (r : res3) : Prop :=
  match r with
  | R3None => forall p, ~ common3 p a b c d
  | R3Cols [q] => forall p, common3 p a b c d <-> peq3 p q
  | R3Cols [q1; q2] => ~ peq3 q1 q2 /\ forall p, common3 p a b c d <-> on_seg3 p q1 q2
  | _ => False
  end.

Ltac idx3 i Hi :=
  destruct i as [|[|[|i]]]; [ | | | exfalso; lia]; clear Hi.

(* finding 1a: non-parallel lines, the xy-projection (the axes picked from the non-zero
   deltas) is degenerate; the true intersection is (1,1,0) *)
Lemma seg3d_missed_a :
  let a := [0; 0; 0] in let b := [2; 2; 0] in let c := [0; 0; -1] in let d := [2; 2; 1] in
  seg3d tol8 a b c d = R3None /\ common3 [1; 1; 0] a b c d.
Proof.
  cbv zeta. split; [vm_compute; reflexivity|].
  split; exists (1 # 2); (split; [lra|]); (split; [lra|]); intros i Hi; idx3 i Hi;
    vm_compute; reflexivity.
Qed.

(* finding 1b: equal masks, all deltas non-zero, ratios differ; true intersection (1,1,1) *)
Lemma seg3d_missed_b :
  let a := [0; 0; 0] in let b := [2; 2; 2] in let c := [0; 0; -1] in let d := [2; 2; 3] in
  seg3d tol8 a b c d = R3None /\ common3 [1; 1; 1] a b c d.
Proof.
  cbv zeta. split; [vm_compute; reflexivity|].
  split; exists (1 # 2); (split; [lra|]); (split; [lra|]); intros i Hi; idx3 i Hi;
    vm_compute; reflexivity.
Qed.

(* finding 2: colinear segments sharing exactly one point come back as two columns *)
Lemma seg3d_touching :
  seg3d tol8 [0; 0; 0] [1; 1; 1] [1; 1; 1] [2; 2; 2] = R3Cols [[1; 1; 1]; [1; 1; 1]].
Proof. vm_compute. reflexivity. Qed.

Lemma seg3d_correct_refuted :
  (exists a b c d, ~ peq3 a b /\ ~ peq3 c d /\ seg3d tol8 a b c d = R3None /\
                   ~ correct3 a b c d (seg3d tol8 a b c d)) /\
  (exists a b c d q, ~ peq3 a b /\ ~ peq3 c d /\ seg3d tol8 a b c d = R3Cols [q; q] /\
                   ~ correct3 a b c d (seg3d tol8 a b c d)).
Proof.
  assert (N : forall a b : pt3, ~ c3 a 0 == c3 b 0 -> ~ peq3 a b)
    by (intros a b H P; apply H, P; lia).
  split.
  - exists [0; 0; 0], [2; 2; 0], [0; 0; -1], [2; 2; 1].
    destruct seg3d_missed_a as [E C]. cbv zeta in E, C.
    split; [apply N; discriminate|]. split; [apply N; discriminate|]. split; [exact E|].
    rewrite E. intro H. exact (H _ C).
  - exists [0; 0; 0], [1; 1; 1], [1; 1; 1], [2; 2; 2], [1; 1; 1].
    split; [apply N; discriminate|]. split; [apply N; discriminate|].
    split; [exact seg3d_touching|].
    rewrite seg3d_touching. intros [H _]. apply H. intros i Hi. reflexivity.
Qed.

Lemma seg3d_par_not_single : forall tol s1 e1 s2 e2 dl1 dl2 m1 m2 q,
  seg3d_par tol s1 e1 s2 e2 dl1 dl2 m1 m2 <> R3Cols [q].
Proof.
  intros. unfold seg3d_par. cbv zeta.
  repeat (match goal with |- (if ?b then _ else _) <> _ => destruct b end; try discriminate).
  destruct (sel m1 s1); try discriminate.
  destruct (sel m1 e1); try discriminate.
  destruct (sel m1 s2); try discriminate.
  destruct (sel m1 e2); try discriminate.
  repeat (match goal with |- (if ?b then _ else _) <> _ => destruct b end; try discriminate).
Qed.

(* the projection axes (in_discr[0], in_discr[1], not_in_discr) segments_3d can pick *)
Definition axes_ok (x : nat * nat * nat) : Prop :=
  x = (0, 1, 2)%nat \/ x = (0, 2, 1)%nat \/ x = (1, 2, 0)%nat.

Lemma pick_axes_ok : forall ms, axes_ok (pick_axes ms).
Proof.
  intro ms. unfold pick_axes, axes_ok.
  repeat match goal with |- context [if ?b then _ else _] => destruct b end; tauto.
Qed.

Lemma axes_all : forall i0 i1 ni (P : nat -> Prop), axes_ok (i0, i1, ni) ->
  ((forall i, (i < 3)%nat -> P i) <-> P i0 /\ P i1 /\ P ni).
Proof.
  intros i0 i1 ni P [E|[E|E]]; injection E as -> -> ->;
    (split; [intro H; repeat split; apply H; lia|intros (A & B & C) i Hi; idx3 i Hi; assumption]).
Qed.

(* the vector segments_3d assembles: vec[in_discr] = (v0, v1), vec[not_in_discr] = z *)
Lemma vec_axes : forall i0 i1 ni v0 v1 z, axes_ok (i0, i1, ni) ->
  let q := map (fun k => if (k =? i0)%nat then v0 else if (k =? i1)%nat then v1 else z)
               [0; 1; 2]%nat in
  c3 q i0 = v0 /\ c3 q i1 = v1 /\ c3 q ni = z.
Proof. intros i0 i1 ni v0 v1 z [E|[E|E]]; injection E as -> -> ->; repeat split. Qed.

Lemma qabs_zero_lt : forall x tol, 0 < tol -> x == 0 -> Qabs x < tol.
Proof. intros x tol Ht E. rewrite E. exact Ht. Qed.

Lemma seg3d_pt_sound : forall tol a c u w i0 i1 ni q,
  0 < tol -> axes_ok (i0, i1, ni) ->
  ~ c3 u i0 * c3 w i1 - c3 u i1 * c3 w i0 == 0 ->
  seg3d_pt tol a c u w i0 i1 ni = R3Cols [q] ->
  exists t1 t2,
    0 <= t1 /\ t1 <= 1 /\ 0 <= t2 /\ t2 <= 1 /\
    (forall i, (i < 3)%nat -> c3 q i == c3 a i + t1 * c3 u i) /\
    (forall i, (i < 3)%nat -> Qabs (c3 q i - (c3 c i + t2 * c3 w i)) < tol).
Proof.
  intros tol a c u w i0 i1 ni q Ht Hax Hd H.
  unfold seg3d_pt in H. cbv zeta in H.
  assert (ND : ~ c3 u i0 * - c3 w i1 - c3 u i1 * - c3 w i0 == 0) by (intro Z0; apply Hd; lra).
  set (D := c3 u i0 * - c3 w i1 - c3 u i1 * - c3 w i0) in *.
  set (t1 := ((c3 c i0 - c3 a i0) * - c3 w i1 - (c3 c i1 - c3 a i1) * - c3 w i0) / D) in *.
  set (t2 := (c3 u i0 * (c3 c i1 - c3 a i1) - c3 u i1 * (c3 c i0 - c3 a i0)) / D) in *.
  destruct (proj2 (cramer (c3 u i0) (c3 u i1) (c3 w i0) (c3 w i1)
                          (c3 c i0 - c3 a i0) (c3 c i1 - c3 a i1) t1 t2 ND)) as [Cx Cy];
    [split; reflexivity|].
  destruct (qltb t1 0 || qltb 1 t1 || qltb t2 0 || qltb 1 t2) eqn:ER; [discriminate|].
  destruct (qltb _ tol) eqn:EZ in H; [|discriminate].
  rewrite !orb_false_iff, !qltb_false in ER. apply qltb_true in EZ.
  destruct (vec_axes i0 i1 ni (c3 a i0 + t1 * c3 u i0) (c3 a i1 + t1 * c3 u i1)
                     (c3 a ni + t1 * c3 u ni) Hax) as (E0 & E1 & E2).
  cbv zeta in E0, E1, E2. set (v := List.map _ _) in *. clearbody v. injection H as <-.
  exists t1, t2. repeat (split; [tauto|]).
  split; apply (axes_all i0 i1 ni _ Hax); cbv beta; rewrite E0, E1, E2.
  - repeat split; reflexivity.
  - repeat split; [apply qabs_zero_lt; [exact Ht|lra]..|exact EZ].
Qed.

(* C28 3-D: whenever segments_3d returns a single point q, q lies on segment 1 and within
   tol (max-norm) of a point of segment 2.  (Completeness is false: seg3d_correct_refuted.) *)
Lemma seg3d_point_sound : forall tol a0 a1 a2 b0 b1 b2 c0 c1 c2 d0 d1 d2 q,
  0 < tol ->
  seg3d tol [a0; a1; a2] [b0; b1; b2] [c0; c1; c2] [d0; d1; d2] = R3Cols [q] ->
  on_seg3 q [a0; a1; a2] [b0; b1; b2] /\
  exists q', on_seg3 q' [c0; c1; c2] [d0; d1; d2] /\
             forall i, (i < 3)%nat -> Qabs (c3 q i - c3 q' i) < tol.
Proof.
  intros tol a0 a1 a2 b0 b1 b2 c0 c1 c2 d0 d1 d2 q Ht H.
  unfold seg3d in H. cbn [map2 List.map] in H. cbv zeta in H.
  match type of H with context [pick_axes ?m] =>
    pose proof (pick_axes_ok m) as Hax; destruct (pick_axes m) as [[i0 i1] ni] end.
  match type of H with (if ?b then _ else _) = _ => destruct b eqn:EQ end.
  { exfalso. exact (seg3d_par_not_single _ _ _ _ _ _ _ _ _ _ H). }
  apply qltb_false in EQ.
  apply seg3d_pt_sound in H; [|exact Ht|exact Hax|intro Z0; rewrite Z0 in EQ; cbn in EQ; lra].
  destruct H as (t1 & t2 & T1 & T2 & T3 & T4 & Hq & Hq').
  split.
  - exists t1. split; [exact T1|]. split; [exact T2|].
    intros i Hi. rewrite (Hq i Hi). idx3 i Hi; reflexivity.
  - exists [c0 + t2 * (d0 - c0); c1 + t2 * (d1 - c1); c2 + t2 * (d2 - c2)]. split.
    + exists t2. split; [exact T3|]. split; [exact T4|]. intros i Hi. idx3 i Hi; reflexivity.
    + intros i Hi. specialize (Hq' i Hi). idx3 i Hi; exact Hq'.
Qed.
