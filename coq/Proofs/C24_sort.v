(* C24 — argsort_grids: the listing is a sorted permutation. *)
From Coq Require Import List Arith Bool Lia Permutation Sorted.
Import ListNotations.
From PP Require Import Lib.ListFacts Model.C24 Model.C24_spec Proofs.C24_base.

Lemma sorted_app {A} (R : A -> A -> Prop) l1 l2 :
  StronglySorted R l1 -> StronglySorted R l2 ->
  (forall x y, In x l1 -> In y l2 -> R x y) -> StronglySorted R (l1 ++ l2).
Proof.
  induction l1 as [|a r IH]; cbn; intros H1 H2 H; auto.
  inversion H1; subst. constructor.
  - apply IH; auto.
  - rewrite Forall_forall in *. intros y Hy. apply in_app_iff in Hy. destruct Hy; auto.
Qed.

Lemma sorted_pair {A} (R : A -> A -> Prop) x y : StronglySorted R [x; y] -> R x y.
Proof. intros H. inversion H as [|? ? _ Hf]. inversion Hf; auto. Qed.

Lemma filter_split {A} (P Q : A -> bool) l :
  (forall x, P x && Q x = false) ->
  Permutation (filter P l ++ filter Q l) (filter (fun x => P x || Q x) l).
Proof.
  intros H. induction l as [|a r IH]; cbn; auto.
  specialize (H a). destruct (P a), (Q a); cbn in *; try discriminate; auto.
  eapply perm_trans; [symmetry; apply Permutation_middle | apply perm_skip; auto].
Qed.

Lemma leb_S n k : (n <=? S k) = (n =? S k) || (n <=? k).
Proof.
  destruct (Nat.eqb_spec n (S k)), (Nat.leb_spec n k), (Nat.leb_spec n (S k)); cbn; lia.
Qed.

(* decreasing dimension, then increasing creation id *)
Definition glt (a b : gid) : Prop := fst b < fst a \/ (fst a = fst b /\ snd a < snd b).
Definition id_le (a b : gid) : Prop := snd a <= snd b.

Lemma glt_irrefl a : ~ glt a a.
Proof. unfold glt; lia. Qed.

Lemma glt_total a b : a <> b -> glt a b \/ glt b a.
Proof.
  intros H. unfold glt. destruct a as [a1 a2], b as [b1 b2]; cbn.
  destruct (Nat.eq_dec a1 b1) as [->|]; [|lia].
  destruct (Nat.eq_dec a2 b2) as [->|]; [congruence | lia].
Qed.

Definition lists (r : res (list gid)) (l : list gid) : Prop :=
  exists L, r = Ok L /\ Permutation L l /\ NoDup L /\ StronglySorted glt L.

Lemma ins_id_perm x l : Permutation (ins_id x l) (x :: l).
Proof.
  induction l as [|y r IH]; cbn; auto.
  destruct (snd x <=? snd y); auto.
  eapply perm_trans; [apply perm_skip; exact IH | apply perm_swap].
Qed.

Lemma isort_perm l : Permutation (isort l) l.
Proof.
  induction l as [|x r IH]; cbn; auto.
  eapply perm_trans; [apply ins_id_perm | apply perm_skip; exact IH].
Qed.

Lemma ins_id_sorted x l : StronglySorted id_le l -> StronglySorted id_le (ins_id x l).
Proof.
  induction l as [|y r IH]; cbn; intros H.
  - constructor; auto.
  - inversion H as [|? ? Hr Hy]; subst. destruct (Nat.leb_spec (snd x) (snd y)).
    + constructor; auto. constructor; auto.
      eapply Forall_impl; [|exact Hy]. unfold id_le. intros; lia.
    + constructor; auto.
      eapply Permutation_Forall; [symmetry; apply ins_id_perm|].
      constructor; auto. unfold id_le; lia.
Qed.

Lemma isort_sorted l : StronglySorted id_le (isort l).
Proof. induction l; cbn; [constructor | apply ins_id_sorted; auto]. Qed.

(* ids of distinct grids of one dimension are distinct *)
Lemma sorted_strict d l :
  StronglySorted id_le l -> NoDup l -> (forall x, In x l -> fst x = d) -> StronglySorted glt l.
Proof.
  induction 1 as [|x r Hs IH Hf]; intros Hn Hd; constructor; inversion Hn as [|? ? Hx Hr]; subst.
  - apply IH; auto. intros; apply Hd; right; auto.
  - rewrite Forall_forall in *. intros y Hy. specialize (Hf y Hy). unfold id_le in Hf.
    assert (Ed : fst x = fst y) by (rewrite (Hd x), (Hd y); cbn; auto).
    right. split; auto.
    assert (snd x <> snd y); [|lia].
    intros E. apply Hx. replace x with y; auto. destruct x, y; cbn in *; congruence.
Qed.

Lemma block_In d l x : In x (isort (of_dim d l)) <-> In x l /\ fst x = d.
Proof.
  transitivity (In x (of_dim d l)).
  - split; apply Permutation_in; [|symmetry]; apply isort_perm.
  - unfold of_dim. rewrite filter_In, Nat.eqb_eq. reflexivity.
Qed.

Lemma block_sorted d l : NoDup l -> StronglySorted glt (isort (of_dim d l)).
Proof.
  intros Hn. apply (sorted_strict d).
  - apply isort_sorted.
  - eapply Permutation_NoDup; [symmetry; apply isort_perm | apply NoDup_filter, Hn].
  - intros x Hx. apply block_In in Hx. tauto.
Qed.

Lemma sort_grids_S k l : sort_grids (S k) l = isort (of_dim (S k) l) ++ sort_grids k l.
Proof. reflexivity. Qed.

(* argsort_grids drops the grids of a dimension above dim_max() and keeps the others *)
Lemma sort_grids_perm k l :
  Permutation (sort_grids k l) (filter (fun g => fst g <=? k) l).
Proof.
  induction k as [|k IH].
  - unfold sort_grids; cbn [dims_down flat_map]. rewrite app_nil_r.
    eapply perm_trans; [apply isort_perm|]. unfold of_dim.
    erewrite filter_ext; [reflexivity|]. intros a; cbn. destruct (fst a); reflexivity.
  - rewrite sort_grids_S, (filter_ext _ _ (fun g => leb_S (fst g) k)).
    eapply perm_trans; [apply Permutation_app; [apply isort_perm | exact IH]|].
    apply filter_split. intros x.
    destruct (Nat.eqb_spec (fst x) (S k)), (Nat.leb_spec (fst x) k); cbn; lia.
Qed.

Lemma sort_grids_In_iff k l x : In x (sort_grids k l) <-> In x l /\ fst x <= k.
Proof.
  transitivity (In x (filter (fun g => fst g <=? k) l)).
  - split; apply Permutation_in; [|symmetry]; apply sort_grids_perm.
  - rewrite filter_In, Nat.leb_le. reflexivity.
Qed.

Lemma sort_grids_In k l x : NoDup l -> In x (sort_grids k l) -> In x l.
Proof. intros _ Hx. apply sort_grids_In_iff in Hx. tauto. Qed.

Lemma sort_grids_sorted k l : NoDup l -> StronglySorted glt (sort_grids k l).
Proof.
  intros Hn. induction k as [|k IH].
  - unfold sort_grids; cbn [dims_down flat_map]. rewrite app_nil_r. apply block_sorted, Hn.
  - rewrite sort_grids_S. apply sorted_app; auto using block_sorted.
    intros x y Hx Hy. apply block_In in Hx. apply sort_grids_In_iff in Hy. left. lia.
Qed.

Lemma dim_max_ge x s : In x s -> fst x <= dim_max s.
Proof.
  unfold dim_max. induction s as [|y r IH]; cbn; intros H; [contradiction|].
  destruct H as [->|H]; [lia | specialize (IH H); lia].
Qed.

(* argsort of distinct grids none of which exceeds every subdomain in dimension: the
   lists handed to argsort_grids by the container's methods are of this kind *)
Lemma argsort_ok s l :
  NoDup l -> (forall x, In x l -> exists a, In a s /\ fst x <= fst a) ->
  lists (argsort s l) l.
Proof.
  intros Hn Hd. pose proof (sort_grids_perm (dim_max s) l) as HP.
  rewrite filter_all in HP.
  2:{ intros x Hx. destruct (Hd x Hx) as (a & Ha & Hle). apply dim_max_ge in Ha.
      apply Nat.leb_le. lia. }
  unfold argsort. destruct s as [|s0 sr].
  - destruct l as [|x r]; [|destruct (Hd x) as (a & [] & _); left; auto].
    exists []. repeat constructor.
  - eexists. split; [reflexivity|]. split; [exact HP|]. split.
    + eapply Permutation_NoDup; [symmetry; exact HP | exact Hn].
    + apply sort_grids_sorted, Hn.
Qed.

Lemma sort_tuple_ok s a b :
  In a s -> In b s ->
  exists x y, sort_tuple s a b = Ok (x, y) /\ (a <> b -> glt x y) /\
              ((x = a /\ y = b) \/ (x = b /\ y = a)).
Proof.
  intros Ha Hb. unfold sort_tuple, argsort. destruct s as [|s0 sr]; [destruct Ha|].
  set (k := dim_max _).
  assert (Hs : a <> b -> StronglySorted glt (sort_grids k [a; b])).
  { intros Hab. apply sort_grids_sorted.
    constructor; [cbn; intuition congruence | repeat constructor; intros []]. }
  pose proof (sort_grids_perm k [a; b]) as Hp. cbn [filter] in Hp.
  rewrite !(proj2 (Nat.leb_le _ _)) in Hp by (apply dim_max_ge; auto).
  apply Permutation_sym, Permutation_length_2_inv in Hp.
  destruct Hp as [E|E]; rewrite E in *.
  - exists a, b. repeat split; auto. intros Hab. apply sorted_pair, Hs, Hab.
  - exists b, a. repeat split; auto. intros Hab. apply sorted_pair, Hs, Hab.
Qed.
