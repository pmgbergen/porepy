(* C35 — merge_matrices: line replacement semantics.
   [repr A R]: A is stored as the concatenation of the lines R; a slice is such a matrix.
   Every intermediate array of merge_sorted is written as a function of the line number
   (index pointers as cumulative sums of per-line lengths, entry arrays as concatenations of
   per-line pieces); np.insert then walks over the lines once.  For unsorted line numbers the
   code sorts them and slices B alike, which leaves every lookup unchanged. *)
From Coq Require Import List ZArith Bool Arith Lia Permutation.
Import ListNotations.
From PP Require Import Lib.ListFacts Lib.Csr Model.C35 Proofs.C35 Proofs.C35_csr.

Record repr (A : csr) (R : list (list (nat * Z))) : Prop := {
  rp_entries : entries A = concat R;
  rp_ptr : indptr A = 0 :: cumsumN 0 (map (@length _) R);
  rp_data : length (data A) = length (indices A) }.

Lemma wf_repr : forall A, wfP A -> repr A (rows A).
Proof. intros A W. constructor; [apply wf_entries|apply wf_indptr|apply wf_data]; exact W. Qed.

Lemma repr_rows : forall A R, repr A R -> rows A = R.
Proof.
  intros A R [He Hp _]. unfold rows. rewrite He, Hp.
  apply rows_of_lines.
Qed.

Lemma slice_repr : forall B ind, wf B = true -> Forall (fun i => i < nmaj B) ind ->
  exists S, slice_sparse_matrix B ind = Ok S /\ nmaj S = length ind /\ nmin S = nmin B /\
            repr S (map (fun i => nth i (rows B) []) ind).
Proof.
  intros B ind Hwf H. pose proof (wf_wfP B Hwf) as W.
  unfold slice_sparse_matrix. rewrite (proj2 (lines_ok_Forall B ind) H). cbn [negb].
  eexists. split; [reflexivity|]. split; [reflexivity|]. split; [reflexivity|].
  constructor; unfold entries; cbn [indptr indices data].
  - rewrite gather_combine by (symmetry; apply (wf_data B W)). apply sliced_entries; assumption.
  - rewrite sliced_lengths by assumption. reflexivity.
  - unfold gather. rewrite !map_length. reflexivity.
Qed.

Lemma nth_ptr_succ : forall lens i a, i < length lens ->
  nth (S i) (a :: cumsumN a lens) 0 = nth i (a :: cumsumN a lens) 0 + nth i lens 0.
Proof.
  induction lens as [|x lens IH]; intros i a H; simpl in H; [lia|].
  destruct i; [reflexivity|].
  change (nth (S (S i)) (a :: cumsumN a (x :: lens)) 0) with (nth (S i) ((a + x) :: cumsumN (a + x) lens) 0).
  change (nth (S i) (a :: cumsumN a (x :: lens)) 0) with (nth i ((a + x) :: cumsumN (a + x) lens) 0).
  cbn [nth]. apply IH. lia.
Qed.

Lemma mask_blocks : forall {E} (idx : list nat) (f : nat -> bool) (row : nat -> list E),
  mask (concat (map (fun i => repeat (f i) (length (row i))) idx)) (concat (map row idx))
  = concat (map (fun i => if f i then row i else []) idx).
Proof.
  induction idx as [|i idx IH]; intros f row; [reflexivity|].
  cbn [map concat]. rewrite mask_app by apply repeat_length. rewrite IH.
  destruct (f i); [rewrite mask_true|rewrite mask_false]; reflexivity.
Qed.

Lemma existsb_map_S : forall j L,
  existsb (Nat.eqb j) (map S L) = match j with 0 => false | S i => existsb (Nat.eqb i) L end.
Proof.
  intros j L. induction L as [|l L IH]; [destruct j; reflexivity|].
  cbn [map existsb]. rewrite IH. destruct j; reflexivity.
Qed.

Lemma scatter_lines : forall L (g : nat -> nat) n, Forall (fun l => l < n) L ->
  scatter (repeat 0 (S n)) (map S L) (map g L)
  = 0 :: map (fun i => if existsb (Nat.eqb i) L then g i else 0) (seq 0 n).
Proof.
  intros L g n H.
  replace (map g L) with (map (fun j => g (pred j)) (map S L)) by (rewrite map_map; reflexivity).
  match goal with |- ?X = _ => rewrite <- (map_nth_seq X 0) end.
  rewrite scatter_length, repeat_length. cbn [seq map]. f_equal.
  - rewrite scatter_fun_nth, existsb_map_S. reflexivity.
  - rewrite <- seq_shift, map_map. apply map_ext_in. intros i Hi. apply in_seq in Hi.
    rewrite scatter_fun_nth, existsb_map_S, repeat_length.
    replace (S i <? S n) with true by (symmetry; apply Nat.ltb_lt; lia).
    rewrite andb_true_r. cbn [pred].
    destruct (existsb (Nat.eqb i) L); [reflexivity|]. apply nth_repeat.
Qed.

Lemma cumsum_sub : forall (l : list nat) (u v : nat -> nat) a b, b <= a -> (forall i, v i <= u i) ->
  map2 Nat.sub (cumsumN a (map u l)) (cumsumN b (map v l)) = cumsumN (a - b) (map (fun i => u i - v i) l).
Proof.
  induction l as [|x l IH]; intros u v a b Hab H; [reflexivity|].
  cbn [map cumsumN map2]. specialize (H x) as Hx.
  rewrite IH by (try lia; exact H). f_equal; [lia|]. f_equal. lia.
Qed.

Lemma cumsum_add : forall (l : list nat) (u v : nat -> nat) a b,
  map2 Nat.add (cumsumN a (map u l)) (cumsumN b (map v l)) = cumsumN (a + b) (map (fun i => u i + v i) l).
Proof.
  induction l as [|x l IH]; intros u v a b; [reflexivity|].
  cbn [map cumsumN map2]. rewrite IH. f_equal; [lia|]. f_equal. lia.
Qed.

Section Insert.
  Context {E : Type}.

  Definition emit (f : nat -> bool) (pvs : list (nat * E)) : list E :=
    map snd (filter (fun pv => f (fst pv)) pvs).

  Lemma emit_app : forall f a b, emit f (a ++ b) = emit f a ++ emit f b.
  Proof. intros. unfold emit. rewrite filter_app, map_app. reflexivity. Qed.

  Lemma emit_none : forall f pvs, Forall (fun pv => f (fst pv) = false) pvs -> emit f pvs = [].
  Proof.
    intros f pvs H. unfold emit. induction H as [|pv l Hpv _ IH]; [reflexivity|].
    cbn [filter]. rewrite Hpv. exact IH.
  Qed.

  Lemma emit_here : forall f p (vs : list E), f p = true -> emit f (map (pair p) vs) = vs.
  Proof.
    intros f p vs H. unfold emit. induction vs as [|v vs IH]; [reflexivity|].
    cbn [map filter fst]. rewrite H. cbn [map snd]. f_equal. exact IH.
  Qed.

  Lemma insert_cons : forall p (x : E) r pvs,
    insert_at p (x :: r) pvs = emit (fun q => q =? p) pvs ++ x :: insert_at (S p) r pvs.
  Proof. reflexivity. Qed.

  Lemma insert_drop : forall (arr : list E) p stale Q, Forall (fun pv => fst pv < p) stale ->
    insert_at p arr (stale ++ Q) = insert_at p arr Q.
  Proof.
    induction arr as [|x arr IH]; intros p stale Q H.
    - cbn [insert_at]. fold (emit (Nat.leb p) (stale ++ Q)). rewrite emit_app, emit_none; [reflexivity|].
      eapply Forall_impl; [|exact H]. intros pv Hp. apply Nat.leb_gt. exact Hp.
    - rewrite !insert_cons, emit_app, emit_none, IH; [reflexivity| |]; (eapply Forall_impl; [|exact H]); cbn.
      + intros; lia.
      + intros pv Hp. apply Nat.eqb_neq. lia.
  Qed.

  Lemma insert_skip : forall (r arr : list E) q pvs, Forall (fun pv => q + length r <= fst pv) pvs ->
    insert_at q (r ++ arr) pvs = r ++ insert_at (q + length r) arr pvs.
  Proof.
    induction r as [|x r IH]; intros arr q pvs H; [simpl; f_equal; lia|].
    cbn [app length] in *. rewrite insert_cons, emit_none, IH.
    - cbn [app]. do 3 f_equal. lia.
    - eapply Forall_impl; [|exact H]. cbn. intros; lia.
    - eapply Forall_impl; [|exact H]. cbn. intros pv Hp. apply Nat.eqb_neq. lia.
  Qed.

  Lemma insert_walk : forall x (r arr : list E) p pre Q,
    Forall (fun pv => p + S (length r) <= fst pv) Q ->
    insert_at p ((x :: r) ++ arr) (map (pair p) pre ++ Q)
    = pre ++ (x :: r) ++ insert_at (p + S (length r)) arr Q.
  Proof.
    intros x r arr p pre Q HQ. cbn [app]. rewrite insert_cons, emit_app, emit_here, emit_none.
    - rewrite app_nil_r, insert_drop, insert_skip.
      + do 4 f_equal. lia.
      + eapply Forall_impl; [|exact HQ]. cbn. intros; lia.
      + apply Forall_map, Forall_forall. intros v _. cbn. lia.
    - eapply Forall_impl; [|exact HQ]. cbn. intros pv Hp. apply Nat.eqb_neq. lia.
    - apply Nat.eqb_refl.
  Qed.

  (* line k is R k and starts at position start k; the values B k want to go in front of it *)
  Variables (R B : nat -> list E) (start : nat -> nat).

  Definition consecutive (i n : nat) : Prop :=
    forall k, i <= k < i + n -> start (S k) = start k + length (R k).

  Definition pairs (idx : list nat) : list (nat * E) :=
    flat_map (fun k => map (pair (start k)) (B k)) idx.

  Lemma pairs_ge : forall n i, consecutive i n -> Forall (fun pv => start i <= fst pv) (pairs (seq i n)).
  Proof.
    intros n i H. apply Forall_forall. intros pv Hin. apply in_flat_map in Hin.
    destruct Hin as [k [Hk Hin]]. apply in_seq in Hk. apply in_map_iff in Hin. destruct Hin as [v [<- _]].
    cbn [fst]. clear v. induction k as [|k IH]; [replace i with 0 by lia; lia|].
    destruct (Nat.eq_dec i (S k)) as [->|Hne]; [lia|]. rewrite H by lia. specialize (IH ltac:(lia)). lia.
  Qed.

  (* [pre]: values already collected for the position of the current line (the lines before
     it were empty) *)
  Lemma ins_lines : forall n i pre, consecutive i n ->
    insert_at (start i) (flat_map R (seq i n)) (map (pair (start i)) pre ++ pairs (seq i n))
    = pre ++ flat_map (fun k => B k ++ R k) (seq i n).
  Proof.
    induction n as [|n IH]; intros i pre Hc.
    - cbn [seq flat_map pairs insert_at]. rewrite !app_nil_r. apply (emit_here (Nat.leb (start i))), Nat.leb_refl.
    - assert (Hc' : consecutive (S i) n) by (intros k Hk; apply Hc; lia).
      pose proof (pairs_ge n (S i) Hc') as HQ. rewrite (Hc i) in HQ by lia.
      specialize (IH (S i)). rewrite (Hc i) in IH by lia.
      unfold pairs. cbn [seq flat_map]. fold (pairs (seq (S i) n)).
      rewrite app_assoc, <- map_app, <- !app_assoc, (app_assoc pre).
      destruct (R i) as [|x r].
      + cbn [length app] in *. rewrite Nat.add_0_r in *. apply (IH (pre ++ B i) Hc').
      + rewrite insert_walk by exact HQ. do 2 f_equal. apply (IH [] Hc').
  Qed.
End Insert.

Lemma emit_map : forall {E F} (f : E -> F) g pos vals,
  emit g (combine pos (map f vals)) = map f (emit g (combine pos vals)).
Proof.
  unfold emit. induction pos as [|p pos IH]; intros [|v vals]; try reflexivity.
  cbn [map combine filter fst]. destruct (g p); cbn [map snd]; rewrite IH; reflexivity.
Qed.

Lemma insert_map : forall {E F} (f : E -> F) arr pos vals p,
  insert_at p (map f arr) (combine pos (map f vals)) = map f (insert_at p arr (combine pos vals)).
Proof.
  induction arr as [|x arr IH]; intros pos vals p; [apply (emit_map f (Nat.leb p))|].
  cbn [map]. rewrite !insert_cons, map_app, emit_map, IH. reflexivity.
Qed.

Fixpoint incr_from (i : nat) (L : list nat) : Prop :=
  match L with [] => True | l :: Ls => i <= l /\ incr_from (S l) Ls end.

Lemma incr_from_notin : forall L i j, j < i -> incr_from i L -> existsb (Nat.eqb j) L = false.
Proof.
  induction L as [|l L IH]; intros i j H Hi; [reflexivity|]. destruct Hi as [H1 H2].
  cbn [existsb]. rewrite (IH (S l) j) by (try lia; exact H2).
  replace (j =? l) with false by (symmetry; apply Nat.eqb_neq; lia). reflexivity.
Qed.

Lemma incr_filter : forall n i L, incr_from i L -> Forall (fun l => l < i + n) L ->
  filter (fun k => existsb (Nat.eqb k) L) (seq i n) = L.
Proof.
  induction n as [|n IH]; intros i L Hi Hb.
  - destruct L as [|l L]; [reflexivity|]. destruct Hi as [H1 _]. inversion Hb; subst. lia.
  - cbn [seq filter]. destruct L as [|l Ls]; [apply (IH (S i) []); [exact I|constructor]|].
    destruct Hi as [H1 H2]. inversion Hb as [|? ? Hl HLs]; subst. cbn [existsb].
    destruct (Nat.eqb_spec i l) as [->|Hne]; cbn [orb].
    + f_equal. etransitivity; [|apply (IH (S l) Ls H2); eapply Forall_impl; [|exact HLs]; cbn; intros; lia].
      apply filter_ext_in. intros k Hk. apply in_seq in Hk.
      replace (k =? l) with false by (symmetry; apply Nat.eqb_neq; lia). reflexivity.
    + rewrite (incr_from_notin Ls (S l) i) by (try lia; exact H2).
      apply (IH (S i) (l :: Ls)); [split; [lia|exact H2]|].
      constructor; [lia|]. eapply Forall_impl; [|exact HLs]. cbn. intros; lia.
Qed.

Lemma flat_map_filter : forall {X Y} (f : X -> bool) (g : X -> list Y) l,
  flat_map g (filter f l) = flat_map (fun x => if f x then g x else []) l.
Proof. induction l as [|x l IH]; [reflexivity|]. cbn. destruct (f x); cbn; rewrite IH; reflexivity. Qed.

Lemma monotone_incr : forall (l : list nat) i, monotone l = true -> NoDup l ->
  match l with [] => True | a :: _ => i <= a end -> incr_from i l.
Proof.
  induction l as [|a l IH]; intros i M Hn Hi; [exact I|]. split; [exact Hi|].
  destruct l as [|b r]; [exact I|].
  apply monotone_cons in M. destruct M as [M1 M2]. inversion Hn as [|a' l' Hna Hn']; subst.
  apply IH; [exact M2|exact Hn'|]. assert (a <> b) by (intros ->; apply Hna; left; reflexivity). lia.
Qed.

(* np.repeat(starts, lengths) paired with the concatenated lines, for lines given by line number *)
Lemma pairs_by_line : forall {V} (start : nat -> nat) (bl : nat -> list V) L,
  combine (flat_map (fun pc => repeat (fst pc) (snd pc)) (combine (map start L) (map (@length V) (map bl L))))
          (concat (map bl L))
  = flat_map (fun l => map (pair (start l)) (bl l)) L.
Proof.
  induction L as [|l L IH]; [reflexivity|].
  cbn [map combine flat_map fst snd concat].
  rewrite combine_app' by apply repeat_length. rewrite combine_repeat, IH. reflexivity.
Qed.

Section Sorted.
  Variables (A B1 : csr) (bl : nat -> list (nat * Z)) (L : list nat).
  Hypothesis WA : wfP A.
  Hypothesis RB : repr B1 (map bl L).
  Hypothesis HL : incr_from 0 L.
  Hypothesis HLn : Forall (fun l => l < nmaj A) L.

  Let n := nmaj A.
  Let ip := indptr A.
  Let row (i : nat) := nth i (rows A) [].
  Let flag (i : nat) := existsb (Nat.eqb i) L.
  Let g (i : nat) := nth (S i) ip 0 - nth i ip 0.
  (* line i after the removal; the new line i; line i in the end *)
  Let R1 (i : nat) : list (nat * Z) := if flag i then [] else row i.
  Let B (i : nat) : list (nat * Z) := if flag i then bl i else [].
  Let R2 (i : nat) : list (nat * Z) := B i ++ R1 i.

  Lemma ip_form : ip = 0 :: cumsumN 0 (map g (seq 0 n)).
  Proof.
    unfold ip. rewrite (wf_indptr A WA) at 1. rewrite (rows_seq A WA), map_map. f_equal. f_equal.
    apply map_ext_in. intros i Hi. apply in_seq in Hi. apply (row_length A i WA). lia.
  Qed.

  (* indptr after the removal *)
  Lemma ip1_form :
    map2 Nat.sub ip
      (cumsumN 0 (scatter (repeat 0 (length ip)) (map S L)
                          (map2 Nat.sub (gather 0 ip (map S L)) (gather 0 ip L))))
    = 0 :: cumsumN 0 (map (fun i => length (R1 i)) (seq 0 n)).
  Proof.
    unfold gather. rewrite map_map, map2_map.
    change (fun x : nat => nth (S x) ip 0 - nth x ip 0) with g.
    replace (length ip) with (S n) by (symmetry; apply (wf_len A WA)). rewrite (scatter_lines L g n HLn).
    change (cumsumN 0 (0 :: ?X)) with (0 :: cumsumN 0 X).
    rewrite ip_form at 1. cbn [map2]. f_equal.
    rewrite (cumsum_sub (seq 0 n) g (fun i => if existsb (Nat.eqb i) L then g i else 0) 0 0).
    - f_equal. apply map_ext_in. intros i Hi. apply in_seq in Hi.
      unfold R1, flag. destruct (existsb (Nat.eqb i) L); [simpl; lia|].
      unfold g, ip, row. rewrite (row_length A i WA) by lia. lia.
    - lia.
    - intros i. destruct (existsb (Nat.eqb i) L); lia.
  Qed.

  (* the boolean mask of the kept entries, line by line *)
  Lemma keep_form :
    scatter (repeat true (length (data A))) (array_ind A L) (repeat false (length (array_ind A L)))
    = concat (map (fun i => repeat (negb (flag i)) (length (row i))) (seq 0 n)).
  Proof.
    set (K := scatter _ _ _).
    assert (HK : length K = length (indices A))
      by (unfold K; rewrite scatter_length, repeat_length; apply (wf_data A WA)).
    rewrite (concat_rows_of A K WA HK). f_equal.
    rewrite (rows_pointwise A (entries A) K (fun i _ => negb (flag i)) (0, 0%Z) true WA (entries_length A WA) HK).
    - apply map_ext. intros i. apply map_const.
    - intros i k Hi Hk. unfold K.
      rewrite (scatter_lines_nth A L _ false true i k WA HLn) by (rewrite ?repeat_length; try lia; apply (wf_data A WA)).
      fold (flag i). destruct (flag i); [reflexivity|apply nth_repeat].
  Qed.

  Lemma kept_entries :
    mask (scatter (repeat true (length (data A))) (array_ind A L) (repeat false (length (array_ind A L))))
         (entries A)
    = flat_map R1 (seq 0 n).
  Proof.
    rewrite keep_form, (wf_entries A WA), (rows_seq A WA), mask_blocks, flat_map_concat_map.
    f_equal. apply map_ext. intros i. unfold R1, row. destruct (flag i); reflexivity.
  Qed.

  (* the final index pointer *)
  Lemma ipF_form : forall ip1, ip1 = 0 :: cumsumN 0 (map (fun i => length (R1 i)) (seq 0 n)) ->
    map2 Nat.add ip1 (cumsumN 0 (scatter (repeat 0 (length ip1)) (map S L) (diffN (indptr B1))))
    = 0 :: cumsumN 0 (map (@length _) (map R2 (seq 0 n))).
  Proof.
    intros ip1 ->. cbn [length]. rewrite cumsumN_length, map_length, seq_length.
    rewrite (rp_ptr B1 _ RB), diffN_ptr, map_map, (scatter_lines L (fun l => length (bl l)) n HLn).
    change (cumsumN 0 (0 :: ?X)) with (0 :: cumsumN 0 X). cbn [map2]. f_equal.
    rewrite cumsum_add, map_map. f_equal. apply map_ext. intros i.
    unfold R2, B. rewrite app_length. fold (flag i). destruct (flag i); cbn [length]; lia.
  Qed.

  (* the inserted (position, entry) pairs *)
  Lemma pairs_form : forall ip1,
    combine (flat_map (fun pc => repeat (fst pc) (snd pc)) (combine (gather 0 ip1 L) (diffN (indptr B1))))
            (entries B1)
    = pairs B (fun k => nth k ip1 0) (seq 0 n).
  Proof.
    intros ip1. rewrite (rp_entries B1 _ RB), (rp_ptr B1 _ RB), diffN_ptr.
    unfold gather. rewrite (pairs_by_line (fun k => nth k ip1 0)).
    rewrite <- (incr_filter n 0 L HL HLn) at 1. rewrite flat_map_filter. apply flat_map_ext.
    intros k. unfold B. fold (flag k). destruct (flag k); reflexivity.
  Qed.

  Theorem merge_sorted_rows :
    rows (merge_sorted A B1 L) = map (fun i => if flag i then bl i else row i) (seq 0 n).
  Proof.
    unfold rows at 1, entries at 1, merge_sorted. cbn [indptr indices data].
    fold ip. fold (array_ind A L). rewrite ip1_form.
    set (ip1 := 0 :: cumsumN 0 (map (fun i => length (R1 i)) (seq 0 n))).
    rewrite (ipF_form ip1 eq_refl).
    change (expand_nat (gather 0 ip L) (gather 0 ip (map S L))) with (array_ind A L).
    destruct (entries_split A (wf_data A WA)) as [EiA EdA].
    destruct (entries_split B1 (rp_data B1 _ RB)) as [EiB EdB].
    unfold np_insert. set (K := scatter (repeat true _) _ _).
    rewrite EiA, EdA, EiB, EdB, !mask_map, !insert_map, combine_fst_snd. unfold K.
    rewrite kept_entries, pairs_form.
    pose proof (ins_lines R1 B (fun k => nth k ip1 0) n 0 []) as I.
    cbn [map app] in I. change (nth 0 ip1 0) with 0 in I. rewrite I; clear I.
    - rewrite flat_map_concat_map. fold R2.
      rewrite rows_of_lines.
      apply map_ext. intros i. unfold R2, R1, B. destruct (flag i); [apply app_nil_r|reflexivity].
    - intros k Hk. unfold ip1. rewrite nth_ptr_succ, nth_map_seq by (rewrite ?map_length, ?seq_length; lia).
      reflexivity.
  Qed.
End Sorted.

Fixpoint assoc {V} (i : nat) (l : list (nat * V)) : option V :=
  match l with
  | [] => None
  | kv :: r => if fst kv =? i then Some (snd kv) else assoc i r
  end.

Definition merged_line {V} (lines : list nat) (Bs : list V) (old : nat -> V) (i : nat) : V :=
  match assoc i (combine lines Bs) with Some b => b | None => old i end.

Lemma assoc_flag : forall {V} L (Bs : list V) i, length Bs = length L ->
  match assoc i (combine L Bs) with Some _ => existsb (Nat.eqb i) L = true
                                   | None => existsb (Nat.eqb i) L = false end.
Proof.
  induction L as [|l L IH]; intros [|b Bs] i H; simpl in H; try discriminate; [reflexivity|].
  cbn [combine assoc fst existsb]. rewrite (Nat.eqb_sym i l).
  destruct (l =? i); [reflexivity|]. cbn [orb]. apply IH. lia.
Qed.

Lemma assoc_lines : forall {V} L (Bs : list V) d, NoDup L -> length Bs = length L ->
  map (merged_line L Bs (fun _ => d)) L = Bs.
Proof.
  induction L as [|l L IH]; intros [|b Bs] d Hn Hl; simpl in Hl; try discriminate; [reflexivity|].
  inversion Hn as [|l' L' Hnl Hn']; subst. cbn [map]. f_equal.
  - unfold merged_line. cbn [combine assoc fst snd]. rewrite Nat.eqb_refl. reflexivity.
  - rewrite <- (IH Bs d Hn') at 2 by lia. apply map_ext_in. intros k Hk.
    unfold merged_line. cbn [combine assoc fst].
    replace (l =? k) with false by (symmetry; apply Nat.eqb_neq; intros ->; contradiction). reflexivity.
Qed.

Lemma merge_sorted_lines : forall A B1 L Bs, wfP A -> repr B1 Bs ->
  monotone L = true -> NoDup L -> Forall (fun l => l < nmaj A) L -> length Bs = length L ->
  rows (merge_sorted A B1 L) = map (merged_line L Bs (fun i => nth i (rows A) [])) (seq 0 (nmaj A)).
Proof.
  intros A B1 L Bs WA RB M Hn HLn Hl.
  rewrite <- (assoc_lines L Bs [] Hn Hl) in RB.
  rewrite (merge_sorted_rows A B1 _ L WA RB); [|apply monotone_incr; [exact M|exact Hn|destruct L; [exact I|lia]]|exact HLn].
  apply map_ext. intros i. unfold merged_line. pose proof (assoc_flag L Bs i Hl) as F.
  destruct (assoc i (combine L Bs)); rewrite F; reflexivity.
Qed.

Lemma ins_key_perm : forall p l, Permutation (ins_key p l) (p :: l).
Proof.
  induction l as [|q r IH]; [apply Permutation_refl|]. cbn [ins_key].
  destruct (fst p <=? fst q); [apply Permutation_refl|].
  eapply Permutation_trans; [apply perm_skip; exact IH|apply perm_swap].
Qed.

Lemma sort_keys_perm : forall l, Permutation (sort_keys l) l.
Proof.
  induction l as [|p l IH]; [apply Permutation_refl|]. cbn [sort_keys fold_right].
  eapply Permutation_trans; [apply ins_key_perm|apply perm_skip; exact IH].
Qed.

Lemma ins_key_mono : forall p l, monotone (map fst l) = true -> monotone (map fst (ins_key p l)) = true.
Proof.
  induction l as [|q r IH]; intros M; [reflexivity|]. cbn [ins_key].
  destruct (fst p <=? fst q) eqn:E.
  - apply Nat.leb_le in E. apply monotone_cons. split; [exact E|exact M].
  - apply Nat.leb_gt in E. destruct r as [|q' r']; [apply monotone_cons; split; [lia|reflexivity]|].
    apply monotone_cons in M. destruct M as [M1 M2]. specialize (IH M2). cbn [ins_key] in *.
    destruct (fst p <=? fst q'); apply monotone_cons; (split; [lia|exact IH]).
Qed.

Lemma sort_keys_mono : forall l, monotone (map fst (sort_keys l)) = true.
Proof. induction l as [|p l IH]; [reflexivity|]. cbn [sort_keys fold_right]. apply ins_key_mono. exact IH. Qed.

Lemma nodupb_iff : forall l, nodupb l = true <-> NoDup l.
Proof.
  induction l as [|x l IH]; [split; [constructor|reflexivity]|]. cbn [nodupb].
  rewrite andb_true_iff, negb_true_iff, IH, <- not_true_iff_false, existsb_exists. split.
  - intros [H1 H2]. constructor; [|exact H2]. intros Hin. apply H1. exists x. split; [exact Hin|apply Nat.eqb_refl].
  - intros H. inversion H as [|x' l' Hx Hl]; subst. split; [|exact Hl].
    intros [y [Hy Heq]]. apply Nat.eqb_eq in Heq. subst. contradiction.
Qed.

Lemma assoc_perm : forall {V} (l l' : list (nat * V)) i, Permutation l l' -> NoDup (map fst l) ->
  assoc i l = assoc i l'.
Proof.
  intros V l l' i Hp. induction Hp as [|x l l' Hp IH|x y l|l l' l'' Hp1 IH1 Hp2 IH2]; intros Hn;
    cbn [assoc map] in *.
  - reflexivity.
  - inversion Hn; subst. rewrite IH by assumption. reflexivity.
  - inversion Hn as [|? ? Hx _]; subst.
    destruct (Nat.eqb_spec (fst y) i), (Nat.eqb_spec (fst x) i); try reflexivity.
    exfalso. apply Hx. left. congruence.
  - rewrite IH1 by exact Hn. apply IH2. apply (Permutation_NoDup (Permutation_map fst Hp1) Hn).
Qed.

Lemma assoc_map : forall {V W} (f : V -> W) L (Bs : list V) i,
  assoc i (combine L (map f Bs)) = option_map f (assoc i (combine L Bs)).
Proof.
  induction L as [|l L IH]; intros [|b Bs] i; try reflexivity. cbn [map combine assoc fst snd].
  destruct (l =? i); [reflexivity|apply IH].
Qed.

Lemma combine_nth_seq : forall {X Y} (a : list X) (b : list Y) dx dy, length a = length b ->
  combine a b = map (fun j => (nth j a dx, nth j b dy)) (seq 0 (length a)).
Proof.
  intros X Y a b dx dy H. rewrite <- (map_nth_seq a dx) at 1. rewrite <- (map_nth_seq b dy) at 1.
  rewrite <- H. apply combine_map_same.
Qed.

Lemma argsort_perm : forall l, Permutation (argsort l) (seq 0 (length l)).
Proof.
  intros l. unfold argsort. eapply Permutation_trans; [apply Permutation_map, sort_keys_perm|].
  rewrite map_snd_combine by (symmetry; apply seq_length). apply Permutation_refl.
Qed.

Lemma argsort_sorted : forall l, monotone (gather 0 l (argsort l)) = true.
Proof.
  intros l. unfold argsort, gather. rewrite map_map.
  rewrite (map_ext_in _ fst); [apply sort_keys_mono|].
  (* the sorted pairs are still (key, position) pairs of l *)
  intros kp Hin. apply (Permutation_in _ (sort_keys_perm _)) in Hin.
  rewrite (combine_nth_seq l _ 0 0) in Hin by (symmetry; apply seq_length).
  apply in_map_iff in Hin. destruct Hin as [j [<- Hj]]. apply in_seq in Hj.
  cbn [fst snd]. rewrite seq_nth by lia. reflexivity.
Qed.

Lemma gather_perm : forall {E} (d : E) l s, Permutation s (seq 0 (length l)) -> Permutation (gather d l s) l.
Proof.
  intros E d l s H. eapply Permutation_trans; [apply Permutation_map, H|].
  rewrite map_nth_seq. apply Permutation_refl.
Qed.

Lemma assoc_gather : forall {V} (l : list nat) (Bs : list V) d s i, NoDup l -> length Bs = length l ->
  Permutation s (seq 0 (length l)) ->
  assoc i (combine (gather 0 l s) (gather d Bs s)) = assoc i (combine l Bs).
Proof.
  intros V l Bs d s i Hnd Hlen Hp. unfold gather.
  rewrite combine_map_same, (combine_nth_seq l Bs 0 d) by (symmetry; exact Hlen).
  apply assoc_perm; [apply Permutation_map, Hp|].
  rewrite map_map. apply (Permutation_NoDup (Permutation_sym (gather_perm 0 l s Hp)) Hnd).
Qed.

Theorem merge_rows : forall A B lines,
  wf A = true -> wf B = true -> nmin A = nmin B -> length lines = nmaj B ->
  NoDup lines -> Forall (fun l => l < nmaj A) lines ->
  exists C, merge_matrices A B lines = Ok C /\ nmaj C = nmaj A /\ nmin C = nmin A /\
    rows C = map (merged_line lines (rows B) (fun i => nth i (rows A) [])) (seq 0 (nmaj A)).
Proof.
  intros A B lines HA HB Hmin Hlen Hnd Hrange.
  pose proof (wf_wfP A HA) as WA. pose proof (wf_wfP B HB) as WB.
  pose proof (rows_length B WB) as HlB. rewrite <- Hlen in HlB.
  unfold merge_matrices.
  rewrite (proj2 (Nat.eqb_eq _ _) Hmin), (proj2 (Nat.eqb_eq _ _) Hlen), (proj2 (nodupb_iff lines) Hnd).
  cbn [negb].
  destruct (monotone lines) eqn:M.
  - (* already increasing *)
    rewrite (proj2 (lines_ok_Forall A lines) Hrange). cbn [negb].
    eexists. split; [reflexivity|]. split; [reflexivity|]. split; [reflexivity|].
    apply (merge_sorted_lines A B lines (rows B) WA (wf_repr B WB)); assumption.
  - (* sort the lines, and the lines of B with them *)
    pose proof (argsort_perm lines) as Hp. pose proof (gather_perm 0 lines _ Hp) as Hp1.
    assert (Hs : Forall (fun j => j < nmaj B) (argsort lines)).
    { rewrite Hp, <- Hlen. apply Forall_forall. intros j Hj. apply in_seq in Hj. lia. }
    destruct (slice_repr B _ HB Hs) as [B1 [Es [_ [_ RB1]]]]. rewrite Es.
    assert (Hr1 : Forall (fun l => l < nmaj A) (gather 0 lines (argsort lines))) by (rewrite Hp1; exact Hrange).
    rewrite (proj2 (lines_ok_Forall A _) Hr1). cbn [negb].
    eexists. split; [reflexivity|]. split; [reflexivity|]. split; [reflexivity|].
    rewrite (merge_sorted_lines A B1 _ _ WA RB1 (argsort_sorted lines) (Permutation_NoDup (Permutation_sym Hp1) Hnd) Hr1)
      by (unfold gather; rewrite !map_length; reflexivity).
    apply map_ext. intros i. unfold merged_line. rewrite <- (assoc_gather lines (rows B) [] _ i Hnd HlB Hp). reflexivity.
Qed.
