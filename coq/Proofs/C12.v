(* C12 — proofs about the transcribed Tpfa.discretize (PP.Model.C12) at the reals. *)
From Coq Require Import List ZArith Bool Arith Lia Reals Lra.
Import ListNotations.
From PP Require Import Model.C12.

Local Open Scope R_scope.

Notation rvec := (vec R).
Notation rdot := (dot R Rplus Rmult).
Notation rvsub := (vsub R Rminus).
Notation rmulmv := (mulmv R Rplus Rmult).
Notation rcross := (cross R Rminus Rmult).
Notation rknvec := (knvec R Rplus Rmult IZR).
Notation rdvec := (dvec R Rminus).
Notation rhalf := (half_trans R Rplus Rminus Rmult Rdiv IZR).
Notation rinv_sum := (inv_sum R 0 1 Rplus Rminus Rmult Rdiv IZR).
Notation rt_full := (t_full R 0 1 Rplus Rminus Rmult Rdiv IZR).
Notation rt_flux := (t_flux R 0 1 Rplus Rminus Rmult Rdiv IZR).
Notation rt_b := (t_b R 0 1 Rplus Rminus Rmult Rdiv Ropp IZR).
Notation rflux := (flux R 0 1 Rplus Rminus Rmult Rdiv IZR).
Notation rbsgn := (bsgn R 0 IZR).
Notation rbound_flux := (bound_flux R 0 1 Rplus Rminus Rmult Rdiv Ropp IZR).
Notation rbpc := (bound_pressure_cell R 0 1).
Notation rv_face := (v_face R 0 1 Rplus Rminus Rmult Rdiv Ropp IZR).
Notation rbpf := (bound_pressure_face R 0 1 Rplus Rminus Rmult Rdiv Ropp IZR).
Notation rdiscretize := (discretize R 0 1 Rplus Rminus Rmult Rdiv Ropp IZR).

Definition lsum {A : Type} (g : A -> R) (l : list A) : R :=
  fold_right (fun a acc => g a + acc) 0 l.

Lemma lsum_nil {A} (g : A -> R) : lsum g [] = 0.
Proof. reflexivity. Qed.

Lemma lsum_cons {A} (g : A -> R) a l : lsum g (a :: l) = g a + lsum g l.
Proof. reflexivity. Qed.

Lemma lsum_app {A} (g : A -> R) l1 l2 : lsum g (l1 ++ l2) = lsum g l1 + lsum g l2.
Proof. induction l1 as [|a l IH]; cbn [app]; [rewrite lsum_nil; lra | rewrite !lsum_cons, IH; lra]. Qed.

Lemma lsum_ext {A} (g h : A -> R) l : (forall a, In a l -> g a = h a) -> lsum g l = lsum h l.
Proof.
  induction l as [|a l IH]; intros H; [reflexivity|].
  rewrite !lsum_cons, (H a (or_introl eq_refl)), (IH (fun x Hx => H x (or_intror Hx))). reflexivity.
Qed.

Lemma lsum_map {A B} (h : A -> B) (g : B -> R) l : lsum g (map h l) = lsum (fun a => g (h a)) l.
Proof. induction l as [|a l IH]; [reflexivity|]. cbn [map]. rewrite !lsum_cons, IH. reflexivity. Qed.

Lemma lsum_flat_map {A B} (h : A -> list B) (g : B -> R) l :
  lsum g (flat_map h l) = lsum (fun a => lsum g (h a)) l.
Proof.
  induction l as [|a l IH]; [reflexivity|]. cbn [flat_map]. rewrite lsum_app, lsum_cons, IH. reflexivity.
Qed.

Lemma lsum_plus {A} (g h : A -> R) l : lsum (fun a => g a + h a) l = lsum g l + lsum h l.
Proof. induction l as [|a l IH]; [cbn; lra|]. rewrite !lsum_cons, IH. lra. Qed.

Lemma lsum_scal {A} c (g : A -> R) l : lsum (fun a => c * g a) l = c * lsum g l.
Proof. induction l as [|a l IH]; [cbn; lra|]. rewrite !lsum_cons, IH. lra. Qed.

Lemma lsum_zero {A} (g : A -> R) l : (forall a, In a l -> g a = 0) -> lsum g l = 0.
Proof.
  induction l as [|a l IH]; intros H; [reflexivity|].
  rewrite lsum_cons, (H a (or_introl eq_refl)), (IH (fun x Hx => H x (or_intror Hx))). lra.
Qed.

Lemma lsum_swap {A B} (g : A -> B -> R) la lb :
  lsum (fun a => lsum (fun b => g a b) lb) la = lsum (fun b => lsum (fun a => g a b) la) lb.
Proof.
  induction la as [|a la IH].
  - cbn [lsum fold_right]. symmetry. apply lsum_zero. reflexivity.
  - rewrite lsum_cons, IH. rewrite <- lsum_plus. apply lsum_ext. intros b _. rewrite lsum_cons. reflexivity.
Qed.

Lemma lsum_filter {A} (p : A -> bool) (g : A -> R) l :
  lsum (fun a => if p a then g a else 0) l = lsum g (filter p l).
Proof.
  induction l as [|a l IH]; [reflexivity|]. rewrite lsum_cons. cbn [filter].
  destruct (p a); [rewrite lsum_cons, IH; reflexivity | rewrite IH; lra].
Qed.

Lemma lsum_nonneg {A} (g : A -> R) l : (forall a, In a l -> 0 <= g a) -> 0 <= lsum g l.
Proof.
  induction l as [|a l IH]; intros H; [cbn; lra|]. rewrite lsum_cons.
  pose proof (H a (or_introl eq_refl)). pose proof (IH (fun x Hx => H x (or_intror Hx))). lra.
Qed.

Lemma lsum_nonpos {A} (g : A -> R) l : (forall a, In a l -> g a <= 0) -> lsum g l <= 0.
Proof.
  induction l as [|a l IH]; intros H; [cbn; lra|]. rewrite lsum_cons.
  pose proof (H a (or_introl eq_refl)). pose proof (IH (fun x Hx => H x (or_intror Hx))). lra.
Qed.

Lemma lsum_pos {A} (g : A -> R) l a0 :
  (forall a, In a l -> 0 <= g a) -> In a0 l -> 0 < g a0 -> 0 < lsum g l.
Proof.
  intros H Hin Hp. apply in_split in Hin. destruct Hin as (l1 & l2 & ->).
  rewrite lsum_app, lsum_cons.
  assert (0 <= lsum g l1) by (apply lsum_nonneg; intros; apply H, in_or_app; auto).
  assert (0 <= lsum g l2) by (apply lsum_nonneg; intros; apply H, in_or_app; cbn [In]; auto). lra.
Qed.

Lemma lsum_diag_at (h : nat -> R) f : forall l, NoDup l -> In f l ->
  lsum (fun g => if (g =? f)%nat then h g else 0) l = h f.
Proof.
  induction l as [|g l IH]; intros Hnd Hin; [destruct Hin|].
  inversion Hnd as [|? ? Hng Hnd']; subst. rewrite lsum_cons.
  destruct Hin as [->|Hin].
  - rewrite Nat.eqb_refl. rewrite lsum_zero; [lra|]. intros g Hg.
    destruct (Nat.eqb_spec g f) as [->|_]; [contradiction|reflexivity].
  - destruct (Nat.eqb_spec g f) as [->|_]; [contradiction|]. rewrite IH by assumption. lra.
Qed.

Lemma filter_andb {A} (p q : A -> bool) l :
  filter (fun x => p x && q x) l = filter q (filter p l).
Proof.
  induction l as [|a l IH]; [reflexivity|]. cbn [filter].
  destruct (p a); cbn [andb filter]; [destruct (q a); rewrite IH; reflexivity | exact IH].
Qed.

Definition mrow (t : nat * nat * R) := fst (fst t).
Definition mcol (t : nat * nat * R) := snd (fst t).
Definition mval (t : nat * nat * R) := snd t.

(* M[r, c] (duplicates add up, as in scipy) *)
Definition entry (M : coo R) (r c : nat) : R :=
  lsum (fun t => if (mrow t =? r)%nat && (mcol t =? c)%nat then mval t else 0) M.

Definition row_apply (M : coo R) (x : nat -> R) (r : nat) : R :=
  lsum (fun t => if (mrow t =? r)%nat then mval t * x (mcol t) else 0) M.

Lemma row_apply_map {A} (mk : A -> nat * nat * R) (l : list A) x r :
  row_apply (map mk l) x r =
  lsum (fun a => mval (mk a) * x (mcol (mk a))) (filter (fun a => (mrow (mk a) =? r)%nat) l).
Proof. unfold row_apply. rewrite lsum_map, <- lsum_filter. reflexivity. Qed.

Section Real.
  Variable I : input R.

  Definition on_face (f : nat) : list inc := filter (fun e => (tf e =? f)%nat) (cf I).

  Lemma on_face_in f e : In e (on_face f) <-> In e (cf I) /\ tf e = f.
  Proof. unfold on_face. rewrite filter_In, Nat.eqb_eq. reflexivity. Qed.

  (* (Div * flux)[i, j],  Div = cell_faces^T *)
  Definition divflux (i j : nat) : R :=
    lsum (fun e => if (tc e =? i)%nat then IZR (ts e) * entry (rflux I) (tf e) j else 0) (cf I).

  (* total flux through face f for cell pressures p and boundary values bv *)
  Definition face_flux (p bv : nat -> R) (f : nat) : R :=
    row_apply (rflux I) p f + row_apply (rbound_flux I) bv f.

  (* reconstructed boundary pressure *)
  Definition face_pressure (p bv : nat -> R) (f : nat) : R :=
    row_apply (rbpc I) p f + row_apply (rbpf I) bv f.

  Definition csum (f j : nat) : R :=
    lsum (fun e => if (tc e =? j)%nat then IZR (ts e) else 0) (on_face f).

  Lemma entry_flux f j : entry (rflux I) f j = rt_flux I f * csum f j.
  Proof.
    unfold entry, flux, csum, on_face. rewrite lsum_map, <- lsum_scal, <- lsum_filter.
    apply lsum_ext. intros e _. unfold mrow, mcol, mval. cbn [fst snd].
    destruct (Nat.eqb_spec (tf e) f) as [->|_]; cbn [andb]; [destruct (tc e =? j)%nat|]; ring.
  Qed.

  Lemma entry_pair f e1 e2 :
    on_face f = [e1; e2] -> ts e2 = (- ts e1)%Z -> neu' R I f = false ->
    forall j, entry (rflux I) f j =
              rt_full I f * IZR (ts e1)
              * ((if (tc e1 =? j)%nat then 1 else 0) - (if (tc e2 =? j)%nat then 1 else 0)).
  Proof.
    intros H Hs Hn j. rewrite entry_flux. unfold csum, t_flux.
    rewrite H, Hn, !lsum_cons, lsum_nil, Hs, opp_IZR. destruct (tc e1 =? j)%nat, (tc e2 =? j)%nat; ring.
  Qed.

  Lemma row_apply_flux p f :
    row_apply (rflux I) p f = lsum (fun e => rt_flux I f * IZR (ts e) * p (tc e)) (on_face f).
  Proof.
    unfold flux. rewrite row_apply_map. apply lsum_ext. intros e He.
    apply on_face_in in He. destruct He as [_ <-]. reflexivity.
  Qed.

  Lemma row_apply_bflux_notin bv f :
    ~ In f (bnd I) -> row_apply (rbound_flux I) bv f = 0.
  Proof.
    intros H. unfold row_apply, bound_flux. rewrite lsum_map. apply lsum_zero.
    intros g Hg. unfold mrow. cbn [fst snd].
    destruct (Nat.eqb_spec g f) as [->|_]; [contradiction|reflexivity].
  Qed.

  Lemma row_apply_bflux_in bv f :
    NoDup (bnd I) -> In f (bnd I) ->
    row_apply (rbound_flux I) bv f = rt_b I f * rbsgn I f * bv f.
  Proof.
    intros Hnd Hin. unfold row_apply, bound_flux. rewrite lsum_map.
    exact (lsum_diag_at (fun g => rt_b I g * rbsgn I g * bv g) f _ Hnd Hin).
  Qed.

  Definition geo_face (f : nat) : list inc := filter (fun e => (tg e =? f)%nat) (cf I).

  Lemma row_apply_bpc p f :
    row_apply (rbpc I) p f = lsum (fun e => (if is_neu I f then 1 else 0) * p (tc e)) (geo_face f).
  Proof.
    unfold bound_pressure_cell. rewrite row_apply_map. apply lsum_ext. intros e He.
    apply filter_In in He. destruct He as [_ He]. apply Nat.eqb_eq in He. cbn in He. rewrite <- He.
    reflexivity.
  Qed.

  Lemma row_apply_bpf bv f : (f < nf I)%nat -> row_apply (rbpf I) bv f = rv_face I f * bv f.
  Proof.
    intros Hf. unfold row_apply, bound_pressure_face. rewrite lsum_map.
    apply (lsum_diag_at (fun g => rv_face I g * bv g) f); [apply seq_NoDup | apply in_seq; lia].
  Qed.

  Lemma inv_sum_filter f : rinv_sum I f = lsum (fun e => 1 / rhalf I e) (on_face f).
  Proof.
    unfold inv_sum, on_face. rewrite <- lsum_filter. unfold lsum.
    induction (cf I) as [|e l IH]; [reflexivity|]. cbn [fold_right]. rewrite IH.
    destruct (tf e =? f)%nat; [reflexivity|lra].
  Qed.

  (* the contribution of the entries e (row of Div) and e' (row of flux) to (Div * flux)[i, j] *)
  Definition G (i j : nat) (e e' : inc) : R :=
    if (tc e =? i)%nat then
      IZR (ts e) * (if (tf e' =? tf e)%nat && (tc e' =? j)%nat
                    then rt_flux I (tf e) * IZR (ts e') else 0)
    else 0.

  Lemma divflux_double i j :
    divflux i j = lsum (fun e => lsum (fun e' => G i j e e') (cf I)) (cf I).
  Proof.
    unfold divflux. apply lsum_ext. intros e _. unfold G.
    destruct (tc e =? i)%nat.
    - rewrite lsum_scal, entry_flux. unfold csum, on_face. rewrite <- lsum_scal, <- lsum_filter.
      f_equal. apply lsum_ext. intros e' _.
      destruct (tf e' =? tf e)%nat; cbn [andb]; [destruct (tc e' =? j)%nat|]; ring.
    - symmetry. apply lsum_zero. reflexivity.
  Qed.

  Lemma G_sym i j e e' : G i j e e' = G j i e' e.
  Proof.
    unfold G. rewrite (Nat.eqb_sym (tf e') (tf e)).
    destruct (Nat.eqb_spec (tf e) (tf e')) as [->|_]; cbn [andb];
      destruct (tc e =? i)%nat, (tc e' =? j)%nat; ring.
  Qed.

  Lemma G_cases i j e e' :
    G i j e e' = 0 \/
    (tc e = i /\ tc e' = j /\ tf e' = tf e /\
     G i j e e' = rt_flux I (tf e) * (IZR (ts e) * IZR (ts e'))).
  Proof.
    unfold G.
    destruct (Nat.eqb_spec (tc e) i), (Nat.eqb_spec (tf e') (tf e)), (Nat.eqb_spec (tc e') j);
      cbn [andb]; try (left; ring).
    right. repeat split; auto. ring.
  Qed.

  Definition interior (f c1 c2 : nat) (s : Z) : Prop :=
    on_face f = [geo f c1 s; geo f c2 (- s)%Z] /\ ~ In f (bnd I) /\ neu' R I f = false.

  Definition boundary (f c : nat) (s : Z) : Prop :=
    (on_face f = [geo f c s] /\ geo_face f = [geo f c s]) /\ In f (bnd I) /\ NoDup (bnd I).

  Lemma bsgn_boundary f c s : boundary f c s -> rbsgn I f = IZR s.
  Proof.
    intros [[H _] _]. unfold bsgn. rewrite filter_andb. fold (on_face f). rewrite H.
    cbn [filter geo tg fst snd]. rewrite Nat.eqb_refl. reflexivity.
  Qed.

  Lemma face_flux_interior f c1 c2 s p bv :
    interior f c1 c2 s -> face_flux p bv f = rt_full I f * IZR s * (p c1 - p c2).
  Proof.
    intros (H & Hb & Hn). unfold face_flux.
    rewrite row_apply_flux, H, row_apply_bflux_notin, !lsum_cons, lsum_nil by exact Hb.
    unfold t_flux. rewrite Hn. cbn [tc ts geo fst snd]. rewrite opp_IZR. ring.
  Qed.

  Lemma face_flux_boundary f c s p bv :
    boundary f c s ->
    face_flux p bv f = rt_flux I f * IZR s * p c + rt_b I f * IZR s * bv f.
  Proof.
    intros Hb. pose proof (bsgn_boundary _ _ _ Hb) as Hs. destruct Hb as ((H & _) & Hin & Hnd).
    unfold face_flux. rewrite row_apply_flux, H, (row_apply_bflux_in bv f Hnd Hin), Hs, lsum_cons, lsum_nil.
    cbn [tc ts geo fst snd]. ring.
  Qed.

  Lemma face_pressure_boundary f c s p bv :
    boundary f c s -> (f < nf I)%nat ->
    face_pressure p bv f = (if is_neu I f then 1 else 0) * p c + rv_face I f * bv f.
  Proof.
    intros ((_ & Hg) & _) Hf. unfold face_pressure.
    rewrite row_apply_bpc, Hg, row_apply_bpf, lsum_cons, lsum_nil by exact Hf.
    cbn [tc geo fst snd]. ring.
  Qed.

  (* K (s n_f) is parallel to x_f - x_c and points the same way *)
  Definition korth (e : inc) : Prop :=
    rcross (rknvec I e) (rdvec I e) = (0, 0, 0) /\ 0 < rdot (rknvec I e) (rdvec I e).

  (* then (K s n).d / |d|^2 is the factor between d and K s n *)
  Lemma korth_half e :
    korth e ->
    0 < rhalf I e /\ forall a : rvec, rdot a (rdvec I e) * rhalf I e = rdot a (rknvec I e).
  Proof.
    unfold korth, half_trans. generalize (rknvec I e) as k, (rdvec I e) as d.
    intros [[k1 k2] k3] [[d1 d2] d3]. unfold cross, dot, vx, vy, vz. cbn [fst snd].
    intros [Hc Hp]. injection Hc as C1 C2 C3.
    assert (Hdd : 0 < d1 * d1 + d2 * d2 + d3 * d3) by nra.
    split; [apply Rdiv_lt_0_compat; assumption|].
    intros [[a1 a2] a3]. cbn [fst snd].
    (* Lagrange: (a.d)(k.d) - (a.k)(d.d) = a.(d x (k x d)), and k x d = 0 *)
    assert (L : (a1 * d1 + a2 * d2 + a3 * d3) * (k1 * d1 + k2 * d2 + k3 * d3)
                = (a1 * k1 + a2 * k2 + a3 * k3) * (d1 * d1 + d2 * d2 + d3 * d3)).
    { apply Rminus_diag_uniq.
      replace (_ - _) with (a1 * (d3 * (k3 * d1 - k1 * d3) - d2 * (k1 * d2 - k2 * d1))
                            + a2 * (d1 * (k1 * d2 - k2 * d1) - d3 * (k2 * d3 - k3 * d2))
                            + a3 * (d2 * (k2 * d3 - k3 * d2) - d1 * (k3 * d1 - k1 * d3))) by ring.
      rewrite C1, C2, C3. ring. }
    apply (Rmult_eq_reg_r (d1 * d1 + d2 * d2 + d3 * d3)); [|lra]. rewrite <- L. field. lra.
  Qed.

  Lemma t_full_pos f :
    (forall e, In e (cf I) -> korth e) -> (exists e, In e (cf I) /\ tf e = f) -> 0 < rt_full I f.
  Proof.
    intros Hk [e0 He0]. apply on_face_in in He0. unfold t_full. rewrite inv_sum_filter.
    assert (Hpos : forall e, In e (on_face f) -> 0 < 1 / rhalf I e).
    { intros e He. apply on_face_in in He.
      apply Rdiv_lt_0_compat; [lra|]. apply korth_half, Hk, He. }
    apply Rdiv_lt_0_compat; [lra|].
    apply (lsum_pos _ _ e0); [intros e He; left | exact He0 |]; auto.
  Qed.

  Lemma t_flux_nonneg e :
    (forall e, In e (cf I) -> korth e) -> In e (cf I) -> 0 <= rt_flux I (tf e).
  Proof.
    intros Hk Hin. unfold t_flux. destruct (neu' R I (tf e)); [lra|].
    left. apply t_full_pos; [exact Hk|]. exists e. tauto.
  Qed.

  (* two different cells on one face lie on opposite sides *)
  Definition opp_signs : Prop :=
    forall e e', In e (cf I) -> In e' (cf I) -> tf e = tf e' -> tc e <> tc e' -> (ts e * ts e' <= 0)%Z.
  (* a (face, cell) pair is stored with one sign *)
  Definition one_sign : Prop :=
    forall e e', In e (cf I) -> In e' (cf I) -> tf e = tf e' -> tc e = tc e' -> ts e = ts e'.

  Theorem Mmatrix_theorem :
    (forall e, In e (cf I) -> korth e) -> opp_signs -> one_sign ->
    forall i j,
      (i <> j -> divflux i j <= 0) /\
      0 <= divflux i i /\
      ((exists e, In e (cf I) /\ tc e = i /\ ts e <> 0%Z /\ neu' R I (tf e) = false) ->
       0 < divflux i i).
  Proof.
    intros Hk Hopp Hone i j. rewrite !divflux_double.
    (* sign of one contribution: t_flux >= 0 times the product of the two signs *)
    assert (Hoff : i <> j -> forall e e', In e (cf I) -> In e' (cf I) -> G i j e e' <= 0).
    { intros Hij e e' He He'. destruct (G_cases i j e e') as [-> | (Ei & Ej & Ef & ->)]; [lra|].
      assert (Hs : (ts e * ts e' <= 0)%Z) by (apply Hopp; congruence).
      apply IZR_le in Hs. rewrite mult_IZR in Hs. pose proof (t_flux_nonneg e Hk He). nra. }
    assert (Hdiag : forall e e', In e (cf I) -> In e' (cf I) -> 0 <= G i i e e').
    { intros e e' He He'. destruct (G_cases i i e e') as [-> | (Ei & Ei' & Ef & ->)]; [lra|].
      rewrite (Hone e' e He' He Ef) by congruence. pose proof (t_flux_nonneg e Hk He). nra. }
    split; [|split].
    - intros Hij. apply lsum_nonpos. intros e He. apply lsum_nonpos. intros e' He'. auto.
    - apply lsum_nonneg. intros e He. apply lsum_nonneg. intros e' He'. auto.
    - intros (e0 & He0 & Ec & Es & Hn).
      apply (lsum_pos _ _ e0); [intros e He; apply lsum_nonneg; auto | exact He0 |].
      apply (lsum_pos _ _ e0); [auto | exact He0 |].
      unfold G. rewrite Ec, !Nat.eqb_refl. cbn [andb].
      assert (0 < rt_flux I (tf e0)).
      { unfold t_flux. rewrite Hn. apply t_full_pos; [exact Hk|]. exists e0. tauto. }
      assert (IZR (ts e0) <> 0) by (intros X; apply eq_IZR in X; contradiction).
      assert (0 < IZR (ts e0) * IZR (ts e0)) by nra. nra.
  Qed.

  Lemma dot_vsub (a x y : rvec) : rdot a (rvsub x y) = rdot a x - rdot a y.
  Proof.
    destruct a as [[a1 a2] a3], x as [[x1 x2] x3], y as [[y1 y2] y3].
    unfold dot, vsub, vx, vy, vz. cbn [fst snd]. ring.
  Qed.

  Lemma dot_knvec (a : rvec) e K0 :
    perm I (tc e) = K0 ->
    rdot a (rknvec I e) = IZR (tgs e) * rdot (rmulmv K0 (normal I (tg e))) a.
  Proof.
    intros HK. unfold knvec, nvec. rewrite HK.
    destruct K0 as [[[[k11 k12] k13] [[k21 k22] k23]] [[k31 k32] k33]].
    destruct (normal I (tg e)) as [[n1 n2] n3]. destruct a as [[a1 a2] a3].
    unfold mulmv, vscale. unfold dot, vx, vy, vz. cbn [fst snd]. ring.
  Qed.

  Definition linear (a : rvec) (b : R) (x : rvec) : R := rdot a x + b.

  (* the cell-centre value of a linear pressure seen from the face, through K-orthogonality *)
  Lemma cell_pressure a b e K0 :
    korth e -> perm I (tc e) = K0 ->
    0 < rhalf I e /\
    linear a b (ccen I (tc e))
    = linear a b (fcen I (tg e)) - IZR (tgs e) * rdot (rmulmv K0 (normal I (tg e))) a / rhalf I e.
  Proof.
    intros Hk HK. destruct (korth_half e Hk) as [Hp Hd]. split; [exact Hp|].
    rewrite <- (dot_knvec a e K0 HK), <- Hd. unfold dvec, linear. rewrite dot_vsub. field. lra.
  Qed.

  Theorem linear_exact_interior a b K0 f c1 c2 s bv :
    interior f c1 c2 s -> (s = 1 \/ s = -1)%Z ->
    korth (geo f c1 s) -> korth (geo f c2 (- s)%Z) -> perm I c1 = K0 -> perm I c2 = K0 ->
    face_flux (fun c => linear a b (ccen I c)) bv f = - rdot (rmulmv K0 (normal I f)) a.
  Proof.
    intros Hi Hs K1 K2 P1 P2.
    destruct (cell_pressure a b _ K0 K1 P1) as [Hp1 E1], (cell_pressure a b _ K0 K2 P2) as [Hp2 E2].
    cbn [tc tg tgs geo fst snd] in E1, E2.
    rewrite (face_flux_interior f c1 c2 s _ bv Hi), E1, E2. destruct Hi as (H & _ & _).
    unfold t_full. rewrite inv_sum_filter, H, !lsum_cons, lsum_nil.
    destruct Hs as [-> | ->]; cbn [Z.opp] in *; field; lra.
  Qed.

  Theorem linear_exact_dirichlet a b K0 f c s bv :
    boundary f c s -> (s = 1 \/ s = -1)%Z ->
    neu' R I f = false -> dir' R I f = true ->
    korth (geo f c s) -> perm I c = K0 -> bv f = linear a b (fcen I f) ->
    face_flux (fun c => linear a b (ccen I c)) bv f = - rdot (rmulmv K0 (normal I f)) a.
  Proof.
    intros Hbd Hs Hn Hd K1 P1 Hv.
    destruct (cell_pressure a b _ K0 K1 P1) as [Hp1 E1]. cbn [tc tg tgs geo fst snd] in E1.
    rewrite (face_flux_boundary f c s _ bv Hbd), E1, Hv. destruct Hbd as ((H & _) & _).
    unfold t_flux, t_b, t_full. rewrite Hn, Hd, inv_sum_filter, H, lsum_cons, lsum_nil.
    destruct Hs as [-> | ->]; field; lra.
  Qed.

  Theorem bound_pressure_dirichlet p bv f c s :
    boundary f c s -> (f < nf I)%nat -> is_neu I f = false -> is_dir I f = true ->
    face_pressure p bv f = bv f.
  Proof.
    intros Hb Hf Hn Hd. rewrite (face_pressure_boundary f c s p bv Hb Hf). unfold v_face.
    rewrite Hn, Hd. ring.
  Qed.

  Theorem bound_pressure_neumann a b K0 f c s bv :
    boundary f c s -> (f < nf I)%nat -> (s = 1 \/ s = -1)%Z -> is_neu I f = true ->
    korth (geo f c s) -> perm I c = K0 ->
    bv f = IZR s * (- rdot (rmulmv K0 (normal I f)) a) ->
    face_pressure (fun c => linear a b (ccen I c)) bv f = linear a b (fcen I f).
  Proof.
    intros Hbd Hf Hs Hn K1 P1 Hv.
    destruct (cell_pressure a b _ K0 K1 P1) as [Hp1 E1]. cbn [tc tg tgs geo fst snd] in E1.
    rewrite (face_pressure_boundary f c s _ bv Hbd Hf), E1, Hv. destruct Hbd as ((H & _) & _).
    unfold v_face, t_full. rewrite Hn, inv_sum_filter, H, lsum_cons, lsum_nil.
    destruct Hs as [-> | ->]; field; lra.
  Qed.

  (* faces l and r are identified: l carries its own cell and, through the extension, the
     cell of r with r's geometry (and vice versa) *)
  Definition periodic_pair (l r cl cr : nat) (sl sr : Z) : Prop :=
    on_face l = [geo l cl sl; (l, cr, (- sl)%Z, r, sr)] /\
    on_face r = [geo r cr sr; (r, cl, (- sr)%Z, l, sl)] /\
    neu' R I l = false /\ neu' R I r = false.

  Lemma periodic_pair_sym l r cl cr sl sr :
    periodic_pair l r cl cr sl sr -> periodic_pair r l cr cl sr sl.
  Proof. unfold periodic_pair. tauto. Qed.

  (* the two faces see the same two half transmissibilities *)
  Lemma periodic_t_full l r cl cr sl sr :
    periodic_pair l r cl cr sl sr -> rt_full I l = rt_full I r.
  Proof.
    intros (Hl & Hr & _). unfold t_full. rewrite !inv_sum_filter, Hl, Hr, !lsum_cons, !lsum_nil.
    change (rhalf I (l, cr, (- sl)%Z, r, sr)) with (rhalf I (geo r cr sr)).
    change (rhalf I (r, cl, (- sr)%Z, l, sl)) with (rhalf I (geo l cl sl)).
    f_equal. lra.
  Qed.

  Lemma periodic_entry l r cl cr sl sr :
    periodic_pair l r cl cr sl sr ->
    forall j, entry (rflux I) l j =
              rt_full I l * IZR sl * ((if (cl =? j)%nat then 1 else 0) - (if (cr =? j)%nat then 1 else 0)).
  Proof. intros (Hl & _ & Nl & _). exact (entry_pair l _ _ Hl eq_refl Nl). Qed.
End Real.
