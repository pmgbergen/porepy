(* C30 — proofs over the real instance of the model (instance RO of Proofs/C32.v). *)
From Coq Require Import Reals Lra List Bool Arith.
Import ListNotations.
From PP Require Import Model.C32 Model.C30 Proofs.C32.
Open Scope R_scope.

Lemma div_unit n d : 0 <= n <= d -> 0 < d -> 0 <= n / d <= 1.
Proof.
  intros Hn Hd. assert (H : n / d * d = n) by (field; lra).
  pose proof (Rinv_0_lt_compat d Hd). unfold Rdiv in *. split; nra.
Qed.

Lemma expand_quadratic : forall (p a b : V) (t : R),
  normsqR (vsubR p (vaddR a (vscaleR t (vsubR b a))))
  = normsqR (vsubR p a) - 2 * t * dotR (vsubR p a) (vsubR b a)
    + t * t * dotR (vsubR b a) (vsubR b a).
Proof. intros [[]] [[]] [[]] t. coords. Qed.

Lemma seg_at_0 : forall a b : V, vaddR a (vscaleR 0 (vsubR b a)) = a.
Proof. intros [[]] [[]]. coords. Qed.
Lemma seg_at_1 : forall a b : V, vaddR a (vscaleR 1 (vsubR b a)) = b.
Proof. intros [[]] [[]]. coords. Qed.

(* (d2, cp) is the squared distance and the closest point of the segment a b to p *)
Definition closest (p a b : V) (d2 : R) (cp : V) : Prop :=
  (exists s, 0 <= s <= 1 /\ cp = vaddR a (vscaleR s (vsubR b a))) /\
  d2 = normsqR (vsubR p cp) /\
  forall t, 0 <= t <= 1 -> d2 <= normsqR (vsubR p (vaddR a (vscaleR t (vsubR b a)))).

(* with pr the parameter of the foot of the perpendicular, the point with parameter s is
   closest to p as soon as no t in [0,1] lies strictly between s and pr *)
Lemma closest_on_segment (p a b cp : V) (s pr : R) :
  cp = vaddR a (vscaleR s (vsubR b a)) -> 0 <= s <= 1 ->
  pr * dotR (vsubR b a) (vsubR b a) = dotR (vsubR p a) (vsubR b a) ->
  (forall t, 0 <= t <= 1 -> 0 <= (t - s) * (s - pr)) ->
  closest p a b (normsqR (vsubR p cp)) cp.
Proof.
  intros -> Hs Hpr Hk. split; [exists s; auto|]. split; [reflexivity|].
  intros t Ht. rewrite !expand_quadratic, <- Hpr.
  pose proof (dot_self_nonneg (vsubR b a)) as HL.
  pose proof (Rmult_le_pos _ _ HL (Rle_0_sqr (t - s))).
  pose proof (Rmult_le_pos _ _ HL (Hk t Ht)). unfold Rsqr in *. lra.
Qed.

Lemma point_segment_spec (p a b : V) (d2 : R) (cp : V) :
  point_segment R RO p a b = Ok (d2, cp) -> closest p a b d2 cp.
Proof.
  unfold point_segment. cbv zeta. cbn [n_leb n_zero n_one n_div RO].
  set (L := dotR (vsubR b a) (vsubR b a)). set (K := dotR (vsubR p a) (vsubR b a)).
  destruct (Rleb_spec L 0) as [|EL]; [discriminate|].
  assert (HK : K / L * L = K) by (field; lra).
  destruct (Rleb_spec (K / L) 0); [|destruct (Rleb_spec 1 (K / L))];
    intros H; injection H as <- <-.
  - apply (closest_on_segment p a b a 0 (K / L)); [symmetry; apply seg_at_0 | lra | exact HK |].
    intros; nra.
  - apply (closest_on_segment p a b b 1 (K / L)); [symmetry; apply seg_at_1 | lra | exact HK |].
    intros; nra.
  - apply (closest_on_segment p a b (vaddR a (vscaleR (K / L) (vsubR b a))) (K / L) (K / L));
      [reflexivity | lra | exact HK |].
    intros; nra.
Qed.

Lemma point_segment_total (p a b : V) :
  0 < dotR (vsubR b a) (vsubR b a) -> exists r, point_segment R RO p a b = Ok r.
Proof.
  intros H. unfold point_segment. cbv zeta. cbn [n_leb n_zero n_one n_div RO].
  destruct (Rleb_spec (dotR (vsubR b a) (vsubR b a)) 0); [lra|].
  destruct (Rleb _ 0); [eexists; reflexivity|].
  destruct (Rleb 1 _); eexists; reflexivity.
Qed.

Definition inv_s (q : quad R) : Prop :=
  let '(sN, sD, tN, tD) := q in 0 <= sN <= sD /\ 0 < sD /\ 0 < tD.

Lemma stage1_inv small d11 d12 d22 d1s d2s :
  0 < small -> 0 < d22 -> inv_s (stage1 R RO small d11 d12 d22 d1s d2s).
Proof.
  intros Hs H22. unfold stage1, inv_s. cbv zeta.
  cbn [n_ltb n_zero n_one n_add n_sub n_mul RO].
  destruct (Rltb_spec (d11 * d22 - d12 * d12) small); [lra|].
  destruct (Rltb_spec (d12 * d2s - d22 * d1s) 0); [lra|].
  destruct (Rltb_spec (d11 * d22 - d12 * d12) (d12 * d2s - d22 * d1s)); lra.
Qed.

Lemma stage2_inv d11 d1s q :
  0 < d11 -> inv_s q ->
  inv_s (stage2 R RO d11 d1s q) /\
  (let '(_, _, tN, _) := stage2 R RO d11 d1s q in 0 <= tN).
Proof.
  intros H11. destruct q as [[[sN sD] tN] tD]. unfold inv_s, stage2.
  cbn [n_ltb n_zero n_opp RO]. intros (Hs & HD & HT).
  destruct (Rltb_spec tN 0); [|lra].
  destruct (Rltb_spec 0 d1s); [lra|]. destruct (Rltb_spec d11 (- d1s)); lra.
Qed.

Lemma stage3_inv d11 d12 d1s q :
  0 < d11 -> inv_s q -> (let '(_, _, tN, _) := q in 0 <= tN) ->
  inv_s (stage3 R RO d11 d12 d1s q) /\
  (let '(_, _, tN, tD) := stage3 R RO d11 d12 d1s q in 0 <= tN <= tD).
Proof.
  intros H11. destruct q as [[[sN sD] tN] tD]. unfold inv_s, stage3. cbv zeta.
  cbn [n_ltb n_zero n_opp n_add RO]. intros (Hs & HD & HT) HN.
  destruct (Rltb_spec tD tN); [|lra].
  destruct (Rltb_spec (- d1s + d12) 0); [lra|]. destruct (Rltb_spec d11 (- d1s + d12)); lra.
Qed.

(* after the three stages both numerators lie between 0 and their positive denominators *)
Lemma stages_inv small d11 d12 d22 d1s d2s :
  0 < small -> 0 < d11 -> 0 < d22 ->
  let '(sN, sD, tN, tD) :=
      stage3 R RO d11 d12 d1s (stage2 R RO d11 d1s (stage1 R RO small d11 d12 d22 d1s d2s)) in
  0 <= sN <= sD /\ 0 < sD /\ 0 <= tN <= tD /\ 0 < tD.
Proof.
  intros Hs H11 H22. pose proof (stage1_inv small d11 d12 d22 d1s d2s Hs H22) as I1.
  destruct (stage2_inv d11 d1s _ H11 I1) as [I2 N2].
  destruct (stage3_inv d11 d12 d1s _ H11 I2 N2) as [I3 N3].
  destruct (stage3 R RO _ _ _ _) as [[[sN sD] tN] tD]. unfold inv_s in I3. tauto.
Qed.

Lemma ratio_unit small n d :
  0 <= n <= d -> 0 < d -> exists r, ratio R RO small n d = Ok r /\ 0 <= r <= 1.
Proof.
  intros Hn Hd. unfold ratio. cbn [n_ltb n_leb n_zero n_div RO].
  destruct (Rltb n small); [exists 0; split; [reflexivity|lra]|].
  destruct (Rleb_spec d 0); [lra|]. cbn [andb].
  exists (n / d). split; [reflexivity | apply div_unit; assumption].
Qed.

(* value of sc = sN/sD with the mask sc[sN < SMALL] = 0, off the band *)
Lemma ratio_val small n d r :
  0 < small -> 0 <= n -> 0 < d -> (n <= 0 \/ small <= n) ->
  ratio R RO small n d = Ok r -> r = n / d.
Proof.
  intros Hs Hn Hd Hoff. unfold ratio. cbn [n_ltb n_leb n_zero n_div RO].
  destruct (Rltb_spec n small).
  - intros H. injection H as <-. assert (n = 0) by lra. subst n. field. lra.
  - destruct (Rleb_spec d 0); [lra|]. cbn [andb]. intros H. injection H as <-. reflexivity.
Qed.

Lemma dist_form : forall (a b c d : V) (s t : R),
  vsubR (vaddR (vsubR a c) (vscaleR s (vsubR b a))) (vscaleR t (vsubR d c))
  = vsubR (vaddR a (vscaleR s (vsubR b a))) (vaddR c (vscaleR t (vsubR d c))).
Proof. intros [[]] [[]] [[]] [[]] s t. coords. Qed.

Lemma seg_seg_sound (a b c d : V) :
  0 < dotR (vsubR b a) (vsubR b a) -> 0 < dotR (vsubR d c) (vsubR d c) ->
  exists dist2 cp1 cp2 sc tc,
    seg_seg R RO a b c d = Ok (dist2, cp1, cp2, sc, tc) /\
    0 <= sc <= 1 /\ 0 <= tc <= 1 /\
    cp1 = vaddR a (vscaleR sc (vsubR b a)) /\
    cp2 = vaddR c (vscaleR tc (vsubR d c)) /\
    dist2 = normsqR (vsubR cp1 cp2).
Proof.
  intros H11 H22. unfold seg_seg. cbv zeta.
  set (d1 := vsubR b a) in *. set (d2 := vsubR d c) in *. set (ds := vsubR a c).
  assert (Hs : 0 < n_mul R RO (n_mul R RO (n_atol R RO) (dotR d1 d1)) (dotR d2 d2)).
  { cbn [n_mul n_atol RO]. apply Rmult_lt_0_compat; [apply Rmult_lt_0_compat; lra | lra]. }
  pose proof (stages_inv _ _ (dotR d1 d2) _ (dotR d1 ds) (dotR d2 ds) Hs H11 H22) as I.
  destruct (stage3 R RO _ _ _ _) as [[[sN sD] tN] tD]. destruct I as (Hsn & HsD & Htn & HtD).
  destruct (ratio_unit (n_mul R RO (n_atol R RO) sD) sN sD Hsn HsD) as (sc & -> & Hsc).
  destruct (ratio_unit (n_mul R RO (n_atol R RO) tD) tN tD Htn HtD) as (tc & -> & Htc).
  do 5 eexists. split; [reflexivity|]. repeat split; try lra.
  subst d1 d2 ds. rewrite dist_form. reflexivity.
Qed.

Definition proper (s : V * V) : Prop := 0 < dotR (vsubR (snd s) (fst s)) (vsubR (snd s) (fst s)).

Lemma point_point_nonneg (p q : V) : 0 <= point_point_sq R RO p q.
Proof. apply dot_self_nonneg. Qed.
