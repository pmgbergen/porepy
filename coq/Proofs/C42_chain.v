(* C42 — chain rule for normalised fractions: the entries of the matrix the code applies, and
   the argument with one component perturbed, [add_at]. *)
From Coq Require Import List Reals Lra Lia Arith Bool.
Import ListNotations.
From PP Require Import Lib.ListFacts Model.C42 Proofs.C42.
Open Scope R_scope.

Lemma dxn_length x : length (dxnR x) = length x.
Proof. unfold dxnR, dxn. now rewrite map2_length, seq_length by apply seq_length. Qed.

Lemma dxn_entry x i j : (i < length x)%nat -> (j < length x)%nat ->
  nth j (nth i (dxnR x) []) 0 =
  (if Nat.eqb i j then 1 else 0) / rsum x - nth i x 0 / (rsum x * rsum x).
Proof.
  intros Hi Hj. unfold dxnR, dxn.
  rewrite (nth_map2 _ _ x i 0%nat 0) by (rewrite ?seq_length; lia).
  now rewrite nth_map_seq, seq_nth, Rmult_1_r.
Qed.

Lemma nth_column (m : list (list R)) i j :
  nth i (map (fun row => nth j row 0) m) 0 = nth j (nth i m []) 0.
Proof.
  etransitivity; [|exact (map_nth (fun row => nth j row 0) m [] i)]. now destruct j.
Qed.

Lemma normalize_length x : length (normalizeR x) = length x.
Proof. apply map_length. Qed.

Lemma normalize_nth l i : (i < length l)%nat -> nth i (normalizeR l) 0 = nth i l 0 / rsum l.
Proof.
  intros Hi. exact (nth_map_lt (fun a => a / rsum l) l i 0 0 Hi).
Qed.

Fixpoint add_at (j : nat) (e : R) (x : list R) : list R :=
  match x, j with
  | [], _ => []
  | a :: r, O => (a + e) :: r
  | a :: r, S j' => a :: add_at j' e r
  end.

Lemma add_at_sum x : forall j e, (j < length x)%nat -> rsum (add_at j e x) = rsum x + e.
Proof.
  induction x as [|a x IH]; intros [|j] e Hj; cbn in Hj; try lia; cbn [add_at tsum]; [ring|].
  rewrite IH by lia. ring.
Qed.

Lemma add_at_nth x : forall i j e, (j < length x)%nat ->
  nth i (add_at j e x) 0 = nth i x 0 + (if Nat.eqb i j then e else 0).
Proof.
  induction x as [|a x IH]; intros i [|j] e Hj; cbn in Hj; try lia;
    destruct i as [|i]; cbn [add_at nth Nat.eqb]; try ring.
  apply IH. lia.
Qed.

Lemma add_at_length x : forall j e, length (add_at j e x) = length x.
Proof. induction x as [|a x IH]; intros [|j] e; cbn; auto. Qed.

Lemma add_at_0 x : forall j, add_at j 0 x = x.
Proof.
  induction x as [|a x IH]; intros [|j]; cbn [add_at]; rewrite ?Rplus_0_r, ?IH; reflexivity.
Qed.

Lemma normalize_add_at_nth x i j e : (i < length x)%nat -> (j < length x)%nat ->
  nth i (normalizeR (add_at j e x)) 0
  = (nth i x 0 + (if Nat.eqb i j then e else 0)) / (rsum x + e).
Proof.
  intros Hi Hj. rewrite normalize_nth by now rewrite add_at_length.
  now rewrite add_at_nth, add_at_sum.
Qed.
