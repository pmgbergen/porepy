(* C04 — proofs.  Generic part over an arbitrary commutative ring (with its own equality
   [req]): a sum over the rows of a COO matrix is regrouped by columns ([coo_total]), for the
   divergence and for both projections; with the two shapes of a face ([face_cases]) this
   gives the global [balance], of which [deficit], [conservation] and [interface_cancels] are
   the closed cases.  Then the instance Q and the soundness of the certificate checkers. *)
From Coq Require Import List ZArith QArith Qabs Bool Arith Lia Ring Setoid Morphisms.
Import ListNotations.
From PP Require Import Lib.ListFacts Model.C04.

Section GenericProofs.
  Variable R : Type.
  Variables (rO rI : R) (radd rmul rsub : R -> R -> R) (ropp : R -> R).
  Variable req : R -> R -> Prop.
  Hypothesis Rsth : Equivalence req.
  Hypothesis Reqe : ring_eq_ext radd rmul ropp req.
  Hypothesis Rth : ring_theory rO rI radd rmul rsub ropp req.
  Add Ring Rring : Rth (setoid Rsth Reqe).

  Infix "==" := req (at level 70, no associativity).
  Infix "+" := radd.  Infix "*" := rmul.  Infix "-" := rsub.
  Notation "- x" := (ropp x).

  Instance radd_proper : Proper (req ==> req ==> req) radd := Radd_ext Reqe.
  Instance rmul_proper : Proper (req ==> req ==> req) rmul := Rmul_ext Reqe.
  Instance ropp_proper : Proper (req ==> req) ropp := Ropp_ext Reqe.
  Instance rsub_proper : Proper (req ==> req ==> req) rsub.
  Proof.
    intros a b H c d H'. rewrite (Rsub_def Rth a c), (Rsub_def Rth b d).
    rewrite H, H'. reflexivity.
  Qed.

  Notation sumover := (@sumover R rO radd).
  Notation zR := (zR R rO rI ropp).
  Notation colsum := (colsum R rO rI radd ropp).
  Notation div_cell := (div_cell R rO rI radd rmul ropp).
  Notation proj := (proj R rO radd rmul).
  Notation pcolsum := (pcolsum R rO radd).
  Notation flux := (flux R rO rI radd rmul ropp).
  Notation source := (source R rO radd rmul).
  Notation residual := (residual R rO rI radd rmul rsub ropp).
  Notation total := (total R rO radd).

  Lemma sumover_nil : forall A (g : A -> R), sumover [] g = rO.
  Proof. reflexivity. Qed.

  Lemma sumover_cons : forall A (x : A) l (g : A -> R), sumover (x :: l) g = g x + sumover l g.
  Proof. reflexivity. Qed.

  Lemma sumover_ext : forall A (l : list A) (g h : A -> R),
      (forall x, In x l -> g x == h x) -> sumover l g == sumover l h.
  Proof.
    induction l as [|x l IH]; intros g h H.
    - reflexivity.
    - rewrite !sumover_cons, (H x (or_introl eq_refl)), (IH g h).
      + reflexivity.
      + intros y Hy. apply H. right. exact Hy.
  Qed.

  Lemma sumover_zero : forall A (l : list A) (g : A -> R),
      (forall x, In x l -> g x == rO) -> sumover l g == rO.
  Proof.
    intros A l g H. rewrite (sumover_ext A l g (fun _ => rO) H). clear H.
    induction l as [|x l IH]; [reflexivity|]. rewrite sumover_cons, IH. ring.
  Qed.

  Lemma sumover_add : forall A (l : list A) (g h : A -> R),
      sumover l (fun x => g x + h x) == sumover l g + sumover l h.
  Proof.
    induction l as [|x l IH]; intros g h.
    - rewrite !sumover_nil. ring.
    - rewrite !sumover_cons, IH. ring.
  Qed.

  Lemma sumover_sub : forall A (l : list A) (g h : A -> R),
      sumover l (fun x => g x - h x) == sumover l g - sumover l h.
  Proof.
    induction l as [|x l IH]; intros g h.
    - rewrite !sumover_nil. ring.
    - rewrite !sumover_cons, IH. ring.
  Qed.

  Lemma sumover_scal_r : forall A (l : list A) (g : A -> R) (k : R),
      sumover l (fun x => g x * k) == sumover l g * k.
  Proof.
    induction l as [|x l IH]; intros g k.
    - rewrite !sumover_nil. ring.
    - rewrite !sumover_cons, IH. ring.
  Qed.

  Lemma sum_indicator : forall (n s k0 : nat) (v : R),
      (s <= k0 < s + n)%nat ->
      sumover (seq s n) (fun k => if Nat.eqb k0 k then v else rO) == v.
  Proof.
    induction n as [|n IH]; intros s k0 v H; [lia|].
    cbn [seq]. rewrite sumover_cons. destruct (Nat.eqb_spec k0 s) as [->|E].
    - rewrite sumover_zero; [ring|].
      intros x Hx. apply in_seq in Hx. destruct (Nat.eqb_spec s x); [lia | reflexivity].
    - rewrite IH by lia. ring.
  Qed.

  (* regrouping a sum over COO triples by a key: each triple is counted under its own key *)
  Lemma sum_by_key : forall A (key : A -> nat) (g : A -> R) (n : nat) (T : list A),
      (forall t, In t T -> (key t < n)%nat) ->
      sumover (seq 0 n) (fun k => sumover (filter (fun t => Nat.eqb (key t) k) T) g)
      == sumover T g.
  Proof.
    intros A key g n. induction T as [|t T IH]; intros H.
    - apply sumover_zero. reflexivity.
    - rewrite sumover_cons, <- IH by (intros u Hu; apply H; right; exact Hu).
      rewrite <- (sum_indicator n 0 (key t) (g t)) by (specialize (H t (or_introl eq_refl)); lia).
      rewrite <- sumover_add. apply sumover_ext. intros k _. cbn [filter].
      destruct (Nat.eqb (key t) k); [reflexivity | ring].
  Qed.

  Lemma coo_total : forall A (row col : A -> nat) (w : A -> R) (x : nat -> R) (n m : nat)
                           (T : list A),
      (forall t, In t T -> (row t < n)%nat /\ (col t < m)%nat) ->
      sumover (seq 0 n) (fun i => sumover (filter (fun t => Nat.eqb (row t) i) T)
                                          (fun t => w t * x (col t)))
      == sumover (seq 0 m) (fun j => sumover (filter (fun t => Nat.eqb (col t) j) T) w * x j).
  Proof.
    intros A row col w x n m T H.
    rewrite sum_by_key by (intros t Ht; apply (H t Ht)).
    rewrite <- (sum_by_key A col _ m T) by (intros t Ht; apply (H t Ht)).
    apply sumover_ext. intros j _. rewrite <- sumover_scal_r. apply sumover_ext.
    intros t Ht. apply filter_In in Ht. destruct Ht as [_ Ht]. apply Nat.eqb_eq in Ht.
    rewrite Ht. reflexivity.
  Qed.

  Variables (nc nf nm : nat) (D : list inc) (Pp Ps : list (wtr R)).

  Definition sign_pm (s : Z) : Prop := s = 1%Z \/ s = (-1)%Z.

  Definition face_wf (f : nat) : Prop :=
    (exists t, col_entries D f = [t] /\ sign_pm (i_sgn t)) \/
    (exists t1 t2, col_entries D f = [t1; t2] /\ sign_pm (i_sgn t1)
                   /\ (i_sgn t1 + i_sgn t2 = 0)%Z).

  Definition incidence_wf : Prop :=
    (forall t, In t D -> (i_cell t < nc)%nat /\ (i_face t < nf)%nat) /\
    (forall f, (f < nf)%nat -> face_wf f).

  Lemma zR_one : zR 1%Z = rI. Proof. reflexivity. Qed.
  Lemma zR_mone : zR (-1)%Z = - rI. Proof. reflexivity. Qed.

  (* a boundary face has column sum +-1, an interior face column sum 0 *)
  Lemma face_cases : forall f, face_wf f ->
      (is_boundary D f = true /\ colsum D f * colsum D f == rI) \/
      (is_boundary D f = false /\ colsum D f == rO).
  Proof.
    unfold is_boundary, colsum.
    intros f [[t [E Hs]]|[t1 [t2 [E [Hs Hz]]]]]; rewrite E; [left|right];
      (split; [reflexivity|]); rewrite !sumover_cons, sumover_nil.
    - destruct Hs as [Hs|Hs]; rewrite Hs, ?zR_one, ?zR_mone; ring.
    - destruct Hs as [Hs|Hs]; rewrite Hs in *.
      + replace (i_sgn t2) with (-1)%Z by lia. rewrite zR_one, zR_mone. ring.
      + replace (i_sgn t2) with 1%Z by lia. rewrite zR_one, zR_mone. ring.
  Qed.

  Lemma div_sum_faces : forall (q : nat -> R),
      incidence_wf ->
      total nc (div_cell D q) == total nf (fun f => colsum D f * q f).
  Proof.
    intros q [Hr _]. exact (coo_total inc i_cell i_face (fun t => zR (i_sgn t)) q nc nf D Hr).
  Qed.

  (* (1) the divergence telescopes: only boundary faces survive the sum over all cells *)
  Lemma div_telescopes : forall (q : nat -> R),
      incidence_wf ->
      total nc (div_cell D q)
      == total nf (fun f => if is_boundary D f then colsum D f * q f else rO).
  Proof.
    intros q H. rewrite div_sum_faces by exact H. destruct H as [_ Hf].
    apply sumover_ext. intros f Hin. apply in_seq in Hin.
    destruct (face_cases f) as [[-> _]|[-> E]]; [apply Hf; lia | reflexivity |].
    rewrite E. ring.
  Qed.

  Definition coupling_wf : Prop :=
    (forall t, In t Pp -> (w_row t < nf)%nat /\ is_boundary D (w_row t) = true
                          /\ (w_mortar t < nm)%nat) /\
    (forall t, In t Ps -> (w_row t < nc)%nat /\ (w_mortar t < nm)%nat) /\
    (forall m, (m < nm)%nat -> pcolsum Pp m == pcolsum Ps m).

  Definition coupling_support : Prop :=
    (forall t, In t Pp -> (w_row t < nf)%nat /\ is_boundary D (w_row t) = true
                          /\ (w_mortar t < nm)%nat) /\
    (forall t, In t Ps -> (w_row t < nc)%nat /\ (w_mortar t < nm)%nat).

  Lemma coupling_wf_support : coupling_wf -> coupling_support.
  Proof. intros [Hp [Hs _]]. split; assumption. Qed.

  Lemma proj_total : forall (P : list (wtr R)) (n : nat) (lam : nat -> R),
      (forall t, In t P -> (w_row t < n)%nat /\ (w_mortar t < nm)%nat) ->
      total n (proj P lam) == total nm (fun m => pcolsum P m * lam m).
  Proof. intros P n lam. exact (coo_total (wtr R) w_row w_mortar w_val lam n nm P). Qed.

  Lemma proj_offsupport : forall (lam : nat -> R) (f : nat),
      (forall t, In t Pp -> is_boundary D (w_row t) = true) ->
      is_boundary D f = false -> proj Pp lam f == rO.
  Proof.
    intros lam f H Hb. unfold proj. apply sumover_zero. intros t Ht.
    apply filter_In in Ht. destruct Ht as [Hin Ht]. apply Nat.eqb_eq in Ht.
    specialize (H t Hin). rewrite Ht in H. congruence.
  Qed.

  (* the sum over all cells of Div(flux) is what passes the boundary faces plus what the
     mortar cells hand to the faces: on a boundary face the two factors colsum = +-1 cancel,
     on an interior face the projection vanishes *)
  Lemma div_flux_total : forall (a lam : nat -> R),
      incidence_wf -> coupling_support ->
      total nc (div_cell D (flux D Pp a lam))
      == total nf (fun f => if is_boundary D f then colsum D f * a f else rO)
         + total nm (fun m => pcolsum Pp m * lam m).
  Proof.
    intros a lam Hi [Hp _].
    rewrite <- (proj_total Pp nf lam) by (intros t Ht; split; apply (Hp t Ht)).
    rewrite div_telescopes by exact Hi. destruct Hi as [_ Hf].
    unfold Model.C04.total. rewrite <- sumover_add.
    apply sumover_ext. intros f Hin. apply in_seq in Hin.
    destruct (face_cases f) as [[Hb E]|[Hb _]]; [apply Hf; lia | |]; rewrite Hb.
    - unfold flux.
      transitivity (colsum D f * a f + (colsum D f * colsum D f) * proj Pp lam f); [ring|].
      rewrite E. ring.
    - rewrite proj_offsupport; [ring | | exact Hb]. intros t Ht. apply (Hp t Ht).
  Qed.

  Lemma closed_boundary : forall a : nat -> R,
      (forall f, (f < nf)%nat -> is_boundary D f = true -> a f == rO) ->
      total nf (fun f => if is_boundary D f then colsum D f * a f else rO) == rO.
  Proof.
    intros a Ha. apply sumover_zero. intros f Hin. apply in_seq in Hin.
    destruct (is_boundary D f) eqn:Hb; [|reflexivity]. rewrite (Ha f) by (lia || exact Hb). ring.
  Qed.

  Lemma pcolsum_totals : forall (lam : nat -> R),
      coupling_wf ->
      total nm (fun m => pcolsum Pp m * lam m) == total nm (fun m => pcolsum Ps m * lam m).
  Proof.
    intros lam [_ [_ Hcol]]. apply sumover_ext. intros m Hm. apply in_seq in Hm.
    rewrite (Hcol m) by lia. reflexivity.
  Qed.

  (* (2) the interface fluxes cancel: what leaves the higher-dimensional cells through
     the fracture faces is what the lower-dimensional cells receive as source *)
  Lemma interface_cancels : forall (lam : nat -> R),
      incidence_wf -> coupling_wf ->
      total nc (div_cell D (flux D Pp (fun _ => rO) lam)) - total nc (proj Ps lam) == rO.
  Proof.
    intros lam Hi Hc. pose proof (coupling_wf_support Hc) as Hs.
    rewrite (div_flux_total (fun _ => rO) lam Hi Hs), closed_boundary by reflexivity.
    rewrite (proj_total Ps nc lam) by apply Hs.
    rewrite (pcolsum_totals lam Hc). ring.
  Qed.

  Notation residual2 := (Model.C04.residual2 R rO rI radd rmul rsub ropp).

  (* The global balance, with possibly different interface fluxes entering the face fluxes
     (lamf) and the lower-dimensional source (lams): the residuals sum to the accumulation
     rate, plus the intrinsic flux through the boundary faces, plus everything the faces
     receive from the mortar cells, minus everything the sources hand out. *)
  Lemma balance : forall (acc a lamf lams ext : nat -> R),
      incidence_wf -> coupling_support ->
      total nc (residual2 D Pp Ps acc a lamf lams ext)
      == total nc acc + total nf (fun f => if is_boundary D f then colsum D f * a f else rO)
         + total nm (fun m => pcolsum Pp m * lamf m)
         - (total nm (fun m => pcolsum Ps m * lams m) + total nc ext).
  Proof.
    intros acc a lamf lams ext Hi Hc.
    transitivity (total nc acc + total nc (div_cell D (flux D Pp a lamf))
                  - (total nc (proj Ps lams) + total nc ext)).
    { unfold Model.C04.total, Model.C04.residual2, Model.C04.source.
      rewrite sumover_sub, !sumover_add. reflexivity. }
    rewrite (div_flux_total a lamf Hi Hc), (proj_total Ps nc lams) by apply Hc. ring.
  Qed.

  (* closed boundary, no external source *)
  Lemma deficit : forall (acc a lamf lams ext : nat -> R),
      incidence_wf -> coupling_support ->
      (forall f, (f < nf)%nat -> is_boundary D f = true -> a f == rO) ->
      (forall c, (c < nc)%nat -> ext c == rO) ->
      total nc (residual2 D Pp Ps acc a lamf lams ext)
      == total nc acc + total nm (fun m => pcolsum Pp m * lamf m)
         - total nm (fun m => pcolsum Ps m * lams m).
  Proof.
    intros acc a lamf lams ext Hi Hc Ha He.
    rewrite (balance acc a lamf lams ext Hi Hc), (closed_boundary a Ha).
    rewrite (sumover_zero nat (seq 0 nc) ext); [ring|].
    intros c Hin. apply in_seq in Hin. apply He. lia.
  Qed.

  (* (3) conservation: the case lamf = lams with equal column sums *)
  Lemma conservation : forall (acc a lam ext : nat -> R),
      incidence_wf -> coupling_wf ->
      (forall f, (f < nf)%nat -> is_boundary D f = true -> a f == rO) ->   (* closed *)
      (forall c, (c < nc)%nat -> ext c == rO) ->                           (* no source *)
      total nc (residual D Pp Ps acc a lam ext) == total nc acc.
  Proof.
    intros acc a lam ext Hi Hc Ha He.
    change (residual D Pp Ps acc a lam ext) with (residual2 D Pp Ps acc a lam lam ext).
    rewrite (deficit acc a lam lam ext Hi (coupling_wf_support Hc) Ha He).
    rewrite (pcolsum_totals lam Hc). ring.
  Qed.
End GenericProofs.

Open Scope Q_scope.

Lemma Q_eqe : ring_eq_ext Qplus Qmult Qopp Qeq.
Proof. split; [exact Qplus_comp | exact Qmult_comp | exact Qopp_comp]. Qed.

Definition q_conservation :=
  conservation Q 0 1 Qplus Qmult Qminus Qopp Qeq Q_Setoid Q_eqe Qsrt.
Definition q_deficit := deficit Q 0 1 Qplus Qmult Qminus Qopp Qeq Q_Setoid Q_eqe Qsrt.

Lemma face_ok_wf : forall D f, face_ok D f = true -> face_wf D f.
Proof.
  intros D f H. unfold face_ok in H. unfold face_wf, sign_pm.
  destruct (col_entries D f) as [|t1 [|t2 [|t3 r]]]; try discriminate.
  - left. exists t1. split; [reflexivity | lia].
  - right. exists t1, t2. split; [reflexivity | lia].
Qed.

(* the part of both certificates that is checked exactly *)
Lemma cert_supp_sound : forall S, cert_supp S = true ->
    incidence_wf (s_nc S) (s_nf S) (s_div S) /\
    coupling_support Q (s_nc S) (s_nf S) (s_nm S) (s_div S) (s_pp S) (s_ps S).
Proof.
  intros S H. unfold cert_supp in H.
  apply andb_prop in H. destruct H as [H H4]. apply andb_prop in H. destruct H as [H H3].
  apply andb_prop in H. destruct H as [H1 H2].
  split; split.
  - intros t Ht. apply (proj1 (forallb_forall _ _) H1), andb_prop in Ht.
    split; apply Nat.ltb_lt, Ht.
  - intros f Hf. apply face_ok_wf, (proj1 (forallb_seq _ _) H2), Hf.
  - intros t Ht. apply (proj1 (forallb_forall _ _) H3), andb_prop in Ht.
    destruct Ht as [Ht C]. apply andb_prop in Ht.
    split; [apply Nat.ltb_lt, Ht|]. split; [apply Ht | apply Nat.ltb_lt, C].
  - intros t Ht. apply (proj1 (forallb_forall _ _) H4), andb_prop in Ht.
    split; apply Nat.ltb_lt, Ht.
Qed.

Lemma cert_ok_unit : forall S, cert_ok S = true ->
    cert_supp S = true /\
    forall m, (m < s_nm S)%nat -> qpcolsum (s_pp S) m == 1 /\ qpcolsum (s_ps S) m == 1.
Proof.
  intros S H. unfold cert_ok in H. fold (cert_supp S) in H.
  apply andb_prop in H. destruct H as [Hs Hc]. split; [exact Hs|].
  intros m Hm. apply (proj1 (forallb_seq _ _) Hc), andb_prop in Hm.
  split; apply Qeq_bool_iff, Hm.
Qed.

Lemma cert_sound : forall S, cert_ok S = true ->
    incidence_wf (s_nc S) (s_nf S) (s_div S) /\
    coupling_wf Q 0 Qplus Qeq (s_nc S) (s_nf S) (s_nm S) (s_div S) (s_pp S) (s_ps S).
Proof.
  intros S H. destruct (cert_ok_unit S H) as [Hs U].
  destruct (cert_supp_sound S Hs) as [Hi [Hp Hs']].
  split; [exact Hi|]. split; [exact Hp|]. split; [exact Hs'|].
  intros m Hm. destruct (U m Hm) as [A B]. unfold qpcolsum in A, B. rewrite A, B. reflexivity.
Qed.

Lemma supported_deficit : forall S (acc a lamf lams : nat -> Q),
    cert_supp S = true ->
    (forall f, (f < s_nf S)%nat -> is_boundary (s_div S) f = true -> a f == 0) ->
    qtotal (s_nc S) (qresidual2 (s_div S) (s_pp S) (s_ps S) acc a lamf lams (fun _ => 0))
    == qtotal (s_nc S) acc + qtotal (s_nm S) (fun m => qpcolsum (s_pp S) m * lamf m)
       - qtotal (s_nm S) (fun m => qpcolsum (s_ps S) m * lams m).
Proof.
  intros S acc a lamf lams H Ha. destruct (cert_supp_sound S H) as [Hi Hc].
  apply (q_deficit _ _ _ _ _ _ acc a lamf lams (fun _ => 0) Hi Hc Ha). reflexivity.
Qed.

Lemma unit_colsum_total : forall (P : list (wtr Q)) (n : nat) (lam : nat -> Q),
    (forall m, (m < n)%nat -> qpcolsum P m == 1) ->
    qtotal n (fun m => qpcolsum P m * lam m) == qtotal n lam.
Proof.
  intros P n lam H. apply (sumover_ext Q 0 Qplus Qmult Qopp Qeq Q_Setoid Q_eqe).
  intros m Hm. apply in_seq in Hm. rewrite (H m) by lia. ring.
Qed.

(* over Q, with a passed certificate (unit column sums): the deficit is the total interface
   flux that the sources hand out but the faces never receive *)
Lemma certified_deficit : forall S (acc a lamf lams : nat -> Q),
    cert_ok S = true ->
    (forall f, (f < s_nf S)%nat -> is_boundary (s_div S) f = true -> a f == 0) ->
    qtotal (s_nc S) (qresidual2 (s_div S) (s_pp S) (s_ps S) acc a lamf lams (fun _ => 0))
    == qtotal (s_nc S) acc + qtotal (s_nm S) lamf - qtotal (s_nm S) lams.
Proof.
  intros S acc a lamf lams H Ha. destruct (cert_ok_unit S H) as [Hs U].
  rewrite (supported_deficit S acc a lamf lams Hs Ha).
  rewrite (unit_colsum_total (s_pp S) (s_nm S) lamf) by (intros m Hm; apply (U m Hm)).
  rewrite (unit_colsum_total (s_ps S) (s_nm S) lams) by (intros m Hm; apply (U m Hm)).
  reflexivity.
Qed.

(* non-matching grids: supports exact, column sums within 1e-12 *)
Lemma cert_tol_sound : forall S, cert_ok_tol S = true ->
    cert_supp S = true /\
    forall m, (m < s_nm S)%nat ->
              Qabs (qpcolsum (s_pp S) m - 1) <= 1 # 1000000000000 /\
              Qabs (qpcolsum (s_ps S) m - 1) <= 1 # 1000000000000.
Proof.
  intros S H. unfold cert_ok_tol in H.
  apply andb_prop in H. destruct H as [Hs Hc]. split; [exact Hs|].
  intros m Hm. apply (proj1 (forallb_seq _ _) Hc), andb_prop in Hm.
  split; apply Qle_bool_iff, Hm.
Qed.

(* three 1-D cells and a 0-d fracture cell (cell 3) between cells 1 and 2; faces 2 and 3 are the
   two sides of the fracture, two mortar cells *)
Definition witness_S : structure :=
  {| s_nc := 4%nat; s_nf := 5%nat; s_nm := 2%nat;
     s_div := [(0%nat, 0%nat, (-1)%Z); (0%nat, 1%nat, 1%Z); (1%nat, 1%nat, (-1)%Z);
               (1%nat, 2%nat, 1%Z); (2%nat, 3%nat, (-1)%Z); (2%nat, 4%nat, 1%Z)];
     s_pp := [(2%nat, 0%nat, 1); (3%nat, 1%nat, 1)];
     s_ps := [(3%nat, 0%nat, 1); (3%nat, 1%nat, 1)] |}.
