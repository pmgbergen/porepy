(* C13 — the admissibility condition of the weakly symmetric scheme (#Neumann sub-faces at
   a node <= #sub-cells at the node, mpsa.py:_eliminate_ncasym / Model.C13.keep_asym) follows
   from the property's restriction "no two Neumann boundary faces share an edge" on grids
   whose cells are simple polytopes at their vertices (two faces of one cell that meet in a
   vertex share an edge: tetrahedra, hexahedra, prisms; NOT pyramids at the apex).

   Setting, for one node v: neu = the Neumann boundary faces containing v (each has exactly
   one sub-face at v), cell_of f = the cell of the boundary face f (a boundary face has one
   cell; its sub-cell at v is one of the m sub-cells of the interaction region). *)
From Coq Require Import List Arith Lia Bool.
Import ListNotations.
From PP Require Import Model.C11 Model.C13.

Lemma NoDup_map_in {A B} (f : A -> B) (l : list A) :
  NoDup l -> (forall x y, In x l -> In y l -> f x = f y -> x = y) -> NoDup (map f l).
Proof.
  induction l as [|a l IH]; intros Hnd Hinj; [constructor|].
  inversion Hnd as [|? ? Hna Hnd']; subst. cbn [map]. constructor.
  - intros Hin. apply in_map_iff in Hin. destruct Hin as [x [Hfx Hx]].
    assert (x = a) by (apply Hinj; [right; exact Hx | left; reflexivity | exact Hfx]).
    subst x. contradiction.
  - apply IH; [exact Hnd'|]. intros x y Hx Hy. apply Hinj; right; assumption.
Qed.

Section Admissible.
  Variables (share_edge : nat -> nat -> Prop) (cell_of : nat -> nat)
            (F : Type) (neu cells : list nat) (faces : list (subfaceV F)).
  Hypotheses
    (Hnd : NoDup neu)
    (Hin : forall f, In f neu -> In (cell_of f) cells)
    (* simple polytopes: two boundary faces of one cell that meet in v share an edge *)
    (Hsimple : forall f g, In f neu -> In g neu -> f <> g -> cell_of f = cell_of g -> share_edge f g)
    (* the property's restriction *)
    (Hrestr : forall f g, In f neu -> In g neu -> f <> g -> ~ share_edge f g).

  (* the Neumann faces at v lie in pairwise different cells *)
  Lemma neumann_count_le_cells : length neu <= length cells.
  Proof.
    rewrite <- (map_length cell_of neu). apply NoDup_incl_length.
    - apply NoDup_map_in; [exact Hnd|]. intros f g Hf Hg Heq.
      destruct (Nat.eq_dec f g) as [E|NE]; [exact E|].
      destruct (Hrestr f g Hf Hg NE (Hsimple f g Hf Hg NE Heq)).
    - intros c Hc. apply in_map_iff in Hc. destruct Hc as [f [<- Hf]]. apply Hin, Hf.
  Qed.

  (* hence the averaged part of Hooke's law is kept in every such interaction region *)
  Lemma edge_disjoint_admissible :
    length (filter (is_neuV F) faces) = length neu -> keep_asym F (length cells) faces = true.
  Proof.
    intros Hlen. unfold keep_asym. rewrite Hlen. apply Nat.leb_le, neumann_count_le_cells.
  Qed.
End Admissible.

(* non-vacuity: a boundary-edge node of a hexahedral grid: two sub-cells (cells 10, 11), four
   boundary faces 0,1 (cell 10) and 2,3 (cell 11); faces of the same cell share an edge, so
   do the coplanar neighbours 0-2 and 1-3; the Neumann set {0, 3} is edge disjoint. *)
Definition ex_share (f g : nat) : Prop :=
  match f, g with
  | 0, 1 | 1, 0 | 2, 3 | 3, 2 | 0, 2 | 2, 0 | 1, 3 | 3, 1 => True
  | _, _ => False
  end.
Definition ex_cell_of (f : nat) : nat := if f <? 2 then 10 else 11.
