(* C34 — proofs about the transcribed uniquify_point_set.  A norm boundary separates points
   (break_separates); chained clustering never splits a group (section Clustering); the inner
   loop keeps the invariant IInv (section Inner); hence one representative per cluster
   (uniquify_groups_correct, uniquify_guarded, uniquify_chained_correct). *)
From Coq Require Import List ZArith Bool Arith Lia Permutation Sorted.
Import ListNotations.
From PP Require Import Lib.ListFacts Model.C34.
From PP Require Proofs.C46.

Local Open Scope Z_scope.

Lemma replace_length {A} (v : A) : forall l k, length (replace k v l) = length l.
Proof.
  induction l as [|x r IH]; intros [|k]; cbn [replace length]; try reflexivity. now rewrite IH.
Qed.

Lemma nth_replace {A} (v d : A) : forall l k j, (k < length l)%nat ->
    nth j (replace k v l) d = if (j =? k)%nat then v else nth j l d.
Proof.
  induction l as [|x r IH]; intros [|k] [|j] H; cbn [length] in H; try lia;
    cbn [replace nth Nat.eqb]; try reflexivity. apply IH. lia.
Qed.

Lemma replace_same {A} (d : A) : forall l k, replace k (nth k l d) l = l.
Proof.
  induction l as [|x r IH]; intros [|k]; cbn [replace nth]; try reflexivity. now rewrite IH.
Qed.

Lemma Forall_replace {A} (Q : A -> Prop) v : forall l k,
    Forall Q l -> Q v -> Forall Q (replace k v l).
Proof.
  induction l as [|x r IH]; intros [|k] Hl Hv; cbn [replace]; try exact Hl;
    apply Forall_cons_iff in Hl as [Hx Hr]; constructor; auto.
Qed.

Fixpoint dot (a b : pt) : Z :=
  match a, b with x :: r, y :: s => x * y + dot r s | _, _ => 0 end.

Lemma norm2_nonneg a : 0 <= norm2 a.
Proof. induction a as [|x r IH]; cbn [norm2]; [lia|]. pose proof (Z.square_nonneg x). lia. Qed.

Lemma dist2_nonneg a : forall b, 0 <= dist2 a b.
Proof.
  induction a as [|x r IH]; intros [|y s]; cbn [dist2]; try lia. specialize (IH s).
  pose proof (Z.square_nonneg (x - y)). lia.
Qed.

Lemma dist2_sym a : forall b, dist2 a b = dist2 b a.
Proof. induction a as [|x r IH]; intros [|y s]; cbn [dist2]; try lia. rewrite (IH s). ring. Qed.

Lemma dist2_refl a : dist2 a a = 0.
Proof. induction a as [|x r IH]; cbn [dist2]; [reflexivity|]. rewrite IH. ring. Qed.

Lemma dist2_expand a : forall b, length a = length b ->
  dist2 a b = norm2 a + norm2 b - 2 * dot a b.
Proof.
  induction a as [|x r IH]; intros [|y s] H; try discriminate; cbn [dist2 norm2 dot];
    [reflexivity|]. rewrite (IH s (eq_add_S _ _ H)). ring.
Qed.

Lemma cs_step x y s X Y :
  0 <= X -> 0 <= Y -> s * s <= X * Y ->
  (x * y + s) * (x * y + s) <= (x * x + X) * (y * y + Y).
Proof.
  intros HX HY Hs.
  (* (2xys)^2 <= 4 x^2 y^2 XY <= (x^2 Y + y^2 X)^2 *)
  assert (H1 : (x * y) * (x * y) * (s * s) <= (x * y) * (x * y) * (X * Y))
    by (apply Z.mul_le_mono_nonneg_l; [apply Z.square_nonneg|exact Hs]).
  pose proof (Z.square_nonneg (x * x * Y - y * y * X)) as H2.
  assert (H : 2 * (x * y * s) <= x * x * Y + y * y * X).
  { apply Z.square_le_simpl_nonneg; [|lia].
    pose proof (Z.square_nonneg x). pose proof (Z.square_nonneg y). nia. }
  lia.
Qed.

Lemma cauchy_schwarz a : forall b, dot a b * dot a b <= norm2 a * norm2 b.
Proof.
  induction a as [|x r IH]; intros [|y s]; cbn [dot norm2]; try lia.
  apply cs_step; [apply norm2_nonneg..|apply IH].
Qed.

(* the arithmetic of the norm test: sx, sy squared norms, p the scalar product *)
Lemma brk_gap t s1 s2 sx sy p :
  0 <= t -> brk t s1 s2 = true -> sx <= s1 -> s2 <= sy -> 0 <= sx -> p * p <= sx * sy ->
  t * t <= sx + sy - 2 * p.
Proof.
  unfold brk. intros Ht Hb Hx Hy Hx0 CS. apply andb_true_iff in Hb as [HL HL2].
  apply Z.ltb_lt in HL, HL2. apply Z.nlt_ge. intros Hlt.
  (* otherwise 2p > L' + 2 sx > 0 with L' = sy - sx - t^2 >= L, and p^2 <= sx sy gives
     L'^2 < 4 t^2 sx, against L^2 > 4 t^2 s1 *)
  set (L' := sy - sx - t * t).
  assert (H1 : L' * L' < 4 * sx * (t * t)).
  { assert ((L' + 2 * sx) * (L' + 2 * sx) < 2 * p * (2 * p))
      by (apply Z.square_lt_mono_nonneg; lia).
    replace sy with (L' + sx + t * t) in CS by (unfold L'; ring). lia. }
  assert (H2 : (s2 - s1 - t * t) * (s2 - s1 - t * t) <= L' * L')
    by (apply Z.square_le_mono_nonneg; lia).
  assert (H3 : sx * (t * t) <= s1 * (t * t)) by (apply Z.mul_le_mono_nonneg_r; nia).
  lia.
Qed.

(* two points on different sides of a norm-cluster boundary are at least t apart:
   | |x| - |y| | <= |x - y|, without square roots *)
Lemma break_separates t s1 s2 x y :
  0 <= t -> length x = length y -> brk t s1 s2 = true ->
  norm2 x <= s1 -> s2 <= norm2 y -> t * t <= dist2 x y.
Proof.
  intros Ht Hlen Hb Hx Hy. rewrite (dist2_expand x y Hlen).
  apply (brk_gap t s1 s2); auto using norm2_nonneg, cauchy_schwarz.
Qed.

Section Clustering.
  Variable t : Z.
  Variable key : nat -> Z.

  Lemma groups_nonempty c : forall l cn, groups c t key cn l <> [].
  Proof.
    induction l as [|x r IH]; intros cn; cbn [groups]; [discriminate|].
    destruct (brk t cn (key x)).
    - destruct (groups c t key (key x) r) eqn:E; [destruct (IH _ E)|discriminate].
    - destruct (groups c t key (if c then key x else cn) r) eqn:E; [destruct (IH _ E)|discriminate].
  Qed.

  (* x joins the head cluster of the rest; a boundary in front of x closes an empty one *)
  Lemma groups_cons c cn x r :
    exists g gs,
      groups c t key (if c || brk t cn (key x) then key x else cn) r = g :: gs /\
      groups c t key cn (x :: r) = (if brk t cn (key x) then [[]] else []) ++ (x :: g) :: gs.
  Proof.
    cbn [groups]. destruct (brk t cn (key x)); [rewrite orb_true_r|rewrite orb_false_r].
    - destruct (groups c t key (key x) r) as [|g gs] eqn:E; [destruct (groups_nonempty _ _ _ E)|].
      now exists g, gs.
    - destruct (groups c t key (if c then key x else cn) r) as [|g gs] eqn:E;
        [destruct (groups_nonempty _ _ _ E)|]. now exists g, gs.
  Qed.

  Lemma groups_concat c : forall l cn, concat (groups c t key cn l) = l.
  Proof.
    induction l as [|x r IH]; intros cn; [reflexivity|].
    destruct (groups_cons c cn x r) as (g & gs & E & ->).
    apply (f_equal (@concat nat)) in E. rewrite IH in E. rewrite E.
    destruct (brk t cn (key x)); reflexivity.
  Qed.

  Fixpoint sorted_from (cn : Z) (l : list nat) : Prop :=
    match l with [] => True | x :: r => cn <= key x /\ sorted_from (key x) r end.

  Lemma sorted_from_le : forall l cn j, sorted_from cn l -> In j l -> cn <= key j.
  Proof.
    induction l as [|x r IH]; intros cn j Hs Hj; [contradiction|].
    destruct Hs as [Hx Hr]. destruct Hj as [<-|Hj]; [exact Hx|].
    specialize (IH _ _ Hr Hj). lia.
  Qed.

  (* cl = "closer than tol" on indices; all that is used: a norm boundary separates *)
  Variable cl : nat -> nat -> Prop.
  Hypothesis cl_sym : forall i j, cl i j -> cl j i.
  Hypothesis cl_break :
    forall i j a b, brk t a b = true -> key i <= a -> b <= key j -> ~ cl i j.

  (* chained clustering: nothing after the head cluster is close to an index whose key is
     at most cn (a boundary lies in between) *)
  Lemma chained_boundary : forall l cn, sorted_from cn l ->
      forall g gs, groups true t key cn l = g :: gs ->
      forall i j, In j (concat gs) -> key i <= cn -> ~ cl i j.
  Proof.
    induction l as [|x r IH]; intros cn Hs g gs Hg i j Hj Hi.
    - injection Hg as <- <-. contradiction.
    - destruct Hs as [Hx Hr]. destruct (groups_cons true cn x r) as (g' & gs' & Er & El).
      cbn [orb] in Er. rewrite El in Hg. destruct (brk t cn (key x)) eqn:Eb; injection Hg as <- <-.
      + apply (cl_break i j cn (key x) Eb Hi).
        change (In j (x :: concat (g' :: gs'))) in Hj. rewrite <- Er, groups_concat in Hj.
        destruct Hj as [<-|Hj]; [lia|]. apply (sorted_from_le r _ j Hr Hj).
      + apply (IH (key x) Hr g' gs' Er i j Hj). lia.
  Qed.

  Lemma chained_same_group : forall l cn, sorted_from cn l ->
      forall i j, In i l -> In j l -> cl i j ->
      exists g, In g (groups true t key cn l) /\ In i g /\ In j g.
  Proof.
    induction l as [|x r IH]; intros cn Hs i j Hi Hj Hc; [contradiction|].
    destruct Hs as [Hx Hr].
    destruct (groups_cons true cn x r) as (g' & gs' & Er & ->). cbn [orb] in Er.
    enough (exists g, In g ((x :: g') :: gs') /\ In i g /\ In j g) as (g & Hg & H)
      by (exists g; split; [apply in_or_app; now right|exact H]).
    (* the head cluster holds everything close to x *)
    assert (Hhead : forall k, In k (x :: r) -> cl x k -> In k (x :: g')).
    { intros k [<-|Hk] Hck; [now left|right].
      rewrite <- (groups_concat true r (key x)), Er in Hk.
      apply in_app_or in Hk as [Hk|Hk]; [exact Hk|].
      destruct (chained_boundary r (key x) Hr g' gs' Er x k Hk (Z.le_refl _) Hck). }
    destruct Hi as [<-|Hi]; [|destruct Hj as [<-|Hj]].
    - exists (x :: g'). split; [now left|]. split; [now left|]. apply Hhead; assumption.
    - exists (x :: g'). split; [now left|]. split; [|now left].
      apply Hhead; [now right|apply cl_sym, Hc].
    - destruct (IH (key x) Hr i j Hi Hj Hc) as (g & Hg & Hig & Hjg). rewrite Er in Hg.
      destruct Hg as [<-|Hg]; [exists (x :: g')|exists g]; cbn [In]; auto.
  Qed.
End Clustering.

Section Inner.
  Variable t : Z.
  Variable pts : list pt.
  Definition P (i : nat) : pt := pnt pts i.
  Definition cl (i j : nat) : Prop := close t (P i) (P j) = true.
  Hypothesis cl_refl : forall i, cl i i.
  Hypothesis cl_sym : forall i j, cl i j -> cl j i.
  Hypothesis cl_trans : forall i j k, cl i j -> cl j k -> cl i k.

  Definition midx (reps : list (pt * nat)) (k : nat) : nat := snd (nth k reps dflt).
  Definition coords_ok (reps : list (pt * nat)) : Prop :=
    Forall (fun r => fst r = P (snd r)) reps.

  Lemma find_close_spec i : forall reps, coords_ok reps ->
      match find_close t (P i) reps with
      | None => forall k, (k < length reps)%nat -> ~ cl i (midx reps k)
      | Some k => (k < length reps)%nat /\ cl i (midx reps k)
      end.
  Proof.
    induction reps as [|[c m] r IH]; intros Hok; cbn [find_close].
    - intros k Hk. cbn in Hk. lia.
    - apply Forall_cons_iff in Hok as [Hc Hr]. cbn [fst snd] in Hc. subst c. specialize (IH Hr).
      destruct (close t (P i) (P m)) eqn:Ec; [split; [cbn; lia|exact Ec]|].
      destruct (find_close t (P i) r) as [k|]; cbn [option_map length].
      + split; [lia|apply IH].
      + intros [|k] Hk; [unfold cl, midx; cbn; congruence|apply (IH k); lia].
  Qed.

  (* done: the indices seen; reps: one (point, smallest index) per class of close points
     among them; o2n: the position in reps of the class of every index seen *)
  Record IInv (done : list nat) (reps : list (pt * nat)) (o2n : list (nat * nat)) : Prop := {
    i_coords : coords_ok reps;
    i_sep : forall k1 k2, (k1 < length reps)%nat -> (k2 < length reps)%nat ->
                          cl (midx reps k1) (midx reps k2) -> k1 = k2;
    i_in : Forall (fun r => In (snd r) done) reps;
    i_link : forall i, In i done ->
                       exists k, (k < length reps)%nat /\ In (i, k) o2n /\
                                 cl (midx reps k) i /\ (midx reps k <= i)%nat;
    i_keys : map fst o2n = done
  }.

  Lemma i_in_nth done reps o2n :
    IInv done reps o2n -> forall k, (k < length reps)%nat -> In (midx reps k) done.
  Proof. intros HI k Hk. exact (proj1 (Forall_nth _ _) (i_in _ _ _ HI) k dflt Hk). Qed.

  Lemma IInv_nil : IInv [] [] [].
  Proof.
    constructor; try constructor; try (intros ? ? H; cbn in H; lia). intros i [].
  Qed.

  Lemma IInv_single i : IInv [i] [(P i, i)] [(i, 0%nat)].
  Proof.
    constructor; try (repeat constructor).
    - intros k1 k2 H1 H2 _. cbn in H1, H2. lia.
    - intros j [<-|[]]. exists 0%nat. cbn. auto.
  Qed.

  Definition shift (n : nat) (p : nat * nat) : nat * nat := (fst p, (snd p + n)%nat).

  Lemma midx_app reps rg k :
    midx (reps ++ rg) k = if (k <? length reps)%nat then midx reps k
                          else midx rg (k - length reps).
  Proof.
    unfold midx. destruct (Nat.ltb_spec k (length reps)) as [H|H];
      [rewrite app_nth1|rewrite app_nth2]; auto.
  Qed.

  Lemma merge_inv done reps o2n g rg og :
    IInv done reps o2n -> IInv g rg og ->
    (forall i j, In i done -> In j g -> ~ cl i j) ->
    IInv (done ++ g) (reps ++ rg) (o2n ++ map (shift (length reps)) og).
  Proof.
    intros HI HI' Hx.
    pose proof (i_in_nth _ _ _ HI) as Hin. pose proof (i_in_nth _ _ _ HI') as Hin'.
    destruct HI as [Hco Hsep Hall Hlink Hkeys], HI' as [Hco' Hsep' Hall' Hlink' Hkeys'].
    constructor.
    - apply Forall_app. split; assumption.
    - intros k1 k2 H1 H2. rewrite app_length in H1, H2. rewrite !midx_app.
      destruct (Nat.ltb_spec k1 (length reps)) as [L1|L1],
               (Nat.ltb_spec k2 (length reps)) as [L2|L2]; intros Hc.
      + apply Hsep; assumption.
      + destruct (Hx _ _ (Hin k1 L1) (Hin' (k2 - length reps)%nat ltac:(lia)) Hc).
      + destruct (Hx _ _ (Hin k2 L2) (Hin' (k1 - length reps)%nat ltac:(lia)) (cl_sym _ _ Hc)).
      + assert (k1 - length reps = k2 - length reps)%nat by (apply Hsep'; [lia|lia|exact Hc]). lia.
    - apply Forall_app.
      split; [eapply Forall_impl; [|exact Hall]|eapply Forall_impl; [|exact Hall']];
        intros r Hr; apply in_or_app; auto.
    - intros i Hi. apply in_app_or in Hi as [Hi|Hi].
      + destruct (Hlink i Hi) as (k & Hk & Hik & Hc & Hle). exists k.
        rewrite app_length, midx_app. destruct (Nat.ltb_spec k (length reps)); [|lia].
        split; [lia|]. split; [apply in_or_app; left; exact Hik|]. split; assumption.
      + destruct (Hlink' i Hi) as (k & Hk & Hik & Hc & Hle). exists (k + length reps)%nat.
        rewrite app_length, midx_app.
        destruct (Nat.ltb_spec (k + length reps) (length reps)); [lia|].
        rewrite Nat.add_sub. split; [lia|]. split; [|split; assumption].
        apply in_or_app. right. exact (in_map (shift (length reps)) og (i, k) Hik).
    - rewrite map_app, map_map, Hkeys, <- Hkeys'. reflexivity.
  Qed.

  Lemma IInv_new done reps o2n i :
    IInv done reps o2n -> (forall k, (k < length reps)%nat -> ~ cl i (midx reps k)) ->
    IInv (done ++ [i]) (reps ++ [(P i, i)]) (o2n ++ [(i, length reps)]).
  Proof.
    intros HI Hf. apply (merge_inv done reps o2n [i] [(P i, i)] [(i, 0%nat)] HI (IInv_single i)).
    (* an earlier index close to i would make its representative close to i *)
    intros a j Ha [<-|[]] Hc. destruct (i_link _ _ _ HI a Ha) as (k & Hk & _ & Hck & _).
    apply (Hf k Hk), cl_sym, (cl_trans _ _ _ Hck Hc).
  Qed.

  Lemma IInv_join done reps o2n i k :
    IInv done reps o2n -> (k < length reps)%nat -> cl i (midx reps k) ->
    IInv (done ++ [i]) (if (i <? midx reps k)%nat then replace k (P i, i) reps else reps)
         (o2n ++ [(i, k)]).
  Proof.
    intros [Hco Hsep Hall Hlink Hkeys] Hk Hcl.
    (* in both cases entry k becomes v, which holds the smaller of i and midx reps k *)
    set (v := if (i <? midx reps k)%nat then (P i, i) else nth k reps dflt).
    replace (if (i <? midx reps k)%nat then replace k (P i, i) reps else reps)
      with (replace k v reps)
      by (unfold v; destruct (i <? midx reps k)%nat; [reflexivity|apply replace_same]).
    assert (Hv : fst v = P (snd v) /\ In (snd v) (done ++ [i]) /\ cl (snd v) (midx reps k) /\
                 cl (snd v) i /\ (snd v <= midx reps k)%nat /\ (snd v <= i)%nat).
    { unfold v. destruct (Nat.ltb_spec i (midx reps k)); cbn [fst snd]; fold (midx reps k).
      - repeat split; auto using in_or_app, in_eq with arith.
      - pose proof (proj1 (Forall_nth _ _) Hco k dflt Hk).
        pose proof (proj1 (Forall_nth _ _) Hall k dflt Hk). repeat split; auto using in_or_app. }
    destruct Hv as (Hv1 & Hv2 & Hv3 & Hv4 & Hv5 & Hv6).
    assert (Hm : forall j, midx (replace k v reps) j = if (j =? k)%nat then snd v else midx reps j).
    { intros j. unfold midx. rewrite nth_replace by exact Hk. destruct (j =? k)%nat; reflexivity. }
    assert (Hm' : forall j, cl (midx (replace k v reps) j) (midx reps j) /\
                            (midx (replace k v reps) j <= midx reps j)%nat).
    { intros j. rewrite Hm. destruct (Nat.eqb_spec j k) as [->|_]; auto. }
    constructor.
    - apply Forall_replace; assumption.
    - intros k1 k2 H1 H2 Hc. rewrite replace_length in H1, H2. apply Hsep; try assumption.
      apply (cl_trans _ _ _ (cl_sym _ _ (proj1 (Hm' k1)))), (cl_trans _ _ _ Hc), Hm'.
    - apply Forall_replace; [|exact Hv2]. eapply Forall_impl; [|exact Hall].
      intros r Hr. apply in_or_app. now left.
    - intros j Hj. rewrite replace_length. apply in_app_or in Hj as [Hj|[<-|[]]].
      + destruct (Hlink j Hj) as (kj & Hkj & Hinj & Hclj & Hle). exists kj.
        destruct (Hm' kj) as [Hc' Hle']. split; [exact Hkj|].
        split; [apply in_or_app; now left|]. split; [exact (cl_trans _ _ _ Hc' Hclj)|lia].
      + exists k. rewrite Hm, Nat.eqb_refl. auto using in_or_app, in_eq.
    - rewrite map_app, Hkeys. reflexivity.
  Qed.

  Lemma inner_inv : forall g done reps o2n,
      IInv done reps o2n ->
      IInv (done ++ g) (fst (inner t pts g reps o2n)) (snd (inner t pts g reps o2n)).
  Proof.
    induction g as [|i g IH]; intros done reps o2n HI.
    - cbn [inner fst snd]. rewrite app_nil_r. exact HI.
    - cbn [inner]. fold (P i) (midx reps). change (i :: g) with ([i] ++ g). rewrite app_assoc.
      pose proof (find_close_spec i reps (i_coords _ _ _ HI)) as Hf.
      destruct (find_close t (P i) reps) as [k|]; apply IH;
        [apply IInv_join; tauto|apply IInv_new; assumption].
  Qed.

  (* no pair closer than tol lies in two different norm clusters *)
  Fixpoint cross_free (done : list nat) (gs : list (list nat)) : Prop :=
    match gs with
    | [] => True
    | g :: r => (forall i j, In i done -> In j g -> ~ cl i j) /\ cross_free (done ++ g) r
    end.

  Lemma assemble_inv : forall gs done reps o2n,
      IInv done reps o2n -> cross_free done gs ->
      IInv (done ++ concat gs) (fst (assemble t pts gs reps o2n))
           (snd (assemble t pts gs reps o2n)).
  Proof.
    induction gs as [|g gs IH]; intros done reps o2n HI Hx.
    - cbn [assemble concat fst snd]. rewrite app_nil_r. exact HI.
    - destruct Hx as [Hx Hxr]. cbn [assemble concat].
      pose proof (inner_inv g [] [] [] IInv_nil) as Hg. cbn [app] in Hg.
      destruct (inner t pts g [] []) as [rg og]. cbn [fst snd] in Hg.
      rewrite app_assoc. apply IH; [|exact Hxr].
      apply (merge_inv done reps o2n g rg og HI Hg Hx).
  Qed.
End Inner.

Lemma cl_refl t pts i : 0 < t -> cl t pts i i.
Proof. intros Ht. unfold cl, close. rewrite dist2_refl. apply Z.ltb_lt. nia. Qed.

Lemma cl_sym t pts i j : cl t pts i j -> cl t pts j i.
Proof. unfold cl, close. rewrite dist2_sym. tauto. Qed.

Lemma ins_perm key i : forall l, Permutation (ins key i l) (i :: l).
Proof.
  induction l as [|j r IH]; cbn [ins]; [reflexivity|].
  destruct (key i <=? key j); [reflexivity|]. rewrite IH. apply perm_swap.
Qed.

Lemma argsort_perm key : forall l, Permutation (argsort key l) l.
Proof.
  induction l as [|i r IH]; cbn [argsort]; [reflexivity|]. rewrite ins_perm, IH. reflexivity.
Qed.

Lemma ins_sorted key i : forall l,
    StronglySorted (fun a b => key a <= key b) l ->
    StronglySorted (fun a b => key a <= key b) (ins key i l).
Proof.
  induction l as [|j r IH]; intros Hs; cbn [ins]; [repeat constructor|].
  destruct (Z.leb_spec (key i) (key j)) as [E|E]; apply StronglySorted_inv in Hs as [Hr Hj].
  - repeat constructor; [exact Hr|exact Hj|exact E|].
    eapply Forall_impl; [|exact Hj]. cbn. lia.
  - constructor; [apply IH, Hr|]. rewrite ins_perm. constructor; [lia|exact Hj].
Qed.

Lemma argsort_sorted key : forall l, StronglySorted (fun a b => key a <= key b) (argsort key l).
Proof.
  induction l as [|i r IH]; cbn [argsort]; [constructor|]. apply ins_sorted, IH.
Qed.

Lemma argsort_nat_sorted (f : nat -> nat) l :
  StronglySorted le (map f (argsort (fun j => Z.of_nat (f j)) l)).
Proof.
  apply (Proofs.C46.StronglySorted_map _ _ _ _ (fun a b => proj2 (Nat2Z.inj_le _ _))),
    argsort_sorted.
Qed.

Lemma index_of_spec v d : forall l, In v l ->
    (index_of v l < length l)%nat /\ nth (index_of v l) l d = v.
Proof.
  induction l as [|x r IH]; cbn [index_of length In]; [tauto|].
  destruct (Nat.eqb_spec v x) as [->|Hn]; [split; [lia|reflexivity]|].
  intros [H|H]; [congruence|]. destruct (IH H). split; [lia|assumption].
Qed.

Lemma assoc_in i k : forall l, NoDup (map fst l) -> In (i, k) l -> assoc i l = k.
Proof.
  induction l as [|[j kj] r IH]; intros Hnd Hin; [contradiction|].
  cbn [map fst] in Hnd. apply NoDup_cons_iff in Hnd as [Hj Hr]. cbn [assoc].
  destruct Hin as [[= -> ->]|Hin]; [now rewrite Nat.eqb_refl|].
  destruct (Nat.eqb_spec i j) as [->|Hn]; [|apply IH; assumption].
  destruct Hj. exact (in_map fst r (j, k) Hin).
Qed.

Definition result_ok (t : Z) (pts : list pt) (res : list pt * list nat * list nat) : Prop :=
  match res with
  | (u, n2o, o2n) =>
      u = map (pnt pts) n2o /\
      StronglySorted lt n2o /\
      (forall m, In m n2o ->
                 (m < length pts)%nat /\
                 forall j, (j < length pts)%nat -> cl t pts j m -> (m <= j)%nat) /\
      length o2n = length pts /\
      (forall i, (i < length pts)%nat ->
                 (nth i o2n 0 < length n2o)%nat /\ cl t pts (nth (nth i o2n 0%nat) n2o 0%nat) i)
  end.

Theorem uniquify_groups_correct t pts gs :
  0 < t ->
  (forall i j k, cl t pts i j -> cl t pts j k -> cl t pts i k) ->
  NoDup (concat gs) -> (forall i, In i (concat gs) <-> (i < length pts)%nat) ->
  cross_free t pts [] gs ->
  result_ok t pts (uniquify_groups t pts gs).
Proof.
  intros Ht Htr Hnd Hall Hx.
  assert (Hrefl : forall i, cl t pts i i) by (intros i; apply cl_refl, Ht).
  pose proof (assemble_inv t pts Hrefl (cl_sym t pts) Htr gs [] [] [] (IInv_nil t pts) Hx) as HI.
  cbn [app] in HI. unfold uniquify_groups.
  destruct (assemble t pts gs [] []) as [reps o2n]. cbn [fst snd] in HI.
  pose proof (i_in_nth t pts _ _ _ HI) as Hin. destruct HI as [Hco Hsep _ Hlink Hkeys].
  set (ordering := argsort _ (seq 0 (length reps))).
  destruct (Proofs.C46.perm_seq_facts ordering _ (argsort_perm _ _)) as (Hondup & Hlen & Hord).
  fold (midx reps) in *.
  change (map (fun k => snd (nth k reps dflt)) ordering) with (map (midx reps) ordering).
  assert (Hn2o : NoDup (map (midx reps) ordering)).
  { apply Proofs.C46.NoDup_map_inj_in; [|exact Hondup].
    intros a b Ha Hb E. apply Hsep; [apply Hord, Ha|apply Hord, Hb|]. rewrite E. apply Hrefl. }
  split; [|split; [|split; [|split]]].
  - rewrite map_map. apply map_ext_in. intros k Hk.
    apply (proj1 (Forall_nth _ _) Hco), Hord, Hk.
  - apply StronglySorted_le_lt; [apply argsort_nat_sorted|exact Hn2o].
  - intros m Hm. apply in_map_iff in Hm as (k & <- & Hk). apply Hord in Hk.
    split; [apply Hall, Hin, Hk|]. intros j Hj Hc.
    destruct (Hlink j (proj2 (Hall j) Hj)) as (kj & Hkj & _ & Hcj & Hle).
    rewrite <- (Hsep kj k); eauto.
  - rewrite map_length, seq_length. reflexivity.
  - intros i Hi. rewrite map_length, Hlen.
    rewrite nth_map_seq by exact Hi. cbn [plus].
    destruct (Hlink i (proj2 (Hall i) Hi)) as (k & Hk & Hik & Hc & _).
    rewrite (assoc_in i k o2n) by (try exact Hik; rewrite Hkeys; exact Hnd).
    apply Hord in Hk. rewrite <- Hlen.
    destruct (index_of_spec k 0%nat ordering Hk) as [Hlt Hnth]. split; [exact Hlt|].
    rewrite (nth_map_lt _ _ _ 0%nat), Hnth by exact Hlt. exact Hc.
Qed.

Lemma nosplit_cross_free t pts : forall gs done,
    NoDup (done ++ concat gs) ->
    (forall i j, In i (done ++ concat gs) -> In j (concat gs) -> cl t pts i j ->
                 exists g, In g gs /\ In i g /\ In j g) ->
    cross_free t pts done gs.
Proof.
  induction gs as [|g r IH]; intros done Hnd HK; [exact I|]. cbn [cross_free concat] in *.
  pose proof (proj1 (Proofs.C46.NoDup_app_iff _ _) Hnd) as (_ & _ & Hdis).
  rewrite app_assoc in Hnd.
  pose proof (proj1 (Proofs.C46.NoDup_app_iff _ _) Hnd) as (_ & _ & Hdis').
  split.
  - (* the common cluster of a close pair would hold an index already done *)
    intros i j Hi Hj Hc. destruct (HK i j) as (g0 & Hg0 & Hi0 & _); auto using in_or_app.
    apply (Hdis i Hi). change (In i (concat (g :: r))). apply in_concat. exists g0. auto.
  - apply IH; [exact Hnd|]. intros i j Hi Hj Hc.
    destruct (HK i j) as (g0 & [<-|Hg0] & Hi0 & Hj0); auto using in_or_app.
    + rewrite app_assoc. exact Hi.
    + destruct (Hdis' j); auto using in_or_app.
    + exists g0. auto.
Qed.

Definition keyn (pts : list pt) (i : nat) : Z := norm2 (pnt pts i).

Lemma norm_clusters_concat c t key sidx : concat (norm_clusters c t key sidx) = sidx.
Proof. destruct sidx as [|i0 r]; [reflexivity|]. apply groups_concat. Qed.

(* an index out of range stands for the first point *)
Lemma pnt_clip pts i :
  pts <> [] -> exists i', (i' < length pts)%nat /\ pnt pts i = pnt pts i'.
Proof.
  intros Hne. destruct (Nat.ltb_spec i (length pts)) as [H|H]; [exists i; auto|].
  exists 0%nat. unfold pnt. rewrite nth_overflow by exact H.
  destruct pts; [contradiction|]. cbn. split; [lia|reflexivity].
Qed.

Definition trans_in_range (t : Z) (pts : list pt) : Prop :=
  forall i j k, (i < length pts)%nat -> (j < length pts)%nat -> (k < length pts)%nat ->
                cl t pts i j -> cl t pts j k -> cl t pts i k.

(* the same as a computable test, for concrete inputs *)
Lemma trans_in_range_b t pts :
  let n := length pts in
  let c i j := close t (pnt pts i) (pnt pts j) in
  forallb (fun i => forallb (fun j => forallb (fun k => implb (c i j && c j k) (c i k))
                                              (seq 0 n)) (seq 0 n)) (seq 0 n) = true ->
  trans_in_range t pts.
Proof.
  intros n c H i j k Hi Hj Hk Hij Hjk. unfold cl, P in *.
  pose proof (proj1 (forallb_seq _ _) (proj1 (forallb_seq _ _) (proj1 (forallb_seq _ _) H i Hi) j Hj)
                k Hk) as E.
  cbv beta in E. unfold c in E. rewrite Hij, Hjk in E. exact E.
Qed.

Lemma trans_extend t pts :
  pts <> [] -> trans_in_range t pts ->
  forall i j k, cl t pts i j -> cl t pts j k -> cl t pts i k.
Proof.
  intros Hne Htr i j k. unfold cl, P.
  destruct (pnt_clip pts i Hne) as (i' & Hi & ->), (pnt_clip pts j Hne) as (j' & Hj & ->),
    (pnt_clip pts k Hne) as (k' & Hk & ->).
  exact (Htr i' j' k' Hi Hj Hk).
Qed.

(* the code as it is: correct whenever no norm-cluster boundary separates close points *)
Theorem uniquify_guarded c t pts sidx :
  0 < t ->
  trans_in_range t pts ->
  Permutation sidx (seq 0 (length pts)) ->
  cross_free t pts [] (norm_clusters c t (keyn pts) sidx) ->
  result_ok t pts (uniquify_with c t pts sidx).
Proof.
  intros Ht Htr Hp Hx. destruct (Proofs.C46.perm_seq_facts sidx _ Hp) as (Hnd & _ & Hall).
  unfold uniquify_with. destruct pts as [|p0 pr] eqn:Ep.
  - cbn. split; [reflexivity|]. split; [apply SSorted_nil|]. split; [intros m []|].
    split; [reflexivity|]. intros i Hi. cbn in Hi. lia.
  - rewrite <- Ep in *. fold (keyn pts).
    apply uniquify_groups_correct; rewrite ?norm_clusters_concat; try assumption.
    apply trans_extend; [rewrite Ep; discriminate|exact Htr].
Qed.

Lemma pnt_length pts d a :
  pts <> [] -> Forall (fun p => length p = d) pts -> length (pnt pts a) = d.
Proof.
  intros Hne Hd. destruct (pnt_clip pts a Hne) as (a' & Ha & ->).
  rewrite Forall_forall in Hd. apply Hd, nth_In, Ha.
Qed.

(* chained clustering: the guard always holds *)
Theorem uniquify_chained_correct t pts sidx d :
  0 < t ->
  Forall (fun p => length p = d) pts ->
  trans_in_range t pts ->
  Permutation sidx (seq 0 (length pts)) ->
  (match sidx with [] => True | i0 :: _ => sorted_from (keyn pts) (keyn pts i0) sidx end) ->
  result_ok t pts (uniquify_with true t pts sidx).
Proof.
  intros Ht Hd Htr Hp Hs. apply uniquify_guarded; try assumption.
  destruct (Proofs.C46.perm_seq_facts sidx _ Hp) as (Hnd & _ & Hall).
  apply nosplit_cross_free; cbn [app]; rewrite norm_clusters_concat; [exact Hnd|].
  intros i j Hi Hj Hc. destruct sidx as [|i0 r]; [contradiction|].
  assert (Hne : pts <> []).
  { intros ->. apply Hall in Hi. cbn in Hi. lia. }
  change (norm_clusters true t (keyn pts) (i0 :: r))
    with (groups true t (keyn pts) (keyn pts i0) (i0 :: r)).
  apply (chained_same_group t (keyn pts) (cl t pts)); try assumption; [apply cl_sym|].
  intros a b x y Hb Hax Hyb Hab. unfold cl, close in Hab. apply Z.ltb_lt in Hab.
  assert (t * t <= dist2 (P pts a) (P pts b)); [|lia].
  apply (break_separates t x y); try assumption; [lia|].
  unfold P. rewrite !(pnt_length pts d) by assumption. reflexivity.
Qed.

Lemma sort_by_norm_perm pts : Permutation (sort_by_norm pts) (seq 0 (length pts)).
Proof. apply argsort_perm. Qed.

(* the model's own stable argsort satisfies the hypotheses on sidx *)
Lemma Sorted_sorted_from key l :
  Sorted (fun a b => key a <= key b) l ->
  forall cn, match l with [] => True | x :: _ => cn <= key x end -> sorted_from key cn l.
Proof.
  induction 1 as [|x r _ IH Hd]; intros cn H; [exact I|]. split; [exact H|].
  apply IH. destruct Hd; [exact I|assumption].
Qed.

Lemma sort_by_norm_sorted pts :
  match sort_by_norm pts with
  | [] => True
  | i0 :: _ => sorted_from (keyn pts) (keyn pts i0) (sort_by_norm pts)
  end.
Proof.
  pose proof (StronglySorted_Sorted (argsort_sorted (keyn pts) (seq 0 (length pts)))) as Hs.
  change (argsort _ _) with (sort_by_norm pts) in Hs. destruct (sort_by_norm pts); [exact I|].
  apply Sorted_sorted_from; [exact Hs|apply Z.le_refl].
Qed.
