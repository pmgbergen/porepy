(* C10 — the time loop of the product run terminates: the number of attempted time steps of
   ANY run is bounded by a number that depends only on the TimeManager configuration
   (exact real arithmetic, C09_main's hypotheses): the potential argument of
   Proofs/C10_term09.v, applied to the clock of the run (Proofs.C10_gen.index_lists_thm).
   And (Section Starved, any arithmetic): a run that stops for lack of scripted solver
   inputs has consumed every scripted solve, or was cut short in a solve that had been given
   fewer inputs than the iteration budget allows. *)
From Coq Require Import List ZArith Bool Arith Lia Reals Lra.
Import ListNotations.
From PP Require Model.C08 Model.C09 Proofs.C09_loop Proofs.C09 Proofs.C10_term09.
From PP Require Import Model.C10 Model.C10_ext Proofs.C10 Proofs.C10_gen.

Local Open Scope R_scope.

Lemma count_conv_clock (V : Type) (tr : list (entry V R)) :
  C10_term09.count_conv (map clock_of tr) = n_converged tr.
Proof.
  unfold n_converged. induction tr as [|e tr IH]; [reflexivity|].
  cbn [map filter]. unfold clock_of at 1, ev_of at 1, is_conv at 1.
  destruct (e_res e); cbn [C10_term09.count_conv length]; rewrite IH; reflexivity.
Qed.

Lemma count_fail_clock (V : Type) (tr : list (entry V R)) :
  C10_term09.count_fail (map clock_of tr) = n_failed tr.
Proof.
  unfold n_failed. induction tr as [|e tr IH]; [reflexivity|].
  cbn [map filter]. unfold clock_of at 1, ev_of at 1, is_conv at 1.
  destruct (e_res e); cbn [C10_term09.count_fail length negb]; rewrite IH; reflexivity.
Qed.

Lemma count_total (V T : Type) (tr : list (entry V T)) :
  length tr = (n_converged tr + n_failed tr)%nat.
Proof.
  unfold n_converged, n_failed. induction tr as [|e tr IH]; [reflexivity|].
  cbn [filter length]. destruct (is_conv e); cbn [negb length]; lia.
Qed.

Theorem terminates :
  forall (V : Type) (vadd : V -> V -> V) (iti tsi : list Z) (mI mT : nat) (maxit : Z)
         (a : C09.args R) (sched : list R) (v0 : V) (solves : list (list (V * bool * bool)))
         (c : C09.cfg R) (st0 : store V) (tr : list (entry V R)) (sp : stop),
    index_set iti mI -> index_set tsi mT ->
    simulate V vadd R C09.ROps maxit a sched iti tsi v0 solves = inl (c, st0, (tr, sp)) ->
    C09.a_constant a = false ->
    0 < C09.dt_min c -> 0 <= C09.a_rtol a -> 0 <= C09.a_atol a ->
    C09.well_separated (C09.a_rtol a) (C09.a_atol a) sched ->
    C09.a_dt_init a <= nth 1 sched 0 - nth 0 sched 0 ->
    INR (n_converged tr) * C09.dt_min c
      <= (last sched 0 - nth 0 sched 0) + INR (length sched - 1) * C09.dt_min c /\
    (Z.of_nat (n_failed tr) <= (Z.of_nat (n_converged tr) + 1) * C09.recomp_max c + 1)%Z /\
    length tr = (n_converged tr + n_failed tr)%nat.
Proof.
  intros V vadd iti tsi mI mT maxit a sched v0 solves c st0 tr sp HI0 HT0 Hs Hc Hmin Hrt Hat Hsep
         Hinit.
  destruct (index_lists_thm V vadd R C09.ROps iti tsi mI mT HI0 HT0 maxit v0 _ _ _ _ _ _ _ Hs)
    as (_ & _ & _ & H09).
  destruct (C09.simulate_setup a sched _ c _ _ H09 Hc Hmin Hrt Hat Hsep Hinit)
    as (Ec & (Kc & Hminmax & Hrtol & Hatol & Klen & Hnn & Hsep') & Ht0 & HI & Hd).
  assert (Krm : (0 < C09.recomp_max c)%Z) by apply (C09.construct_ok a sched c Ec Hc).
  destruct (C10_term09.bound c sched Kc Hmin Hminmax Hrtol Hatol Klen Hnn Hsep'
                             (map ev_of tr) _ 1 HI) as [B1 B2].
  { cbn [C09.init_state C09.recomp]. lia. }
  rewrite Hd in B1, B2. cbn [fst C09.init_state C09.recomp] in B1, B2.
  rewrite count_conv_clock in B1, B2. rewrite count_fail_clock in B2.
  split; [|split; [nia|apply count_total]].
  unfold C10_term09.phi in B1. rewrite Ht0 in B1. rewrite (C09_loop.last_nth _ sched 0).
  change (INR 1) with 1 in B1. unfold C09.s, C09.n in B1. lra.
Qed.

Section Starved.
  Variable V : Type.
  Variable vadd : V -> V -> V.
  Variable T : Type.
  Variable O : C09.numops T.
  Variables maxit dI dT : Z.
  Variable c : C09.cfg T.
  Variable sched : list T.

  Lemma newton_out inp : forall st k,
      n_res (newton V vadd maxit dI st k inp) = NOut ->
      (Z.of_nat (length inp) + k <= maxit)%Z.
  Proof.
    induction inp as [|[[inc cv] dv] inp IH]; intros st k H; cbn [newton] in H.
    - destruct (k <=? maxit)%Z eqn:E; [|discriminate]. apply Z.leb_le in E. cbn [length]. lia.
    - destruct (k <=? maxit)%Z eqn:E; [|discriminate].
      destruct (after_iteration V vadd dI st inc) as [st1 [e|]]; [discriminate|].
      destruct dv; [discriminate|]. destruct cv; [discriminate|].
      cbn [n_res] in H. apply IH in H. cbn [length]. lia.
  Qed.

  Definition cut_short (solves : list (list (V * bool * bool))) (tr : list (entry V T)) : Prop :=
    length tr = length solves \/
    exists inp, nth_error solves (length tr) = Some inp /\ (Z.of_nat (length inp) <= maxit)%Z.

  (* the part of the loop body that follows the hook [h] *)
  Lemma after_hook_out solves (h : hout V T) en tr :
    (forall s st tr', drive V vadd T O maxit dI dT c sched s st solves = (tr', OutOfEvents) ->
                      cut_short solves tr') ->
    match h_exc h with
    | Some (inl e) => ([en], RaisedClock e)
    | Some (inr e) => ([en], RaisedStore e)
    | None => let (tr, sp) := drive V vadd T O maxit dI dT c sched (h_clock h) (h_store h)
                                    solves in (en :: tr, sp)
    end = (tr, OutOfEvents) ->
    forall inp0, cut_short (inp0 :: solves) tr.
  Proof.
    intros IH H inp0. destruct (h_exc h) as [[e|e]|]; try discriminate.
    destruct (drive V vadd T O maxit dI dT c sched (h_clock h) (h_store h) solves)
      as [tr' sp'] eqn:Erec.
    injection H as <- ->. destruct (IH _ _ _ Erec) as [Hl|Hr]; [left; cbn [length]; lia|].
    right. exact Hr.
  Qed.

  Lemma drive_out : forall solves s st tr,
      drive V vadd T O maxit dI dT c sched s st solves = (tr, OutOfEvents) ->
      cut_short solves tr.
  Proof.
    induction solves as [|inp solves IH]; intros s st tr H; cbn [drive] in H.
    - destruct (C09.final_time_reached T O c sched s); inversion H. left. reflexivity.
    - destruct (C09.final_time_reached T O c sched s); [discriminate|].
      destruct (oerr V (snd (C08.step vadd (tss st) (C08.OpGet 0)))); [discriminate|].
      destruct (n_res (newton V vadd maxit dI st 0 inp)) as [k| | |e] eqn:Eres.
      + exact (after_hook_out solves _ _ tr IH H inp).
      + exact (after_hook_out solves _ _ tr IH H inp).
      + injection H as <-. right. exists inp. split; [reflexivity|].
        apply newton_out in Eres. lia.
      + discriminate.
  Qed.
End Starved.
