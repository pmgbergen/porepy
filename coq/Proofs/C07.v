(* C07 — proofs: block elimination, permuted-inverse algebra, the permutation cache, and the
   row / column partitions produced by the bookkeeping of assemble_schur_complement_system. *)
From Coq Require Import List ZArith Bool Arith Lia Sorted Permutation.
Import ListNotations.
From PP Require Import Model.C05 Proofs.C05_lists Proofs.C05 Model.C06 Proofs.C06 Model.C07.

Record cgroup (T : Type) := {
  gadd : T -> T -> T;
  gopp : T -> T;
  gzero : T;
  gassoc : forall a b c, gadd a (gadd b c) = gadd (gadd a b) c;
  gcomm : forall a b, gadd a b = gadd b a;
  gzero_l : forall a, gadd gzero a = a;
  gopp_r : forall a, gadd a (gopp a) = gzero
}.
Arguments gadd {T}. Arguments gopp {T}. Arguments gzero {T}.

Section Group.
  Context {T : Type} (G : cgroup T).
  Local Notation "a + b" := (gadd G a b).
  Local Notation "- a" := (gopp G a).

  Lemma g_solve a b c : a + b = c <-> b = c + - a.
  Proof.
    split; intro H.
    - rewrite <- H. rewrite (gcomm _ G a b), <- (gassoc _ G), (gopp_r _ G), (gcomm _ G b).
      rewrite (gzero_l _ G). reflexivity.
    - rewrite H. rewrite (gcomm _ G c), (gassoc _ G), (gopp_r _ G), (gzero_l _ G). reflexivity.
  Qed.

  Lemma g_swap a u w : a + (u + w) = u + (a + w).
  Proof. rewrite !(gassoc _ G), (gcomm _ G a u). reflexivity. Qed.
End Group.

Section Additive.
  Context {T U : Type} (G : cgroup T) (H : cgroup U) (f : T -> U).
  Hypothesis f_add : forall a b, f (gadd G a b) = gadd H (f a) (f b).

  Lemma add_zero : f (gzero G) = gzero H.
  Proof.
    assert (E : gadd H (f (gzero G)) (f (gzero G)) = f (gzero G)).
    { rewrite <- f_add, (gzero_l _ G). reflexivity. }
    apply (g_solve H) in E. rewrite E. apply (gopp_r _ H).
  Qed.

  Lemma add_opp a : f (gopp G a) = gopp H (f a).
  Proof.
    assert (E : gadd H (f a) (f (gopp G a)) = gzero H).
    { rewrite <- f_add, (gopp_r _ G). apply add_zero. }
    apply (g_solve H) in E. rewrite E. apply (gzero_l _ H).
  Qed.
End Additive.

Section BlockElimination.
  Context {P S : Type} (GP : cgroup P) (GS : cgroup S).
  Variables (App : P -> P) (Aps : S -> P) (Asp : P -> S) (Ass : S -> S) (inv : S -> S).
  Hypothesis Aps_add : forall a b, Aps (gadd GS a b) = gadd GP (Aps a) (Aps b).
  Hypothesis Ass_add : forall a b, Ass (gadd GS a b) = gadd GS (Ass a) (Ass b).
  Hypothesis inv_l : forall y, inv (Ass y) = y.      (* inv_A_ss * A_ss = I *)
  Hypothesis inv_r : forall y, Ass (inv y) = y.      (* A_ss * inv_A_ss = I *)
  Variables (bp : P) (bs : S).

  (* [[A_pp A_ps] [A_sp A_ss]] [x_p x_s] = [b_p b_s] *)
  Definition block_system (xp : P) (xs : S) : Prop :=
    gadd GP (App xp) (Aps xs) = bp /\ gadd GS (Asp xp) (Ass xs) = bs.

  (* S x_p = rhs_S  with  S = A_pp - A_ps * inv_A_ss * A_sp,
     rhs_S = b_p - A_ps * inv_A_ss * b_s  (assemble_schur_complement_system) *)
  Definition reduced_system (xp : P) : Prop :=
    gadd GP (App xp) (gopp GP (Aps (inv (Asp xp)))) = gadd GP bp (gopp GP (Aps (inv bs))).

  (* x_s = inv_A_ss * (b_s - A_sp * x_p)  (expand_schur_complement_solution) *)
  Definition expand (xp : P) : S := inv (gadd GS bs (gopp GS (Asp xp))).

  Lemma inv_add a b : inv (gadd GS a b) = gadd GS (inv a) (inv b).
  Proof. rewrite <- (inv_r a) at 1. rewrite <- (inv_r b) at 1. rewrite <- Ass_add. apply inv_l. Qed.

  Theorem schur_equivalence xp xs :
    block_system xp xs <-> reduced_system xp /\ xs = expand xp.
  Proof.
    unfold block_system, reduced_system, expand.
    assert (E2 : gadd GS (Asp xp) (Ass xs) = bs <-> xs = inv (gadd GS bs (gopp GS (Asp xp)))).
    { rewrite (g_solve GS). split; intro H.
      - rewrite <- H. symmetry. apply inv_l.
      - rewrite H. apply inv_r. }
    assert (K : forall a b, Aps (inv (gadd GS a (gopp GS b))) =
                            gadd GP (Aps (inv a)) (gopp GP (Aps (inv b)))).
    { intros a b. rewrite inv_add, Aps_add. f_equal.
      rewrite (add_opp GS GS inv inv_add). apply (add_opp GS GP Aps Aps_add). }
    split.
    - intros [H1 H2]. apply E2 in H2. split; auto. subst xs. rewrite K in H1.
      rewrite (g_swap GP) in H1. apply (g_solve GP) in H1. exact H1.
    - intros [H1 H2]. split; [|apply E2; exact H2]. subst xs. rewrite K.
      rewrite (g_swap GP). apply (g_solve GP). exact H1.
  Qed.
End BlockElimination.

(* A^-1 = Q B^-1 P when P A Q = B (invert_permuted_block_diag_matrix) *)
Section PermutedInverse.
  Context {X Y : Type}.
  Variables (A : X -> Y) (Pm : Y -> Y) (Qm : X -> X) (B : X -> Y) (Binv : Y -> X).
  Variables (Pinv : Y -> Y) (Qinv : X -> X).
  Hypothesis PAQ : forall x, Pm (A (Qm x)) = B x.
  Hypothesis P_l : forall y, Pinv (Pm y) = y.
  Hypothesis Q_r : forall x, Qm (Qinv x) = x.
  Hypothesis B_r : forall y, B (Binv y) = y.
  Hypothesis B_l : forall x, Binv (B x) = x.

  Theorem permuted_inverse :
    (forall y, A (Qm (Binv (Pm y))) = y) /\ (forall x, Qm (Binv (Pm (A x))) = x).
  Proof.
    split.
    - intro y. rewrite <- (P_l (A (Qm (Binv (Pm y))))). rewrite PAQ, B_r. apply P_l.
    - intro x. rewrite <- (Q_r x) at 1. rewrite PAQ, B_l. apply Q_r.
  Qed.
End PermutedInverse.

(* the permutation cache of default_schur_complement_inverter as repaired: keyed by the sparsity
   pattern *)
Section CacheProofs.
  Variables Pat Perm : Type.
  Variable pat_eqb : Pat -> Pat -> bool.
  Variable genperm : Pat -> Perm.
  Hypothesis pat_eqb_true : forall a b, pat_eqb a b = true -> a = b.

  Definition coherent (c : cache Pat Perm) : Prop :=
    match c with None => True | Some (p, pm) => pm = genperm p end.

  Lemma inverter_perm_ok c p :
    coherent c ->
    coherent (fst (inverter_perm Pat Perm pat_eqb genperm c p)) /\
    snd (inverter_perm Pat Perm pat_eqb genperm c p) = genperm p.
  Proof.
    unfold inverter_perm. destruct c as [[p0 pm]|]; cbn.
    - intro H. destruct (pat_eqb p0 p) eqn:E; cbn; auto.
      apply pat_eqb_true in E. subst. auto.
    - auto.
  Qed.

  Theorem cache_always_current : forall ps c,
    coherent c -> snd (inverter_run Pat Perm pat_eqb genperm c ps) = map genperm ps.
  Proof.
    induction ps as [|p r IH]; intros c Hc; cbn [inverter_run]; auto.
    destruct (inverter_perm_ok c p Hc) as [H1 H2].
    destruct (inverter_perm Pat Perm pat_eqb genperm c p) as [c' pm]. cbn [fst snd] in *.
    specialize (IH c' H1). destruct (inverter_run Pat Perm pat_eqb genperm c' r) as [c'' pms].
    cbn [snd] in *. subst. reflexivity.
  Qed.
End CacheProofs.

Lemma dedup_seq : forall n a, dedup_sorted (seq a n) = seq a n.
Proof.
  induction n as [|n IH]; intro a; auto.
  specialize (IH (S a)). destruct n as [|n]; [reflexivity|].
  change (dedup_sorted (seq a (S (S n)))) with
    (if Nat.eqb a (S a) then dedup_sorted (seq (S a) (S n)) else a :: dedup_sorted (seq (S a) (S n))).
  rewrite IH. now destruct (Nat.eqb_spec a (S a)); [lia|].
Qed.

Lemma np_unique_seq n : np_unique (seq 0 n) = seq 0 n.
Proof. unfold np_unique. rewrite sort_sorted_id by apply SS_lt_le, SS_seq. apply dedup_seq. Qed.

Lemma memb_In' x l : memb x l = true <-> In x l.
Proof. apply memb_In. Qed.

Lemma SS_lt_NoDup' l : StronglySorted lt l -> NoDup l.
Proof. apply SS_lt_NoDup. Qed.

Lemma split_by_memb P U U' :
  NoDup P -> NoDup U -> NoDup U' -> (forall x, In x U <-> In x U') -> incl P U ->
  Permutation (P ++ filter (fun x => negb (memb x P)) U) U'.
Proof.
  intros HP HU HU' Hsame Hin. apply NoDup_Permutation; auto.
  - apply NoDup_app'; auto using NoDup_filter.
    intros x Hx Hy. apply filter_In in Hy. destruct Hy as [_ Hy].
    apply negb_true_iff in Hy. apply memb_In in Hx. congruence.
  - intro x. rewrite in_app_iff, filter_In, negb_true_iff, <- Hsame.
    destruct (memb x P) eqn:E; [apply memb_In in E|]; intuition.
Qed.

Definition excl_rows (n : nat) (idx : list nat) : list nat :=
  filter (fun i => negb (memb i idx)) (seq 0 n).

Lemma kept_excl_perm n idx :
  NoDup idx -> Forall (fun i => i < n) idx ->
  Permutation (idx ++ excl_rows n idx) (seq 0 n).
Proof.
  intros Hnd Hb. apply split_by_memb; auto using seq_NoDup; [tauto|].
  intros x Hx. rewrite Forall_forall in Hb. apply in_seq. auto with arith.
Qed.

Lemma excl_rows_bound n idx : Forall (fun i => i < n) (excl_rows n idx).
Proof.
  apply Forall_forall. intros x Hx. apply filter_In, proj1, in_seq in Hx. lia.
Qed.

Lemma drop_positions_seq idx : forall n a,
  drop_positions (seq a n) a idx = filter (fun i => negb (memb i idx)) (seq a n).
Proof. induction n as [|n IH]; intro a; cbn; auto. rewrite IH. now destruct (memb a idx). Qed.

Lemma np_delete_seq n idx :
  Forall (fun i => i < n) idx -> np_delete (seq 0 n) idx = Some (excl_rows n idx).
Proof.
  intro H. unfold np_delete. rewrite seq_length, drop_positions_seq.
  replace (existsb (fun i => n <=? i) idx) with false; [reflexivity|].
  symmetry. apply not_true_is_false. intro Hx. apply existsb_exists in Hx.
  destruct Hx as (i & Hi & Hle). apply Nat.leb_le in Hle.
  rewrite Forall_forall in H. apply H in Hi. lia.
Qed.

Lemma complement_one es name idx r img n :
  dget (comp es) name = Some img -> img <> [] -> concat (map snd img) = seq 0 n ->
  Forall (fun i => i < n) idx ->
  complement es ((name, Some idx) :: r) =
  match complement es r with
  | inr e => inr e
  | inl c => inl ((name, Some (excl_rows n idx)) :: c)
  end.
Proof.
  intros Hi Hne Hw Hb. cbn [complement]. rewrite Hi.
  destruct (map snd img) as [|v vs] eqn:Em; [now destruct img|].
  now rewrite Hw, np_unique_seq, (np_delete_seq n idx Hb).
Qed.

(* excluded rows of the primary equations and rows of the secondary equations, global *)
Fixpoint excl_from (es : est) (a : eqarg) (eqs : list (nat * nat)) (off : nat) : list nat :=
  match eqs with
  | [] => []
  | (name, _) :: r =>
      (match kept a name with
       | Some (Some _) => map (Nat.add off) (excl_rows (esize es name) (local_rows es a name))
       | _ => []
       end) ++ excl_from es a r (off + esize es name)
  end.

Fixpoint sec_from (es : est) (a : eqarg) (eqs : list (nat * nat)) (off : nat) : list nat :=
  match eqs with
  | [] => []
  | (name, _) :: r =>
      (match kept a name with
       | None => seq off (esize es name)
       | Some _ => []
       end) ++ sec_from es a r (off + esize es name)
  end.

(* primary rows (C06's rows_spec) and secondary rows in the order the code stacks them *)
Definition prim_rows (es : est) (a : eqarg) : list nat := rows_spec es a.
Definition sec_rows (es : est) (a : eqarg) : list nat :=
  excl_from es a (equations es) 0 ++ sec_from es a (equations es) 0.

Lemma perm_interleave {A} (a1 a2 b1 b2 c1 c2 : list A) :
  Permutation ((a1 ++ a2) ++ (b1 ++ b2) ++ (c1 ++ c2)) ((a1 ++ b1 ++ c1) ++ (a2 ++ b2 ++ c2)).
Proof.
  rewrite <- !app_assoc. apply Permutation_app_head.
  rewrite (Permutation_app_swap_app a2). apply Permutation_app_head.
  rewrite (Permutation_app_swap_app b2 c1). apply Permutation_app_swap_app.
Qed.

Lemma rows_partition es a : EInv es ->
  forall l off, (forall kv, In kv l -> In (fst kv) (map fst (equations es))) ->
  Permutation (rows_from es a l off ++ excl_from es a l off ++ sec_from es a l off)
              (seq off (length (flat_map (fun kv => seq 0 (esize es (fst kv))) l))).
Proof.
  intro HI. induction l as [|[name op] r IH]; intros off Hin; [constructor|].
  cbn [rows_from excl_from sec_from flat_map fst].
  rewrite perm_interleave, app_length, seq_length, seq_app.
  apply Permutation_app; [|apply IH; intros; apply Hin; now right].
  destruct (local_rows_bound es a name HI (Hin (name, op) (or_introl eq_refl))) as [Hs Hb].
  replace (seq off (esize es name)) with (map (Nat.add off) (seq 0 (esize es name)))
    by now rewrite map_add_seq, Nat.add_0_r.
  unfold local_rows in *.
  destruct (kept a name) as [[gs|]|]; cbn [app map]; rewrite ?app_nil_r; [|reflexivity..].
  rewrite <- map_app. apply Permutation_map, kept_excl_perm; auto using SS_lt_NoDup.
Qed.

(* primary rows ++ secondary rows: every row of the full system exactly once *)
Theorem split_rows_permutation es a :
  EInv es ->
  Permutation (prim_rows es a ++ sec_rows es a)
              (seq 0 (length (flat_map (fun kv => seq 0 (esize es (fst kv))) (equations es)))).
Proof. intro HI. apply (rows_partition es a HI (equations es) 0). intros kv. apply in_map. Qed.

(* what _gridbased_equation_complement returns for an accepted argument *)
Definition excl_spec (es : est) (a : eqarg) : list (nat * rowsel) :=
  flat_map (fun kv => match kept a (fst kv) with
                      | Some (Some _) =>
                          [(fst kv, Some (excl_rows (esize es (fst kv)) (local_rows es a (fst kv))))]
                      | Some None => [(fst kv, None)]
                      | None => []
                      end) (equations es).

(* no restricted primary equation is defined on no grids at all (np.hstack([]) raises) *)
Definition restricted_nonempty (es : est) (a : eqarg) : Prop :=
  forall name gs, In name (map fst (equations es)) -> kept a name = Some (Some gs) ->
                  img_of es name <> [].

Lemma complement_blocks es a : EInv es -> restricted_nonempty es a ->
  forall l, incl l (equations es) ->
  complement es (flat_map (blk es a) l) =
  inl (flat_map (fun kv => match kept a (fst kv) with
                           | Some (Some _) =>
                               [(fst kv, Some (excl_rows (esize es (fst kv))
                                                         (local_rows es a (fst kv))))]
                           | Some None => [(fst kv, None)]
                           | None => []
                           end) l).
Proof.
  intros HI Hne. induction l as [|[name op] r IH]; intro Hin; [reflexivity|].
  apply incl_cons_inv in Hin as [Hn Hin]. specialize (IH Hin). apply (in_map fst) in Hn.
  cbn [flat_map fst]. unfold blk at 1. cbn [fst].
  destruct (kept a name) as [[gs|]|] eqn:Ek; cbn [app sel_of];
    [|cbn [complement]; now rewrite IH|exact IH].
  destruct (ei_comp es HI name Hn) as (img & Hi & n & Hw).
  destruct (local_rows_bound es a name HI Hn) as [_ Hb].
  pose proof (Hne name gs Hn Ek) as Hx.
  unfold local_rows, esize, img_of in *. rewrite Ek, Hi, Hw, seq_length in *.
  now rewrite (complement_one es name _ _ img n Hi), IH.
Qed.

Theorem complement_spec es a :
  EInv es -> restricted_nonempty es a ->
  complement es (blocks_spec es a) = inl (excl_spec es a).
Proof. intros HI Hne. apply (complement_blocks es a HI Hne), incl_refl. Qed.

Lemma proj_cols_perm g s ids :
  Inv g s -> (forall id, In id ids -> In id (block_ids s)) ->
  exists cols, @proj_cols s ids = inl cols /\
               Permutation cols (concat (map (block_of s) ids)).
Proof.
  intros HI Hreg. unfold proj_cols. destruct ids as [|i r]; [now exists []|].
  destruct (projection_ok g s (Some (map ById (i :: r))) HI eq_refl) as (cols & -> & _ & H3 & _);
    rewrite parse_ids in *; eauto.
Qed.

Theorem split_cols_permutation g s P :
  Inv g s -> NoDup P -> (forall id, In id P -> In id (block_ids s)) ->
  let Sv := filter (fun id => negb (memb id P)) (map vid (vars s)) in
  exists cp cs, @proj_cols s P = inl cp /\ @proj_cols s Sv = inl cs /\
                Permutation (cp ++ cs) (seq 0 (num_dofs s)).
Proof.
  intros HI Hnd Hreg Sv.
  destruct (layout g s HI) as (Hb & _ & Hio & Hndb & _ & Hcov & _).
  assert (Hall : forall id, In id (map vid (vars s)) <-> In id (block_ids s)).
  { intro id. rewrite Hb, !in_map_iff. now setoid_rewrite Hio. }
  destruct (proj_cols_perm g s P HI Hreg) as (cp & H1 & Hp1).
  destruct (proj_cols_perm g s Sv HI) as (cs & H2 & Hp2).
  { intros id H. apply filter_In in H. apply Hall. tauto. }
  exists cp, cs. repeat split; auto.
  rewrite <- Hcov, Hp1, Hp2, <- concat_app, <- map_app. apply Permutation_concat_map.
  apply split_by_memb; auto; [apply SS_lt_NoDup, HI|intros id Hid; now apply Hall, Hreg].
Qed.

(* a vector that satisfies every row of the blocks, the rows and columns
   being permutations of those of the full system, satisfies every row of the full system *)
Section Original.
  Variable T : Type.
  Variables (tadd : T -> T -> T) (tzero : T).
  Hypothesis tassoc : forall a b c, tadd a (tadd b c) = tadd (tadd a b) c.
  Hypothesis tcomm : forall a b, tadd a b = tadd b a.
  Hypothesis tzero_l : forall a, tadd tzero a = a.

  Definition tsum (f : nat -> T) (l : list nat) : T := fold_right (fun c acc => tadd (f c) acc) tzero l.

  Lemma tsum_app f l1 l2 : tsum f (l1 ++ l2) = tadd (tsum f l1) (tsum f l2).
  Proof.
    unfold tsum. induction l1 as [|x r IH]; cbn; [rewrite tzero_l; reflexivity|].
    rewrite IH. apply tassoc.
  Qed.

  Lemma tsum_perm f l l' : Permutation l l' -> tsum f l = tsum f l'.
  Proof.
    unfold tsum. induction 1; cbn; auto.
    - congruence.
    - rewrite !tassoc. f_equal. apply tcomm.
    - congruence.
  Qed.

  (* term i c = A[i, c] * X[c] *)
  Theorem original_system_solved (term : nat -> nat -> T) (b : nat -> T)
          (rows_p rows_s cols_p cols_s : list nat) (n N : nat) :
    Permutation (rows_p ++ rows_s) (seq 0 n) ->
    Permutation (cols_p ++ cols_s) (seq 0 N) ->
    (forall i, In i (rows_p ++ rows_s) ->
       tadd (tsum (term i) cols_p) (tsum (term i) cols_s) = b i) ->
    forall i, i < n -> tsum (term i) (seq 0 N) = b i.
  Proof.
    intros Hr Hc Hblk i Hi.
    rewrite <- (tsum_perm (term i) _ _ Hc), tsum_app. apply Hblk.
    apply (Permutation_in _ (Permutation_sym Hr)). apply in_seq. lia.
  Qed.
End Original.

