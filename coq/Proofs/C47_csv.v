(* C47 — proofs: the csv writers and readers of 3-D and 2-D fracture networks. *)
From Coq Require Import List ZArith Bool Arith Lia Permutation.
Import ListNotations.
From PP Require Import Lib.ListFacts Model.C47 Proofs.C47.

Section Csv3.
  Variable V : Type.
  Variable print : V -> str.
  Variable parse : str -> option V.
  Variable sortp : list (P3 V) -> list (P3 V).
  Variable accept : list (P3 V) -> bool.

  (* str(x) of a number: parses back to x, is not empty and does not start with '#' *)
  Hypothesis parse_print : forall v, parse (print v) = Some v.
  Hypothesis print_head : forall v, exists c r, print v = c :: r /\ c <> HASH.

  Lemma parse_all3_print vs : parse_all3 V parse (map print vs) = Some vs.
  Proof.
    induction vs as [|v vs IH]; [reflexivity|].
    cbn [map parse_all3]. rewrite parse_print, IH. reflexivity.
  Qed.

  Definition coords (f : list (P3 V)) : list V :=
    flat_map (fun p => [fst (fst p); snd (fst p); snd p]) f.

  Lemma row_of_frac_coords f : row_of_frac V print f = map print (coords f).
  Proof.
    induction f as [|p f IH]; [reflexivity|].
    unfold row_of_frac, coords in *. cbn [flat_map map app]. rewrite IH. reflexivity.
  Qed.

  Lemma triples_coords f : triples V (coords f) = f.
  Proof.
    induction f as [|[[a b] c] f IH]; [reflexivity|].
    unfold coords in *. cbn [flat_map app fst snd triples]. rewrite IH. reflexivity.
  Qed.

  Lemma length_coords f : length (coords f) = length f * 3.
  Proof.
    induction f as [|p f IH]; [reflexivity|].
    unfold coords in *. cbn [flat_map app length]. rewrite IH. lia.
  Qed.

  Lemma first_char_row v vs :
    exists c, first_char (map print (v :: vs)) = Some c /\ Z.eqb c HASH = false.
  Proof.
    destruct (print_head v) as (c & r & E & Hc). exists c. cbn [map first_char]. rewrite E.
    split; [reflexivity|]. apply Z.eqb_neq. exact Hc.
  Qed.

  Lemma read_one f rest :
    3 <= length f ->
    read_fracs V parse sortp accept (row_of_frac V print f :: rest)
    = if accept (sortp f) then
        match read_fracs V parse sortp accept rest with
        | Ok fs => Ok (sortp f :: fs)
        | Err e => Err e
        end
      else Err AssertErr.
  Proof.
    intro Hlen. rewrite row_of_frac_coords. pose proof (length_coords f) as Hc.
    destruct (coords f) as [|v vs] eqn:E; [cbn in Hc; lia|].
    destruct (first_char_row v vs) as (c & Hf & Hh).
    cbn [read_fracs map] in *. rewrite Hf, Hh.
    change (print v :: map print vs) with (map print (v :: vs)).
    rewrite parse_all3_print, Hc, Nat.mod_mul by lia. cbn [Nat.eqb negb].
    rewrite <- E, triples_coords.
    replace (length f <? 3) with false by (symmetry; apply Nat.ltb_ge; exact Hlen).
    reflexivity.
  Qed.

  Lemma read_fracs_app net rest :
    Forall (fun f => 3 <= length f) net ->
    Forall (fun f => accept (sortp f) = true) net ->
    read_fracs V parse sortp accept (map (row_of_frac V print) net ++ rest)
    = match read_fracs V parse sortp accept rest with
      | Ok fs => Ok (map sortp net ++ fs)
      | Err e => Err e
      end.
  Proof.
    intros H3 Ha. induction net as [|f net IH]; cbn [map app].
    - destruct (read_fracs V parse sortp accept rest); reflexivity.
    - apply Forall_cons_iff in H3 as [H3 H3']. apply Forall_cons_iff in Ha as [Ha Ha'].
      rewrite read_one, Ha, (IH H3' Ha') by exact H3.
      destruct (read_fracs V parse sortp accept rest); reflexivity.
  Qed.

  Lemma read_domain_ok b rest :
    length b = 6 -> read_domain V parse (map print b :: rest) = Ok (b, rest).
  Proof.
    intros Hb. destruct b as [|v vs]; [discriminate|].
    destruct (first_char_row v vs) as (c & Hc & Hh).
    cbn [read_domain]. rewrite Hc, Hh, parse_all3_print, Hb, firstn_all2 by lia. reflexivity.
  Qed.

  Definition has_dom (d : option (list V)) : bool :=
    match d with Some _ => true | None => false end.

  Lemma from_to_csv3 net dom :
    match dom with Some b => length b = 6 | None => True end ->
    from_csv3 V parse sortp accept (has_dom dom) (to_csv3 V print net dom)
    = match read_fracs V parse sortp accept (map (row_of_frac V print) net) with
      | Err e => Err e
      | Ok fs => match dom, fs with None, [] => Err ValueErr | _, _ => Ok (dom, fs) end
      end.
  Proof.
    intros Hd. unfold from_csv3, to_csv3.
    destruct dom as [b|]; cbn [has_dom app]; [rewrite (read_domain_ok b _ Hd)|];
      destruct (read_fracs _ _ _ _ _) as [[|f fs]|e]; reflexivity.
  Qed.
End Csv3.

Lemma match_nonempty {A B} (l : list A) (x y : B) :
  l <> [] -> match l with [] => x | _ :: _ => y end = y.
Proof. destruct l; [contradiction|reflexivity]. Qed.

Lemma forallb_map_seq {A} (p : A -> bool) (F : nat -> A) n :
  (forall i, i < n -> p (F i) = true) -> forallb p (map F (seq 0 n)) = true.
Proof.
  intros H. apply forallb_forall. intros x Hx. apply in_map_iff in Hx as (i & <- & Hi).
  apply in_seq in Hi. apply H. lia.
Qed.

Lemma combine_seq_succ a n : combine (seq a n) (seq (S a) n) = map (fun i => (i, S i)) (seq a n).
Proof.
  revert a. induction n as [|n IH]; intro a; [reflexivity|].
  cbn [seq combine map]. f_equal. apply IH.
Qed.

Lemma sel_all {A B} (q : A -> bool) (l : list A) : forall l' : list B,
    length l' = length l -> forallb q l = true -> sel (map q l) l' = l'.
Proof.
  unfold sel. induction l as [|a l IH]; intros [|b l'] Hl Hq; try discriminate; [reflexivity|].
  cbn [forallb] in Hq. apply andb_true_iff in Hq as [Ha Hq].
  cbn [map combine filter fst]. rewrite Ha. cbn [map snd]. f_equal. apply IH; [|exact Hq].
  apply eq_add_S, Hl.
Qed.

Section Csv2.
  Variable V : Type.
  Variable veqb : V -> V -> bool.
  Variable print : V -> str.
  Variable printi : nat -> str.
  Variable parse : str -> V.
  Variable toint : V -> Z.
  Variable v0 : V.
  Variable uniq : list (P2 V) -> list (P2 V) * list nat.

  Notation P2 := (P2 V).
  Notation p0 := (p0 V v0).
  Notation peqb := (peqb V veqb).

  (* coordinates of distinct points differ by more than the tolerances: "close" is "equal" *)
  Hypothesis veqb_spec : forall a b, veqb a b = true <-> a = b.
  Hypothesis parse_print : forall v, parse (print v) = v.
  Hypothesis parse_printi : forall k, toint (parse (printi k)) = Z.of_nat k.
  (* uniquify_point_set: old_2_new maps every point to a representative with the same
     coordinates *)
  Hypothesis uniq_ok : forall l,
      length (snd (uniq l)) = length l /\
      forall i, i < length l ->
                nth i (snd (uniq l)) 0 < length (fst (uniq l)) /\
                nth (nth i (snd (uniq l)) 0) (fst (uniq l)) p0 = nth i l p0.

  Lemma peqb_spec a b : peqb a b = true <-> a = b.
  Proof.
    unfold C47.peqb. destruct a as [a1 a2], b as [b1 b2]. cbn [fst snd].
    rewrite andb_true_iff, !veqb_spec. split; [intros [-> ->]|intros [= -> ->]]; auto.
  Qed.

  Lemma find_close_some p l i k :
    find_close V veqb p l i = Some k -> i <= k /\ k - i < length l /\ nth (k - i) l p0 = p.
  Proof.
    revert i. induction l as [|x l IH]; intros i H; [discriminate|].
    cbn [find_close] in H. destruct (peqb p x) eqn:E.
    - injection H as <-. apply peqb_spec in E. subst x.
      rewrite Nat.sub_diag. cbn. repeat split; lia.
    - apply IH in H as (H1 & H2 & H3). replace (k - i) with (S (k - S i)) by lia.
      cbn [length nth]. repeat split; [lia|lia|exact H3].
  Qed.

  Lemma add_pt_spec pl p :
    let r := add_pt V veqb pl p in
    (exists ext, fst r = pl ++ ext) /\ snd r < length (fst r) /\ nth (snd r) (fst r) p0 = p.
  Proof.
    unfold add_pt. destruct (find_close V veqb p pl 0) as [k|] eqn:E; cbn [fst snd].
    - apply find_close_some in E as (_ & H2 & H3). rewrite Nat.sub_0_r in *.
      split; [exists []; rewrite app_nil_r; reflexivity|]. split; assumption.
    - split; [exists [p]; reflexivity|]. rewrite app_length. cbn [length].
      split; [lia|]. rewrite app_nth2 by lia. rewrite Nat.sub_diag. reflexivity.
  Qed.

  Definition frac_at (pl : list P2) (e : nat * nat) : P2 * P2 :=
    (nth (fst e) pl p0, nth (snd e) pl p0).

  Lemma frac_at_ext pl ext e :
    fst e < length pl -> snd e < length pl -> frac_at (pl ++ ext) e = frac_at pl e.
  Proof. intros H1 H2. unfold frac_at. rewrite !app_nth1 by assumption. reflexivity. Qed.

  Lemma build_aux_spec fr : forall pl,
    let r := build_aux V veqb pl fr in
    (exists ext, fst r = pl ++ ext) /\
    map (frac_at (fst r)) (snd r) = fr /\
    Forall (fun e => fst e < length (fst r) /\ snd e < length (fst r)) (snd r).
  Proof.
    induction fr as [|[a b] fr IH]; intro pl; cbn [build_aux].
    - cbn [fst snd map]. split; [exists []; rewrite app_nil_r; reflexivity|]. split; constructor.
    - pose proof (add_pt_spec pl a) as Ha. destruct (add_pt V veqb pl a) as [pl1 ia].
      cbn [fst snd] in Ha. destruct Ha as ([e1 E1] & Hia & Hna).
      pose proof (add_pt_spec pl1 b) as Hb. destruct (add_pt V veqb pl1 b) as [pl2 ib].
      cbn [fst snd] in Hb. destruct Hb as ([e2 E2] & Hib & Hnb).
      specialize (IH pl2). destruct (build_aux V veqb pl2 fr) as [pl3 es].
      cbn [fst snd] in *. destruct IH as ([e3 E3] & Hmap & Hall).
      assert (Hia2 : ia < length pl2) by (rewrite E2, app_length; lia).
      split; [exists (e1 ++ e2 ++ e3); rewrite E3, E2, E1, <- !app_assoc; reflexivity|].
      split.
      + cbn [map]. f_equal; [|exact Hmap].
        rewrite E3. rewrite frac_at_ext by assumption.
        unfold frac_at. cbn [fst snd]. rewrite Hnb. rewrite E2, app_nth1 by assumption.
        rewrite Hna. reflexivity.
      + constructor; [|exact Hall]. cbn [fst snd]. rewrite E3, app_length. lia.
  Qed.

  Lemma fracs_of_build fr : fracs_of V v0 (build V veqb fr) = fr.
  Proof.
    unfold build, fracs_of. pose proof (build_aux_spec fr []) as H.
    destruct (build_aux V veqb [] fr) as [pl es]. cbn [fst snd pts edges] in *.
    destruct H as (_ & H & _). exact H.
  Qed.

  Definition quad (f : P2 * P2) : list V := [fst (fst f); snd (fst f); fst (snd f); snd (snd f)].

  Lemma rows2_tl n : forall es i,
    map (@tl V) (map (map parse) (rows2 V print printi v0 n i es))
    = map (fun e => quad (frac_at (pts n) e)) es.
  Proof.
    induction es as [|[s e] es IH]; intro i; [reflexivity|].
    cbn [rows2 map tl]. rewrite !parse_print, IH. reflexivity.
  Qed.

  Lemma rows2_hd n : forall es i,
    map (fun r => hd v0 r) (map (map parse) (rows2 V print printi v0 n i es))
    = map (fun k => parse (printi k)) (seq i (length es)).
  Proof.
    induction es as [|[s e] es IH]; intro i; [reflexivity|].
    cbn [rows2 map hd length seq]. rewrite IH. reflexivity.
  Qed.

  Lemma to_csv2_rows (net : net2 V) (with_header : bool) :
    let data := map (map parse) (skipn (if with_header then 1 else 0)
                                       (to_csv2 V print printi v0 with_header net)) in
    map (@tl V) data = map quad (fracs_of V v0 net) /\
    map toint (map (fun r => hd v0 r) data) = map Z.of_nat (seq 0 (length (fracs_of V v0 net))).
  Proof.
    replace (skipn _ _) with (rows2 V print printi v0 net 0 (edges net))
      by (destruct with_header; reflexivity).
    cbv zeta. unfold fracs_of. rewrite rows2_tl, rows2_hd, !map_map, map_length.
    split; [reflexivity|apply map_ext, parse_printi].
  Qed.

  Lemma pairs_quads (fr : list (P2 * P2)) :
    pairs V (concat (map quad fr)) = flat_map (fun f => [fst f; snd f]) fr.
  Proof.
    induction fr as [|[[a b] [c d]] fr IH]; [reflexivity|].
    cbn [map concat quad fst snd app pairs flat_map]. rewrite IH. reflexivity.
  Qed.

  Lemma odd_quads (fr : list (P2 * P2)) : Nat.odd (length (concat (map quad fr))) = false.
  Proof.
    induction fr as [|f fr IH]; [reflexivity|].
    cbn [map concat quad app length]. exact IH.
  Qed.

  Lemma nth_flat (fr : list (P2 * P2)) i :
    i < length fr ->
    nth (2 * i) (flat_map (fun f => [fst f; snd f]) fr) p0 = fst (nth i fr (p0, p0)) /\
    nth (2 * i + 1) (flat_map (fun f => [fst f; snd f]) fr) p0 = snd (nth i fr (p0, p0)).
  Proof.
    revert i. induction fr as [|f fr IH]; intros i Hi; [cbn in Hi; lia|].
    destruct i as [|i]; [split; reflexivity|].
    cbn [length] in Hi. replace (2 * S i) with (S (S (2 * i))) by lia.
    cbn [flat_map app nth Nat.add]. apply IH. lia.
  Qed.

  Lemma length_flat (fr : list (P2 * P2)) :
    length (flat_map (fun f => [fst f; snd f]) fr) = 2 * length fr.
  Proof.
    induction fr as [|f fr IH]; [reflexivity|]. cbn [flat_map app length]. rewrite IH. lia.
  Qed.

  (* the reader, on any file whose rows parse to an id followed by the four coordinates of
     a fracture: the network of these fractures and the ids *)
  Theorem from_csv2_rows skip file (fracs : list (P2 * P2)) :
    let data := map (map parse) (skipn skip file) in
    fracs <> [] -> map (@tl V) data = map quad fracs ->
    Forall (fun f => fst f <> snd f) fracs ->
    from_csv2 V veqb parse toint v0 uniq skip file
    = Ok (build V veqb fracs, map toint (map (fun r => hd v0 r) data)).
  Proof.
    intros data Hne Htl Hd. unfold from_csv2. fold data.
    assert (Hlen : length data = length fracs)
      by (rewrite <- (map_length (@tl V)), Htl; apply map_length).
    rewrite (match_nonempty data)
      by (intros E; rewrite E in Hlen; destruct fracs; [contradiction|discriminate]).
    rewrite Htl, odd_quads, pairs_quads, Hlen.
    set (ptl := flat_map (fun f => [fst f; snd f]) fracs).
    pose proof (uniq_ok ptl) as [Hol Hon]. destruct (uniq ptl) as [upts o2n].
    cbn [fst snd] in Hol, Hon. unfold ptl in Hol, Hon. rewrite length_flat in Hol, Hon.
    (* what the i-th remapped edge points at *)
    assert (He1 : forall i, i < length fracs ->
              nth (2 * i) o2n 0 < length upts /\ nth (2 * i + 1) o2n 0 < length upts /\
              (nth (nth (2 * i) o2n 0) upts p0, nth (nth (2 * i + 1) o2n 0) upts p0)
              = nth i fracs (p0, p0)).
    { intros i Hi. destruct (Hon (2 * i)) as [Ha1 Ha2]; [lia|].
      destruct (Hon (2 * i + 1)) as [Hb1 Hb2]; [lia|]. destruct (nth_flat fracs i Hi) as [Hf Hs].
      repeat split; try assumption. rewrite Ha2, Hb2, Hf, Hs. symmetry. apply surjective_pairing. }
    rewrite forallb_map_seq
      by (intros i Hi; cbn [fst snd]; apply andb_true_iff; split; apply Nat.ltb_lt; lia).
    rewrite (map_map _ (fun e => (nth (fst e) o2n 0, nth (snd e) o2n 0))). cbn [fst snd].
    assert (Hkeep : forall i, i < length fracs ->
              negb (nth (2 * i) o2n 0 =? nth (2 * i + 1) o2n 0) = true).
    { intros i Hi. apply negb_true_iff, Nat.eqb_neq. intros E.
      destruct (He1 i Hi) as (_ & _ & H). rewrite E in H.
      rewrite Forall_forall in Hd. apply (Hd _ (nth_In fracs (p0, p0) Hi)).
      rewrite <- H. reflexivity. }
    rewrite !sel_all; rewrite ?map_length, ?seq_length;
      try (rewrite forallb_map_seq; [reflexivity|exact Hkeep]); try reflexivity; try exact Hlen.
    rewrite forallb_map_seq
      by (intros i Hi; destruct (He1 i Hi) as (H1 & H2 & _); cbn [fst snd];
          apply andb_true_iff; split; apply Nat.ltb_lt; assumption).
    rewrite map_map. cbn [fst snd].
    rewrite (map_ext_in _ (fun i => nth i fracs (p0, p0))), map_nth_seq
      by (intros i Hi; apply in_seq in Hi; apply He1; lia).
    replace (existsb _ fracs) with false; [reflexivity|].
    symmetry. apply not_true_is_false. intro Hex. apply existsb_exists in Hex as (f & Hf & Hp).
    apply peqb_spec in Hp. rewrite Forall_forall in Hd. exact (Hd f Hf Hp).
  Qed.

End Csv2.

(* concrete instances used by the non-vacuity examples of Props/C47.v *)
Definition ex_print (_ : unit) (v : Z) : str := [v + 48]%Z.
Definition ex_parse (s : str) : option Z :=
  match s with [c] => if ((48 <=? c) && (c <=? 57))%Z then Some (c - 48)%Z else None | _ => None end.
Definition ex_pr (v : Z) : str := [48; v]%Z.
Definition ex_pri (k : nat) : str := [Z.of_nat k].
Definition ex_pa (s : str) : Z := match s with [_; v] => v | [k] => k | _ => 0%Z end.
Definition ex_uniq (l : list (Z * Z)) := (l, seq 0 (length l)).
