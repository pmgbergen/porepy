(* C01 — proofs: every arithmetic rule of the table (Model/C01.v) computes the derivative
   of the value expression it accompanies (Coquelicot [is_derive]). *)
From Coq Require Import Reals ZArith List Lra Lia.
From Coquelicot Require Import Coquelicot.
From PP Require Import Model.C01 Model.C01R.
Import ListNotations.
Open Scope R_scope.

Ltac unf :=
  cbv [d_add_ad d_add_k d_neg d_sub_ad d_sub_k d_rsub_k d_mul_s d_mul_a d_mul_ad
       d_powz_k d_powr_k d_pow_k d_pow_ad d_rpow_k d_div_s d_div_a d_div_ad d_rdiv_s
       d_rdiv_a d_rdiv_ad d_rpow_ad d_fun d_max fval ffac half np_abs np_sign
       np_heaviside np_isclose0 max_plain pow_plain
       ROps o0 o1 oadd osub omul odiv oopp opowz orpow oofZ oltb oprim opi primR
       fst snd].

Lemma is_derive_eq (f : R -> R) (x l l' : R) : is_derive f x l -> l = l' -> is_derive f x l'.
Proof. intros H <-; exact H. Qed.

Lemma is_derive_continuous (f : R -> R) (x l : R) : is_derive f x l -> continuous f x.
Proof. intros H. apply (ex_derive_continuous f x). exists l. exact H. Qed.

Lemma chain (g u : R -> R) (t dg du : R) :
  is_derive g (u t) dg -> is_derive u t du -> is_derive (fun s => g (u s)) t (dg * du).
Proof.
  intros Hg Hu. eapply is_derive_eq.
  - exact (is_derive_comp g u t dg du Hg Hu).
  - apply Rmult_comm.
Qed.

(* [auto_derive] states its result with [Derive] of the eta-expanded operand *)
Lemma Derive_eta (u : R -> R) (t du : R) : is_derive u t du -> Derive (fun x => u x) t = du.
Proof. apply is_derive_unique. Qed.

Lemma pz_m1 x : powerRZ x (-1) = / x.
Proof. simpl. now rewrite Rmult_1_r. Qed.
Lemma pz_m2 x : powerRZ x (-2) = / (x * x).
Proof. simpl. now rewrite Rmult_1_r. Qed.
Lemma pz_2 x : powerRZ x 2 = x * x.
Proof. simpl. now rewrite Rmult_1_r. Qed.

Lemma is_derive_powerRZ_id (n : Z) (x : R) :
  (x <> 0 \/ (1 <= n)%Z) ->
  is_derive (fun y => powerRZ y n) x (IZR n * powerRZ x (n - 1)).
Proof.
  intros Hg. destruct n as [|p|p]; cbn [powerRZ].
  - auto_derive. exact I. ring.
  - auto_derive. exact I.
    replace (Z.pos p - 1)%Z with (Z.of_nat (pred (Pos.to_nat p))) by lia.
    rewrite <- pow_powerRZ, <- (positive_nat_Z p), <- INR_IZR_INZ. ring.
  - assert (Hx : x <> 0) by (destruct Hg; [assumption | lia]).
    auto_derive. now apply pow_nonzero.
    replace (Z.neg p - 1)%Z with (- Z.of_nat (S (Pos.to_nat p)))%Z by lia.
    rewrite powerRZ_neg', <- pow_powerRZ, <- Pos2Z.opp_pos, <- (positive_nat_Z p), opp_IZR,
      <- INR_IZR_INZ.
    destruct (Pos2Nat.is_succ p) as [m ->].
    cbn [pred pow]. field. split; [now apply pow_nonzero | exact Hx].
Qed.

Lemma Rpower_pred (x p : R) : 0 < x -> Rpower x (p - 1) = Rpower x p * / x.
Proof.
  intros Hx. unfold Rminus. now rewrite Rpower_plus, Rpower_Ropp, Rpower_1.
Qed.

Lemma is_derive_Rpower_id (p x : R) :
  0 < x -> is_derive (fun y => Rpower y p) x (p * Rpower x (p - 1)).
Proof.
  intros Hx. rewrite Rpower_pred by exact Hx. unfold Rpower. auto_derive. exact Hx.
  field. lra.
Qed.

Lemma ltbR_true a b : a < b -> ltbR a b = true.
Proof. intros H. unfold ltbR. destruct (Rlt_dec a b); [reflexivity | contradiction]. Qed.
Lemma ltbR_false a b : ~ a < b -> ltbR a b = false.
Proof. intros H. unfold ltbR. destruct (Rlt_dec a b); [contradiction | reflexivity]. Qed.
Lemma ltbR_ge a b : b <= a -> ltbR a b = false.
Proof. intros H. apply ltbR_false. lra. Qed.

(* A function defined by a comparison of two continuous functions is, away from ties,
   locally the branch selected at the point. *)
Lemma is_derive_ltb (f g h k : R -> R) (x l : R) :
  continuous f x -> continuous g x -> f x <> g x ->
  is_derive (if ltbR (f x) (g x) then h else k) x l ->
  is_derive (fun y => if ltbR (f y) (g y) then h y else k y) x l.
Proof.
  intros Hf Hg Hne Hd.
  assert (Hc : continuous (fun y => g y - f y) x) by exact (continuous_minus g f x Hg Hf).
  destruct (Rlt_dec (f x) (g x)) as [Hlt|Hge].
  - rewrite ltbR_true in Hd by exact Hlt. apply (is_derive_ext_loc h); [|exact Hd].
    apply (filter_imp (fun y => 0 < g y - f y)).
    + intros y Hy. now rewrite ltbR_true by lra.
    + apply (Hc (fun z => 0 < z)), open_gt. lra.
  - rewrite ltbR_false in Hd by exact Hge. apply (is_derive_ext_loc k); [|exact Hd].
    apply (filter_imp (fun y => g y - f y < 0)).
    + intros y Hy. now rewrite ltbR_false by lra.
    + apply (Hc (fun z => z < 0)), open_lt. lra.
Qed.

(* differentiate the value expression of a rule whose operands have the derivatives stated
   by [Hu] and [Hw]; side conditions by [auto] *)
Ltac ad2 Hu Hw :=
  auto_derive;
  [ repeat split; try (eexists; eassumption); auto
  | rewrite ?(Derive_eta _ _ _ Hu), ?(Derive_eta _ _ _ Hw) ].
Ltac ad1 Hu := ad2 Hu Hu.

Section Rules1.
  Variables (u : R -> R) (t du : R).
  Hypothesis Hu : is_derive u t du.

  Lemma rule_neg :
    is_derive (fun s => - u s) t (snd (d_neg ROps (u t, du))).
  Proof. exact (is_derive_opp u t du Hu). Qed.

  Lemma rule_add_k c :
    is_derive (fun s => u s + c) t (snd (d_add_k ROps (u t, du) c)).
  Proof. unf. ad1 Hu. ring. Qed.

  Lemma rule_radd_k c :
    is_derive (fun s => c + u s) t (snd (d_add_k ROps (u t, du) c)).
  Proof. unf. ad1 Hu. ring. Qed.

  Lemma rule_sub_k c :
    is_derive (fun s => u s - c) t (snd (d_sub_k ROps (u t, du) c)).
  Proof. exact (rule_add_k (- c)). Qed.

  Lemma rule_rsub_k c :
    is_derive (fun s => c - u s) t (snd (d_rsub_k ROps (u t, du) c)).
  Proof. unf. ad1 Hu. ring. Qed.

  Lemma rule_mul_s c :
    is_derive (fun s => u s * c) t (snd (d_mul_s ROps (u t, du) c)).
  Proof. exact (is_derive_scal_l u t du c Hu). Qed.

  Lemma rule_mul_a c :
    is_derive (fun s => u s * c) t (snd (d_mul_a ROps (u t, du) c)).
  Proof. unf. ad1 Hu. ring. Qed.

  Lemma rule_rmul_s c :
    is_derive (fun s => c * u s) t (snd (d_mul_s ROps (u t, du) c)).
  Proof. unf. ad1 Hu. ring. Qed.

  Lemma rule_rmul_a c :
    is_derive (fun s => c * u s) t (snd (d_mul_a ROps (u t, du) c)).
  Proof. exact (is_derive_scal u t c du Hu). Qed.

  Lemma rule_div_s c :
    is_derive (fun s => u s / c) t (snd (d_div_s ROps (u t, du) c)).
  Proof. exact (is_derive_scal_l u t du (/ c) Hu). Qed.

  Lemma rule_div_a c :
    is_derive (fun s => u s / c) t (snd (d_div_a ROps (u t, du) c)).
  Proof. unf. rewrite pz_m1. ad1 Hu. unfold Rdiv. ring. Qed.

  Lemma rule_powz_k n : (u t <> 0 \/ (1 <= n)%Z) ->
    is_derive (fun s => powerRZ (u s) n) t (snd (d_powz_k ROps (u t, du) n)).
  Proof. intros Hg. exact (chain _ u t _ du (is_derive_powerRZ_id n (u t) Hg) Hu). Qed.

  Lemma rule_powr_k p : 0 < u t ->
    is_derive (fun s => Rpower (u s) p) t (snd (d_powr_k ROps (u t, du) p)).
  Proof. intros Hg. exact (chain _ u t _ du (is_derive_Rpower_id p (u t) Hg) Hu). Qed.

  Lemma rule_rpow_k c :
    is_derive (fun s => Rpower c (u s)) t (snd (d_rpow_k ROps (u t, du) c)).
  Proof. unf. unfold Rpower. ad1 Hu. ring. Qed.

End Rules1.

Section Rules2.
  Variables (u w : R -> R) (t du dw : R).
  Hypothesis Hu : is_derive u t du.
  Hypothesis Hw : is_derive w t dw.

  Lemma rule_add_ad :
    is_derive (fun s => u s + w s) t (snd (d_add_ad ROps (u t, du) (w t, dw))).
  Proof. exact (is_derive_plus u w t du dw Hu Hw). Qed.

  Lemma rule_sub_ad :
    is_derive (fun s => u s - w s) t (snd (d_sub_ad ROps (u t, du) (w t, dw))).
  Proof. exact (is_derive_minus u w t du dw Hu Hw). Qed.

  Lemma rule_mul_ad :
    is_derive (fun s => u s * w s) t (snd (d_mul_ad ROps (u t, du) (w t, dw))).
  Proof.
    unf. eapply is_derive_eq; [exact (is_derive_mult u w t du dw Hu Hw Rmult_comm)|].
    unfold plus, mult; simpl; ring.
  Qed.

  Lemma rule_pow_ad : 0 < u t ->
    is_derive (fun s => Rpower (u s) (w s)) t (snd (d_pow_ad ROps (u t, du) (w t, dw))).
  Proof.
    intros Hg. unf. rewrite Rpower_pred by exact Hg. unfold Rpower. ad2 Hu Hw.
    field. lra.
  Qed.

  Lemma rule_max : u t <> w t ->
    is_derive (fun s => max_plain ROps (u s) (w s)) t
              (snd (d_max ROps (u t, du) (w t, dw))).
  Proof.
    intros Hne. unfold max_plain, d_max. cbn [fst oltb ROps].
    apply is_derive_ltb; eauto using is_derive_continuous.
    destruct (ltbR (u t) (w t)); assumption.
  Qed.
End Rules2.

(* Division is composed as in the code: __truediv__(AdArray) is __mul__ of __pow__(-1.0),
   __rtruediv__ is __pow__(-1.0) times the other operand. *)
Lemma rule_inv (u : R -> R) (t du : R) : is_derive u t du -> u t <> 0 ->
  is_derive (fun s => powerRZ (u s) (-1)) t (snd (d_powz_k ROps (u t, du) (-1))).
Proof. intros Hu Hg. apply rule_powz_k; auto. Qed.

Section Division.
  Variables (u w : R -> R) (t du dw : R).
  Hypothesis Hu : is_derive u t du.
  Hypothesis Hw : is_derive w t dw.

  Lemma rule_div_ad : w t <> 0 ->
    is_derive (fun s => u s / w s) t (snd (d_div_ad ROps (u t, du) (w t, dw))).
  Proof.
    intros Hg. apply (is_derive_ext (fun s => u s * powerRZ (w s) (-1))).
    - intros s. now rewrite pz_m1.
    - exact (rule_mul_ad u _ t du _ Hu (rule_inv w t dw Hw Hg)).
  Qed.

  Lemma inv_mul c s : powerRZ (u s) (-1) * c = c / u s.
  Proof. rewrite pz_m1. apply Rmult_comm. Qed.

  Lemma rule_rdiv_s c : u t <> 0 ->
    is_derive (fun s => c / u s) t (snd (d_rdiv_s ROps (u t, du) c)).
  Proof.
    intros Hg. apply (is_derive_ext (fun s => powerRZ (u s) (-1) * c)); [apply inv_mul|].
    exact (rule_mul_s _ t _ (rule_inv u t du Hu Hg) c).
  Qed.

  Lemma rule_rdiv_a c : u t <> 0 ->
    is_derive (fun s => c / u s) t (snd (d_rdiv_a ROps (u t, du) c)).
  Proof.
    intros Hg. apply (is_derive_ext (fun s => powerRZ (u s) (-1) * c)); [apply inv_mul|].
    exact (rule_mul_a _ t _ (rule_inv u t du Hu Hg) c).
  Qed.
End Division.
