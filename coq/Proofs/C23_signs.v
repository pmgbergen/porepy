(* C23 — the sign array of refine_grid_1d. *)
From Coq Require Import List ZArith QArith Bool Arith Lia.
Import ListNotations.
From PP Require Import Model.C23.
Close Scope Q_scope.

Lemma mem_In r l : mem r l = true <-> In r l.
Proof.
  unfold mem. rewrite existsb_exists. split.
  - intros [x [Hx E]]. apply Nat.eqb_eq in E. subst. exact Hx.
  - intros H. exists r. split; [exact H|apply Nat.eqb_refl].
Qed.

Lemma mem_cons r a l : mem r (a :: l) = (r =? a) || mem r l.
Proof. reflexivity. Qed.

Lemma signs_from_length seen l : length (signs_from seen l) = length l.
Proof.
  revert seen. induction l as [|a t IH]; intros seen; cbn [signs_from]; [reflexivity|].
  destruct (mem a seen); cbn [length]; rewrite IH; reflexivity.
Qed.

(* entry i is -1 exactly when the index has been seen before position i; [seen] only misses
   indices that it holds already *)
Lemma signs_from_nth l : forall seen i, i < length l ->
  nth i (signs_from seen l) 0%Z =
  if mem (nth i l 0) seen || mem (nth i l 0) (firstn i l) then (-1)%Z else 1%Z.
Proof.
  induction l as [|a t IH]; intros seen i Hi; cbn [length] in Hi; [lia|].
  cbn [signs_from]. destruct i as [|i].
  - change (nth 0 (a :: t) 0) with a. change (firstn 0 (a :: t)) with (@nil nat).
    rewrite orb_false_r. destruct (mem a seen); reflexivity.
  - change (nth (S i) (a :: t) 0) with (nth i t 0).
    change (firstn (S i) (a :: t)) with (a :: firstn i t).
    destruct (mem a seen) eqn:E; cbn [nth]; rewrite IH, !mem_cons by lia.
    + destruct (Nat.eqb_spec (nth i t 0) a) as [->|]; [rewrite E|]; reflexivity.
    + destruct (nth i t 0 =? a), (mem (nth i t 0) seen); reflexivity.
Qed.

