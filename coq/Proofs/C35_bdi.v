(* C35 — block_diag_index (both call forms): closed forms. *)
From Coq Require Import List ZArith Bool Arith Lia.
Import ListNotations.
From PP Require Import Lib.ListFacts Lib.Csr Model.C35 Proofs.C35 Proofs.C35_rl Proofs.C35_csr.

(* block after block: the block's index range, once per row of the block *)
Fixpoint bdi1_spec (off : nat) (m : list nat) : list nat :=
  match m with
  | [] => []
  | s :: r => concat (repeat (seq off s) s) ++ bdi1_spec (off + s) r
  end.

Definition bdi_body (idxb idxi n : list nat) (i : list nat) (ib : nat) : list nat :=
  assign_slice i (nth ib idxi 0)
    (concat (repeat (seq (nth ib idxb 0) (nth (S ib) idxb 0 - nth ib idxb 0)) (nth (S ib) n 0))).

Lemma fold_left_map' : forall {A B C} (f : A -> B -> A) (g : C -> B) l a,
  fold_left f (map g l) a = fold_left (fun a x => f a (g x)) l a.
Proof. induction l; intros; simpl; auto. Qed.

Lemma concat_repeat_length : forall {E} (l : list E) k, length (concat (repeat l k)) = k * length l.
Proof. induction k; simpl; [reflexivity|]. rewrite app_length, IHk. reflexivity. Qed.

Lemma assign_slice_next : forall {E} (done v : list E) d T,
  assign_slice (done ++ repeat d (length v + T)) (length done) v = (done ++ v) ++ repeat d T.
Proof.
  intros E done v d T. unfold assign_slice.
  rewrite firstn_app, firstn_all, Nat.sub_diag. cbn [firstn]. rewrite app_nil_r.
  rewrite skipn_app, skipn_all2 by lia. cbn [app].
  replace (length done + length v - length done) with (length v) by lia.
  rewrite repeat_app, skipn_app, skipn_all2 by (rewrite repeat_length; lia).
  rewrite repeat_length, Nat.sub_diag. cbn [skipn app]. rewrite <- app_assoc. reflexivity.
Qed.

(* the loop, started at any block: [done] is what the earlier iterations have written *)
Lemma bdi1_gen : forall m off done x,
  fold_left (bdi_body (off :: cumsumN off m) (length done :: cumsumN (length done) (map (fun s => s * s) m)) (x :: m))
            (seq 0 (length m)) (done ++ repeat 0 (sum_nat (map (fun s => s * s) m)))
  = done ++ bdi1_spec off m.
Proof.
  induction m as [|s r IH]; intros off done x; [reflexivity|].
  cbn [length seq fold_left map cumsumN sum_nat fold_right bdi1_spec].
  fold (sum_nat (map (fun s => s * s) r)). unfold bdi_body at 2. cbn [nth].
  replace (off + s - off) with s by lia.
  assert (Hv : length (concat (repeat (seq off s) s)) = s * s)
    by (rewrite concat_repeat_length, seq_length; reflexivity).
  rewrite <- Hv, assign_slice_next, <- seq_shift, fold_left_map'.
  (* the remaining iterations do not look at the first block any more *)
  change (fun a x0 => bdi_body ?b ?i ?n a (S x0)) with (bdi_body (tl b) (tl i) (tl n)). cbn [tl].
  rewrite <- app_length, IH, <- app_assoc. reflexivity.
Qed.

Theorem bdi1_closed_form : forall m, block_diag_index1 m = bdi1_spec 0 m.
Proof.
  intros m. unfold block_diag_index1.
  change (cumsumN 0 (0 :: m)) with (0 :: cumsumN 0 m).
  change (cumsumN 0 (map (fun s => s * s) (0 :: m))) with (0 :: cumsumN 0 (map (fun s => s * s) m)).
  rewrite last_cumsumN. cbn [length Nat.add]. replace (S (length m) - 1) with (length m) by lia.
  apply (bdi1_gen m 0 [] 0).
Qed.

(* rows: for every block its row range, once per column of the block *)
Fixpoint bdi2_i (off : Z) (mn : list (Z * Z)) : list Z :=
  match mn with
  | [] => []
  | ab :: r => concat (repeat (zrange off (off + fst ab)) (Z.to_nat (snd ab))) ++ bdi2_i (off + fst ab) r
  end.

(* columns: for every block and every column of it, the column number once per row *)
Fixpoint bdi2_j (coff : Z) (mn : list (Z * Z)) : list Z :=
  match mn with
  | [] => []
  | ab :: r => flat_map (fun c => repeat (coff + Z.of_nat c)%Z (Z.to_nat (fst ab))) (seq 0 (Z.to_nat (snd ab)))
               ++ bdi2_j (coff + snd ab) r
  end.

Lemma rep_length : forall {T} (A : list T) n, length n <= length A ->
  length (flat_map rep (combine A n)) = sum_nat (map Z.to_nat n).
Proof.
  induction A as [|a A IH]; intros [|c n] H; simpl in H; try lia; try reflexivity.
  cbn [combine flat_map map sum_nat fold_right]. rewrite app_length. unfold rep at 1. cbn [fst snd].
  rewrite repeat_length, IH by lia. reflexivity.
Qed.

Lemma combine_repeat2 : forall {S T} (x : S) (y : T) k, combine (repeat x k) (repeat y k) = repeat (x, y) k.
Proof. induction k; simpl; congruence. Qed.

Lemma rows_part : forall m n acc, length m = length n ->
  flat_map (fun p => zrange (fst p) (snd p))
    (combine (flat_map rep (combine (excl acc m) n))
             (map (fun x => (x + 1)%Z) (flat_map rep (combine (map (fun x => (x - 1)%Z) (cumsum_acc acc m)) n))))
  = bdi2_i acc (combine m n).
Proof.
  induction m as [|a r IH]; intros [|b n] acc H; simpl in H; try discriminate; [reflexivity|].
  cbn [excl cumsum_acc map combine flat_map bdi2_i fst snd].
  rewrite map_app. unfold rep at 1 3. cbn [fst snd]. rewrite map_repeat'.
  rewrite combine_app' by (rewrite !repeat_length; reflexivity).
  rewrite combine_repeat2, flat_map_app, flat_map_concat_map, map_repeat'. cbn [fst snd].
  replace (acc + a - 1 + 1)%Z with (acc + a)%Z by lia.
  f_equal. apply IH. lia.
Qed.

Lemma sumZ_to_nat : forall n, Forall (fun c => 0 <= c)%Z n ->
  Z.to_nat (sumZ n) = sum_nat (map Z.to_nat n) /\ (0 <= sumZ n)%Z.
Proof.
  unfold sum_nat. induction 1 as [|c n Hc _ [IH1 IH2]]; [split; [reflexivity|simpl; lia]|].
  simpl. split; [rewrite <- IH1; lia|lia].
Qed.

Lemma cols_part : forall m n c, length m = length n -> Forall (fun x => 0 <= x)%Z n ->
  flat_map rep (combine (map Z.of_nat (seq c (sum_nat (map Z.to_nat n)))) (flat_map rep (combine m n)))
  = bdi2_j (Z.of_nat c) (combine m n).
Proof.
  induction m as [|a r IH]; intros [|b n] c H Hn; simpl in H; try discriminate; [reflexivity|].
  inversion Hn as [|b' n' Hb Hn']; subst.
  cbn [map sum_nat fold_right combine flat_map bdi2_j fst snd]. fold (sum_nat (map Z.to_nat n)).
  rewrite seq_app, map_app. unfold rep at 2. cbn [fst snd].
  rewrite combine_app' by (rewrite map_length, seq_length, repeat_length; reflexivity).
  rewrite flat_map_app. f_equal.
  - (* the columns of this block *)
    replace (repeat a (Z.to_nat b)) with (repeat a (length (map Z.of_nat (seq c (Z.to_nat b)))))
      by (rewrite map_length, seq_length; reflexivity).
    replace (seq c (Z.to_nat b)) with (map (fun j => c + j) (seq 0 (Z.to_nat b)))
      by (rewrite map_add_seq, Nat.add_0_r; reflexivity).
    rewrite combine_repeat_r, !flat_map_map.
    apply flat_map_ext. intros k. unfold rep. cbn [fst snd]. f_equal. lia.
  - rewrite (IH n (c + Z.to_nat b)) by (try lia; exact Hn'). f_equal. lia.
Qed.
