(* C27 — lemmas: BoundaryProjection, for arbitrary lists (a listed grid without boundary grid
   repeats the previous block) and for the grids of an md-grid. *)
From Coq Require Import List QArith Bool Arith Lia.
Import ListNotations.
From PP Require Import Model.C27 Model.C27_spec Model.C27_ext Proofs.C27.
Local Open Scope nat_scope.

Definition bcols (off nd : nat) (bnd : list nat) : list nat :=
  flat_map (fun f => map (fun d => off + (f * nd + d)) (seq 0 nd)) bnd.

Lemma bnd_cols_bcols : forall sds nd b bnd,
    bg_bnd b = Some bnd -> (0 <? gdim (bg_grid b)) = true ->
    bnd_cols sds nd b = bcols (pre nfaces sds (gid (bg_grid b)) * nd) nd bnd.
Proof. intros sds nd b bnd E1 E2. unfold bnd_cols, bcols. now rewrite E1, E2. Qed.

(* kron(P_bg, I_nd) @ faceproj.T selects the columns of the boundary faces *)
Lemma bnd_block : forall bnd nf nd tot off,
    Forall (fun f => f < nf) bnd ->
    mul (kron_eye (bg_projections bnd nf) nd) (selection tot (seq off (nf * nd)))
    = Ok (selection tot (bcols off nd bnd)).
Proof.
  intros bnd nf nd tot off Hlt. change (bg_projections bnd nf) with (selection nf bnd).
  rewrite kron_eye_selection, mul_selection_range.
  - unfold bcols. rewrite map_flat_map. do 2 f_equal. apply flat_map_ext. intros f.
    apply map_map.
  - apply Forall_flat_map. eapply Forall_impl; [|exact Hlt]. intros f Hf.
    apply Forall_map, Forall_forall. intros d Hd. apply in_seq in Hd. cbv beta in *. nia.
Qed.

(* [pc] are the columns of the block kept from the previous iteration *)
Lemma bp_loop_stale : forall sds nd l pc acc,
    NoDup (map gid sds) -> incl (map bg_grid l) sds ->
    Forall (fun b => 0 < gdim (bg_grid b) -> bnd_in_range b) l ->
    let tot := total nfaces sds nd in
    bp_loop (pdict_of nfaces sds nd) tot nd l (option_map (selection tot) pc) acc
    = match stale_blocks sds nd l pc with
      | Some cs => Ok (rev acc ++ map (selection tot) cs)
      | None => Err UnboundErr
      end.
Proof.
  intros sds nd l; induction l as [|b r IH]; intros pc acc Hnd Hinc Hr tot.
  - cbn [bp_loop stale_blocks map]. now rewrite app_nil_r.
  - apply Forall_cons_iff in Hr. destruct Hr as (Hb & Hr).
    cbn [map] in Hinc. apply incl_cons_inv in Hinc. destruct Hinc as (Hin & Hinc).
    (* every branch that does not fail goes on with some block c, kept as the previous one *)
    assert (Hnext : forall c,
               bp_loop (pdict_of nfaces sds nd) tot nd r (Some (selection tot c))
                       (selection tot c :: acc)
               = match option_map (cons c) (stale_blocks sds nd r (Some c)) with
                 | Some cs => Ok (rev acc ++ map (selection tot) cs)
                 | None => Err UnboundErr
                 end).
    { intros c. rewrite (IH (Some c)) by assumption.
      destruct (stale_blocks sds nd r (Some c)); [|reflexivity].
      cbn [option_map map rev]. now rewrite <- app_assoc. }
    cbn [bp_loop stale_blocks].
    destruct (Nat.ltb_spec 0 (gdim (bg_grid b))) as [Hd|_]; [|apply (Hnext [])].
    destruct (bg_bnd b) as [bnd|] eqn:Eb.
    + rewrite lookup_pdict_of by assumption. cbn [bind].
      fold tot. rewrite transpose_pmat, bnd_block by (apply Hb; assumption). cbn [bind].
      rewrite <- (bnd_cols_bcols sds nd b bnd Eb) by now apply Nat.ltb_lt.
      apply Hnext.
    + destruct pc as [c|]; [apply Hnext|reflexivity].
Qed.

Lemma stale_blocks_nonempty : forall sds nd b r pc cs,
    stale_blocks sds nd (b :: r) pc = Some cs -> cs <> [].
Proof.
  intros sds nd b r pc cs H. cbn [stale_blocks] in H.
  destruct (if 0 <? gdim (bg_grid b) then _ else _) as [c|]; [|discriminate H].
  destruct (stale_blocks sds nd r (Some c)); cbn [option_map] in H; [|discriminate H].
  injection H as <-. discriminate.
Qed.

(* BoundaryProjection.__init__ for any list of distinct grids *)
Lemma bp_projection_stale : forall bgs nd,
    1 <= nd -> Forall wf_grid (map bg_grid bgs) -> NoDup (map gid (map bg_grid bgs)) ->
    Forall (fun b => 0 < gdim (bg_grid b) -> bnd_in_range b) bgs ->
    bp_projection bgs nd
    = match stale_blocks (map bg_grid bgs) nd bgs None with
      | Some cs => Ok (selection (total nfaces (map bg_grid bgs) nd) (concat cs))
      | None => Err UnboundErr
      end.
Proof.
  intros bgs nd Hnd Hwfg Hnodup Hr. unfold bp_projection.
  rewrite face_projections_spec by assumption. cbn [bind].
  fold (total nfaces (map bg_grid bgs) nd).
  rewrite (bp_loop_stale _ nd bgs None [] Hnodup (incl_refl _) Hr : bp_loop _ _ _ _ None _ = _).
  destruct (stale_blocks (map bg_grid bgs) nd bgs None) as [cs|] eqn:Es; [|reflexivity].
  cbn [rev app bind].
  destruct bgs as [|b r]; [injection Es as <-; reflexivity|].
  apply stale_blocks_nonempty in Es. destruct cs as [|c cs]; [congruence|].
  cbn [map]. apply (vstack_selections _ (c :: cs)). discriminate.
Qed.

(* every listed grid has its boundary grid: no block is stale *)
Lemma stale_blocks_wf : forall sds nd l pc,
    Forall wf_bgrid l -> stale_blocks sds nd l pc = Some (map (bnd_cols sds nd) l).
Proof.
  intros sds nd l; induction l as [|b r IH]; intros pc H; [reflexivity|].
  apply Forall_cons_iff in H. destruct H as ((_ & Hb) & Hr). cbn [stale_blocks map].
  replace (if 0 <? gdim (bg_grid b) then _ else _) with (Some (bnd_cols sds nd b)).
  - now rewrite IH.
  - unfold bnd_cols. destruct (Nat.ltb_spec 0 (gdim (bg_grid b))) as [Hd|_].
    + destruct (Hb Hd) as (bnd & -> & _). reflexivity.
    + now destruct (bg_bnd b).
Qed.

Lemma bp_projection_spec : forall bgs nd,
    1 <= nd -> Forall wf_bgrid bgs -> NoDup (map gid (map bg_grid bgs)) ->
    bp_projection bgs nd
    = Ok (selection (total nfaces (map bg_grid bgs) nd) (all_bnd_cols bgs nd)).
Proof.
  intros bgs nd Hnd Hwf Hnodup. rewrite bp_projection_stale; try assumption.
  - rewrite stale_blocks_wf by assumption. unfold all_bnd_cols. now rewrite flat_map_concat_map.
  - apply Forall_map. eapply Forall_impl; [|exact Hwf]. now intros b (H & _).
  - eapply Forall_impl; [|exact Hwf]. intros b (_ & Hb) Hd bnd E.
    destruct (Hb Hd) as (bnd' & E' & _ & Hlt). congruence.
Qed.

Lemma bcols_in : forall off nd bnd c,
    In c (bcols off nd bnd) <-> exists f d, In f bnd /\ d < nd /\ c = off + (f * nd + d).
Proof.
  intros. unfold bcols. rewrite in_flat_map. split.
  - intros (f & Hf & Hc). apply in_map_iff in Hc. destruct Hc as (d & <- & Hd).
    apply in_seq in Hd. exists f, d. repeat split; [exact Hf|lia].
  - intros (f & d & Hf & Hd & ->). exists f. split; [exact Hf|].
    apply in_map_iff. exists d. split; [reflexivity|]. apply in_seq. lia.
Qed.

Lemma bcols_NoDup : forall off nd bnd, NoDup bnd -> NoDup (bcols off nd bnd).
Proof.
  intros off nd bnd H. apply (NoDup_flat_map_keyed (fun f => f)); [now rewrite map_id| |].
  - intros f _. apply FinFun.Injective_map_NoDup; [|apply seq_NoDup]. intros x y E. lia.
  - (* f is the quotient of c - off by nd *)
    intros f f' c _ _ Hc Hc'. apply in_map_iff in Hc, Hc'.
    destruct Hc as (d & <- & Hd), Hc' as (d' & E & Hd'). apply in_seq in Hd, Hd'. nia.
Qed.

Lemma bnd_cols_wf : forall sds nd b,
    wf_bgrid b ->
    bnd_cols sds nd b = [] \/
    exists bnd, bnd_cols sds nd b = bcols (pre nfaces sds (gid (bg_grid b)) * nd) nd bnd /\
                NoDup bnd /\ Forall (fun f => f < nfaces (bg_grid b)) bnd.
Proof.
  intros sds nd b (_ & Hb). destruct (Nat.ltb_spec 0 (gdim (bg_grid b))) as [Hd|Hd].
  - destruct (Hb Hd) as (bnd & E & H). right. exists bnd. split; [|exact H].
    apply bnd_cols_bcols; [exact E|now apply Nat.ltb_lt].
  - left. unfold bnd_cols. apply Nat.ltb_ge in Hd. rewrite Hd. now destruct (bg_bnd b).
Qed.

Lemma bnd_cols_in_block : forall sds nd b c,
    wf_bgrid b -> In c (bnd_cols sds nd b) -> In c (block nfaces sds nd (bg_grid b)).
Proof.
  intros sds nd b c Hb Hc.
  destruct (bnd_cols_wf sds nd b Hb) as [E|(bnd & E & _ & Hlt)]; rewrite E in Hc; [destruct Hc|].
  apply bcols_in in Hc. destruct Hc as (f & d & Hf & Hd & ->).
  rewrite Forall_forall in Hlt. specialize (Hlt f Hf). unfold block. apply in_seq. nia.
Qed.

Lemma bnd_cols_NoDup : forall sds nd b, wf_bgrid b -> NoDup (bnd_cols sds nd b).
Proof.
  intros sds nd b Hb.
  destruct (bnd_cols_wf sds nd b Hb) as [E|(bnd & E & Hnd & _)]; rewrite E;
    [constructor|now apply bcols_NoDup].
Qed.

(* the columns of a grid lie in its block, and the blocks of distinct grids are disjoint *)
Lemma all_bnd_cols_NoDup : forall bgs nd,
    Forall wf_bgrid bgs -> NoDup (map gid (map bg_grid bgs)) -> NoDup (all_bnd_cols bgs nd).
Proof.
  intros bgs nd Hwf Hnodup. unfold all_bnd_cols. set (sds := map bg_grid bgs).
  rewrite Forall_forall in Hwf.
  apply (NoDup_flat_map_keyed bg_grid); [exact (NoDup_map_inv gid _ Hnodup)| |].
  - intros b Hb. now apply bnd_cols_NoDup, Hwf.
  - intros a b x Ha Hb Hxa Hxb.
    apply (NoDup_flat_map_inv (block nfaces sds nd) sds _ _ x).
    + change (NoDup (blocks nfaces sds nd sds)). rewrite blocks_all by exact Hnodup.
      apply seq_NoDup.
    + now apply in_map.
    + now apply in_map.
    + apply bnd_cols_in_block; auto.
    + apply bnd_cols_in_block; auto.
Qed.
