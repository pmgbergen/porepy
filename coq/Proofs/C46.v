(* C46 — proofs: the transcribed SparseNdArray.add/get refines a plain dictionary. *)
From Coq Require Import List ZArith Bool Arith Lia Permutation Sorted.
Import ListNotations.
From PP Require Import Lib.ListFacts Model.C46.

Lemma NoDup_app_iff {A} (l1 l2 : list A) :
  NoDup (l1 ++ l2) <-> NoDup l1 /\ NoDup l2 /\ forall x, In x l1 -> ~ In x l2.
Proof.
  induction l1 as [|a r IH]; cbn [app].
  - split; [intros H; repeat split; [constructor|exact H|intros x []]|tauto].
  - rewrite !NoDup_cons_iff, IH, in_app_iff. cbn [In].
    split; [intros (Ha & Hr & H2 & Hd)|intros ((Ha & Hr) & H2 & Hd)]; repeat split; auto.
    + intros x [<-|Hx]; auto.
    + intros [Ha'|Ha']; [auto|]. exact (Hd a (or_introl eq_refl) Ha').
Qed.

Lemma map_seq_nth {A B} (d : A) (F : A -> B) l (G : nat -> B) :
  (forall i, i < length l -> G i = F (nth i l d)) -> map G (seq 0 (length l)) = map F l.
Proof.
  intros H. rewrite <- (map_nth_seq l d) at 2. rewrite map_map. apply map_ext_in.
  intros i Hi. apply in_seq in Hi. apply H. lia.
Qed.

Lemma NoDup_map_inj_in {A B} (f : A -> B) : forall l,
    (forall a b, In a l -> In b l -> f a = f b -> a = b) -> NoDup l -> NoDup (map f l).
Proof.
  induction l as [|x r IH]; intros Hinj Hnd; cbn [map]; [constructor|].
  apply NoDup_cons_iff in Hnd as [Hx Hr]. constructor.
  - rewrite in_map_iff. intros [y [E Hy]].
    rewrite (Hinj y x) in Hy; [contradiction|now right|now left|exact E].
  - apply IH; [|exact Hr]. intros a b Ha Hb. apply Hinj; now right.
Qed.

Lemma perm_seq_facts (l : list nat) n :
  Permutation l (seq 0 n) -> NoDup l /\ length l = n /\ forall i, In i l <-> i < n.
Proof.
  intros Hp. split; [apply (Permutation_NoDup (Permutation_sym Hp)), seq_NoDup|].
  split; [rewrite (Permutation_length Hp); apply seq_length|].
  intros i. split; intros H.
  - apply (Permutation_in _ Hp), in_seq in H. lia.
  - apply (Permutation_in _ (Permutation_sym Hp)), in_seq. lia.
Qed.

Lemma StronglySorted_map {A B} (R : A -> A -> Prop) (S : B -> B -> Prop) (f : A -> B) l :
  (forall a b, R a b -> S (f a) (f b)) -> StronglySorted R l -> StronglySorted S (map f l).
Proof.
  intros H Hs. induction Hs as [|a l _ IH Ha]; cbn [map]; constructor; [exact IH|].
  apply Forall_map. eapply Forall_impl; [|exact Ha]. intros b. apply H.
Qed.

Lemma mask_map_filter {A} (p : A -> bool) (l : list A) : mask l (map p l) = filter p l.
Proof.
  induction l as [|x r IH]; [reflexivity|]. cbn [map mask filter]. rewrite IH. reflexivity.
Qed.

Lemma mask_map_map {A B} (F : A -> B) (p : A -> bool) (l : list A) :
  mask (map F l) (map p l) = map F (filter p l).
Proof.
  induction l as [|x r IH]; [reflexivity|]. cbn [map mask filter]. rewrite IH.
  destruct (p x); reflexivity.
Qed.

Lemma ceqb_spec a b : ceqb a b = true <-> a = b.
Proof.
  revert b; induction a as [|x r IH]; intros [|y s]; cbn [ceqb]; try (split; congruence).
  rewrite andb_true_iff, Z.eqb_eq, IH. split; [intros [-> ->]|intros [= -> ->]]; auto.
Qed.

Lemma ceqbP a b : reflect (a = b) (ceqb a b).
Proof. apply iff_reflect. symmetry. apply ceqb_spec. Qed.

Lemma ceqb_refl a : ceqb a a = true.
Proof. apply ceqb_spec. reflexivity. Qed.

Lemma ceqb_sym a b : ceqb a b = ceqb b a.
Proof. destruct (ceqbP a b), (ceqbP b a); congruence. Qed.

Lemma coord_in_dec (c : coord) l : {In c l} + {~ In c l}.
Proof. apply in_dec. apply list_eq_dec. apply Z.eq_dec. Qed.

Lemma insert_perm x l : Permutation (insert x l) (x :: l).
Proof.
  induction l as [|y r IH]; cbn [insert]; [reflexivity|].
  destruct (cltb y x); [|reflexivity]. rewrite IH. apply perm_swap.
Qed.

Lemma isort_perm l : Permutation (isort l) l.
Proof.
  induction l as [|x r IH]; cbn [isort]; [reflexivity|]. rewrite insert_perm, IH. reflexivity.
Qed.

Lemma dedup_In c l : In c (dedup l) <-> In c l.
Proof.
  induction l as [|x r IH]; cbn [dedup In]; [tauto|]. rewrite filter_In, IH.
  destruct (ceqbP x c); cbn; intuition congruence.
Qed.

Lemma dedup_NoDup l : NoDup (dedup l).
Proof.
  induction l as [|x r IH]; cbn [dedup]; constructor.
  - rewrite filter_In, ceqb_refl. intros [_ [=]].
  - apply NoDup_filter, IH.
Qed.

Lemma uniq_In c l : In c (uniq l) <-> In c l.
Proof. unfold uniq. rewrite isort_perm. apply dedup_In. Qed.

Lemma uniq_NoDup l : NoDup (uniq l).
Proof. unfold uniq. rewrite isort_perm. apply dedup_NoDup. Qed.

Lemma index_of_lt c l : In c l -> index_of c l < length l.
Proof.
  induction l as [|x r IH]; cbn [index_of length In]; [tauto|].
  destruct (ceqbP c x); [lia|]. intros [H|H]; [congruence|]. apply IH in H. lia.
Qed.

Lemma nth_index_of c l d : In c l -> nth (index_of c l) l d = c.
Proof.
  induction l as [|x r IH]; cbn [index_of In]; [tauto|].
  destruct (ceqbP c x) as [->|Hn]; [reflexivity|]. intros [H|H]; [congruence|]. apply IH, H.
Qed.

Lemma index_of_nth l d : forall i, NoDup l -> i < length l -> index_of (nth i l d) l = i.
Proof.
  induction l as [|x r IH]; intros i Hnd Hi; cbn [length] in Hi; [lia|].
  apply NoDup_cons_iff in Hnd as [Hx Hr]. destruct i as [|i]; cbn [nth index_of].
  - rewrite ceqb_refl. reflexivity.
  - destruct (ceqbP (nth i r d) x) as [E|_]; [|rewrite IH; [reflexivity|assumption|lia]].
    destruct Hx. rewrite <- E. apply nth_In. lia.
Qed.

Lemma idx_eqb u c i :
  NoDup u -> In c u -> i < length u -> (index_of c u =? i) = ceqb (nth i u []) c.
Proof.
  intros Hnd Hin Hi. destruct (ceqbP (nth i u []) c) as [<-|Hn].
  - rewrite index_of_nth by assumption. apply Nat.eqb_refl.
  - apply Nat.eqb_neq. intros <-. apply Hn, nth_index_of, Hin.
Qed.

Section Proofs.
  Variable V : Type.
  Variable vzero : V.
  Variable vadd : V -> V -> V.
  Hypothesis vadd_assoc : forall x y z, vadd x (vadd y z) = vadd (vadd x y) z.
  Hypothesis vadd_0_l : forall x, vadd vzero x = x.
  Hypothesis vadd_0_r : forall x, vadd x vzero = x.

  Notation st := (C46.st V).
  Notation op := (C46.op V).

  (* values of the batch that belong to coordinate c, in batch order *)
  Fixpoint sel (c : coord) (cs : list coord) (vs : list V) : list V :=
    match cs, vs with
    | k :: cs', v :: vs' => if ceqb c k then v :: sel c cs' vs' else sel c cs' vs'
    | _, _ => []
    end.

  (* what the batch contributes for one coordinate *)
  Definition Fl (a : bool) (l : list V) : V :=
    if a then fold_left vadd l vzero else last l vzero.

  Lemma sel_nil_iff c : forall cs vs, length cs = length vs -> (sel c cs vs = [] <-> ~ In c cs).
  Proof.
    induction cs as [|k cs IH]; intros [|v vs] Hl; try discriminate; cbn [sel In]; [tauto|].
    apply eq_add_S in Hl.
    destruct (ceqbP c k) as [->|Hn]; [|rewrite IH by exact Hl]; intuition congruence.
  Qed.

  Lemma sel_length c : forall cs vs, length cs = length vs -> length (sel c cs vs) = count c cs.
  Proof.
    unfold count.
    induction cs as [|k cs IH]; intros [|v vs] Hl; try discriminate; cbn [sel filter];
      [reflexivity|].
    apply eq_add_S in Hl. destruct (ceqb c k); cbn [length]; rewrite IH by exact Hl; reflexivity.
  Qed.

  Lemma nth_index_sel c z : forall cs vs, length cs = length vs -> In c cs ->
      nth (index_of c cs) vs z = hd z (sel c cs vs).
  Proof.
    induction cs as [|k cs IH]; intros [|v vs] Hl; try discriminate; cbn [In index_of sel];
      [tauto|]. apply eq_add_S in Hl. destruct (ceqbP c k); [reflexivity|].
    intros [H|H]; [congruence|]. apply IH; assumption.
  Qed.

  Lemma bin_fold u i : NoDup u -> i < length u ->
    forall cs vs acc, incl cs u ->
      fold_left (fun acc kv => if fst kv =? i then vadd acc (snd kv) else acc)
                (combine (map (fun c => index_of c u) cs) vs) acc
      = fold_left vadd (sel (nth i u []) cs vs) acc.
  Proof.
    intros Hnd Hi. induction cs as [|k cs IH]; intros [|v vs] acc Hsub; try reflexivity.
    apply incl_cons_inv in Hsub as [Hk Hsub].
    cbn [map combine fold_left sel fst snd]. rewrite idx_eqb by assumption.
    destruct (ceqb (nth i u []) k); apply IH, Hsub.
  Qed.

  Lemma last_where_sel u i z : NoDup u -> i < length u ->
    forall cs vs, length cs = length vs -> incl cs u ->
      match last_where (map (fun c => index_of c u) cs) i with
      | Some j => sel (nth i u []) cs vs <> [] /\ nth j vs z = last (sel (nth i u []) cs vs) z
      | None => sel (nth i u []) cs vs = []
      end.
  Proof.
    intros Hnd Hi.
    induction cs as [|k cs IH]; intros [|v vs] Hl Hsub; try discriminate; [reflexivity|].
    apply incl_cons_inv in Hsub as [Hk Hsub]. specialize (IH vs (eq_add_S _ _ Hl) Hsub).
    cbn [map last_where sel]. rewrite idx_eqb by assumption.
    destruct (last_where (map (fun c => index_of c u) cs) i) as [j|].
    - destruct IH as [Hne Hj]. cbn [nth].
      destruct (ceqb (nth i u []) k); [|split; assumption].
      split; [discriminate|]. rewrite Hj.
      destruct (sel (nth i u []) cs vs); [contradiction|reflexivity].
    - rewrite IH. destruct (ceqb (nth i u []) k); [split; [discriminate|]|]; reflexivity.
  Qed.

  Lemma uvals_spec a cs vs : length cs = length vs ->
    uvals vzero vadd a cs vs = map (fun c => Fl a (sel c cs vs)) (uniq cs).
  Proof.
    intros Hl. unfold uvals, Fl.
    assert (Hsub : incl cs (uniq cs)) by (intros c H; apply uniq_In, H).
    pose proof (uniq_NoDup cs) as Hnd.
    destruct a; [|destruct (forallb (fun k => k =? 1) (counts cs)) eqn:Ec].
    - apply (map_seq_nth []). intros i Hi. apply bin_fold; assumption.
    - unfold u2a. rewrite map_map. apply map_ext_in. intros c Hc.
      rewrite nth_index_sel by (try apply uniq_In; assumption).
      (* exactly one value for c: the first is the last *)
      rewrite forallb_forall in Ec. specialize (Ec _ (in_map (fun c => count c cs) _ c Hc)).
      apply Nat.eqb_eq in Ec. rewrite <- (sel_length c cs vs Hl) in Ec.
      destruct (sel c cs vs) as [|y [|y' l]]; try discriminate. reflexivity.
    - apply (map_seq_nth []). intros i Hi.
      pose proof (last_where_sel (uniq cs) i vzero Hnd Hi cs vs Hl Hsub) as H. fold (a2u cs) in H.
      destruct (last_where (a2u cs) i); [apply H|]. unfold coord in *. rewrite H. reflexivity.
  Qed.

  (* the new value of a key holding [old] when [v] arrives *)
  Definition comb (a : bool) (old : option V) (v : V) : V :=
    match a, old with true, Some w => vadd w v | _, _ => v end.

  (* ... and when the values l arrive one after the other *)
  Definition merge (a : bool) (old : option V) (l : list V) : option V :=
    match l with [] => old | _ => Some (comb a old (Fl a l)) end.

  Lemma fold_shift : forall l x y, fold_left vadd l (vadd x y) = vadd x (fold_left vadd l y).
  Proof.
    induction l as [|v l IH]; intros x y; cbn [fold_left]; [reflexivity|].
    rewrite <- vadd_assoc. apply IH.
  Qed.

  Lemma merge_cons a old v l : merge a (Some (comb a old v)) l = merge a old (v :: l).
  Proof.
    unfold merge, Fl. destruct a; cbn [comb].
    - assert (E : fold_left vadd (v :: l) vzero = vadd v (fold_left vadd l vzero)).
      { cbn [fold_left]. rewrite <- fold_shift, vadd_0_l, vadd_0_r. reflexivity. }
      rewrite E. destruct l; cbn [fold_left]; [rewrite vadd_0_r|]; destruct old;
        rewrite ?vadd_assoc; reflexivity.
    - destruct l; reflexivity.
  Qed.

  Lemma merge_none a old l : merge a old l = None <-> old = None /\ l = [].
  Proof. destruct l; cbn; intuition congruence. Qed.

  Lemma dins_eq a d k v : dins vadd a d k v = (k, comb a (dget d k) v) :: d.
  Proof. unfold dins, comb. destruct a, (dget d k); reflexivity. Qed.

  Lemma dadd_cons a d k v cs vs :
    dadd vadd a d (k :: cs) (v :: vs) = dadd vadd a (dins vadd a d k v) cs vs.
  Proof. reflexivity. Qed.

  Lemma dadd_spec a c : forall cs vs d,
      dget (dadd vadd a d cs vs) c = merge a (dget d c) (sel c cs vs).
  Proof.
    induction cs as [|k cs IH]; intros [|v vs] d; try reflexivity.
    rewrite dadd_cons, IH, dins_eq. cbn [dget sel].
    destruct (ceqbP c k) as [->|_]; [apply merge_cons|reflexivity].
  Qed.

  Lemma merge_sel a old c cs vs : length cs = length vs ->
    merge a old (sel c cs vs)
    = if coord_in_dec c cs then Some (comb a old (Fl a (sel c cs vs))) else old.
  Proof.
    intros Hl. unfold merge. destruct (coord_in_dec c cs) as [Hin|Hin].
    - destruct (sel c cs vs) eqn:E; [|reflexivity]. apply sel_nil_iff in E; tauto.
    - apply (sel_nil_iff c cs vs Hl) in Hin. rewrite Hin. reflexivity.
  Qed.

  Fixpoint fidx (c : coord) (l : list coord) : option nat :=
    match l with
    | [] => None
    | x :: r => if ceqb c x then Some 0 else option_map S (fidx c r)
    end.

  Lemma hd_find_all c l : hd_error (find_all c l) = fidx c l.
  Proof.
    induction l as [|x r IH]; [reflexivity|]. cbn [find_all fidx].
    destruct (ceqb c x); [reflexivity|]. rewrite <- IH. destruct (find_all c r); reflexivity.
  Qed.

  Lemma nonempty_find_all c l :
    nonempty (find_all c l) = match fidx c l with Some _ => true | None => false end.
  Proof. rewrite <- hd_find_all. destruct (find_all c l); reflexivity. Qed.

  Lemma hdl_find_all c l :
    hdl (find_all c l) = match fidx c l with Some k => [k] | None => [] end.
  Proof. rewrite <- hd_find_all. destruct (find_all c l); reflexivity. Qed.

  Lemma fidx_spec c l :
    match fidx c l with Some k => nth_error l k = Some c | None => ~ In c l end.
  Proof.
    induction l as [|x r IH]; cbn [fidx In]; [tauto|].
    destruct (ceqbP c x) as [->|Hn]; [reflexivity|].
    destruct (fidx c r); cbn [option_map nth_error]; intuition congruence.
  Qed.

  Lemma fidx_some c l k : fidx c l = Some k -> nth_error l k = Some c.
  Proof. intros E. pose proof (fidx_spec c l) as H. rewrite E in H. exact H. Qed.

  Lemma fidx_lt c l k : fidx c l = Some k -> k < length l.
  Proof. intros H. apply fidx_some in H. apply nth_error_Some. congruence. Qed.

  Lemma fidx_none c l : fidx c l = None <-> ~ In c l.
  Proof.
    pose proof (fidx_spec c l) as H. destruct (fidx c l); split; try congruence; try tauto.
    intros Hn. destruct Hn. eapply nth_error_In, H.
  Qed.

  Lemma fidx_app c l1 l2 :
    fidx c (l1 ++ l2) = match fidx c l1 with
                        | Some k => Some k
                        | None => option_map (Nat.add (length l1)) (fidx c l2)
                        end.
  Proof.
    induction l1 as [|x r IH]; cbn [app fidx length].
    - destruct (fidx c l2); reflexivity.
    - destruct (ceqb c x); [reflexivity|]. rewrite IH.
      destruct (fidx c r); [reflexivity|]. destruct (fidx c l2); reflexivity.
  Qed.

  Lemma find_all_nodup c : forall l, NoDup l ->
      find_all c l = match fidx c l with Some k => [k] | None => [] end.
  Proof.
    induction l as [|x r IH]; intros Hnd; [reflexivity|].
    apply NoDup_cons_iff in Hnd as [Hx Hr]. cbn [find_all fidx]. rewrite (IH Hr).
    destruct (ceqbP c x) as [->|_]; [|destruct (fidx c r); reflexivity].
    apply fidx_none in Hx. rewrite Hx. reflexivity.
  Qed.

  Definition assignP (l : list V) (pairs : list (nat * V)) : list V :=
    fold_left (fun acc kv => set_nth acc (fst kv) (snd kv)) pairs l.

  Lemma set_nth_length : forall (l : list V) k v, length (set_nth l k v) = length l.
  Proof.
    induction l as [|x r IH]; intros [|k] v; cbn [set_nth length]; try reflexivity.
    rewrite IH. reflexivity.
  Qed.

  Lemma set_nth_eq : forall (l : list V) k v, k < length l -> nth_error (set_nth l k v) k = Some v.
  Proof.
    induction l as [|x r IH]; intros [|k] v H; cbn [length] in H; try lia; cbn [set_nth nth_error].
    - reflexivity.
    - apply IH. lia.
  Qed.

  Lemma set_nth_neq : forall (l : list V) k j v,
      j <> k -> nth_error (set_nth l k v) j = nth_error l j.
  Proof.
    induction l as [|x r IH]; intros [|k] [|j] v H; cbn [set_nth nth_error]; try reflexivity;
      try congruence.
    apply IH. congruence.
  Qed.

  Lemma assignP_length : forall pairs l, length (assignP l pairs) = length l.
  Proof.
    induction pairs as [|[k v] ps IH]; intros l; [reflexivity|].
    unfold assignP in *. cbn [fold_left fst snd]. rewrite IH. apply set_nth_length.
  Qed.

  Lemma assignP_other : forall pairs l k,
      ~ In k (map fst pairs) -> nth_error (assignP l pairs) k = nth_error l k.
  Proof.
    induction pairs as [|[k0 v0] ps IH]; intros l k H; [reflexivity|].
    unfold assignP in *. cbn [fold_left fst snd map In] in *.
    rewrite IH by tauto. apply set_nth_neq. intros E. apply H. left. congruence.
  Qed.

  Lemma assignP_hit : forall pairs l k v,
      NoDup (map fst pairs) -> In (k, v) pairs -> k < length l ->
      nth_error (assignP l pairs) k = Some v.
  Proof.
    induction pairs as [|[k0 v0] ps IH]; intros l k v Hnd Hin Hk; [contradiction|].
    cbn [map fst] in Hnd. apply NoDup_cons_iff in Hnd as [Hk0 Hps].
    change (assignP l ((k0, v0) :: ps)) with (assignP (set_nth l k0 v0) ps).
    destruct Hin as [[= -> ->]|Hin].
    - rewrite assignP_other by exact Hk0. apply set_nth_eq, Hk.
    - apply IH; [exact Hps|exact Hin|rewrite set_nth_length; exact Hk].
  Qed.

  (* the (position, new value) pairs that add assigns: one per batch coordinate already
     stored; F c is what the batch contributes for c *)
  Definition upd1 (a : bool) (cds : list coord) (vals : list V) (F : coord -> V) (c : coord)
    : list (nat * V) :=
    match fidx c cds with
    | Some k => [(k, comb a (Some (nth k vals vzero)) (F c))]
    | None => []
    end.
  Definition upd a cds vals F (u : list coord) : list (nat * V) := flat_map (upd1 a cds vals F) u.

  Lemma upd_cons a cds vals F c u :
    upd a cds vals F (c :: u) = upd1 a cds vals F c ++ upd a cds vals F u.
  Proof. reflexivity. Qed.

  Lemma pairs_upd (a : bool) cds vals (F : coord -> V) : forall u,
      let ind := flat_map hdl (map (fun c => find_all c cds) u) in
      let rhs := mask (map F u) (map nonempty (map (fun c => find_all c cds) u)) in
      combine ind (if a then map2 vadd (gather vzero vals ind) rhs else rhs)
      = upd a cds vals F u.
  Proof.
    induction u as [|c u IH]; [destruct a; reflexivity|].
    cbn zeta in *. rewrite upd_cons, <- IH. unfold upd1. cbn [map flat_map mask].
    rewrite hdl_find_all, nonempty_find_all.
    destruct (fidx c cds); [|reflexivity]. destruct a; reflexivity.
  Qed.

  Lemma upd_keys (a : bool) cds vals F u k :
    In k (map fst (upd a cds vals F u)) -> exists c, In c u /\ fidx c cds = Some k.
  Proof.
    rewrite in_map_iff. intros [[k' v] [[= ->] H]]. apply in_flat_map in H as [c [Hc H]].
    exists c. split; [exact Hc|]. unfold upd1 in H.
    destruct (fidx c cds); [|contradiction]. destruct H as [[= -> _]|[]]. reflexivity.
  Qed.

  Lemma upd_in (a : bool) cds vals F u c k :
    In c u -> fidx c cds = Some k ->
    In (k, comb a (Some (nth k vals vzero)) (F c)) (upd a cds vals F u).
  Proof.
    intros Hc Hk. apply in_flat_map. exists c. split; [exact Hc|].
    unfold upd1. rewrite Hk. now left.
  Qed.

  Lemma upd_nodup (a : bool) cds vals F : forall u, NoDup u -> NoDup (map fst (upd a cds vals F u)).
  Proof.
    induction u as [|c u IH]; intros Hnd; [constructor|].
    apply NoDup_cons_iff in Hnd as [Hc Hu]. rewrite upd_cons. unfold upd1.
    destruct (fidx c cds) as [k|] eqn:Ek; cbn [app map fst]; [|apply IH, Hu].
    constructor; [|apply IH, Hu].
    (* a second coordinate at position k would be c itself *)
    intros H. apply upd_keys in H as [c' [Hc' Hk']].
    apply fidx_some in Ek, Hk'. congruence.
  Qed.

  Definition Inv (s : st) : Prop :=
    NoDup (coords s) /\ length (coords s) = length (values s).

  Lemma abs_fidx (s : st) c :
    abs s c = match fidx c (coords s) with Some k => nth_error (values s) k | None => None end.
  Proof.
    unfold abs. rewrite <- hd_find_all. destruct (find_all c (coords s)); reflexivity.
  Qed.

  Lemma abs_mk_app cs1 (vs1 : list V) cs2 vs2 c : length cs1 = length vs1 ->
    abs (mk (cs1 ++ cs2) (vs1 ++ vs2)) c
    = match fidx c cs1 with Some k => nth_error vs1 k | None => abs (mk cs2 vs2) c end.
  Proof.
    intros Hl. rewrite !abs_fidx. cbn [coords values]. rewrite fidx_app.
    destruct (fidx c cs1) as [k|] eqn:E.
    - apply nth_error_app1. rewrite <- Hl. exact (fidx_lt _ _ _ E).
    - destruct (fidx c cs2) as [p|]; cbn [option_map]; [|reflexivity].
      rewrite nth_error_app2 by lia. f_equal. lia.
  Qed.

  Lemma abs_mk_map (F : coord -> V) l c :
    abs (mk l (map F l)) c = if coord_in_dec c l then Some (F c) else None.
  Proof.
    rewrite abs_fidx. cbn [coords values]. pose proof (fidx_spec c l) as H.
    destruct (fidx c l) as [k|], (coord_in_dec c l) as [Hin|Hin]; try reflexivity.
    - rewrite nth_error_map, H. reflexivity.
    - destruct Hin. eapply nth_error_In, H.
    - contradiction.
  Qed.

  Lemma assign_upd a (s : st) F cs c k : Inv s -> fidx c (coords s) = Some k ->
    nth_error (assignP (values s) (upd a (coords s) (values s) F (uniq cs))) k
    = if coord_in_dec c cs then Some (comb a (abs s c) (F c)) else abs s c.
  Proof.
    intros [Hnd Hlen] Ek. rewrite abs_fidx, Ek.
    assert (Hk : k < length (values s)) by (rewrite <- Hlen; eapply fidx_lt, Ek).
    rewrite (nth_error_nth' (values s) vzero Hk). destruct (coord_in_dec c cs) as [Hin|Hin].
    - apply assignP_hit; [apply upd_nodup, uniq_NoDup| |exact Hk].
      apply upd_in; [apply uniq_In, Hin|exact Ek].
    - rewrite assignP_other; [apply nth_error_nth', Hk|].
      intros H. apply upd_keys in H as [c' [Hc' Hk']].
      apply fidx_some in Ek, Hk'. rewrite uniq_In in Hc'. congruence.
  Qed.

  Lemma add_spec (s : st) a cs vs :
    Inv s -> length cs = length vs ->
    Inv (fst (add vzero vadd s a cs vs)) /\
    forall c, abs (fst (add vzero vadd s a cs vs)) c = merge a (abs s c) (sel c cs vs).
  Proof.
    intros HI Hl. pose proof HI as [Hnd Hlen]. unfold add. destruct cs as [|c0 cs0] eqn:E.
    { destruct vs; [|discriminate]. split; [exact HI|reflexivity]. }
    rewrite <- E in *. clear E c0 cs0. cbn [fst].
    (* the new storage: stored coordinates updated in place, the others appended *)
    rewrite (uvals_spec a cs vs Hl), (map_map _ negb), (map_map _ (fun l => negb (nonempty l))).
    rewrite mask_map_filter, mask_map_map.
    set (F := fun c => Fl a (sel c cs vs)).
    set (newc := filter _ (uniq cs)).
    set (P := upd a (coords s) (values s) F (uniq cs)).
    replace (if a then assign _ _ _ else assign _ _ _) with (assignP (values s) P)
      by (symmetry; pose proof (pairs_upd a (coords s) (values s) F (uniq cs)) as H;
          destruct a; exact (f_equal (assignP (values s)) H)).
    assert (Hnewc : forall c, In c newc <-> In c cs /\ fidx c (coords s) = None).
    { intros c. unfold newc. rewrite filter_In, uniq_In, nonempty_find_all.
      destruct (fidx c (coords s)); cbn; intuition congruence. }
    split.
    - split; cbn [coords values].
      + apply NoDup_app_iff. split; [exact Hnd|]. split; [apply NoDup_filter, uniq_NoDup|].
        intros x Hx Hx'. apply Hnewc in Hx' as [_ Hx']. apply fidx_none in Hx'. contradiction.
      + rewrite !app_length, assignP_length, map_length. lia.
    - intros c. rewrite abs_mk_app by (rewrite assignP_length; exact Hlen).
      rewrite (merge_sel _ _ c cs vs Hl). fold (F c).
      destruct (fidx c (coords s)) as [k|] eqn:Ek; [exact (assign_upd a s F cs c k HI Ek)|].
      (* c is new: it is appended iff it occurs in the batch *)
      rewrite abs_mk_map, (abs_fidx s), Ek. specialize (Hnewc c).
      destruct (coord_in_dec c newc), (coord_in_dec c cs); try tauto. destruct a; reflexivity.
  Qed.

  Definition has (o : option V) : bool := match o with Some _ => true | None => false end.
  Definition val (o : option V) : V := match o with Some v => v | None => vzero end.

  (* stated for any function that agrees with abs, so that it applies to the dictionary
     of a refinement without rewriting under binders *)
  Lemma get_spec (s : st) (f : coord -> option V) cs :
    Inv s -> (forall c, abs s c = f c) ->
    get vzero s cs = if forallb (fun c => has (f c)) cs
                     then OVals (map (fun c => val (f c)) cs)
                     else OErr ValueErr.
  Proof.
    intros [Hnd Hlen] Hf. unfold get, gather. induction cs as [|c cs IH]; [reflexivity|].
    cbn [map forallb concat]. rewrite map_app, <- Hf, abs_fidx, nonempty_find_all.
    rewrite (find_all_nodup c _ Hnd).
    destruct (fidx c (coords s)) as [k|] eqn:Ek; [|reflexivity].
    apply fidx_lt in Ek. rewrite Hlen in Ek. rewrite (nth_error_nth' _ vzero Ek).
    cbn [has val andb map app].
    destruct (forallb (fun b => b) _), (forallb (fun c => has (f c)) cs);
      try discriminate; [injection IH as ->|]; reflexivity.
  Qed.

  Definition R (s : st) (d : dict V) : Prop := forall c, abs s c = dget d c.

  Lemma step_refines (s : st) d (o : op) :
    Inv s -> R s d -> wf o ->
    Inv (fst (step vzero vadd s o)) /\
    R (fst (step vzero vadd s o)) (fst (dstep vzero vadd d o)) /\
    proj (snd (step vzero vadd s o)) = snd (dstep vzero vadd d o).
  Proof.
    intros HI HR Hwf. destruct o as [a cs vs|cs]; cbn [wf] in Hwf.
    - destruct (add_spec s a cs vs HI Hwf) as [HI' Habs].
      cbn [step dstep]. destruct (add vzero vadd s a cs vs) as [s' p]. cbn [fst snd] in *.
      split; [exact HI'|]. split; [|reflexivity].
      intros c. rewrite Habs, dadd_spec, (HR c). reflexivity.
    - cbn [step dstep fst snd]. split; [exact HI|]. split; [exact HR|].
      rewrite (get_spec s (dget d) cs HI HR). unfold dread.
      destruct (forallb _ cs); reflexivity.
  Qed.

  Theorem run_refines : forall (ops : list op) (s : st) d,
      Inv s -> R s d -> Forall wf ops ->
      Inv (fst (run vzero vadd s ops)) /\
      R (fst (run vzero vadd s ops)) (fst (drun vzero vadd d ops)) /\
      map proj (snd (run vzero vadd s ops)) = snd (drun vzero vadd d ops).
  Proof.
    induction ops as [|o ops IH]; intros s d HI HR Hwf; [now split|].
    apply Forall_cons_iff in Hwf as [Ho Hops].
    destruct (step_refines s d o HI HR Ho) as [HI' [HR' Hout]]. cbn [run drun].
    destruct (step vzero vadd s o) as [s' x], (dstep vzero vadd d o) as [d' y].
    specialize (IH s' d' HI' HR' Hops).
    destruct (run vzero vadd s' ops) as [s'' xs], (drun vzero vadd d' ops) as [d'' ys].
    cbn [fst snd map] in *. rewrite Hout. intuition congruence.
  Qed.

  Corollary run_empty (ops : list op) :
    Forall wf ops ->
    Inv (fst (run vzero vadd empty ops)) /\
    R (fst (run vzero vadd empty ops)) (fst (drun vzero vadd [] ops)) /\
    map proj (snd (run vzero vadd empty ops)) = snd (drun vzero vadd [] ops).
  Proof. apply run_refines; [split; [constructor|reflexivity]|intros c; reflexivity]. Qed.

  Lemma dget_inserted c : forall (ops : list op) d,
      Forall wf ops ->
      (dget (fst (drun vzero vadd d ops)) c = None <-> dget d c = None /\ ~ In c (inserted ops)).
  Proof.
    induction ops as [|o ops IH]; intros d Hwf; [cbn; tauto|].
    apply Forall_cons_iff in Hwf as [Ho Hops]. cbn [drun].
    destruct (dstep vzero vadd d o) as [d' y] eqn:Ed. specialize (IH d' Hops).
    destruct (drun vzero vadd d' ops) as [d'' ys]. cbn [fst] in *. rewrite IH.
    destruct o as [a cs vs|cs]; injection Ed as <- _; cbn [inserted wf] in *; [|tauto].
    rewrite dadd_spec, merge_none, (sel_nil_iff c cs vs Ho), in_app_iff. tauto.
  Qed.
End Proofs.
