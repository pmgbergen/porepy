(* C28 — the squared forms of the tolerance tests used in Model/C28.v are equivalent to
   the sqrt forms of the code (over R, for tol >= 0 and squared lengths n >= 0). *)
From Coq Require Import Reals Lra.
Open Scope R_scope.

Lemma abs_lt_sq : forall x y, 0 <= y -> (Rabs x < y <-> x * x < y * y).
Proof.
  intros x y Hy. rewrite <- (Rabs_pos_eq y Hy) at 1.
  split; [apply Rsqr_lt_abs_1|apply Rsqr_lt_abs_0].
Qed.

Lemma abs_gt_sq : forall x y, 0 <= y -> (Rabs x > y <-> x * x > y * y).
Proof.
  intros x y Hy. rewrite <- (Rabs_pos_eq y Hy) at 1.
  split; [apply Rsqr_lt_abs_1|apply Rsqr_lt_abs_0].
Qed.

(* tol * sqrt n is non-negative with square tol^2 n, so both one-length tests square *)
Lemma sqrt_test_lt : forall tol x n,
  0 <= tol -> 0 <= n -> (Rabs x < tol * sqrt n <-> x * x < tol * tol * n).
Proof.
  intros tol x n Ht Hn.
  rewrite (abs_lt_sq x _ (Rmult_le_pos _ _ Ht (sqrt_pos n))).
  replace (tol * sqrt n * (tol * sqrt n)) with (tol * tol * (sqrt n * sqrt n)) by ring.
  rewrite (sqrt_sqrt _ Hn). tauto.
Qed.

(* |d| > tol * length *)
Lemma axis_test_squared : forall tol x n,
  0 <= tol -> 0 <= n -> (Rabs x > tol * sqrt n <-> x * x > tol * tol * n).
Proof.
  intros tol x n Ht Hn.
  rewrite (abs_gt_sq x _ (Rmult_le_pos _ _ Ht (sqrt_pos n))).
  replace (tol * sqrt n * (tol * sqrt n)) with (tol * tol * (sqrt n * sqrt n)) by ring.
  rewrite (sqrt_sqrt _ Hn). tauto.
Qed.

(* |discr| < tol * length_1 * length_2 *)
Lemma parallel_test_squared : forall tol discr n1 n2,
  0 <= tol -> 0 <= n1 -> 0 <= n2 ->
  (Rabs discr < tol * sqrt n1 * sqrt n2 <-> discr * discr < tol * tol * (n1 * n2)).
Proof.
  intros tol x n1 n2 Ht H1 H2. rewrite Rmult_assoc, <- sqrt_mult by assumption.
  apply sqrt_test_lt; [exact Ht|apply Rmult_le_pos; assumption].
Qed.

(* |start_cross_line| < tol * max(length_1, length_2) *)
Lemma colinear_test_squared : forall tol x n1 n2,
  0 <= tol -> 0 <= n1 -> 0 <= n2 ->
  (Rabs x < tol * Rmax (sqrt n1) (sqrt n2) <-> x * x < tol * tol * Rmax n1 n2).
Proof.
  intros tol x n1 n2 Ht H1 H2.
  assert (E : Rmax (sqrt n1) (sqrt n2) = sqrt (Rmax n1 n2)).
  { unfold Rmax. destruct (Rle_dec n1 n2) as [L | L];
      destruct (Rle_dec (sqrt n1) (sqrt n2)) as [L' | L']; try reflexivity.
    - exfalso. apply L'. apply sqrt_le_1; lra.
    - assert (n2 <= n1) by lra. apply Rle_antisym; [apply sqrt_le_1; lra|assumption]. }
  rewrite E. apply sqrt_test_lt; [exact Ht|].
  unfold Rmax; destruct (Rle_dec n1 n2); lra.
Qed.
