(* C29 — proofs, part 3: the theorems about [split] under the guard.  Every input
   segment gets a chain (Proofs/C29.v): the uniquified points recorded for it, in the
   order the code sorts them; its children are the consecutive pairs. *)
From Coq Require Import List QArith Qabs Bool Arith ZArith Lia Lqa Permutation Sorted.
Import ListNotations.
From PP Require Import Lib.ListFacts Model.C28 Proofs.C28 Model.C29 Proofs.C29 Proofs.C29_nc.
Open Scope Q_scope.

Definition same_geom (e1 e2 : edge) : Prop :=
  (peq (eA e1) (eA e2) /\ peq (eB e1) (eB e2)) \/ (peq (eA e1) (eB e2) /\ peq (eB e1) (eA e2)).

Lemma minmax_cases : forall a b : nat,
  (Nat.min a b = a /\ Nat.max a b = b) \/ (Nat.min a b = b /\ Nat.max a b = a).
Proof. intros a b. lia. Qed.

Lemma res_pts_common : forall a b c d r q,
  correct2 a b c d r -> In q (res_pts r) -> common q a b c d.
Proof.
  intros a b c d r q C H. destruct r as [|q0|q1 q2|er]; cbn in *; try contradiction.
  - destruct H as [<-|[]]. apply C. apply peq_refl.
  - destruct C as [_ C]. destruct H as [<-|[<-|[]]]; apply C; [apply on_seg_start|apply on_seg_end].
Qed.

Lemma first_err_none : forall l, (forall e, ~ In (R2Err e) l) -> first_err l = None.
Proof.
  induction l as [|r l IH]; intro H; [reflexivity|].
  destruct r as [|q|q1 q2|e]; cbn [first_err];
    try (apply IH; intros e' He; apply (H e'); right; exact He).
  destruct (H e). left. reflexivity.
Qed.

Definition seg_same_geom (g1 g2 : seg) : Prop :=
  (peq (sS g1) (sS g2) /\ peq (sE g1) (sE g2)) \/ (peq (sS g1) (sE g2) /\ peq (sE g1) (sS g2)).

Section Main.
  Variables (tol : Q) (segs : list seg).
  Hypothesis G : guard tol segs = true.

  Lemma g_all : 0 < tol /\
    (forall g, In g segs -> ~ peq (sS g) (sE g)) /\
    (forall pr, In pr (cand_pairs tol segs) ->
       separated tol (sS (snd (fst pr))) (sE (snd (fst pr)))
                 (sS (snd (snd pr))) (sE (snd (snd pr))) = true) /\
    sep_pts tol (all_pt tol segs) = true.
  Proof.
    unfold guard in G. rewrite !andb_true_iff, !forallb_forall, qltb_true in G.
    destruct G as [[[G1 G2] G3] G4]. repeat split; trivial.
    intros g Hg P. apply peqb_iff in P. specialize (G2 g Hg). rewrite P in G2. discriminate.
  Qed.

  Lemma g_tol : 0 < tol. Proof. apply g_all. Qed.
  Lemma g_sep : sep_pts tol (all_pt tol segs) = true. Proof. apply g_all. Qed.

  Lemma indexed_in_segs : forall k g, In (k, g) (indexed segs) -> In g segs.
  Proof. intros k g H. apply in_indexed in H. eapply nth_error_In. exact H. Qed.

  Lemma g_proper : forall k g, In (k, g) (indexed segs) -> ~ peq (sS g) (sE g).
  Proof. intros k g H. apply g_all. eapply indexed_in_segs. exact H. Qed.

  Lemma cand_sep : forall i gi j gj, In ((i, gi), (j, gj)) (cand_pairs tol segs) ->
    separated tol (sS gi) (sE gi) (sS gj) (sE gj) = true.
  Proof. intros i gi j gj H. apply (proj1 (proj2 (proj2 g_all)) _ H). Qed.

  Lemma cand_correct : forall i gi j gj, In ((i, gi), (j, gj)) (cand_pairs tol segs) ->
    correct2 (sS gi) (sE gi) (sS gj) (sE gj) (isect_of tol ((i, gi), (j, gj))).
  Proof.
    intros i gi j gj H. destruct (cand_indexed _ _ _ _ _ _ H) as [Hi Hj].
    apply seg2d_correct_separated.
    - pose proof g_tol. lra.
    - eapply g_proper. exact Hi.
    - eapply g_proper. exact Hj.
    - apply (cand_sep _ _ _ _ H).
  Qed.

  Let hs := hits tol segs.
  Let U := uniqU tol (all_pt tol segs).

  (* the points recorded for segment k before uniquification *)
  Definition LP (k : nat) (g : seg) (q : pt2) : Prop := In q (sS g :: sE g :: isect_for k hs).

  Lemma hit_points : forall i gi j gj q, In ((i, gi), (j, gj)) (cand_pairs tol segs) ->
    In q (res_pts (isect_of tol ((i, gi), (j, gj)))) ->
    In q (isect_for i hs) /\ In q (isect_for j hs).
  Proof.
    intros i gi j gj q Hpr Hq.
    assert (Hh : In (i, j, res_pts (isect_of tol ((i, gi), (j, gj)))) hs).
    { unfold hs, hits. apply in_map_iff. exists ((i, gi), (j, gj)). cbn [fst snd]. tauto. }
    split; unfold isect_for; apply in_flat_map; eexists; (split; [exact Hh|]); cbn [fst snd].
    - rewrite Nat.eqb_refl. exact Hq.
    - rewrite Nat.eqb_refl, orb_true_r. exact Hq.
  Qed.

  Lemma isect_for_inv : forall k q, In q (isect_for k hs) ->
    exists i gi j gj, In ((i, gi), (j, gj)) (cand_pairs tol segs) /\ (k = i \/ k = j) /\
                      In q (res_pts (isect_of tol ((i, gi), (j, gj)))).
  Proof.
    intros k q H. unfold isect_for, hs, hits in H. apply in_flat_map in H.
    destruct H as [h [Hh Hq]]. apply in_map_iff in Hh. destruct Hh as [[[i gi] [j gj]] [<- Hpr]].
    cbn [fst snd] in Hq. exists i, gi, j, gj. split; [exact Hpr|].
    destruct (k =? i)%nat eqn:E1; [apply Nat.eqb_eq in E1; tauto|].
    destruct (k =? j)%nat eqn:E2; [apply Nat.eqb_eq in E2; tauto|destruct Hq].
  Qed.

  Lemma isect_in_new : forall k q, In q (isect_for k hs) -> In q (new_pts hs).
  Proof.
    intros k q H. unfold isect_for in H. apply in_flat_map in H. destruct H as [h [Hh Hq]].
    unfold new_pts. apply in_flat_map. exists h. split; [exact Hh|].
    destruct ((k =? fst (fst h))%nat || (k =? snd (fst h))%nat); [exact Hq|destruct Hq].
  Qed.

  Lemma answer_new : forall i gi j gj q, In ((i, gi), (j, gj)) (cand_pairs tol segs) ->
    In q (res_pts (isect_of tol ((i, gi), (j, gj)))) -> new_pts hs <> [].
  Proof.
    intros i gi j gj q Hpr Hq E. destruct (hit_points i gi j gj q Hpr Hq) as [A _].
    apply isect_in_new in A. rewrite E in A. destruct A.
  Qed.

  Lemma local_src : forall k g q, In (k, g) (indexed segs) -> LP k g q ->
    In q (all_pt tol segs) /\ on_seg q (sS g) (sE g).
  Proof.
    intros k g q Hk H. pose proof (indexed_in_segs _ _ Hk) as Hg.
    unfold all_pt, end_pts. rewrite in_app_iff, in_flat_map. destruct H as [<-|[<-|H]].
    - split; [left; exists g; cbn; tauto|apply on_seg_start].
    - split; [left; exists g; cbn; tauto|apply on_seg_end].
    - split; [right; eapply isect_in_new; exact H|].
      destruct (isect_for_inv k q H) as (i & gi & j & gj & Hpr & Hkij & Hq).
      destruct (cand_indexed _ _ _ _ _ _ Hpr) as [Hi Hj].
      destruct (res_pts_common _ _ _ _ _ _ (cand_correct _ _ _ _ Hpr) Hq) as [O1 O2].
      destruct Hkij as [-> | ->];
        [rewrite (indexed_fun _ _ _ _ Hk Hi)|rewrite (indexed_fun _ _ _ _ Hk Hj)]; assumption.
  Qed.

  Lemma local_in : forall k g i, In i (local_inds tol U hs (k, g)) <->
    exists q, LP k g q /\ i = idx tol U q.
  Proof.
    intros k g i. unfold local_inds, LP. cbn [fst snd]. rewrite qsort_in, usort_in, in_map_iff.
    split; intros [q [H1 H2]]; exists q; split; auto.
  Qed.

  Lemma LP_index : forall k g q, In (k, g) (indexed segs) -> LP k g q ->
    In (idx tol U q) (local_inds tol U hs (k, g)) /\
    (idx tol U q < length U)%nat /\ peq (upt U (idx tol U q)) q.
  Proof.
    intros k g q Hk Hq. split; [apply local_in; exists q; tauto|].
    apply (rep_peq tol g_tol (all_pt tol segs) g_sep q), (local_src k g q Hk Hq).
  Qed.

  Lemma local_on : forall k g i, In (k, g) (indexed segs) ->
    In i (local_inds tol U hs (k, g)) ->
    (i < length U)%nat /\ on_seg (upt U i) (sS g) (sE g).
  Proof.
    intros k g i Hk H. apply local_in in H. destruct H as [q [Hq ->]].
    destruct (LP_index k g q Hk Hq) as (_ & L & P). split; [exact L|].
    apply (on_seg_peq q _ _ _ _ _ (peq_sym _ _ P) (peq_refl _) (peq_refl _)), (local_src k g q Hk Hq).
  Qed.

  Lemma local_chain : forall k g, In (k, g) (indexed segs) ->
    chain (sS g) (sE g) (upt U) (local_inds tol U hs (k, g)).
  Proof.
    intros k g Hk. unfold local_inds. cbn [fst snd].
    set (l := usort _).
    assert (Hl : forall i, In i l -> In i (local_inds tol U hs (k, g)))
      by (intros i Hi; unfold local_inds; apply qsort_in; exact Hi).
    apply qsort_chain.
    - eapply g_proper. exact Hk.
    - apply (LP_index k g (sS g) Hk). left. reflexivity.
    - intros i Hi. apply (local_on k g i Hk (Hl i Hi)).
    - apply SS_lt_NoDup, usort_sorted.
    - intros i j Hi Hj. apply (U_inj tol g_tol (all_pt tol segs));
        [apply (local_on k g i Hk (Hl i Hi))|apply (local_on k g j Hk (Hl j Hj))].
  Qed.

  Lemma split_point_end : forall k g a b q p, In (k, g) (indexed segs) ->
    In (a, b) (cpairs (local_inds tol U hs (k, g))) -> LP k g q -> peq p q ->
    on_seg p (upt U a) (upt U b) -> peq p (upt U a) \/ peq p (upt U b).
  Proof.
    intros k g a b q p Hk Hab Hq Pq On. destruct (LP_index k g q Hk Hq) as (Hz & _ & Pz).
    apply (member_end _ _ _ _ (local_chain k g Hk) a b _ p Hab Hz); [|exact On].
    apply (peq_trans _ _ _ Pq), peq_sym, Pz.
  Qed.

  Let ch := all_children tol U hs segs.

  Lemma child_in : forall c, In c ch <->
    exists k g a b, In (k, g) (indexed segs) /\ In (a, b) (cpairs (local_inds tol U hs (k, g))) /\
                    c = (Nat.min a b, Nat.max a b, sT g, k).
  Proof.
    intros c. unfold ch, all_children. rewrite in_flat_map. split.
    - intros [[k g] [Hk H]]. unfold children_of in H. apply in_map_iff in H.
      destruct H as [[a b] [<- Hab]]. exists k, g, a, b. cbn [fst snd]. tauto.
    - intros [k [g [a [b [Hk [Hab ->]]]]]]. exists (k, g). split; [exact Hk|].
      unfold children_of. apply in_map_iff. exists (a, b). cbn [fst snd]. tauto.
  Qed.

  Lemma child_facts : forall c, In c ch -> (cA c < cB c)%nat /\ (cB c < length U)%nat.
  Proof.
    intros c H. apply child_in in H. destruct H as [k [g [a [b [Hk [Hab ->]]]]]].
    destruct (cpairs_in _ _ _ Hab) as [Ha Hb].
    destruct (local_on _ _ _ Hk Ha) as [La _]. destruct (local_on _ _ _ Hk Hb) as [Lb _].
    assert (N : a <> b).
    { intros <-. apply (child_proper _ _ _ _ (local_chain k g Hk) a a Hab), peq_refl. }
    unfold cA, cB. cbn [fst snd]. lia.
  Qed.

  Lemma split_cases : forall pre out, split tol segs = Edges pre out ->
    (new_pts hs = [] /\ pre = out /\
     out = map (fun kg => (sS (snd kg), sE (snd kg), sT (snd kg), fst kg)) (indexed segs)) \/
    (new_pts hs <> [] /\ pre = map (to_edge U) ch /\ out = map (to_edge U) (dedup ch)).
  Proof.
    intros pre out H. unfold split in H.
    destruct (first_err (map (isect_of tol) (cand_pairs tol segs))); [discriminate|].
    fold hs in H. destruct (new_pts hs) eqn:E.
    - left. inversion H; subst. auto.
    - right. inversion H; subst. split; [discriminate|]. split; reflexivity.
  Qed.

  Lemma no_raise : exists pre out, split tol segs = Edges pre out.
  Proof.
    unfold split. rewrite first_err_none.
    - destruct (new_pts (hits tol segs)); eexists; eexists; reflexivity.
    - intros e He. apply in_map_iff in He. destruct He as [[[i gi] [j gj]] [E Hpr]].
      pose proof (cand_correct _ _ _ _ Hpr) as C. rewrite E in C. exact C.
  Qed.

  Section Out.
    Variables pre out : list edge.
    Hypothesis S : split tol segs = Edges pre out.

    Lemma out_child : new_pts hs <> [] -> forall e, In e out ->
      exists k g a b, In (k, g) (indexed segs) /\
        In (a, b) (cpairs (local_inds tol U hs (k, g))) /\
        In (Nat.min a b, Nat.max a b, sT g, k) (dedup ch) /\
        e = (upt U (Nat.min a b), upt U (Nat.max a b), sT g, k).
    Proof.
      intros NE e He. destruct (split_cases _ _ S) as [[E _]|[_ [_ O]]]; [contradiction|].
      subst out. apply in_map_iff in He. destruct He as [c [<- Hc]].
      destruct (proj1 (child_in c) (dedup_in _ _ Hc)) as [k [g [a [b [Hk [Hab ->]]]]]].
      exists k, g, a, b. tauto.
    Qed.

    Lemma inside : forall e, In e out ->
      exists g, nth_error segs (eP e) = Some g /\
                on_seg (eA e) (sS g) (sE g) /\ on_seg (eB e) (sS g) (sE g) /\ eT e = sT g.
    Proof.
      intros e He. destruct (split_cases _ _ S) as [[_ [_ O]]|[NE _]].
      - subst out. apply in_map_iff in He. destruct He as [[k g] [<- Hk]]. cbn [fst snd].
        exists g. unfold eP, eA, eB, eT. cbn [fst snd].
        split; [apply in_indexed; exact Hk|]. split; [apply on_seg_start|]. split; [apply on_seg_end|reflexivity].
      - destruct (out_child NE e He) as (k & g & a & b & Hk & Hab & _ & ->).
        destruct (cpairs_in _ _ _ Hab) as [Ha Hb].
        destruct (local_on _ _ _ Hk Ha) as [_ Oa]. destruct (local_on _ _ _ Hk Hb) as [_ Ob].
        exists g. unfold eP, eA, eB, eT. cbn [fst snd].
        split; [apply in_indexed; exact Hk|].
        destruct (minmax_cases a b) as [[-> ->]|[-> ->]]; tauto.
    Qed.

    Lemma cover_sup : forall k g p, nth_error segs k = Some g -> on_seg p (sS g) (sE g) ->
      exists e, In e out /\ on_seg p (eA e) (eB e).
    Proof.
      intros k g p Hk Hp. apply in_indexed in Hk.
      destruct (split_cases _ _ S) as [[_ [_ O]]|[_ [_ O]]]; subst out.
      - exists (sS g, sE g, sT g, k). split; [|exact Hp].
        apply in_map_iff. exists (k, g). split; [reflexivity|exact Hk].
      - destruct (LP_index k g (sS g) Hk) as (His & _ & Ps); [left; reflexivity|].
        destruct (LP_index k g (sE g) Hk) as (Hie & _ & Pe); [right; left; reflexivity|].
        destruct (chain_covers _ _ _ _ (local_chain k g Hk) _ _ p His Hie Ps Pe Hp) as [a [b [Hab On]]].
        assert (Hc : In (Nat.min a b, Nat.max a b, sT g, k) ch).
        { apply child_in. exists k, g, a, b. tauto. }
        destruct (dedup_cover _ _ Hc) as [d [Hd K]]. apply same_key_iff in K.
        unfold cA, cB in K. cbn [fst snd] in K. destruct K as [KA KB].
        exists (to_edge U d). split; [apply in_map; exact Hd|].
        unfold to_edge, eA, eB. cbn [fst snd]. unfold cA, cB. rewrite KA, KB.
        destruct (minmax_cases a b) as [[-> ->]|[-> ->]]; [exact On|apply on_seg_rev; exact On].
    Qed.

    Lemma cover_sub : forall e p, In e out -> on_seg p (eA e) (eB e) ->
      exists g, nth_error segs (eP e) = Some g /\ on_seg p (sS g) (sE g).
    Proof.
      intros e p He Hp. destruct (inside e He) as [g [Hk [Oa [Ob _]]]].
      exists g. split; [exact Hk|]. apply (on_seg_convex p (eA e) (eB e)); assumption.
    Qed.

    Lemma no_dups : new_pts hs <> [] -> ForallOrdPairs (fun e1 e2 => ~ same_geom e1 e2) out.
    Proof.
      intros NE. destruct (split_cases _ _ S) as [[E _]|[_ [_ O]]]; [contradiction|].
      subst out. apply fop_map. eapply fop_impl_in; [apply dedup_distinct|].
      intros c d Hc Hd K SG. cbv beta in K. apply dedup_in in Hc, Hd.
      destruct (child_facts c Hc) as [C1 C2]. destruct (child_facts d Hd) as [D1 D2].
      pose proof (U_inj tol g_tol (all_pt tol segs)) as INJ. fold U in INJ.
      unfold same_geom, to_edge, eA, eB in SG. cbn [fst snd] in SG.
      destruct SG as [[P1 P2]|[P1 P2]]; apply INJ in P1; apply INJ in P2; try lia.
      assert (same_key c d = true) by (apply same_key_iff; split; assumption). congruence.
    Qed.

    Definition touch_ends (p : pt2) (e : edge) : Prop := peq p (eA e) \/ peq p (eB e).

    Lemma seg_minmax : forall p a b,
      on_seg p (upt U (Nat.min a b)) (upt U (Nat.max a b)) -> on_seg p (upt U a) (upt U b).
    Proof.
      intros p a b H. destruct (minmax_cases a b) as [[E1 E2]|[E1 E2]]; rewrite E1, E2 in H;
        [exact H|apply on_seg_rev; exact H].
    Qed.

    Lemma ends_minmax : forall p a b, peq p (upt U a) \/ peq p (upt U b) ->
      peq p (upt U (Nat.min a b)) \/ peq p (upt U (Nat.max a b)).
    Proof.
      intros p a b H. destruct (minmax_cases a b) as [[-> ->]|[-> ->]]; tauto.
    Qed.

    Lemma geom_minmax : forall a1 b1 a2 b2 t1 k1 t2 k2,
      (peq (upt U a1) (upt U a2) /\ peq (upt U b1) (upt U b2)) \/
      (peq (upt U a1) (upt U b2) /\ peq (upt U b1) (upt U a2)) ->
      same_geom (upt U (Nat.min a1 b1), upt U (Nat.max a1 b1), t1, k1)
                (upt U (Nat.min a2 b2), upt U (Nat.max a2 b2), t2, k2).
    Proof.
      intros a1 b1 a2 b2 t1 k1 t2 k2 X. unfold same_geom, eA, eB. cbn [fst snd].
      destruct (minmax_cases a1 b1) as [[-> ->]|[-> ->]];
        destruct (minmax_cases a2 b2) as [[-> ->]|[-> ->]]; tauto.
    Qed.

    Lemma nc_same_parent : new_pts hs <> [] ->
      ForallOrdPairs (fun e1 e2 => eP e1 = eP e2 -> forall p,
        on_seg p (eA e1) (eB e1) -> on_seg p (eA e2) (eB e2) ->
        touch_ends p e1 /\ touch_ends p e2) out.
    Proof.
      intros NE. eapply fop_impl_in; [apply (no_dups NE)|].
      intros e1 e2 H1 H2 ND EP p O1 O2.
      destruct (out_child NE e1 H1) as (k & g & a1 & b1 & Hk & Hab1 & _ & ->).
      destruct (out_child NE e2 H2) as (k' & g' & a2 & b2 & Hk' & Hab2 & _ & ->).
      unfold eP, eA, eB, touch_ends in *. cbn [fst snd] in *. subst k'.
      rewrite (indexed_fun _ _ _ _ Hk' Hk) in *.
      apply seg_minmax in O1. apply seg_minmax in O2.
      destruct (same_chain_nc _ _ _ _ (local_chain k g Hk) a1 b1 a2 b2 p Hab1 Hab2) as [E1 E2];
        try assumption.
      - intro X. apply ND, geom_minmax. left. exact X.
      - split; apply ends_minmax; assumption.
    Qed.

    (* edges of two parents that segments_2d examined and found to meet in one point *)
    Lemma nc_point_pair : forall i gi j gj q e1 e2 p,
      In ((i, gi), (j, gj)) (cand_pairs tol segs) ->
      isect_of tol ((i, gi), (j, gj)) = R2Pt q ->
      In e1 out -> In e2 out -> eP e1 = i -> eP e2 = j ->
      on_seg p (eA e1) (eB e1) -> on_seg p (eA e2) (eB e2) ->
      touch_ends p e1 /\ touch_ends p e2.
    Proof.
      intros i gi j gj q e1 e2 p Hpr Hq H1 H2 P1 P2 O1 O2.
      destruct (cand_indexed _ _ _ _ _ _ Hpr) as [Hi Hj].
      pose proof (cand_correct _ _ _ _ Hpr) as C. rewrite Hq in C. cbn in C.
      assert (Hq' : In q (res_pts (isect_of tol ((i, gi), (j, gj)))))
        by (rewrite Hq; left; reflexivity).
      destruct (hit_points _ _ _ _ q Hpr Hq') as [Qi Qj].
      pose proof (answer_new _ _ _ _ q Hpr Hq') as NE.
      destruct (cover_sub e1 p H1 O1) as [g1 [K1 On1]]. rewrite P1 in K1.
      destruct (cover_sub e2 p H2 O2) as [g2 [K2 On2]]. rewrite P2 in K2.
      apply in_indexed in K1, K2.
      rewrite (indexed_fun _ _ _ _ K1 Hi) in On1. rewrite (indexed_fun _ _ _ _ K2 Hj) in On2.
      assert (Pq : peq p q) by (apply C; split; assumption).
      destruct (out_child NE e1 H1) as (k & g & a1 & b1 & Hk & Hab1 & _ & ->).
      destruct (out_child NE e2 H2) as (k' & g' & a2 & b2 & Hk' & Hab2 & _ & ->).
      unfold eP, eA, eB, touch_ends in *. cbn [fst snd] in *. subst k k'.
      apply seg_minmax in O1. apply seg_minmax in O2.
      split; apply ends_minmax.
      - apply (split_point_end i g a1 b1 q p Hk Hab1); [right; right; exact Qi|exact Pq|exact O1].
      - apply (split_point_end j g' a2 b2 q p Hk' Hab2); [right; right; exact Qj|exact Pq|exact O2].
    Qed.

    Lemma proper_out : forall e, In e out -> ~ peq (eA e) (eB e).
    Proof.
      intros e He. destruct (split_cases _ _ S) as [[_ [_ O]]|[NE _]].
      - subst out. apply in_map_iff in He. destruct He as [[k g] [<- Hk]].
        unfold eA, eB. cbn [fst snd]. eapply g_proper. exact Hk.
      - destruct (out_child NE e He) as (k & g & a & b & Hk & Hab & _ & ->).
        unfold eA, eB. cbn [fst snd]. intro P.
        apply (child_proper _ _ _ _ (local_chain k g Hk) a b Hab).
        destruct (minmax_cases a b) as [[E1 E2]|[E1 E2]]; rewrite E1, E2 in P;
          [exact P|apply peq_sym; exact P].
    Qed.

    (* two geometrically equal segments are collinear, so the side filter keeps the pair,
       their boxes overlap, and segments_2d answers with at least one point *)
    Lemma equal_segments_found : forall i gi j gj,
      In (i, gi) (indexed segs) -> In (j, gj) (indexed segs) -> (i < j)%nat ->
      seg_same_geom gi gj -> new_pts hs <> [].
    Proof.
      intros i gi j gj Hi Hj L SG. pose proof g_tol as T.
      assert (Z : c1_of gi gj == 0 /\ c2_of gi gj == 0).
      { (* the ends of gj are the ends of gi, which lie on gi's line *)
        destruct SG as [[A B]|[A B]]; split.
        - exact (cross_on_main gi _ 0 (at_par_point _ _ _ _ _ A (at_par_0 _ _))).
        - exact (cross_on_main gi _ 1 (at_par_point _ _ _ _ _ B (at_par_1 _ _))).
        - exact (cross_on_main gi _ 1 (at_par_point _ _ _ _ _ B (at_par_1 _ _))).
        - exact (cross_on_main gi _ 0 (at_par_point _ _ _ _ _ A (at_par_0 _ _))). }
      assert (C : common (sS gi) (sS gi) (sE gi) (sS gj) (sE gj)).
      { split; [apply on_seg_start|]. destruct SG as [[A _]|[A _]];
          (eapply on_seg_peq; [apply peq_sym; exact A|apply peq_refl|apply peq_refl|]);
          [apply on_seg_start|apply on_seg_end]. }
      assert (Hpr : In ((i, gi), (j, gj)) (cand_pairs tol segs)).
      { apply cand_iff. cbn [fst snd]. repeat split; try assumption.
        - eapply common_overlap; eassumption.
        - apply collinear_relevant; tauto. }
      pose proof (cand_correct _ _ _ _ Hpr) as K. pose proof (answer_new i gi j gj) as HN.
      destruct (isect_of tol ((i, gi), (j, gj))) as [|q|q q2|e]; cbn in K, HN.
      - destruct (K _ C).
      - apply (HN q Hpr). left. reflexivity.
      - apply (HN q Hpr). left. reflexivity.
      - destruct K.
    Qed.

    Lemma no_dups_full : ForallOrdPairs (fun e1 e2 => ~ same_geom e1 e2) out.
    Proof.
      destruct (split_cases _ _ S) as [[E [_ O]]|[NE _]]; [|apply (no_dups NE)].
      subst out. apply fop_map. apply fop_indexed.
      intros i gi j gj Hi Hj L SG. unfold same_geom, eA, eB in SG. cbn [fst snd] in SG.
      apply (equal_segments_found i gi j gj Hi Hj L SG E).
    Qed.
  End Out.
End Main.
