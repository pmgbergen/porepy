(* C17 — the explicit transport step for k interleaved components (value of component j in
   cell i at index i*k+j, as the Kronecker-expanded matrices expect): every component is
   transported by the one-component step, hence conserved and bounded. *)
From Coq Require Import List ZArith Bool Arith Lia Reals Lra.
Import ListNotations.
From PP Require Import Model.C17 Proofs.C17.

Local Open Scope R_scope.

Section StepK.
  Variable I : input R.
  Variable o : output.
  Variable b : nat -> R.        (* boundary values, interleaved: face f, component j at f*k+j *)
  Variable vol : nat -> R.
  Variable dt : R.

  Notation k := (ncomp I).

  Definition comp (j : nat) (x : nat -> R) : nat -> R := fun i => x (i * k + j)%nat.

  (* advective flux of component j through face f: the flux array is expanded per component
     (index / k is the face) *)
  Definition face_flux_k (c : nat -> R) (j f : nat) : R :=
    q I f * row_apply (upwind o) c (f * k + j)
    + row_apply (bound_dir o) (fun i => q I (i / k) * b i) (f * k + j)
    + row_apply (bound_neu o) b (f * k + j).

  Definition step_k (c : nat -> R) : nat -> R :=
    fun idx => c idx - dt / vol (idx / k) * div_cell I (face_flux_k c (idx mod k)) (idx / k).

  Fixpoint steps_k (n : nat) (c : nat -> R) : nat -> R :=
    match n with O => c | S n' => step_k (steps_k n' c) end.

  Definition total_k (j : nat) (c : nat -> R) : R := rsum (fun i => vol i * c (i * k + j)%nat) (nc I).

  Definition noflow_k (f : nat) : Prop :=
    (q I f = 0 /\ forall j, (j < k)%nat -> b (f * k + j)%nat = 0) \/
    (is_neu I f = false /\ is_dir I f = false /\ sgn_div (cf I) f = 0%Z).

  Hypothesis Hok : discretize R nonnegR I = Ok o.
  Hypothesis Hdim : dim I <> 0%nat.

  Notation I1 := (set_ncomp R I 1).

  Lemma idx_div i j : (j < k)%nat -> ((i * k + j) / k = i)%nat.
  Proof. intros Hj. symmetry. apply (Nat.div_unique _ _ _ j); lia. Qed.

  Lemma idx_mod i j : (j < k)%nat -> ((i * k + j) mod k = j)%nat.
  Proof. intros Hj. symmetry. apply (Nat.mod_unique _ _ i); lia. Qed.

  (* the one-component run whose matrices the k-component matrices expand *)
  Notation o1 := (run_output R nonnegR I1).

  Lemma run_1 : o = run_output R nonnegR I /\ discretize R nonnegR I1 = Ok o1.
  Proof. exact (run_ncomp R nonnegR I o 1 Hok Hdim). Qed.

  Lemma face_flux_k_comp c j f : (j < k)%nat ->
    face_flux_k c j f = face_flux I1 o1 (comp j b) (comp j c) f.
  Proof.
    intros Hj. unfold face_flux_k, face_flux.
    destruct (run_output_kron R nonnegR I) as [EU [ED EN]].
    rewrite (proj1 run_1), EU, ED, EN, !row_apply_kron by exact Hj.
    f_equal. f_equal. apply row_apply_ext. intros g. unfold comp. rewrite idx_div by exact Hj.
    reflexivity.
  Qed.

  Lemma step_k_comp c j i : (j < k)%nat ->
    step_k c (i * k + j) = step I1 o1 (comp j b) vol dt (comp j c) i.
  Proof.
    intros Hj. unfold step_k, step. rewrite idx_div, idx_mod by exact Hj.
    f_equal. f_equal. apply div_list_ext. intros f. apply face_flux_k_comp, Hj.
  Qed.

  Lemma noflow_comp j f : (j < k)%nat -> noflow_k f -> noflow I1 (comp j b) f.
  Proof.
    intros Hj [[Hq Hb]|H]; [left|right; exact H].
    split; [exact Hq | unfold comp; apply Hb; exact Hj].
  Qed.

  Theorem conservative_k :
    wf_inc I -> (forall f, (f < nf I)%nat -> noflow_k f) ->
    (forall i, (i < nc I)%nat -> vol i <> 0) ->
    forall n c j, (j < k)%nat -> total_k j (steps_k n c) = total_k j c.
  Proof.
    intros Hwf Hnf Hv. induction n as [|n IH]; intros c j Hj; [reflexivity|].
    cbn [steps_k]. rewrite <- (IH c j Hj).
    transitivity (total I1 vol (step I1 o1 (comp j b) vol dt (comp j (steps_k n c)))).
    - apply rsum_ext. intros i _. rewrite step_k_comp by exact Hj. reflexivity.
    - exact (conservative_theorem I1 o1 (comp j b) vol dt (proj2 run_1) Hdim eq_refl _ Hwf
               (fun f Hf => noflow_comp j f Hj (Hnf f Hf)) Hv).
  Qed.

  Theorem max_principle_k :
    one_sided (cf I) -> wf_inc I -> (forall f, (f < nf I)%nat -> noflow_k f) ->
    0 <= dt ->
    (forall i, (i < nc I)%nat -> 0 < vol i /\ dt * outflow I i <= vol i) ->
    (forall i, (i < nc I)%nat -> div_cell I (q I) i = 0) ->
    forall j, (j < k)%nat ->
    forall c m M, (forall i, (i < nc I)%nat -> m <= c (i * k + j)%nat <= M) ->
    forall n i, (i < nc I)%nat -> m <= steps_k n c (i * k + j)%nat <= M.
  Proof.
    intros Hw Hwf Hnf Hdt Hcfl Hdiv j Hj c m M Hb.
    induction n as [|n IH]; intros i Hi; [apply Hb; exact Hi|].
    cbn [steps_k]. rewrite step_k_comp by exact Hj.
    exact (max_principle_theorem I1 o1 (comp j b) vol dt (proj2 run_1) Hdim eq_refl
             (comp j (steps_k n c)) m M
             Hw Hwf (fun f Hf => noflow_comp j f Hj (Hnf f Hf)) Hdt Hcfl Hdiv IH i Hi).
  Qed.
End StepK.
