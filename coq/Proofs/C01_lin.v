(* C01 — the derivative part of the rule table is LINEAR in the direction: the table
   defines a Jacobian matrix, (J v)_i = sum_j J_ij v_j, whose entries are the directional
   derivatives along the unit vectors. *)
From Coq Require Import Reals ZArith List Lra FunctionalExtensionality.
From Coquelicot Require Import Coquelicot.
From PP Require Import Model.C01 Model.C01R Proofs.C01 Proofs.C01_fun Proofs.C01_comp.
Import ListNotations.
Open Scope R_scope.

Definition lincomb (a b : R) (v w : env (T:=R)) : env (T:=R) :=
  fun k j => a * v k j + b * w k j.

Lemma lin_dual_snd_lin (row : list (nat * R)) (F G H : nat -> dual (T:=R)) (a b : R) :
  (forall j, snd (F j) = a * snd (G j) + b * snd (H j)) ->
  snd (lin_dual ROps row F) = a * snd (lin_dual ROps row G) + b * snd (lin_dual ROps row H).
Proof.
  intros E. unfold lin_dual. induction row as [|[j c] row IH]; cbn [fold_right fst snd].
  - unf. ring.
  - rewrite IH, E. unf. ring.
Qed.

Lemma l2_dual_snd_lin (js : list nat) (F G H : nat -> dual (T:=R)) (a b : R) :
  (forall j, fst (G j) = fst (F j)) -> (forall j, fst (H j) = fst (F j)) ->
  (forall j, snd (F j) = a * snd (G j) + b * snd (H j)) ->
  snd (l2_dual ROps (map F js))
  = a * snd (l2_dual ROps (map G js)) + b * snd (l2_dual ROps (map H js)).
Proof.
  intros EG EH E. unfold l2_dual. cbn [snd]. rewrite !map_map.
  rewrite (map_ext _ _ EG), (map_ext _ _ EH).
  generalize (l2_val ROps (map (fun j => fst (F j)) js)). intros nrm.
  destruct (oltb ROps (l2_tol ROps) nrm);
    (induction js as [|j js IH]; cbn [map fold_right];
     [|rewrite IH, E, ?EG, ?EH]; unf; unfold Rdiv; ring).
Qed.

(* The operand e along the directions a v + b w, v and w: by [value_thm] and the induction
   hypothesis IH these are dual numbers (p, a dv + b dw), (p, dv), (p, dw). *)
Ltac operand e IH x a b v w i :=
  rewrite (ad_pair e x (lincomb a b v w) i), (ad_pair e x v i), (ad_pair e x w i), IH;
  generalize (eval_plain ROps e x i), (snd (eval_ad ROps e x v i)),
    (snd (eval_ad ROps e x w i));
  intros ? ? ?.

Theorem linear_thm (e : expr R) : forall (x v w : env (T:=R)) (a b : R) (i : nat),
  snd (eval_ad ROps e x (lincomb a b v w) i)
  = a * snd (eval_ad ROps e x v i) + b * snd (eval_ad ROps e x w i).
Proof.
  induction e; intros x v w a b i; cbn [eval_ad].
  (* arithmetic constructors: every rule is linear in the operands' derivatives *)
  2-19, 22: try operand e IHe x a b v w i;
    try (operand e1 IHe1 x a b v w i; operand e2 IHe2 x a b v w i);
    try destruct c; try destruct (pget p i); unf; unfold Rdiv; ring.
  - (* Var *) reflexivity.
  - (* MatMul *) apply lin_dual_snd_lin. intros j. apply IHe.
  - (* Slice *) apply IHe.
  - (* L2 *) destruct (Nat.eqb dim 1).
    + operand e IHe x a b v w i. unf. ring.
    + unfold block. apply l2_dual_snd_lin; intros j; rewrite ?value_thm; auto.
  - (* Max *) operand e1 IHe1 x a b v w i. operand e2 IHe2 x a b v w i.
    unfold d_max. cbn [fst]. now destruct (oltb ROps _ _).
  - (* MaxKR *) operand e IHe x a b v w i. unfold d_max. cbn [fst].
    destruct (oltb ROps _ _); unf; lra.
  - (* MaxKL *) operand e IHe x a b v w i. unfold d_max. cbn [fst].
    destruct (oltb ROps _ _); unf; lra.
Qed.

Fixpoint comb (cs : list (R * env (T:=R))) : env (T:=R) :=
  match cs with
  | [] => fun _ _ => 0
  | (c, d) :: r => lincomb c 1 d (comb r)
  end.

Lemma zero_dir (e : expr R) (x : env (T:=R)) (i : nat) :
  snd (eval_ad ROps e x (fun _ _ => 0) i) = 0.
Proof.
  replace (fun _ _ : nat => 0) with (lincomb 0 0 (fun _ _ => 0) (fun _ _ => 0)).
  - rewrite linear_thm. ring.
  - extensionality k; extensionality j. unfold lincomb. ring.
Qed.

Theorem matrix_thm (e : expr R) (x : env (T:=R)) (i : nat) (cs : list (R * env (T:=R))) :
  snd (eval_ad ROps e x (comb cs) i)
  = fold_right (fun cd acc => fst cd * snd (eval_ad ROps e x (snd cd) i) + acc) 0 cs.
Proof.
  induction cs as [|[c d] r IH]; cbn [comb fold_right fst snd].
  - apply zero_dir.
  - rewrite linear_thm, IH. ring.
Qed.
