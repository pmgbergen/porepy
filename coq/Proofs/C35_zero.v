(* C35 — zero_rows / zero_columns. *)
From Coq Require Import List ZArith Bool Arith Lia.
Import ListNotations.
From PP Require Import Lib.ListFacts Lib.Csr Model.C35 Proofs.C35 Proofs.C35_rl Proofs.C35_csr.

Definition zero_entry (e : nat * Z) : nat * Z := (fst e, 0%Z).

Theorem zero_lines_rows : forall A ind, wf A = true -> Forall (fun l => l < nmaj A) ind ->
  exists Z0, zero_lines A ind = Ok Z0 /\
    nmaj Z0 = nmaj A /\ nmin Z0 = nmin A /\ indptr Z0 = indptr A /\ indices Z0 = indices A /\
    rows Z0 = map (fun i => if existsb (Nat.eqb i) ind then map zero_entry (nth i (rows A) [])
                            else nth i (rows A) []) (seq 0 (nmaj A)).
Proof.
  intros A ind Hwf Hind. pose proof (wf_wfP A Hwf) as W.
  unfold zero_lines. rewrite (proj2 (lines_ok_Forall A ind) Hind). cbn [negb].
  eexists. split; [reflexivity|]. cbn [nmaj nmin indptr indices].
  repeat (split; [reflexivity|]).
  unfold rows at 1, entries at 1. cbn [indptr indices data].
  rewrite (rows_pointwise A (entries A) _ (fun i e => if existsb (Nat.eqb i) ind then zero_entry e else e)
                          (0, 0%Z) (0, 0%Z) W).
  - apply map_ext. intros i. destruct (existsb (Nat.eqb i) ind); [reflexivity|apply map_id].
  - apply (entries_length A W).
  - rewrite combine_length, scatter_length, (wf_data A W). apply Nat.min_id.
  - intros i k Hi Hk. unfold entries.
    rewrite !combine_nth by (rewrite ?scatter_length; symmetry; apply (wf_data A W)).
    rewrite (scatter_lines_nth A ind (data A) _ _ i k W Hind (wf_data A W) Hi Hk).
    unfold zero_entry. destruct (existsb (Nat.eqb i) ind); reflexivity.
Qed.

Lemma dense_row_zeroed : forall n r, dense_row n (map zero_entry r) = repeat 0%Z n.
Proof.
  intros n r. unfold dense_row. rewrite <- (seq_length n 0) at 2. rewrite <- map_const.
  apply map_ext. intros j. induction r as [|e r IH]; [reflexivity|].
  simpl. rewrite IH. destruct (fst e =? j); reflexivity.
Qed.

(* the counts rldecode tolerates beyond the end of its operand *)
Definition nonpos (c : Z) : bool := (c <=? 0)%Z.
