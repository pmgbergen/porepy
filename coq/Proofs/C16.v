(* C16 — proofs.  Everything is over exact rationals (every binary64 value is one).
   Model.C16 declares row, vec, rdot and tsum afresh, word for word as Lib.RowLin does, and its
   near tol r x y unfolds to RowLin.near tol (rowabs r) x y: the two sets are convertible, so
   RowLin's lemmas apply to the model's functions as they stand. *)
From Coq Require Import List ZArith QArith Qabs Bool Arith Lia Lqa.
Import ListNotations.
From PP Require Lib.RowLin Lib.RowInv.
From PP Require Import Lib.ListFacts Model.C16.
Local Open Scope Q_scope.

Lemma tsum_pick : forall t m k' a,
  tsum m t (fun k => if Nat.eqb k' k then a else 0)
  == if (m <=? k')%nat then a * nth (k' - m) t 0 else 0.
Proof.
  induction t as [|x t IH]; intros m k' a; cbn [tsum].
  - destruct (k' - m)%nat; destruct (m <=? k')%nat; cbn [nth]; ring.
  - rewrite IH.
    destruct (Nat.eqb_spec k' m) as [->|Hne].
    + rewrite Nat.leb_refl, Nat.sub_diag. cbn [nth].
      destruct (Nat.leb_spec (S m) m); [lia|]. ring.
    + destruct (Nat.leb_spec m k'); destruct (Nat.leb_spec (S m) k'); try lia.
      * replace (k' - m)%nat with (S (k' - S m)) by lia. cbn [nth]. ring.
      * ring.
Qed.

Lemma tsum_pick0 : forall t k' a,
  tsum 0 t (fun k => if Nat.eqb k' k then a else 0) == a * nth k' t 0.
Proof. intros t k' a. rewrite tsum_pick. cbn [Nat.leb]. rewrite Nat.sub_0_r. reflexivity. Qed.

Lemma tsum_unit : forall t k',
  tsum 0 t (fun k => if Nat.eqb k k' then 1 else 0) == nth k' t 0.
Proof.
  intros t k'.
  rewrite (RowLin.tsum_ext t 0%nat _ (fun k => if Nat.eqb k' k then 1 else 0)).
  - rewrite tsum_pick0. ring.
  - intros k _. rewrite Nat.eqb_sym. reflexivity.
Qed.

Lemma tsum_abs_const : forall t m eps, tsum m (map Qabs t) (fun _ => eps) == eps * tabs t.
Proof. induction t as [|x t IH]; intros; cbn [tsum map tabs]; [ring|]. rewrite IH. ring. Qed.

Lemma rdot_csum : forall cls t r,
  rdot r (sv cls t) == tsum 0 t (fun k => csum cls k r).
Proof.
  intros cls t. induction r as [|[j a] r IH]; cbn [rdot csum fst snd].
  - symmetry. apply RowLin.tsum_zero.
  - rewrite (RowLin.tsum_plus t 0%nat (fun k => pick cls k j a)), <- IH.
    apply Qplus_comp; [|reflexivity].
    unfold sv, pick. destruct (cls j) as [k'|].
    + rewrite tsum_pick0. reflexivity.
    + rewrite RowLin.tsum_zero. ring.
Qed.

Lemma row_exact : forall cls t r g,
  (forall k, (k < length t)%nat -> csum cls k r == g k) ->
  rdot r (sv cls t) == tsum 0 t g.
Proof.
  intros cls t r g H. rewrite rdot_csum. apply RowLin.tsum_ext. intros k Hk. apply H. lia.
Qed.

Lemma stress_zero : forall cls t r,
  (forall k, (k < length t)%nat -> csum cls k r == 0) -> rdot r (sv cls t) == 0.
Proof. intros cls t r H. rewrite (row_exact cls t r (fun _ => 0) H). apply RowLin.tsum_zero. Qed.

Lemma row_quant : forall cls t r g eps,
  (forall k, (k < length t)%nat -> Qabs (csum cls k r - g k) <= eps) ->
  Qabs (rdot r (sv cls t) - tsum 0 t g) <= eps * tabs t.
Proof.
  intros cls t r g eps H.
  rewrite rdot_csum, <- RowLin.tsum_minus, <- (tsum_abs_const t 0).
  apply RowLin.tsum_abs_bound. intros k Hk. apply H. lia.
Qed.

Lemma pick_scale : forall cls k j s a, pick cls k j (s * a) == s * pick cls k j a.
Proof. intros. unfold pick. destruct (cls j) as [k'|]; [destruct (Nat.eqb k' k)|]; ring. Qed.

Lemma csum_app : forall cls k r1 r2, csum cls k (r1 ++ r2) == csum cls k r1 + csum cls k r2.
Proof.
  intros cls k r1 r2. induction r1 as [|ja r1 IH]; cbn [app csum]; [ring|]. rewrite IH. ring.
Qed.

Lemma csum_scale : forall cls k s r, csum cls k (scale s r) == s * csum cls k r.
Proof.
  intros cls k s r. induction r as [|ja r IH]; cbn [scale map csum fst snd]; [ring|].
  fold (scale s r). rewrite IH, pick_scale. ring.
Qed.

Lemma csum_gather : forall cls k rows stride off ic,
  csum cls k (gather rows stride off ic)
  == isum ic (fun f => csum cls k (nth (f * stride + off) rows [])).
Proof.
  intros cls k rows stride off ic. unfold gather.
  induction ic as [|fs ic IH]; cbn [flat_map isum csum]; [reflexivity|].
  rewrite csum_app, csum_scale, IH. reflexivity.
Qed.

Lemma csum_single_none : forall cls k j a, cls j = None -> csum cls k [(j, a)] == 0.
Proof. intros cls k j a H. cbn [csum fst snd]. unfold pick. rewrite H. ring. Qed.

Lemma isum_ext : forall ic g h,
  (forall fs, In fs ic -> g (fst fs) == h (fst fs)) -> isum ic g == isum ic h.
Proof.
  induction ic as [|fs ic IH]; intros g h H; cbn [isum]; [reflexivity|].
  rewrite (H fs), (IH g h) by auto with datatypes. reflexivity.
Qed.

Lemma isum_zero : forall ic, isum ic (fun _ => 0) == 0.
Proof. induction ic as [|fs ic IH]; cbn [isum]; [reflexivity|]. rewrite IH. ring. Qed.

Lemma isum_scal : forall ic s g, isum ic (fun f => s * g f) == s * isum ic g.
Proof. induction ic as [|fs ic IH]; intros; cbn [isum]; [ring|]. rewrite IH. ring. Qed.

Lemma isum_tgt : forall ic co (n : nat -> nat -> Q),
  isum ic (fun f => tgt co (n f)) == tgt co (fun j => isum ic (fun f => n f j)).
Proof.
  intros ic co n. destruct co as [[j s]|]; cbn [tgt fst snd].
  - apply isum_scal.
  - apply isum_zero.
Qed.

Lemma rot_coef_lt : forall nd i k j s, rot_coef nd i k = Some (j, s) -> (j < nd)%nat.
Proof.
  intros nd i k j s H.
  destruct nd as [|[|[|[|nd]]]]; cbn in H; try discriminate.
  - destruct k as [|[|k]]; inversion H; lia.
  - destruct i as [|[|[|i]]]; destruct k as [|[|[|k]]]; inversion H; lia.
Qed.

Lemma cls_of_none : forall I j,
  (i_nd I * i_nc I <= j < ndof I)%nat -> cls_of I j = None.
Proof.
  intros I j [H1 H2]. unfold cls_of.
  destruct (Nat.ltb_spec j (i_nd I * i_nc I)); [lia|].
  destruct (Nat.ltb_spec j (ndof I)); [reflexivity|lia].
Qed.

(* The exact hypotheses of the system theorem (the certificates, exactly). *)
Record certified (I : inst) : Prop := {
  cert_stress : forall f k k', (f < i_nf I)%nat -> (k < i_nd I)%nat -> (k' < i_nd I)%nat ->
      csum (cls_of I) k' (nth (f * i_nd I + k) (i_srows I) []) == 0;
  cert_mass : forall f k, (f < i_nf I)%nat -> (k < i_nd I)%nat ->
      csum (cls_of I) k (nth f (i_mrows I) []) == ncomp I f k;
  cert_rot : forall f i k, (f < i_nf I)%nat -> (i < i_rd I)%nat -> (k < i_nd I)%nat ->
      csum (cls_of I) k (nth (f * i_rd I + i) (i_rrows I) [])
      == tgt (rot_coef (i_nd I) i k) (ncomp I f);
  cert_normals : forall c j, (c < i_nc I)%nat -> (j < i_nd I)%nat ->
      isum (nth c (i_inc I) []) (fun f => ncomp I f j) == 0;
  cert_faces : forall c fs, (c < i_nc I)%nat -> In fs (nth c (i_inc I) []) -> (fst fs < i_nf I)%nat
}.

Lemma gather_target_zero : forall I rows stride off c co k,
  certified I -> (c < i_nc I)%nat ->
  (forall j s, co = Some (j, s) -> (j < i_nd I)%nat) ->
  (forall f, (f < i_nf I)%nat ->
     csum (cls_of I) k (nth (f * stride + off) rows []) == tgt co (ncomp I f)) ->
  csum (cls_of I) k (gather rows stride off (nth c (i_inc I) [])) == 0.
Proof.
  intros I rows stride off c co k HC Hc Hco Hrow.
  rewrite csum_gather.
  rewrite (isum_ext _ _ (fun f => tgt co (ncomp I f))).
  2:{ intros fs Hin. apply Hrow. eapply cert_faces; eauto. }
  rewrite (isum_tgt _ co (ncomp I)).
  destruct co as [[j s]|]; cbn [tgt fst snd]; [|reflexivity].
  rewrite (cert_normals I HC c j Hc (Hco j s eq_refl)). ring.
Qed.

Lemma in_system_rows : forall I r, In r (system_rows I) ->
  exists c, (c < i_nc I)%nat /\
    ((exists k, (k < i_nd I)%nat /\ r = momentum_row I c k)
     \/ (exists i, (i < i_rd I)%nat /\ r = rotation_row I c i)
     \/ r = mass_row I c).
Proof.
  intros I r H. apply in_flat_map in H. destruct H as [c [Hc Hr]].
  apply in_seq in Hc. exists c. split; [lia|].
  unfold cell_rows in Hr. rewrite !in_app_iff, !in_map_iff in Hr.
  destruct Hr as [[k [<- Hk]]|[[i [<- Hi]]|[<-|[]]]].
  - left. exists k. apply in_seq in Hk. split; [lia|reflexivity].
  - right; left. exists i. apply in_seq in Hi. split; [lia|reflexivity].
  - right; right. reflexivity.
Qed.

Lemma system_csum_zero : forall I r k,
  certified I -> In r (system_rows I) -> (k < i_nd I)%nat -> csum (cls_of I) k r == 0.
Proof.
  intros I r k HC Hin Hk.
  destruct (in_system_rows I r Hin) as [c [Hc [[k0 [Hk0 ->]]|[[i [Hi ->]]| ->]]]].
  - unfold momentum_row.
    apply (gather_target_zero I (i_srows I) (i_nd I) k0 c None k HC Hc).
    + intros j s E; discriminate.
    + intros f Hf. cbn [tgt]. apply (cert_stress I HC); assumption.
  - unfold rotation_row. rewrite csum_app.
    rewrite (gather_target_zero I (i_rrows I) (i_rd I) i c (rot_coef (i_nd I) i k) k HC Hc).
    + rewrite csum_single_none; [ring|]. apply cls_of_none. unfold ndof. nia.
    + intros j s E. eapply rot_coef_lt; eauto.
    + intros f Hf. apply (cert_rot I HC); assumption.
  - unfold mass_row. rewrite csum_app.
    rewrite (gather_target_zero I (i_mrows I) 1%nat 0%nat c (mass_coef k) k HC Hc).
    + rewrite csum_single_none; [ring|]. apply cls_of_none. unfold ndof. nia.
    + intros j s E. unfold mass_coef in E. inversion E. subst. exact Hk.
    + intros f Hf. rewrite Nat.mul_1_r, Nat.add_0_r.
      rewrite (cert_mass I HC f k Hf Hk). unfold mass_coef, tgt. cbn [fst snd]. ring.
Qed.

Lemma system_solution : forall I t,
  certified I -> length t = i_nd I ->
  forall r, In r (system_rows I) -> rdot r (sv (cls_of I) t) == 0.
Proof.
  intros I t HC Hlen r Hin. apply stress_zero. intros k Hk.
  apply system_csum_zero; [exact HC|exact Hin|lia].
Qed.

Lemma sv_cells : forall I t j,
  sv (cls_of I) t j = if (j <? i_nd I * i_nc I)%nat then nth (j mod i_nd I) t 0
                      else if (j <? ndof I)%nat then 0
                      else if nth (j - ndof I) (i_dir I) false then nth ((j - ndof I) mod i_nd I) t 0
                      else 0.
Proof.
  intros I t j. unfold sv, cls_of.
  destruct (j <? i_nd I * i_nc I)%nat; [reflexivity|].
  destruct (j <? ndof I)%nat; [reflexivity|].
  destruct (nth (j - ndof I) (i_dir I) false); reflexivity.
Qed.

Definition bound (tol : Q) (r : row) (t : list Q) : Q := tol * (1 + rowabs r) * tabs t.

Lemma row_ok_sound : forall tol cls nd target r t,
  row_ok tol cls nd target r = true -> length t = nd ->
  Qabs (rdot r (sv cls t) - tsum 0 t target) <= bound tol r t.
Proof.
  intros tol cls nd target r t H <-. apply row_quant. intros k Hk.
  apply Qle_bool_iff, (proj1 (forallb_seq _ _) H k Hk).
Qed.

Lemma row_ok_zero_sound : forall tol cls nd r t,
  row_ok tol cls nd (fun _ => 0) r = true -> length t = nd ->
  Qabs (rdot r (sv cls t)) <= bound tol r t.
Proof.
  intros tol cls nd r t H Hlen.
  setoid_replace (rdot r (sv cls t)) with (rdot r (sv cls t) - tsum 0 t (fun _ => 0))
    by (rewrite RowLin.tsum_zero; ring).
  exact (row_ok_sound tol cls nd _ r t H Hlen).
Qed.

Lemma near_zero : forall r x y, near 0 r x y = true -> x == y.
Proof. intros r. exact (RowLin.near_zero_exact (rowabs r)). Qed.

Lemma row_ok_zero_exact : forall cls nd target r,
  row_ok 0 cls nd target r = true -> forall k, (k < nd)%nat -> csum cls k r == target k.
Proof.
  intros cls nd target r H k Hk. exact (near_zero r _ _ (proj1 (forallb_seq _ _) H k Hk)).
Qed.

Lemma exact_certified : forall I,
  shape_ok I = true -> stress_ok 0 I = true -> mass_ok 0 I = true -> rot_ok 0 I = true ->
  normals_ok 0 I = true -> certified I.
Proof.
  intros I Hshape Hs Hm Hr Hn.
  apply andb_prop in Hshape
    as [[[[[[[[[_ Linc]%andb_prop _]%andb_prop _]%andb_prop Ls]%andb_prop _]%andb_prop _]%andb_prop _]%andb_prop _]%andb_prop Hfaces].
  apply Nat.eqb_eq in Linc, Ls.
  assert (Hic : forall c, (c < i_nc I)%nat -> In (nth c (i_inc I) []) (i_inc I))
    by (intros c Hc; apply nth_In; lia).
  constructor.
  - intros f k k' Hf Hk Hk'.
    apply (row_ok_zero_exact (cls_of I) (i_nd I) (fun _ => 0)); [|exact Hk'].
    apply (proj1 (forallb_forall _ _) Hs), nth_In. rewrite Ls. nia.
  - intros f k Hf Hk.
    rewrite (row_ok_zero_exact _ _ _ _ (proj1 (forallb_seq _ _) Hm f Hf) k Hk).
    unfold mass_coef, tgt. cbn [fst snd]. ring.
  - intros f i k Hf Hi Hk.
    assert (Hq : (f * i_rd I + i < i_rd I * i_nf I)%nat) by nia.
    pose proof (row_ok_zero_exact _ _ _ _ (proj1 (forallb_seq _ _) Hr _ Hq) k Hk) as E.
    cbn beta in E.
    rewrite <- (Nat.mod_unique _ _ f i Hi), <- (Nat.div_unique _ _ f i Hi) in E by lia.
    exact E.
  - intros c j Hc Hj.
    pose proof (proj1 (forallb_seq _ _) (proj1 (forallb_forall _ _) Hn _ (Hic c Hc)) j Hj) as E.
    apply Qle_bool_iff, Qabs_Qle_condition in E. lra.
  - intros c fs Hc Hin. apply Nat.ltb_lt.
    pose proof (proj1 (forallb_forall _ _) Hfaces _ (Hic c Hc)) as Hf.
    exact (proj1 (forallb_forall _ _) Hf fs Hin).
Qed.

Lemma check_certified : forall I, check 0 I = true -> certified I.
Proof.
  intros I H.
  apply andb_prop in H
    as [[[[[[[Hshape Hs]%andb_prop _]%andb_prop Hm]%andb_prop Hr]%andb_prop Hn]%andb_prop _]%andb_prop _].
  apply exact_certified; assumption.
Qed.

Lemma check_inv : forall tol I N d,
  check tol I = true -> i_inv I = Some (N, d) ->
  RowInv.inv_ok (ndof I) (system_rows I) N d = true.
Proof.
  intros tol I N d H E. apply andb_prop in H. destruct H as [_ H].
  unfold inv_cert_ok in H. rewrite E in H. exact H.
Qed.

(* A concrete instance: the real matrices of pp.Tpsa on CartGrid([2, 1]) (2 cells, 7 faces),
   mu = 1, lambda = 2, Dirichlet everywhere except face 3 (both components Neumann) and
   face 6 (y-component Neumann); all entries are dyadic, so the certificates hold exactly
   (tolerance 0). *)
Definition ex_inst : inst :=
(mk_inst 2%nat 1%nat 2%nat 7%nat [[(0%nat, ((-1) # 1)); (1%nat, (1 # 1)); (3%nat, ((-1) # 1));
(5%nat, (1 # 1))]; [(1%nat, ((-1) # 1)); (2%nat, (1 # 1)); (4%nat, ((-1) # 1)); (6%nat, (1 # 1))]]
[[(1 # 1); (0 # 1)]; [(1 # 1); (0 # 1)]; [(1 # 1); (0 # 1)]; [(0 # 1); (1 # 1)]; [(0 # 1); (1 # 1)];
[(0 # 1); (1 # 1)]; [(0 # 1); (1 # 1)]] [true; true; false; false; true; true; false; false; true;
true; true; true; true; false] [[(0%nat, (4 # 1)); (6%nat, (1 # 1)); (8%nat, ((-4) # 1))]; [(1%nat,
(4 # 1)); (4%nat, (1 # 1)); (9%nat, ((-4) # 1))]; [(0%nat, ((-2) # 1)); (2%nat, (2 # 1)); (6%nat, (1
# 2)); (7%nat, (1 # 2))]; [(1%nat, ((-2) # 1)); (3%nat, (2 # 1)); (4%nat, (1 # 2)); (5%nat, (1 #
2))]; [(2%nat, ((-4) # 1)); (7%nat, (1 # 1)); (12%nat, (4 # 1))]; [(3%nat, ((-4) # 1)); (5%nat, (1 #
1)); (13%nat, (4 # 1))]; [(14%nat, ((-1) # 1))]; [(15%nat, ((-1) # 1))]; [(2%nat, (4 # 1)); (5%nat,
((-1) # 1)); (16%nat, ((-4) # 1))]; [(3%nat, (4 # 1)); (7%nat, (1 # 1)); (17%nat, ((-4) # 1))];
[(0%nat, ((-4) # 1)); (4%nat, ((-1) # 1)); (18%nat, (4 # 1))]; [(1%nat, ((-4) # 1)); (6%nat, (1 #
1)); (19%nat, (4 # 1))]; [(2%nat, ((-4) # 1)); (5%nat, ((-1) # 1)); (20%nat, (4 # 1))]; [(21%nat, (1
# 1))]] [[(9%nat, ((-1) # 1))]; [(1%nat, ((-1) # 2)); (3%nat, ((-1) # 2))]; [(13%nat, ((-1) # 1))];
[(0%nat, (1 # 1)); (4%nat, ((-1) # 4)); (14%nat, (1 # 4))]; [(16%nat, (1 # 1))]; [(18%nat, (1 #
1))]; [(20%nat, (1 # 1))]] [[(8%nat, (1 # 1))]; [(0%nat, (1 # 2)); (2%nat, (1 # 2)); (6%nat, ((-1) #
8)); (7%nat, (1 # 8))]; [(12%nat, (1 # 1))]; [(1%nat, (1 # 1)); (6%nat, (1 # 4)); (15%nat, (1 #
4))]; [(17%nat, (1 # 1))]; [(19%nat, (1 # 1))]; [(3%nat, (1 # 1)); (7%nat, ((-1) # 4)); (21%nat, (1
# 4))]] [[(8%nat, (1 # 1))]; [(9%nat, (1 # 1))]; [(0%nat, (1 # 2)); (2%nat, (1 # 2))]; [(1%nat, (1 #
2)); (3%nat, (1 # 2))]; [(12%nat, (1 # 1))]; [(13%nat, (1 # 1))]; [(0%nat, (1 # 1)); (14%nat, ((-1)
# 4))]; [(1%nat, (1 # 1)); (15%nat, ((-1) # 4))]; [(16%nat, (1 # 1))]; [(17%nat, (1 # 1))];
[(18%nat, (1 # 1))]; [(19%nat, (1 # 1))]; [(20%nat, (1 # 1))]; [(3%nat, (1 # 1)); (21%nat, (1 #
4))]] [(1 # 1); (1 # 1); (1 # 2); (1 # 2)] (Some ([[((-6785) # 1); ((-1060) # 1); (10460 # 1); (2720
# 1); ((-775) # 1); ((-1060) # 1); ((-1060) # 1); ((-2720) # 1)]; [((-1060) # 1); ((-6116) # 1);
(6640 # 1); ((-6128) # 1); ((-380) # 1); ((-1724) # 1); ((-3920) # 1); (272 # 1)]; [((-775) # 1);
((-380) # 1); (1540 # 1); (2080 # 1); ((-4145) # 1); ((-380) # 1); ((-380) # 1); ((-2080) # 1)];
[((-1060) # 1); ((-1724) # 1); (6640 # 1); ((-272) # 1); ((-380) # 1); ((-6116) # 1); ((-3920) # 1);
(6128 # 1)]; [(10460 # 1); (6640 # 1); ((-100880) # 1); (640 # 1); (1540 # 1); (6640 # 1); (6640 #
1); ((-640) # 1)]; [((-1060) # 1); ((-3920) # 1); (6640 # 1); ((-3200) # 1); ((-380) # 1); ((-3920)
# 1); ((-62480) # 1); (3200 # 1)]; [((-2720) # 1); (6128 # 1); ((-640) # 1); ((-58816) # 1);
((-2080) # 1); (272 # 1); (3200 # 1); ((-11456) # 1)]; [(2720 # 1); ((-272) # 1); (640 # 1);
((-11456) # 1); (2080 # 1); ((-6128) # 1); ((-3200) # 1); ((-58816) # 1)]], (58560 # 1)))).

Lemma ex_inst_check : check 0 ex_inst = true.
Proof. vm_compute. reflexivity. Qed.
