(* C17 — proofs about the transcribed Upwind.discretize (PP.Model.C17).
   The loop over the faces is brought into closed form once ([upstream_rows_eq], [discretize_run]):
   all three matrices are Kronecker expansions of lists with one entry per selected face
   ([rows]), whose entries ([in_kron_rows]) and rows ([row_apply_rows]) are known.  The step
   theorems over R read the matrices through [face_flux_char] only. *)
From Coq Require Import List ZArith Bool Arith Lia Reals Lra.
Import ListNotations.
From PP Require Import Model.C17.

Lemma in_seq0 n i : In i (seq 0 n) <-> i < n.
Proof. rewrite in_seq. lia. Qed.

Lemma kron_idx_inj (k r1 a r j : nat) :
  (a < k)%nat -> (j < k)%nat -> (r1 * k + a = r * k + j)%nat -> r1 = r /\ a = j.
Proof. intros Ha Hj H. apply (Nat.div_mod_unique k); lia. Qed.

Section ListSum.
  Local Open Scope R_scope.
  Context {A : Type}.

  Definition lsum (g : A -> R) (l : list A) : R := fold_right (fun a acc => g a + acc) 0 l.

  Lemma lsum_cons g a l : lsum g (a :: l) = g a + lsum g l.
  Proof. reflexivity. Qed.

  Lemma lsum_ext g h l : (forall a, In a l -> g a = h a) -> lsum g l = lsum h l.
  Proof.
    induction l as [|a l IH]; intros H; [reflexivity|].
    rewrite !lsum_cons, (H a), IH; [reflexivity | intros; apply H; right; assumption | left; reflexivity].
  Qed.

  Lemma lsum_zero g l : (forall a, In a l -> g a = 0) -> lsum g l = 0.
  Proof.
    intros H. rewrite (lsum_ext g (fun _ => 0) l H). clear H.
    induction l as [|a l IH]; [reflexivity | rewrite lsum_cons, IH; lra].
  Qed.

  Lemma lsum_plus g h l : lsum (fun a => g a + h a) l = lsum g l + lsum h l.
  Proof. induction l as [|a l IH]; rewrite ?lsum_cons, ?IH; cbn; lra. Qed.

  Lemma lsum_scal c g l : lsum (fun a => c * g a) l = c * lsum g l.
  Proof. induction l as [|a l IH]; rewrite ?lsum_cons, ?IH; cbn; lra. Qed.
End ListSum.

Lemma lsum_single (k : nat) (h : nat -> R) l :
  NoDup l -> In k l -> lsum (fun i => if (i =? k)%nat then h i else 0%R) l = h k.
Proof.
  induction 1 as [|b l Hb _ IH]; intros Hin; [destruct Hin|].
  rewrite lsum_cons. destruct Hin as [->|Hin].
  - rewrite Nat.eqb_refl, lsum_zero; [lra|].
    intros i Hi. destruct (Nat.eqb_spec i k) as [->|_]; [contradiction | reflexivity].
  - destruct (Nat.eqb_spec b k) as [->|_]; [contradiction|]. rewrite IH by exact Hin. lra.
Qed.

(* at most one cell on each side of every face *)
Definition one_sided (cf : list inc) : Prop :=
  forall f c c' s s', In (f, c, s) cf -> In (f, c', s') cf -> (0 < s * s')%Z -> c = c'.

Lemma one_sidedb_sound cf : one_sidedb cf = true -> one_sided cf.
Proof.
  unfold one_sidedb, one_sided. intros H f c c' s s' H1 H2 Hs.
  rewrite forallb_forall in H. specialize (H _ H1). rewrite forallb_forall in H.
  specialize (H _ H2). unfold tf, tc, ts in H. cbn [fst snd] in H.
  rewrite Nat.eqb_refl in H. apply Z.ltb_lt in Hs. rewrite Hs in H.
  apply Nat.eqb_eq in H. exact H.
Qed.

Lemma dense_some side cf f c :
  dense side cf f = Some c -> exists s, In (f, c, s) cf /\ side_ok side s = true.
Proof.
  unfold dense.
  destruct (find _ (rev cf)) as [[[fi ci] s]|] eqn:E; [|discriminate].
  intros H. injection H as <-. apply find_some in E. destruct E as [Hin Hm].
  apply andb_true_iff in Hm. destruct Hm as [H1 H2]. apply Nat.eqb_eq in H1. subst fi.
  exists s. split; [apply in_rev; exact Hin | exact H2].
Qed.

Lemma dense_none side cf f :
  dense side cf f = None -> forall c s, In (f, c, s) cf -> side_ok side s = false.
Proof.
  unfold dense.
  destruct (find _ (rev cf)) as [[[fi ci] s0]|] eqn:E; [discriminate|].
  intros _ c s Hin. apply in_rev in Hin.
  pose proof (find_none _ _ E _ Hin) as H. cbn in H. rewrite Nat.eqb_refl in H. exact H.
Qed.

Lemma dense_unique side cf f c s :
  one_sided cf -> In (f, c, s) cf -> side_ok side s = true -> dense side cf f = Some c.
Proof.
  intros Hw Hin Hs. destruct (dense side cf f) as [c'|] eqn:E.
  - apply dense_some in E. destruct E as [s' [Hin' Hs']].
    f_equal. apply (Hw f c' c s' s Hin' Hin).
    destruct side; cbn in Hs, Hs'; apply Z.ltb_lt in Hs, Hs'; nia.
  - rewrite (dense_none _ _ _ E _ _ Hin) in Hs. discriminate.
Qed.

Local Open Scope R_scope.

Definition row_apply (M : coo) (x : nat -> R) (r : nat) : R :=
  fold_right (fun (t : nat * nat * Z) acc =>
     if (fst (fst t) =? r)%nat then IZR (snd t) * x (snd (fst t)) + acc else acc) 0 M.

Lemma row_apply_cons t M x r :
  row_apply (t :: M) x r =
  if (fst (fst t) =? r)%nat then IZR (snd t) * x (snd (fst t)) + row_apply M x r
  else row_apply M x r.
Proof. reflexivity. Qed.

Lemma row_apply_nil x r : row_apply [] x r = 0.
Proof. reflexivity. Qed.

Lemma row_apply_app A B x r : row_apply (A ++ B) x r = row_apply A x r + row_apply B x r.
Proof.
  induction A as [|t A IH]; cbn [app]; rewrite ?row_apply_cons, ?IH, ?row_apply_nil;
    [|destruct (fst (fst t) =? r)%nat]; lra.
Qed.

Lemma row_apply_ext M x y r : (forall c, x c = y c) -> row_apply M x r = row_apply M y r.
Proof.
  intros H. induction M as [|t M IH]; [reflexivity|]. rewrite !row_apply_cons, IH, H. reflexivity.
Qed.

Lemma row_apply_map {A} (row col : A -> nat) (val : A -> Z) x r l :
  row_apply (map (fun a => (row a, col a, val a)) l) x r
  = lsum (fun a => if (row a =? r)%nat then IZR (val a) * x (col a) else 0) l.
Proof.
  induction l as [|a l IH]; [reflexivity|]. cbn [map].
  rewrite row_apply_cons, lsum_cons, IH. cbn [fst snd]. destruct (row a =? r)%nat; lra.
Qed.

Lemma kron_cons k r c v M :
  kron k ((r, c, v) :: M) =
  map (fun j => (r * k + j, c * k + j, v)%nat) (seq 0 k) ++ kron k M.
Proof. reflexivity. Qed.

Lemma in_kron k M r c v :
  In (r, c, v) (kron k M) <->
  exists r0 c0 j, In (r0, c0, v) M /\ (j < k)%nat /\ r = (r0 * k + j)%nat /\ c = (c0 * k + j)%nat.
Proof.
  unfold kron. rewrite in_flat_map. split.
  - intros [[[r0 c0] v0] [Hin Hm]]. apply in_map_iff in Hm. destruct Hm as [j [Hj Hs]].
    apply in_seq0 in Hs. injection Hj as <- <- <-. exists r0, c0, j.
    split; [exact Hin|]. split; [exact Hs|]. split; reflexivity.
  - intros [r0 [c0 [j [Hin [Hj [-> ->]]]]]]. exists (r0, c0, v). split; [exact Hin|].
    apply in_map_iff. exists j. split; [reflexivity|]. apply in_seq0, Hj.
Qed.

(* of the k copies of an entry of row r1, only copy j of row r1 = r lies in row r*k+j *)
Lemma row_apply_block k r1 c1 v x r j :
  (j < k)%nat ->
  row_apply (map (fun a => (r1 * k + a, c1 * k + a, v)%nat) (seq 0 k)) x (r * k + j) =
  if (r1 =? r)%nat then IZR v * x (c1 * k + j)%nat else 0.
Proof.
  intros Hj. rewrite (row_apply_map (fun a => r1 * k + a)%nat (fun a => c1 * k + a)%nat (fun _ => v)).
  rewrite <- (lsum_single j (fun a => if (r1 =? r)%nat then IZR v * x (c1 * k + a)%nat else 0) (seq 0 k))
    by (apply seq_NoDup || apply in_seq0, Hj).
  apply lsum_ext. intros a Ha. apply in_seq0 in Ha.
  destruct (Nat.eqb_spec (r1 * k + a) (r * k + j)) as [E|E].
  - destruct (kron_idx_inj k r1 a r j Ha Hj E) as [-> ->]. rewrite !Nat.eqb_refl. reflexivity.
  - destruct (Nat.eqb_spec a j) as [->|_]; [|reflexivity].
    destruct (Nat.eqb_spec r1 r) as [->|_]; [contradiction | reflexivity].
Qed.

Lemma row_apply_kron k M x r j :
  (j < k)%nat ->
  row_apply (kron k M) x (r * k + j) = row_apply M (fun c => x (c * k + j)%nat) r.
Proof.
  intros Hj. induction M as [|[[r1 c1] v] M IH]; [reflexivity|].
  rewrite kron_cons, row_apply_app, IH, row_apply_cons, row_apply_block by exact Hj.
  cbn [fst snd]. destruct (r1 =? r)%nat; lra.
Qed.

Lemma kron_1 M : kron 1 M = M.
Proof.
  induction M as [|[[r c] v] M IH]; [reflexivity|].
  rewrite kron_cons, IH. cbn [seq map app]. rewrite !Nat.mul_1_r, !Nat.add_0_r. reflexivity.
Qed.

Definition rows (sel : nat -> bool) (col : nat -> nat) (val : nat -> Z) (fs : list nat) : coo :=
  map (fun f => (f, col f, val f)) (filter sel fs).

Lemma diag_rows_rows fs sel val : diag_rows fs sel val = rows sel (fun f => f) val fs.
Proof. reflexivity. Qed.

Lemma row_apply_rows sel col val x n f :
  (f < n)%nat ->
  row_apply (rows sel col val (seq 0 n)) x f = if sel f then IZR (val f) * x (col f) else 0.
Proof.
  intros Hf. unfold rows. rewrite (row_apply_map (fun g => g) col val).
  destruct (sel f) eqn:S.
  - apply (lsum_single f (fun g => IZR (val g) * x (col g))).
    + apply NoDup_filter, seq_NoDup.
    + apply filter_In. split; [apply in_seq0, Hf | exact S].
  - apply lsum_zero. intros g Hg. apply filter_In in Hg.
    destruct (Nat.eqb_spec g f) as [->|_]; [destruct Hg; congruence | reflexivity].
Qed.

Close Scope R_scope.

Lemma in_rows sel col val fs r c v :
  In (r, c, v) (rows sel col val fs) <-> In r fs /\ sel r = true /\ c = col r /\ v = val r.
Proof.
  unfold rows. rewrite in_map_iff. split.
  - intros [g [E Hg]]. injection E as -> <- <-. apply filter_In in Hg.
    destruct Hg as [Hg S]. repeat split; assumption.
  - intros [Hr [S [-> ->]]]. exists r. split; [reflexivity|]. apply filter_In. split; assumption.
Qed.

Lemma in_kron_rows k sel col val n r c v :
  In (r, c, v) (kron k (rows sel col val (seq 0 n))) <->
  exists f j, f < n /\ j < k /\ r = f * k + j /\ c = col f * k + j /\ v = val f /\ sel f = true.
Proof.
  rewrite in_kron. split.
  - intros [f [c0 [j [Hin [Hj [-> ->]]]]]]. apply in_rows in Hin.
    destruct Hin as [Hf [S [-> ->]]]. apply in_seq0 in Hf. exists f, j. repeat split; assumption.
  - intros [f [j [Hf [Hj [-> [-> [-> S]]]]]]]. exists f, (col f), j.
    split; [|repeat split; exact Hj]. apply in_rows.
    split; [apply in_seq0, Hf | repeat split; exact S].
Qed.

Lemma in_kron_rows_at k sel col val n f j c v :
  f < n -> j < k ->
  In (f * k + j, c, v) (kron k (rows sel col val (seq 0 n))) <->
  sel f = true /\ c = col f * k + j /\ v = val f.
Proof.
  intros Hf Hj. rewrite in_kron_rows. split.
  - intros [f' [j' [_ [Hj' [E [Hc [Hv S]]]]]]].
    destruct (kron_idx_inj k f j f' j' Hj Hj' E) as [<- <-]. repeat split; assumption.
  - intros [S [-> ->]]. exists f, j. repeat split; assumption.
Qed.

Section Generic.
  Variable T : Type.
  Variable nonneg : T -> bool.
  Variable I : input T.

  Notation pos := (pos T nonneg I).
  Notation up := (up T nonneg I).
  Notation inflow := (inflow T nonneg I).
  Notation deleted := (deleted T nonneg I).
  Notation upstream_rows := (upstream_rows T nonneg I).
  Notation faces := (faces T I).

  Lemma up_dense f : up f = dense (pos f) (cf I) f.
  Proof. unfold C17.up. destruct (pos f); reflexivity. Qed.

  Lemma inflow_alt f : inflow f = is_dir I f && isnone (up f).
  Proof. unfold C17.inflow, C17.up. destruct (pos f); cbn; rewrite ?orb_false_r; reflexivity. Qed.

  Lemma deleted_alt f : deleted f = is_neu I f || is_dir I f && isnone (up f).
  Proof. unfold C17.deleted. rewrite inflow_alt. reflexivity. Qed.

  (* the scipy failure: a kept face whose upstream side is outside (or out of range) *)
  Definition bad (f : nat) : Prop :=
    match up f with None => True | Some c => nc I <= c end.

  Definition failsb (f : nat) : bool :=
    negb (deleted f) && match up f with None => true | Some c => nc I <=? c end.

  Lemma failsb_spec f : failsb f = true <-> deleted f = false /\ bad f.
  Proof.
    unfold failsb, bad. rewrite andb_true_iff, negb_true_iff.
    destruct (up f); [rewrite Nat.leb_le|]; tauto.
  Qed.

  Definition kept (f : nat) : bool := negb (deleted f).
  Definition upc (f : nat) : nat := match up f with Some c => c | None => 0 end.

  Lemma upstream_rows_eq fs :
    upstream_rows fs =
    if existsb failsb fs then None else Some (rows kept upc (fun _ => 1%Z) fs).
  Proof.
    induction fs as [|g fs IH]; [reflexivity|].
    cbn [C17.upstream_rows existsb]. rewrite IH. unfold rows, failsb, kept, upc. cbn [filter].
    destruct (deleted g); cbn [negb andb orb map]; [reflexivity|].
    destruct (up g) as [c|]; [|reflexivity].
    destruct (nc I <=? c); [reflexivity|]. destruct (existsb _ fs); reflexivity.
  Qed.

  Lemma in_faces f : In f faces <-> f < nf I.
  Proof. apply in_seq0. Qed.

  Lemma fails_faces :
    existsb failsb faces = true <-> exists f, f < nf I /\ deleted f = false /\ bad f.
  Proof.
    rewrite existsb_exists. split; intros [f H]; exists f;
      rewrite in_faces, failsb_spec in *; exact H.
  Qed.

  Lemma not_bad f : ~ bad f -> exists c, up f = Some c /\ c < nc I.
  Proof.
    unfold bad. destruct (up f) as [c|]; [|tauto]. intros H. exists c. split; [reflexivity | lia].
  Qed.

  (* what a run on a grid of positive dimension returns, if it returns *)
  Definition run_output : output :=
    let k := ncomp I in
    {| upwind := kron k (rows kept upc (fun _ => 1%Z) faces);
       upwind_shape := (nf I * k, nc I * k);
       bound_dir := kron k (diag_rows faces inflow (fun _ => 1%Z));
       bound_dir_shape := (nf I * k, nf I * k);
       bound_neu := kron k (diag_rows faces (is_neu I) (sgn_div (cf I)));
       bound_neu_shape := (nf I * k, nf I * k) |}.

  Lemma discretize_run :
    dim I <> 0 ->
    discretize T nonneg I = if existsb failsb faces then Err ValueErr else Ok run_output.
  Proof.
    intros Hd. unfold discretize. rewrite upstream_rows_eq.
    destruct (Nat.eqb_spec (dim I) 0); [contradiction|]. destruct (existsb failsb faces); reflexivity.
  Qed.

  Lemma upwind_row f j c v :
    f < nf I -> j < ncomp I ->
    In (f * ncomp I + j, c, v) (upwind run_output) <->
    deleted f = false /\ c = upc f * ncomp I + j /\ v = 1%Z.
  Proof.
    intros Hf Hj. rewrite <- negb_true_iff. exact (in_kron_rows_at _ kept _ _ _ _ _ _ _ Hf Hj).
  Qed.

  Lemma discretize_ok o :
    discretize T nonneg I = Ok o -> dim I <> 0 ->
    o = run_output /\
    forall f, f < nf I -> deleted f = false -> exists c, up f = Some c /\ c < nc I.
  Proof.
    intros H Hd. rewrite (discretize_run Hd) in H.
    destruct (existsb failsb faces) eqn:E; [discriminate|]. injection H as <-.
    split; [reflexivity|]. intros f Hf Dl. apply not_bad. intros Hb.
    rewrite (proj2 fails_faces) in E; [discriminate | exists f; auto].
  Qed.

  Lemma discretize_err e :
    discretize T nonneg I = Err e <->
    dim I <> 0 /\ exists f, f < nf I /\ deleted f = false /\ bad f.
  Proof.
    rewrite <- fails_faces. destruct (Nat.eq_dec (dim I) 0) as [E|E].
    - unfold discretize. rewrite E. split; [discriminate | intros [H _]; contradiction].
    - rewrite (discretize_run E). destruct e, (existsb failsb faces); intuition discriminate.
  Qed.

  Variable sgn : T -> Z.
  Hypothesis nonneg_sgn : forall x, nonneg x = (0 <=? sgn x)%Z.

  Definition leaves (f c : nat) : Prop :=
    exists s, In (f, c, s) (cf I) /\ (0 < s * sgn (q I f))%Z.

  (* an entry on the side the flux leaves is on the side the code looks at; conversely for
     non-zero flux (zero flux counts as positive) *)
  Lemma leaves_side f s : (0 < s * sgn (q I f))%Z -> side_ok (pos f) s = true.
  Proof.
    unfold C17.pos. rewrite nonneg_sgn. intros H.
    destruct (Z.leb_spec 0 (sgn (q I f))); cbn; apply Z.ltb_lt; nia.
  Qed.

  Lemma side_leaves f s :
    sgn (q I f) <> 0%Z -> side_ok (pos f) s = true -> (0 < s * sgn (q I f))%Z.
  Proof.
    unfold C17.pos. rewrite nonneg_sgn. intros Hz.
    destruct (Z.leb_spec 0 (sgn (q I f))); cbn; intros Hs; apply Z.ltb_lt in Hs; nia.
  Qed.

  Lemma up_some_leaves f c : sgn (q I f) <> 0%Z -> up f = Some c -> leaves f c.
  Proof.
    rewrite up_dense. intros Hz H. apply dense_some in H. destruct H as [s [Hin Hs]].
    exists s. split; [exact Hin | exact (side_leaves f s Hz Hs)].
  Qed.

  Lemma leaves_up f c : one_sided (cf I) -> leaves f c -> up f = Some c.
  Proof.
    rewrite up_dense. intros Hw [s [Hin Hs]].
    exact (dense_unique _ _ _ _ s Hw Hin (leaves_side f s Hs)).
  Qed.

  Lemma up_none_no_leaves f : sgn (q I f) <> 0%Z -> (up f = None <-> forall c, ~ leaves f c).
  Proof.
    intros Hz. split.
    - rewrite up_dense. intros H c [s [Hin Hs]]. pose proof (leaves_side f s Hs) as X.
      rewrite (dense_none _ _ _ H _ _ Hin) in X. discriminate.
    - intros H. destruct (up f) as [c|] eqn:E; [|reflexivity].
      exfalso. exact (H c (up_some_leaves _ _ Hz E)).
  Qed.

  Definition missing_side (f : nat) : Prop :=
    exists side, forall c s, In (f, c, s) (cf I) -> side_ok side s = false.

  Lemma up_none_missing f : up f = None -> missing_side f.
  Proof. rewrite up_dense. intros H. exists (pos f). exact (dense_none _ _ _ H). Qed.

  Theorem upstream_theorem o :
    one_sided (cf I) -> discretize T nonneg I = Ok o -> dim I <> 0 ->
    forall f j, f < nf I -> j < ncomp I -> sgn (q I f) <> 0%Z ->
      let k := ncomp I in
      ((is_neu I f = true \/ (is_dir I f = true /\ forall c, ~ leaves f c)) ->
         forall c v, ~ In (f * k + j, c, v) (upwind o))
      /\ (is_neu I f = false -> forall c0, leaves f c0 ->
            c0 < nc I /\
            forall c v, In (f * k + j, c, v) (upwind o) <-> (c = c0 * k + j /\ v = 1%Z))
      /\ (is_neu I f = false -> (is_dir I f = false \/ exists c, leaves f c) ->
            exists c0, leaves f c0 /\ c0 < nc I).
  Proof.
    intros Hw Hok Hd f j Hf Hj Hz. cbv zeta. destruct (discretize_ok o Hok Hd) as [-> Hup].
    pose proof (fun c v => upwind_row f j c v Hf Hj) as Hrow.
    pose proof (deleted_alt f) as Hdel.
    split; [|split].
    - intros H c v Hin. apply Hrow in Hin. destruct Hin as [Dl _]. rewrite Hdel in Dl.
      destruct H as [Hn|[Hdir Hno]]; [rewrite Hn in Dl; discriminate|].
      rewrite Hdir, (proj2 (up_none_no_leaves f Hz) Hno), orb_true_r in Dl. discriminate.
    - intros Hn c0 Hl. pose proof (leaves_up _ _ Hw Hl) as Uf.
      assert (Dl : deleted f = false) by (rewrite Hdel, Hn, Uf; apply andb_false_r).
      destruct (Hup f Hf Dl) as [c1 [U1 Hc1]]. rewrite Uf in U1. injection U1 as <-.
      split; [exact Hc1|]. intros c v. rewrite Hrow. unfold upc. rewrite Uf. tauto.
    - intros Hn Hor.
      assert (Dl : deleted f = false).
      { rewrite Hdel, Hn. destruct Hor as [->|[c Hl]]; [reflexivity|].
        rewrite (leaves_up _ _ Hw Hl). apply andb_false_r. }
      destruct (Hup f Hf Dl) as [c0 [U Hc]]. exists c0.
      split; [exact (up_some_leaves _ _ Hz U) | exact Hc].
  Qed.

  Theorem boundary_dir_theorem o :
    discretize T nonneg I = Ok o -> dim I <> 0 ->
    let k := ncomp I in
    (forall r c v, In (r, c, v) (bound_dir o) ->
       exists f j, f < nf I /\ j < k /\ r = f * k + j /\ c = f * k + j /\ v = 1%Z /\
                   is_dir I f = true /\ missing_side f /\
                   (sgn (q I f) <> 0%Z -> forall c', ~ leaves f c'))
    /\ (forall f j, f < nf I -> j < k -> is_dir I f = true -> sgn (q I f) <> 0%Z ->
          (forall c', ~ leaves f c') -> In (f * k + j, f * k + j, 1%Z) (bound_dir o)).
  Proof.
    intros Hok Hd k. destruct (discretize_ok o Hok Hd) as [-> _]. split.
    - intros r c v Hin. apply in_kron_rows in Hin.
      destruct Hin as [f [j [Hf [Hj [-> [-> [-> Hi]]]]]]].
      rewrite inflow_alt in Hi. apply andb_true_iff in Hi. destruct Hi as [Hdir Hn].
      assert (Un : up f = None) by (destruct (up f); [discriminate | reflexivity]).
      exists f, j. repeat split; try assumption.
      + exact (up_none_missing _ Un).
      + intros Hz. apply up_none_no_leaves; assumption.
    - intros f j Hf Hj Hdir Hz Hno. apply in_kron_rows. exists f, j.
      repeat split; try assumption.
      rewrite inflow_alt, Hdir, (proj2 (up_none_no_leaves f Hz) Hno). reflexivity.
  Qed.

  Theorem total_theorem :
    (forall f c s, In (f, c, s) (cf I) -> c < nc I) ->
    (forall f, f < nf I ->
       is_neu I f = true \/ is_dir I f = true \/
       ((exists c s, In (f, c, s) (cf I) /\ (0 < s)%Z) /\
        (exists c s, In (f, c, s) (cf I) /\ (s < 0)%Z))) ->
    exists o, discretize T nonneg I = Ok o.
  Proof.
    intros Hrange Hbc. destruct (discretize T nonneg I) as [o|e] eqn:E; [exists o; reflexivity|].
    exfalso. apply discretize_err in E. destruct E as [_ [f [Hf [Dl Hb]]]].
    rewrite deleted_alt in Dl. apply orb_false_iff in Dl. destruct Dl as [Dn Di].
    unfold bad in Hb. rewrite up_dense in *.
    destruct (dense (pos f) (cf I) f) as [c|] eqn:Uf.
    - apply dense_some in Uf. destruct Uf as [s [Hin _]]. specialize (Hrange _ _ _ Hin). lia.
    - destruct (Hbc f Hf) as [Hn|[Hdir|[[c0 [s0 [H0 S0]]] [c1 [s1 [H1 S1]]]]]].
      + congruence.
      + rewrite Hdir in Di. discriminate.
      + apply (dense_none _ _ _ Uf) in H0, H1. destruct (pos f); cbn in H0, H1; lia.
  Qed.
End Generic.

Local Open Scope R_scope.

Definition nonnegR (x : R) : bool := if Rle_dec 0 x then true else false.

Lemma nonnegR_spec x : reflect (0 <= x) (nonnegR x).
Proof. unfold nonnegR. destruct (Rle_dec 0 x); constructor; assumption. Qed.

Definition rsum (g : nat -> R) (n : nat) : R :=
  fold_right (fun i acc => g i + acc) 0 (seq 0 n).

Lemma rsum_lsum g n : rsum g n = lsum g (seq 0 n).
Proof. reflexivity. Qed.

Lemma rsum_ext g h n : (forall i, (i < n)%nat -> g i = h i) -> rsum g n = rsum h n.
Proof. intros H. apply lsum_ext. intros i Hi. apply H, in_seq0, Hi. Qed.

Lemma rsum_zero g n : (forall i, (i < n)%nat -> g i = 0) -> rsum g n = 0.
Proof. intros H. apply lsum_zero. intros i Hi. apply H, in_seq0, Hi. Qed.

Lemma rsum_add_at (k : nat) (a : R) (h : nat -> R) n : (k < n)%nat ->
  rsum (fun i => if (k =? i)%nat then a + h i else h i) n = a + rsum h n.
Proof.
  intros Hk. transitivity (lsum (fun i => (if (i =? k)%nat then a else 0) + h i) (seq 0 n)).
  - apply lsum_ext. intros i _. rewrite Nat.eqb_sym. destruct (i =? k)%nat; lra.
  - rewrite lsum_plus, (lsum_single k (fun _ => a)); [reflexivity | apply seq_NoDup | apply in_seq0, Hk].
Qed.

Lemma sgn_div_cons f0 c0 s0 l f :
  sgn_div ((f0, c0, s0) :: l) f = if (f0 =? f)%nat then (s0 + sgn_div l f)%Z else sgn_div l f.
Proof. reflexivity. Qed.

(* pure arithmetic of one face: a = (sign * flux) through a face of cell i, u the upstream value *)
Lemma upwind_term a u ci m M :
  m <= u <= M -> m <= ci <= M -> (a > 0 -> u = ci) ->
  a * M + Rmax a 0 * (ci - M) <= a * u <= a * m + Rmax a 0 * (ci - m).
Proof.
  intros Hu Hc Hsel. destruct (Rle_dec a 0) as [Ha|Ha].
  - rewrite Rmax_right by exact Ha. nra.
  - rewrite Rmax_left, Hsel by lra. nra.
Qed.

(* the new value is a convex combination of the old value and upstream values *)
Lemma convex_step ci m M dt vol O D :
  0 <= dt -> 0 < vol -> 0 <= O -> dt * O <= vol -> m <= ci <= M ->
  O * (ci - M) <= D <= O * (ci - m) ->
  m <= ci - dt / vol * D <= M.
Proof.
  intros Hdt Hv HO Hcfl Hc HD. set (lam := dt / vol).
  assert (Hl : 0 <= lam) by (apply Rle_mult_inv_pos; assumption).
  assert (HlO : lam * O <= 1).
  { apply (Rmult_le_reg_r vol); [exact Hv|].
    replace (lam * O * vol) with (dt * O) by (unfold lam; field; lra). lra. }
  (* with mu = lam * O in [0,1]:  ci - mu * (ci - m) <= ci - lam * D <= ci - mu * (ci - M) *)
  clearbody lam. split; nra.
Qed.

Section Step.
  Variable I : input R.
  Variable o : output.
  Variable b : nat -> R.        (* boundary values, per face *)
  Variable vol : nat -> R.
  Variable dt : R.

  Notation up := (up R nonnegR I).
  Notation inflow := (inflow R nonnegR I).
  Notation deleted := (deleted R nonnegR I).
  Notation faces := (faces R I).

  (* advective flux through face f, as composed in porepy's models:
       darcy_flux * (upwind @ c) + bound_transport_dir @ (darcy_flux * bc) + bound_transport_neu @ bc *)
  Definition face_flux (c : nat -> R) (f : nat) : R :=
    q I f * row_apply (upwind o) c f
    + row_apply (bound_dir o) (fun g => q I g * b g) f
    + row_apply (bound_neu o) b f.

  (* (Div F)_i with Div = cell_faces^T *)
  Definition div_list (l : list inc) (F : nat -> R) (i : nat) : R :=
    fold_right (fun t acc => if (tc t =? i)%nat then IZR (ts t) * F (tf t) + acc else acc) 0 l.
  Definition div_cell (F : nat -> R) (i : nat) : R := div_list (cf I) F i.

  Definition out_list (l : list inc) (i : nat) : R :=
    fold_right (fun t acc => if (tc t =? i)%nat then Rmax (IZR (ts t) * q I (tf t)) 0 + acc else acc)
               0 l.
  Definition outflow (i : nat) : R := out_list (cf I) i.

  Definition step (c : nat -> R) (i : nat) : R := c i - dt / vol i * div_cell (face_flux c) i.

  Definition total (c : nat -> R) : R := rsum (fun i => vol i * c i) (nc I).

  (* no-flow boundary: a face either carries no flux and no boundary value, or is an interior
     face (no boundary flag, signs cancel in the divergence) *)
  Definition noflow (f : nat) : Prop :=
    (q I f = 0 /\ b f = 0) \/
    (is_neu I f = false /\ is_dir I f = false /\ sgn_div (cf I) f = 0%Z).

  Definition wf_inc : Prop :=
    forall t, In t (cf I) -> (tf t < nf I)%nat /\ (tc t < nc I)%nat.

  Lemma div_list_cons t l F i :
    div_list (t :: l) F i =
    if (tc t =? i)%nat then IZR (ts t) * F (tf t) + div_list l F i else div_list l F i.
  Proof. reflexivity. Qed.

  Lemma div_list_ext l F G i : (forall f, F f = G f) -> div_list l F i = div_list l G i.
  Proof.
    intros H. induction l as [|t l IH]; [reflexivity|]. rewrite !div_list_cons, IH, H. reflexivity.
  Qed.

  Lemma out_list_cons t l i :
    out_list (t :: l) i =
    if (tc t =? i)%nat then Rmax (IZR (ts t) * q I (tf t)) 0 + out_list l i else out_list l i.
  Proof. reflexivity. Qed.

  Lemma div_total (F : nat -> R) : forall l,
    (forall t, In t l -> (tf t < nf I)%nat /\ (tc t < nc I)%nat) ->
    rsum (div_list l F) (nc I) = rsum (fun f => IZR (sgn_div l f) * F f) (nf I).
  Proof.
    induction l as [|[[f0 c0] s0] l IH]; intros H.
    - rewrite !rsum_zero; [reflexivity | intros; cbn; lra | reflexivity].
    - destruct (H _ (or_introl eq_refl)) as [Hf Hc]. unfold tf, tc in Hf, Hc. cbn [fst snd] in Hf, Hc.
      transitivity (IZR s0 * F f0 + rsum (div_list l F) (nc I)).
      + rewrite <- (rsum_add_at c0) by exact Hc. reflexivity.
      + rewrite IH by (intros; apply H; right; assumption).
        rewrite <- (rsum_add_at f0) by exact Hf. apply rsum_ext. intros f _.
        rewrite sgn_div_cons. destruct (Nat.eqb_spec f0 f) as [->|_]; [rewrite plus_IZR; lra | reflexivity].
  Qed.

  Hypothesis Hok : discretize R nonnegR I = Ok o.
  Hypothesis Hdim : dim I <> 0%nat.
  Hypothesis Hk : ncomp I = 1%nat.

  Lemma face_flux_char c f : (f < nf I)%nat ->
    face_flux c f =
      (if deleted f then 0 else q I f * match up f with Some cu => c cu | None => 0 end)
      + (if inflow f then q I f * b f else 0)
      + (if is_neu I f then IZR (sgn_div (cf I) f) * b f else 0).
  Proof.
    intros Hf. unfold face_flux. destruct (discretize_ok _ _ _ _ Hok Hdim) as [-> Hup].
    cbn [upwind bound_dir bound_neu run_output]. rewrite Hk, !kron_1, !diag_rows_rows.
    unfold C17.faces. rewrite !row_apply_rows by exact Hf. unfold kept, upc.
    destruct (deleted f) eqn:Dl; cbn [negb]; [|destruct (Hup f Hf Dl) as [cu [-> _]]];
      destruct (inflow f); lra.
  Qed.

  Lemma face_flux_zero c f : (f < nf I)%nat -> q I f = 0 -> b f = 0 -> face_flux c f = 0.
  Proof.
    intros Hf Hq Hb. rewrite (face_flux_char c f Hf), Hq, Hb.
    destruct (deleted f), (inflow f), (is_neu I f); lra.
  Qed.

  Lemma total_step c :
    (forall i, (i < nc I)%nat -> vol i <> 0) ->
    total (step c) = total c - dt * rsum (div_cell (face_flux c)) (nc I).
  Proof.
    intros Hv. unfold total, step. rewrite !rsum_lsum, <- lsum_scal.
    transitivity (lsum (fun i => vol i * c i + -1 * (dt * div_cell (face_flux c) i)) (seq 0 (nc I))).
    - apply lsum_ext. intros i Hi. field. apply Hv, in_seq0, Hi.
    - rewrite lsum_plus, lsum_scal. lra.
  Qed.

  Theorem conservative_theorem c :
    wf_inc -> (forall f, (f < nf I)%nat -> noflow f) ->
    (forall i, (i < nc I)%nat -> vol i <> 0) ->
    total (step c) = total c.
  Proof.
    intros Hwf Hnf Hv. rewrite total_step by exact Hv.
    assert (Z : rsum (div_cell (face_flux c)) (nc I) = 0); [|rewrite Z; lra].
    unfold div_cell. rewrite div_total by exact Hwf.
    apply rsum_zero. intros f Hf. destruct (Hnf f Hf) as [[Hq Hb]|[_ [_ Hs]]].
    - rewrite (face_flux_zero c f Hf Hq Hb). lra.
    - rewrite Hs. lra.
  Qed.

  Lemma up_out f i s :
    one_sided (cf I) -> In (f, i, s) (cf I) -> IZR s * q I f > 0 -> up f = Some i.
  Proof.
    intros Hw Hin Hp. rewrite up_dense. apply (dense_unique _ _ _ _ s Hw Hin).
    unfold pos. destruct (nonnegR_spec (q I f)); cbn; apply Z.ltb_lt, lt_IZR; nra.
  Qed.

  (* the value the flux through f carries, seen from cell i *)
  Lemma face_u c m M f i :
    one_sided (cf I) -> (f < nf I)%nat -> noflow f -> (i < nc I)%nat ->
    (forall j, (j < nc I)%nat -> m <= c j <= M) ->
    exists u, face_flux c f = q I f * u /\ m <= u <= M /\
              (forall s, In (f, i, s) (cf I) -> IZR s * q I f > 0 -> u = c i).
  Proof.
    intros Hw Hf Hn Hi Hb. destruct Hn as [[Hq Hbf]|[Hn [Hd Hs]]].
    - exists (c i). rewrite (face_flux_zero c f Hf Hq Hbf), Hq.
      split; [lra|]. split; [apply Hb; exact Hi | reflexivity].
    - rewrite (face_flux_char c f Hf). assert (Di : inflow f = false) by (rewrite inflow_alt, Hd; reflexivity).
      assert (Dl : deleted f = false) by (rewrite deleted_alt, Hn, Hd; reflexivity).
      destruct (proj2 (discretize_ok _ _ _ _ Hok Hdim) f Hf Dl) as [cu [Uf Hcu]].
      rewrite Dl, Di, Hn, Uf. exists (c cu). split; [lra|]. split; [apply Hb; exact Hcu|].
      intros s Hin Hp. rewrite (up_out _ _ _ Hw Hin Hp) in Uf. injection Uf as ->. reflexivity.
  Qed.

  (* summed over the entries of cell i (any part l of them), face by face *)
  Lemma div_bounds c m M i l :
    one_sided (cf I) -> wf_inc -> (forall f, (f < nf I)%nat -> noflow f) -> (i < nc I)%nat ->
    (forall j, (j < nc I)%nat -> m <= c j <= M) ->
    (forall t, In t l -> In t (cf I)) ->
    div_list l (q I) i * M + out_list l i * (c i - M) <= div_list l (face_flux c) i
      <= div_list l (q I) i * m + out_list l i * (c i - m)
    /\ 0 <= out_list l i.
  Proof.
    intros Hw Hwf Hnf Hi Hb. induction l as [|[[f cc] s] l IH]; intros Hsub.
    - cbn. lra.
    - specialize (IH (fun t Ht => Hsub t (or_intror Ht))).
      rewrite !div_list_cons, out_list_cons. unfold tc, ts, tf. cbn [fst snd].
      destruct (Nat.eqb_spec cc i) as [->|_]; [|exact IH].
      pose proof (Hsub _ (or_introl eq_refl)) as Hin. destruct (Hwf _ Hin) as [Hf _].
      destruct (face_u c m M f i Hw Hf (Hnf f Hf) Hi Hb) as [u [-> [Hu Hsel]]].
      pose proof (upwind_term (IZR s * q I f) u (c i) m M Hu (Hb i Hi) (Hsel s Hin)) as B.
      pose proof (Rmax_r (IZR s * q I f) 0). nra.
  Qed.

  Theorem max_principle_theorem c m M :
    one_sided (cf I) -> wf_inc -> (forall f, (f < nf I)%nat -> noflow f) ->
    0 <= dt ->
    (forall i, (i < nc I)%nat -> 0 < vol i /\ dt * outflow i <= vol i) ->     (* CFL *)
    (forall i, (i < nc I)%nat -> div_cell (q I) i = 0) ->                      (* divergence free *)
    (forall j, (j < nc I)%nat -> m <= c j <= M) ->
    forall i, (i < nc I)%nat -> m <= step c i <= M.
  Proof.
    intros Hw Hwf Hnf Hdt Hcfl Hdiv Hb i Hi.
    destruct (Hcfl i Hi) as [Hv Hc]. unfold step, outflow, div_cell in *.
    destruct (div_bounds c m M i (cf I) Hw Hwf Hnf Hi Hb (fun t H => H)) as [[L U] P].
    rewrite (Hdiv i Hi) in L, U.
    apply (convex_step (c i) m M dt (vol i) (out_list (cf I) i)); try assumption; [apply Hb; exact Hi | lra].
  Qed.
End Step.

Section Components.
  Variable T : Type.
  Variable nonneg : T -> bool.

  Definition set_ncomp (I : input T) (k : nat) : input T :=
    {| dim := dim I; nf := nf I; nc := nc I; cf := cf I; q := q I;
       is_dir := is_dir I; is_neu := is_neu I; ncomp := k |}.

  (* the number of components enters a run only through the final expansion *)
  Lemma run_ncomp I o k :
    discretize T nonneg I = Ok o -> dim I <> 0%nat ->
    o = run_output T nonneg I /\
    discretize T nonneg (set_ncomp I k) = Ok (run_output T nonneg (set_ncomp I k)).
  Proof.
    intros Hok Hd.
    rewrite (discretize_run T nonneg I Hd) in Hok. rewrite (discretize_run T nonneg (set_ncomp I k) Hd).
    change (existsb (failsb T nonneg (set_ncomp I k)) (faces T (set_ncomp I k)))
      with (existsb (failsb T nonneg I) (faces T I)).
    destruct (existsb _ _); [discriminate|]. injection Hok as <-. split; reflexivity.
  Qed.

  Lemma run_output_kron I :
    let o := run_output T nonneg I in
    let o1 := run_output T nonneg (set_ncomp I 1) in
    upwind o = kron (ncomp I) (upwind o1) /\
    bound_dir o = kron (ncomp I) (bound_dir o1) /\
    bound_neu o = kron (ncomp I) (bound_neu o1).
  Proof.
    cbn [upwind bound_dir bound_neu run_output ncomp set_ncomp]. rewrite !kron_1. repeat split.
  Qed.
End Components.

Fixpoint steps (I : input R) (o : output) (b vol : nat -> R) (dt : R) (n : nat)
         (c : nat -> R) : nat -> R :=
  match n with
  | O => c
  | S n' => step I o b vol dt (steps I o b vol dt n' c)
  end.
