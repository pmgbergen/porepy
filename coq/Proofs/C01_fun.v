(* C01 — proofs for the function library (functions.py): for every function f of the
   table, the factor [ffac f x] the code multiplies the Jacobian with is the derivative of
   the value expression [fval f] at x, on the function's smooth domain. *)
From Coq Require Import Reals ZArith List Lra Lia.
From Coquelicot Require Import Coquelicot.
From PP Require Import Model.C01 Model.C01R Proofs.C01.
Import ListNotations.
Open Scope R_scope.

Definition fsmooth (f : fn R) (x : R) : Prop :=
  match f with
  | Fexp | Fsin | Fcos | Farctan | Fsinh | Fcosh | Ftanh | Farcsinh => True
  | Flog => 0 < x
  | Fabs => x <> 0
  | Ftan => cos x <> 0
  | Farcsin | Farccos | Farctanh => -1 < x < 1
  | Farccosh => 1 < x
  | Fheaviside _ => x <> 0
  | Fheaviside_smooth eps => eps <> 0
  | Fcharacteristic tol => Rabs x <> tol
  end.

Lemma np_abs_pos x : 0 < x -> np_abs ROps x = x.
Proof. intros H. unf. now rewrite ltbR_false by lra. Qed.
Lemma np_abs_neg x : x < 0 -> np_abs ROps x = - x.
Proof. intros H. unf. now rewrite ltbR_true. Qed.
Lemma np_abs_Rabs x : np_abs ROps x = Rabs x.
Proof.
  destruct (Rlt_dec x 0).
  - now rewrite np_abs_neg, Rabs_left.
  - unf. now rewrite ltbR_false, Rabs_right by lra.
Qed.

Lemma continuous_np_abs x : continuous (np_abs ROps) x.
Proof.
  apply (continuous_ext Rabs); [|apply continuous_Rabs].
  intros y. symmetry. apply np_abs_Rabs.
Qed.

Lemma cosh_pos x : 0 < cosh x.
Proof. unfold cosh. pose proof (exp_pos x). pose proof (exp_pos (- x)). lra. Qed.

Lemma ch2_sh2 x : cosh x * cosh x - sinh x * sinh x = 1.
Proof.
  unfold cosh, sinh. replace 1 with (exp x * exp (- x)).
  - field.
  - rewrite <- exp_plus, Rplus_opp_r. apply exp_0.
Qed.

Lemma Rpower_mhalf y : 0 < y -> Rpower y (- (1 / 2)) = / sqrt y.
Proof.
  intros Hy. rewrite Rpower_Ropp. replace (1 / 2) with (/ 2) by lra.
  now rewrite Rpower_sqrt.
Qed.

Lemma fr_tan x : cos x <> 0 -> is_derive (fval ROps Ftan) x (ffac ROps Ftan x).
Proof.
  intros H. unf. rewrite pz_2, pz_m1. eapply is_derive_eq.
  - apply is_derive_tan. exact H.
  - unfold tan. pose proof (sin2_cos2 x) as E. unfold Rsqr in E.
    replace (/ (cos x * cos x)) with ((sin x * sin x + cos x * cos x) / (cos x * cos x))
      by (rewrite E; now field).
    now field.
Qed.

(* 1 - x^2 is positive inside (-1, 1): the factor of arcsin and arccos *)
Lemma asin_fac x : -1 < x < 1 -> Rpower (1 - powerRZ x 2) (- (1 / 2)) = / sqrt (1 - x²).
Proof. intros H. rewrite pz_2. unfold Rsqr. apply Rpower_mhalf. nra. Qed.

Lemma fr_arcsin x : -1 < x < 1 -> is_derive (fval ROps Farcsin) x (ffac ROps Farcsin x).
Proof.
  intros H. unf. rewrite asin_fac by exact H. eapply is_derive_eq.
  - apply is_derive_Reals. eapply derive_pt_eq_1. apply (derive_pt_asin x H).
  - apply Rmult_1_l.
Qed.

Lemma fr_arccos x : -1 < x < 1 -> is_derive (fval ROps Farccos) x (ffac ROps Farccos x).
Proof.
  intros H. unf. rewrite asin_fac by exact H. eapply is_derive_eq.
  - apply is_derive_Reals. eapply derive_pt_eq_1. apply (derive_pt_acos x H).
  - unfold Rdiv. ring.
Qed.

Lemma fr_arctan x : is_derive (fval ROps Farctan) x (ffac ROps Farctan x).
Proof.
  unf. rewrite pz_2, pz_m1. eapply is_derive_eq.
  - apply is_derive_atan.
  - unfold Rsqr. f_equal. ring.
Qed.

Lemma fr_tanh x : is_derive (fval ROps Ftanh) x (ffac ROps Ftanh x).
Proof.
  unf. rewrite pz_m2. unfold tanh.
  pose proof (cosh_pos x) as Hc. pose proof (ch2_sh2 x) as E.
  auto_derive.
  - repeat split; auto. lra.
  - field_simplify_eq; [nra | lra].
Qed.

Lemma fr_arcsinh x : is_derive (fval ROps Farcsinh) x (ffac ROps Farcsinh x).
Proof.
  unf. rewrite pz_2, Rpower_mhalf by nra.
  replace (x * x) with (x ^ 2) by ring.
  apply is_derive_Reals, derivable_pt_lim_arcsinh.
Qed.

Lemma fr_arccosh x : 1 < x -> is_derive (fval ROps Farccosh) x (ffac ROps Farccosh x).
Proof.
  intros H. unf.
  rewrite !Rpower_mhalf, <- Rinv_mult, <- sqrt_mult by lra.
  replace ((x - 1) * (x + 1)) with (x * x + - (1)) by ring.
  assert (Hs : 0 < sqrt (x * x + - (1))) by (apply sqrt_lt_R0; nra).
  unfold acoshR. auto_derive.
  - repeat split; auto; nra.
  - field. split; lra.
Qed.

Lemma fr_arctanh x : -1 < x < 1 -> is_derive (fval ROps Farctanh) x (ffac ROps Farctanh x).
Proof.
  intros H. unf. rewrite pz_2, pz_m1. unfold atanhR.
  assert (Hq : 0 < (1 + x) / (1 - x)).
  { apply Rmult_lt_0_compat; [lra | apply Rinv_0_lt_compat; lra]. }
  auto_derive.
  - repeat split; auto. lra.
  - field. repeat split; nra.
Qed.

Lemma fr_heaviside_smooth eps x : eps <> 0 ->
  is_derive (fval ROps (Fheaviside_smooth eps)) x (ffac ROps (Fheaviside_smooth eps) x).
Proof.
  intros H. unf. rewrite !pz_m1, !pz_2.
  pose proof PI_neq0 as Hpi.
  auto_derive.
  - exact I.
  - field. repeat split; try assumption. nra.
Qed.

Lemma fr_abs x : x <> 0 -> is_derive (fval ROps Fabs) x (ffac ROps Fabs x).
Proof.
  intros H. unf.
  apply is_derive_ltb; [apply continuous_id | apply continuous_const | exact H |].
  destruct (Rlt_dec x 0).
  - rewrite (ltbR_true x 0), (ltbR_false 0 x) by lra.
    exact (is_derive_opp _ _ _ (is_derive_id x)).
  - rewrite (ltbR_false x 0), (ltbR_true 0 x) by lra. exact (is_derive_id x).
Qed.

Lemma fr_heaviside z x : x <> 0 ->
  is_derive (fval ROps (Fheaviside z)) x (ffac ROps (Fheaviside z) x).
Proof.
  intros H. unf.
  apply is_derive_ltb; [apply continuous_id | apply continuous_const | exact H |].
  destruct (ltbR x 0); [apply @is_derive_const|].
  apply is_derive_ltb; [apply continuous_const | apply continuous_id | auto |].
  destruct (ltbR 0 x); apply @is_derive_const.
Qed.

Lemma fr_characteristic tol x : Rabs x <> tol ->
  is_derive (fval ROps (Fcharacteristic tol)) x (ffac ROps (Fcharacteristic tol) x).
Proof.
  intros H. cbn [fval ffac]. unfold np_isclose0. cbn [oltb o0 o1 ROps].
  apply (is_derive_ltb (fun _ => tol) (np_abs ROps));
    [apply continuous_const | apply continuous_np_abs | rewrite np_abs_Rabs; auto |].
  destruct (ltbR tol (np_abs ROps x)); apply @is_derive_const.
Qed.

Lemma fun_rule (f : fn R) (x : R) :
  fsmooth f x -> is_derive (fval ROps f) x (ffac ROps f x).
Proof.
  destruct f; cbn [fsmooth]; intros H.
  - (* exp *) unf. auto_derive. exact I. ring.
  - (* log *) unf. auto_derive. exact H. field. lra.
  - now apply fr_abs.
  - (* sin *) unf. auto_derive. exact I. ring.
  - (* cos *) unf. auto_derive. exact I. ring.
  - now apply fr_tan.
  - now apply fr_arcsin.
  - now apply fr_arccos.
  - apply fr_arctan.
  - (* sinh *) unf. auto_derive. exact I. ring.
  - (* cosh *) unf. auto_derive. exact I. ring.
  - apply fr_tanh.
  - apply fr_arcsinh.
  - now apply fr_arccosh.
  - now apply fr_arctanh.
  - now apply fr_heaviside.
  - now apply fr_heaviside_smooth.
  - now apply fr_characteristic.
Qed.

Lemma rule_fun (f : fn R) (u : R -> R) (t du : R) :
  is_derive u t du -> fsmooth f (u t) ->
  is_derive (fun s => fval ROps f (u s)) t (snd (d_fun ROps f (u t, du))).
Proof. intros Hu Hs. exact (chain _ u t _ du (fun_rule f (u t) Hs) Hu). Qed.
