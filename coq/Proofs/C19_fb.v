(* C19 (2-D legacy branch) — proofs about PP.Model.C19_fb.  Main lemma [legacy_star]: for a cell
   that is star-shaped w.r.t. t, the legacy volume and centre (sums of absolute values) are the
   oriented ones of the correctly traversed loop. *)
From Coq Require Import List ZArith QArith Qabs Qfield Bool Arith Lia Lqa Permutation.
Import ListNotations.
From PP Require Import Model.C19 Model.C19_fb Proofs.C19.
Open Scope Q_scope.

(* e' is the face e traversed in the cell's true sense of rotation (same two nodes, possibly
   swapped, sign +1) *)
Definition reoriented (e e' : sface) : Prop :=
  sign_ok e /\ snd e' = 1%Z /\
  ((f_start e' = f_start e /\ f_end e' = f_end e) \/ (f_start e' = f_end e /\ f_end e' = f_start e)).

Lemma subnormal_reoriented t e e' : reoriented e e' ->
  (subnormal t e == subvol 1 t e' \/ subnormal t e == - subvol 1 t e') /\
  px (fcenter e') == px (fcenter e) /\ py (fcenter e') == py (fcenter e).
Proof.
  intros (Hs & H1 & Hp).
  destruct e as [[[p1 p2] [q1 q2]] s], e' as [[[a1 a2] [b1 b2]] s']. cbn [snd] in H1. subst s'.
  unfold sign_ok in Hs. cbn [snd] in Hs.
  unfold f_start, f_end in Hp. cbn [fst snd] in Hp.
  destruct Hp as [[E1 E2]|[E1 E2]]; injection E1 as -> ->; injection E2 as -> ->;
    destruct Hs as [-> | ->];
    unfold subvol, subnormal, fcenter, tangent, f_start, f_end, f_sgn, cross, psub, padd, pscale, px, py;
    cbn [fst snd inject_Z]; (split; [|split; ring]); [left|right|right|left]; ring.
Qed.

Lemma subabs_reoriented t e e' : reoriented e e' -> 0 <= subvol 1 t e' ->
  subabs t e == subvol 1 t e'.
Proof.
  intros Hr Hpos. destruct (subnormal_reoriented t e e' Hr) as [[E|E] _]; unfold subabs; rewrite E.
  - apply Qabs_pos. exact Hpos.
  - rewrite Qabs_opp. apply Qabs_pos. exact Hpos.
Qed.

Lemma legacy_star t es es' : Forall2 reoriented es es' ->
  (forall e', In e' es' -> 0 <= subvol 1 t e') ->
  fb_volume t es == cell_volume 1 t es' /\
  px (fb_moment t es) == px (cell_moment 1 t es') /\
  py (fb_moment t es) == py (cell_moment 1 t es').
Proof.
  unfold fb_volume, fb_moment, cell_volume, cell_moment, px, py. cbn [fst snd].
  induction 1 as [|e e' es es' Hr HF IH]; intro Hpos.
  - cbn. repeat split; reflexivity.
  - assert (0 <= subvol 1 t e') as Hp by (apply Hpos; left; reflexivity).
    destruct IH as (I1 & I2 & I3); [intros; apply Hpos; right; assumption|].
    pose proof (subabs_reoriented t e e' Hr Hp) as Ea.
    destruct (subnormal_reoriented t e e' Hr) as (_ & Cx & Cy). unfold px, py in Cx, Cy.
    cbn [map]. rewrite !sumQ_cons, I1, I2, I3, Ea, Cx, Cy. repeat split; reflexivity.
Qed.

Lemma legacy_star_area t es es' : Forall2 reoriented es es' ->
  (forall e', In e' es' -> 0 <= subvol 1 t e') -> signs_ok es' -> closed es' ->
  fb_volume t es == shoelace 1 es'.
Proof.
  intros HF Hpos Hs Hc. destruct (legacy_star t es es' HF Hpos) as (H & _).
  rewrite H. apply volume_shoelace; assumption.
Qed.

Lemma legacy_star_center t es es' : Forall2 reoriented es es' ->
  (forall e', In e' es' -> 0 <= subvol 1 t e') ->
  px (fb_center t es) == px (cell_center 1 t es') /\ py (fb_center t es) == py (cell_center 1 t es').
Proof.
  intros HF Hpos. destruct (legacy_star t es es' HF Hpos) as (H1 & H2 & H3).
  unfold fb_center, cell_center, px, py in *. cbn [fst snd]. rewrite H1, H2, H3. split; reflexivity.
Qed.

Lemma fb_volume_nonneg t es : 0 <= fb_volume t es.
Proof.
  unfold fb_volume. apply sumQ_nonneg. intros x Hx. apply in_map_iff in Hx.
  destruct Hx as (e & <- & _). apply Qabs_nonneg.
Qed.

(* the flip decision of an entry makes sign * normal point from the temporary centre to the face *)
Lemma flip_entry_outward sigma t e :
  let n := fnormal sigma e in
  let n' := if flip_entry sigma t e then (- px n, - py n) else n in
  0 <= f_sgn e * dot (psub (fcenter e) t) n'.
Proof.
  cbn zeta. unfold flip_entry.
  destruct (Qlt_le_dec (f_sgn e * dot (psub (fcenter e) t) (fnormal sigma e)) 0) as [L|L]; [|exact L].
  set (h := psub (fcenter e) t) in *. set (n := fnormal sigma e) in *.
  setoid_replace (f_sgn e * dot h (- px n, - py n)) with (- (f_sgn e * dot h n))
    by (unfold dot, px, py; cbn [fst snd]; ring).
  lra.
Qed.

Lemma geometry2f_branches g :
  match geometry2f g with
  | (BOriented, r) => geometry2 g = GOk r
  | (BLegacySameNormal, r) =>
      oriented1 g = true /\ ~ plane_sum g == 0 /\ geometry2 g = GFallback /\
      r = legacy g (qsign (plane_sum g))
  | (BLegacyGeneralNormal, r) =>
      (oriented1 g = false \/ plane_sum g == 0) /\ r = legacy g (general_normal (g_nodes g))
  end.
Proof.
  unfold geometry2f. destruct (oriented1 g) eqn:EO; cbn [andb].
  - destruct (Qeq_bool (plane_sum g) 0) eqn:ES; cbn [negb].
    + split; [right; apply Qeq_bool_iff; exact ES|reflexivity].
    + destruct (geometry2 g) eqn:EG; [reflexivity|].
      split; [reflexivity|]. split; [intro H; apply Qeq_bool_iff in H; congruence|]. split; reflexivity.
  - split; [left; reflexivity|reflexivity].
Qed.
