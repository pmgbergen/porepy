(* C27 — lemmas: the index blocks of the grids of a list, vstack / hstack, selection matrices and
   their products, expand_indices_nd, the projection dictionaries, SubdomainProjections, dense
   reading of coordinate lists. *)
From Coq Require Import List ZArith QArith Bool Arith Lia Permutation.
Import ListNotations.
From PP Require Import Lib.ListFacts Model.C27 Model.C27_spec.
Local Open Scope nat_scope.

Lemma flat_map_ext_in : forall {A B} (f g : A -> list B) l,
    (forall a, In a l -> f a = g a) -> flat_map f l = flat_map g l.
Proof. intros A B f g l H. rewrite !flat_map_concat_map. f_equal. now apply map_ext_in. Qed.

Lemma flat_map_single : forall {A B} (f : A -> B) l, flat_map (fun a => [f a]) l = map f l.
Proof. intros A B f l; induction l as [|a l IH]; cbn; [reflexivity|now rewrite IH]. Qed.

Lemma flat_map_map : forall {A B C} (f : A -> B) (g : B -> list C) l,
    flat_map g (map f l) = flat_map (fun a => g (f a)) l.
Proof. intros. now rewrite !flat_map_concat_map, map_map. Qed.

Lemma map_flat_map : forall {A B C} (h : B -> C) (f : A -> list B) l,
    map h (flat_map f l) = flat_map (fun x => map h (f x)) l.
Proof. intros. now rewrite !flat_map_concat_map, concat_map, map_map. Qed.

Lemma filter_map_comm : forall {A B} (f : A -> B) (p : B -> bool) l,
    filter p (map f l) = map f (filter (fun a => p (f a)) l).
Proof.
  intros A B f p l; induction l as [|a l IH]; cbn; [reflexivity|].
  destruct (p (f a)); cbn; now rewrite IH.
Qed.

Lemma filter_none : forall {A} (p : A -> bool) l,
    (forall a, In a l -> p a = false) -> filter p l = [].
Proof.
  intros A p l; induction l as [|a l IH]; intros H; cbn; [reflexivity|].
  rewrite (H a (or_introl eq_refl)). apply IH. intros b Hb; apply H; right; exact Hb.
Qed.

Lemma filter_key : forall {A} (key : A -> nat) L p,
    NoDup (map key L) -> In p L -> filter (fun q => key q =? key p) L = [p].
Proof.
  intros A key L p; induction L as [|q L IH]; intros Hnd Hin; [destruct Hin|].
  cbn [map] in Hnd. apply NoDup_cons_iff in Hnd. destruct Hnd as (Hq & Hnd).
  cbn [filter]. destruct Hin as [->|Hin].
  - rewrite Nat.eqb_refl. f_equal. apply filter_none. intros a Ha. apply Nat.eqb_neq.
    intro E. apply Hq. rewrite <- E. now apply in_map.
  - destruct (Nat.eqb_spec (key q) (key p)) as [E|_]; [|now apply IH].
    exfalso. apply Hq. rewrite E. now apply in_map.
Qed.

Lemma filter_eq_seq : forall s a c,
    a <= c < a + s -> filter (fun k => k =? c) (seq a s) = [c].
Proof.
  intros s a c H. apply (filter_key (fun k => k)); [|now apply in_seq].
  rewrite map_id. apply seq_NoDup.
Qed.

Lemma combine_map_l : forall {A B} (f : A -> B) l,
    combine (map f l) l = map (fun a => (f a, a)) l.
Proof. intros A B f l; induction l as [|a l IH]; cbn; [reflexivity|now rewrite IH]. Qed.

Lemma existsb_eqb_In : forall i cs, existsb (Nat.eqb i) cs = true <-> In i cs.
Proof.
  intros. rewrite existsb_exists. split.
  - intros (x & Hx & E). apply Nat.eqb_eq in E. now subst.
  - intros H. exists i. split; [exact H|apply Nat.eqb_refl].
Qed.

Lemma NoDup_app_iff : forall {A} (l m : list A),
    NoDup (l ++ m) <-> NoDup l /\ NoDup m /\ (forall x, In x l -> In x m -> False).
Proof.
  intros A l m; induction l as [|a l IH]; cbn [app].
  - split; [intros H; repeat split; [constructor|exact H|intros x []]|tauto].
  - rewrite !NoDup_cons_iff, IH, in_app_iff. split.
    + intros (Ha & Hl & Hm & Hd). split; [split; [intro H; apply Ha; now left|exact Hl]|].
      split; [exact Hm|]. intros x [->|Hx] Hxm; [apply Ha; now right|exact (Hd x Hx Hxm)].
    + intros ((Ha & Hl) & Hm & Hd). split; [|split; [exact Hl|split; [exact Hm|]]].
      * intros [H|H]; [contradiction|]. apply (Hd a); [now left|exact H].
      * intros x Hx. apply Hd. now right.
Qed.

Lemma NoDup_flat_map_inv : forall {A B} (f : A -> list B) l a b x,
    NoDup (flat_map f l) -> In a l -> In b l -> In x (f a) -> In x (f b) -> a = b.
Proof.
  intros A B f l; induction l as [|c l IH]; intros a b x Hnd Ha Hb Hxa Hxb; [destruct Ha|].
  cbn [flat_map] in Hnd. apply NoDup_app_iff in Hnd. destruct Hnd as (_ & Hl & Hd).
  destruct Ha as [->|Ha], Hb as [->|Hb]; [reflexivity| | |now apply (IH a b x)]; exfalso.
  - apply (Hd x Hxa). apply in_flat_map. now exists b.
  - apply (Hd x Hxb). apply in_flat_map. now exists a.
Qed.

Lemma NoDup_flat_map_keyed : forall {A B K} (key : A -> K) (f : A -> list B) l,
    NoDup (map key l) -> (forall a, In a l -> NoDup (f a)) ->
    (forall a b x, In a l -> In b l -> In x (f a) -> In x (f b) -> key a = key b) ->
    NoDup (flat_map f l).
Proof.
  intros A B K key f l; induction l as [|a l IH]; intros Hk Hf Hd; [constructor|].
  cbn [map] in Hk. apply NoDup_cons_iff in Hk. destruct Hk as (Ha & Hk).
  cbn [flat_map]. apply NoDup_app_iff. split; [apply Hf; now left|]. split.
  - apply IH; [exact Hk| |].
    + intros b Hb. apply Hf. now right.
    + intros b b' x Hb Hb'. apply Hd; now right.
  - intros x Hxa Hx. apply in_flat_map in Hx. destruct Hx as (b & Hb & Hxb).
    apply Ha. rewrite (Hd a b x); [now apply in_map|now left|now right|exact Hxa|exact Hxb].
Qed.

Lemma Qmult_1_r_eq : forall v : Q, (v * 1)%Q = v.
Proof.
  intros [n d]. unfold Qmult; cbn [Qnum Qden]. now rewrite Z.mul_1_r, Pos.mul_1_r.
Qed.

Lemma Qmult_1_l_eq : forall v : Q, (1 * v)%Q = v.
Proof. intros [n d]. unfold Qmult; cbn [Qnum Qden]. now destruct n. Qed.

Lemma sum_by_app : forall {X} (f : X -> nat) l m, sum_by f (l ++ m) = sum_by f l + sum_by f m.
Proof. intros X f l m; induction l as [|a l IH]; cbn; [reflexivity|]. rewrite IH. lia. Qed.

Lemma sum_by_map : forall {X Y} (f : Y -> nat) (g : X -> Y) l,
    sum_by f (map g l) = sum_by (fun x => f (g x)) l.
Proof. intros X Y f g l; induction l as [|a l IH]; cbn; [reflexivity|now rewrite IH]. Qed.

Lemma pre_app_head : forall num (all : list grid) g r,
    NoDup (map gid (all ++ g :: r)) -> pre num (all ++ g :: r) (gid g) = sum_by num all.
Proof.
  intros num all g r; induction all as [|a all IH]; cbn [app map pre sum_by]; intros Hnd.
  - now rewrite Nat.eqb_refl.
  - apply NoDup_cons_iff in Hnd. destruct Hnd as (Ha & Hnd).
    destruct (Nat.eqb_spec (gid a) (gid g)) as [E|_]; [|now rewrite IH].
    exfalso. apply Ha. rewrite E, map_app. apply in_or_app. right. now left.
Qed.

Lemma blocks_from : forall num nd l all,
    NoDup (map gid (all ++ l)) ->
    blocks num (all ++ l) nd l = seq (sum_by num all * nd) (sum_by num l * nd).
Proof.
  intros num nd l; induction l as [|g r IH]; intros all Hnd; [reflexivity|].
  unfold blocks in *. cbn [flat_map sum_by]. unfold block at 1.
  rewrite pre_app_head by exact Hnd.
  rewrite (app_assoc all [g] r : all ++ g :: r = _) in *. rewrite IH by exact Hnd.
  rewrite (Nat.mul_add_distr_r (num g)), seq_app, sum_by_app. cbn [sum_by]. do 2 f_equal. lia.
Qed.

Lemma blocks_all : forall num all nd,
    NoDup (map gid all) -> blocks num all nd all = seq 0 (total num all nd).
Proof. intros num all nd Hnd. exact (blocks_from num nd all [] Hnd). Qed.

Lemma blocks_length : forall num all nd req,
    length (blocks num all nd req) = sum_by (fun g => num g * nd) req.
Proof.
  intros; induction req as [|g r IH]; [reflexivity|].
  unfold blocks in *. cbn [flat_map sum_by]. rewrite app_length, IH. unfold block.
  now rewrite seq_length.
Qed.

Lemma in_blocks : forall num all nd req c,
    In c (blocks num all nd req) <->
    exists g, In g req /\ pre num all (gid g) * nd <= c < pre num all (gid g) * nd + num g * nd.
Proof. intros. unfold blocks, block. rewrite in_flat_map. now setoid_rewrite in_seq. Qed.

(* the blocks of the whole list tile 0 .. total-1, so the blocks of distinct grids are disjoint *)
Lemma blocks_NoDup : forall num all nd req,
    NoDup (map gid all) -> NoDup req -> incl req all -> NoDup (blocks num all nd req).
Proof.
  intros num all nd req Hnd Hr Hinc. apply (NoDup_flat_map_keyed (fun g => g)).
  - now rewrite map_id.
  - intros g _. apply seq_NoDup.
  - intros a b x Ha Hb. apply (NoDup_flat_map_inv (block num all nd) all); auto.
    change (NoDup (blocks num all nd all)). rewrite blocks_all by exact Hnd. apply seq_NoDup.
Qed.

Lemma blocks_Permutation : forall num all nd req,
    NoDup (map gid all) -> Permutation req all ->
    Permutation (blocks num all nd req) (seq 0 (total num all nd)).
Proof.
  intros num all nd req Hnd Hp. rewrite <- (blocks_all num all nd Hnd).
  unfold blocks. now apply Permutation_flat_map.
Qed.

Lemma vstack_ok : forall l tot,
    l <> [] -> Forall (fun B => nc B = tot) l ->
    vstack l = Ok (mkM (sum_by nr l) tot (vstack_ents l 0)).
Proof.
  intros [|A l] tot Hne H; [congruence|]. unfold vstack. rewrite (Forall_inv H).
  rewrite (proj2 (forallb_forall _ _)); [reflexivity|].
  intros B HB. apply Nat.eqb_eq. rewrite Forall_forall in H. now apply H.
Qed.

Lemma hstack_ents_tr : forall l a,
    hstack_ents l a
    = map (fun e => (ecol e, erow e, evl e)) (vstack_ents (map transpose l) a).
Proof.
  induction l as [|A l IH]; intros a; [reflexivity|].
  cbn [map hstack_ents vstack_ents transpose ents nr]. rewrite map_app, IH.
  f_equal. rewrite !map_map. apply map_ext. reflexivity.
Qed.

Lemma sum_by_nr_transpose : forall m, sum_by nr (map transpose m) = sum_by nc m.
Proof. induction m as [|B m IH]; [reflexivity|]. cbn [map sum_by]. now rewrite IH. Qed.

Lemma forallb_transpose : forall A m,
    forallb (fun B => nc B =? nc (transpose A)) (map transpose m)
    = forallb (fun B => nr B =? nr A) m.
Proof. intros A m; induction m as [|B m IH]; [reflexivity|]. cbn [map forallb]. now rewrite IH. Qed.

Lemma hstack_as_vstack : forall l,
    hstack l = bind (vstack (map transpose l)) (fun m => Ok (transpose m)).
Proof.
  intros [|A l]; [reflexivity|].
  unfold hstack, vstack.
  change (map transpose (A :: l)) with (transpose A :: map transpose l).
  cbv iota.
  change (transpose A :: map transpose l) with (map transpose (A :: l)).
  rewrite forallb_transpose.
  destruct (forallb (fun B => nr B =? nr A) (A :: l)); [|reflexivity].
  cbn [bind]. rewrite hstack_ents_tr, sum_by_nr_transpose. reflexivity.
Qed.

Lemma hstack_ok : forall l tot,
    l <> [] -> Forall (fun B => nr B = tot) l ->
    hstack l = Ok (mkM tot (sum_by nc l) (hstack_ents l 0)).
Proof.
  intros l tot Hne H. rewrite hstack_as_vstack, (vstack_ok _ tot).
  - cbn [bind]. unfold transpose; cbn [nr nc ents].
    now rewrite sum_by_nr_transpose, hstack_ents_tr.
  - destruct l; [congruence|discriminate].
  - apply Forall_map. exact H.
Qed.

(* prolongation = transpose of restriction, unconditionally (errors included) *)
Lemma prolongation_is_transpose : forall e sp req,
    prolongation e sp req = bind (restriction e sp req) (fun m => Ok (transpose m)).
Proof.
  intros. unfold prolongation, restriction.
  destruct (projections_of e sp) as [d|er]; [|reflexivity]. cbn [bind].
  destruct req as [|g r]; [reflexivity|].
  destruct (lookups d (g :: r)) as [ms|er]; [|reflexivity]. cbn [bind].
  rewrite hstack_as_vstack. reflexivity.
Qed.

Fixpoint selents (a : nat) (cs : list nat) : list entry :=
  match cs with [] => [] | c :: r => (a, c, 1%Q) :: selents (S a) r end.

Lemma selection_eq : forall tot cs, selection tot cs = mkM (length cs) tot (selents 0 cs).
Proof.
  intros. unfold selection. f_equal. generalize 0.
  induction cs as [|c cs IH]; intros a; cbn; [reflexivity|now rewrite IH].
Qed.

Lemma selents_app : forall cs1 cs2 a,
    selents a (cs1 ++ cs2) = selents a cs1 ++ selents (a + length cs1) cs2.
Proof.
  induction cs1 as [|c cs1 IH]; intros cs2 a; cbn; [now rewrite Nat.add_0_r|].
  now rewrite IH, Nat.add_succ_r.
Qed.

Lemma shift_selents : forall a cs b, map (shift_row a) (selents b cs) = selents (a + b) cs.
Proof.
  induction cs as [|c cs IH]; intros b; cbn; [reflexivity|]. now rewrite IH, Nat.add_succ_r.
Qed.

Lemma selents_map_seq : forall (h : nat -> nat) n a b,
    selents a (map h (seq b n)) = map (fun d => (a + d, h (b + d), 1%Q)) (seq 0 n).
Proof.
  induction n as [|n IH]; intros a b; cbn; [reflexivity|].
  rewrite IH, <- seq_shift, map_map, !Nat.add_0_r. f_equal.
  apply map_ext. intros d. now rewrite !Nat.add_succ_r.
Qed.

Lemma selents_cols : forall (P : nat -> Prop) cs a,
    Forall P cs -> Forall (fun e => P (ecol e)) (selents a cs).
Proof. induction cs as [|c cs IH]; intros a H; inversion H; subst; constructor; auto. Qed.

Lemma selents_shift_col : forall off cs a,
    map (fun e => (erow e, off + ecol e, evl e)) (selents a cs)
    = selents a (map (fun c => off + c) cs).
Proof. induction cs as [|c cs IH]; intros a; cbn; [reflexivity|now rewrite IH]. Qed.

Lemma vstack_ents_selections : forall tot cs a,
    vstack_ents (map (selection tot) cs) a = selents a (concat cs).
Proof.
  intros tot cs; induction cs as [|c cs IH]; intros a; [reflexivity|].
  cbn [map vstack_ents concat]. rewrite IH, selents_app, selection_eq. cbn [nr ents].
  now rewrite shift_selents, Nat.add_0_r.
Qed.

Lemma vstack_selections : forall tot cs,
    cs <> [] -> vstack (map (selection tot) cs) = Ok (selection tot (concat cs)).
Proof.
  intros tot cs Hne. rewrite (vstack_ok _ tot).
  - rewrite vstack_ents_selections, selection_eq. do 2 f_equal.
    induction cs as [|c cs IH]; [congruence|]. cbn [map sum_by concat nr selection].
    rewrite app_length. f_equal. destruct cs; [reflexivity|]. apply IH. discriminate.
  - destruct cs; [congruence|discriminate].
  - apply Forall_map, Forall_forall. reflexivity.
Qed.

Definition mul_ents (A B : list entry) : list entry :=
  flat_map (fun a => map (fun b => (erow a, ecol b, (evl a * evl b)%Q))
                         (filter (fun b => erow b =? ecol a) B)) A.

Lemma mul_ok : forall A B,
    nc A = nr B -> mul A B = Ok (mkM (nr A) (nc B) (mul_ents (ents A) (ents B))).
Proof. intros A B H. unfold mul. now rewrite H, Nat.eqb_refl. Qed.

(* both factors list one unit entry per element of L and meet in the component k, which is
   distinct over L: the product pairs each entry with its own partner *)
Lemma mul_ents_keyed : forall {P} (r k c : P -> nat) (L : list P),
    NoDup (map k L) ->
    mul_ents (map (fun p => (r p, k p, 1%Q)) L) (map (fun p => (k p, c p, 1%Q)) L)
    = map (fun p => (r p, c p, 1%Q)) L.
Proof.
  intros P r k c L Hnd. unfold mul_ents.
  rewrite flat_map_map, <- (flat_map_single (fun p => (r p, c p, 1%Q)) L).
  apply flat_map_ext_in. intros p Hp. rewrite filter_map_comm. cbn [erow ecol evl fst snd].
  now rewrite (filter_key k L p Hnd Hp).
Qed.

Lemma transpose_selection_ents : forall tot cs,
    ents (transpose (selection tot cs))
    = map (fun p => (snd p, fst p, 1%Q)) (combine (seq 0 (length cs)) cs).
Proof. intros. unfold transpose, selection; cbn [ents]. now rewrite map_map. Qed.

Lemma mul_sel_selT : forall tot cs,
    NoDup cs ->
    mul (selection tot cs) (transpose (selection tot cs)) = Ok (identity (length cs)).
Proof.
  intros tot cs Hnd. rewrite mul_ok, transpose_selection_ents by reflexivity.
  cbn [selection transpose nr nc ents]. rewrite (mul_ents_keyed fst snd fst).
  - rewrite <- (map_map fst (fun k => (k, k, 1%Q))).
    now rewrite map_fst_combine by now rewrite seq_length.
  - now rewrite map_snd_combine by now rewrite seq_length.
Qed.

Lemma mul_selT_sel : forall tot cs,
    mul (transpose (selection tot cs)) (selection tot cs) = Ok (indicator tot cs).
Proof.
  intros tot cs. rewrite mul_ok, transpose_selection_ents by reflexivity.
  cbn [selection transpose nr nc ents]. rewrite (mul_ents_keyed snd fst snd).
  - rewrite <- (map_map snd (fun c => (c, c, 1%Q))).
    now rewrite map_snd_combine by now rewrite seq_length.
  - rewrite map_fst_combine by now rewrite seq_length. apply seq_NoDup.
Qed.

Lemma mul_selection_seq : forall L tot off s,
    nc L = s -> Forall (fun e => ecol e < s) (ents L) ->
    mul L (selection tot (seq off s))
    = Ok (mkM (nr L) tot (map (fun e => (erow e, off + ecol e, evl e)) (ents L))).
Proof.
  intros L tot off s Hnc Hcols. rewrite selection_eq, seq_length, mul_ok by exact Hnc.
  cbn [nr nc ents]. do 2 f_equal.
  rewrite <- (map_id (seq off s)), selents_map_seq. unfold mul_ents.
  rewrite <- (flat_map_single (fun e : entry => (erow e, off + ecol e, evl e)) (ents L)).
  apply flat_map_ext_in. intros a Ha.
  rewrite Forall_forall in Hcols. specialize (Hcols a Ha).
  rewrite filter_map_comm. cbn [erow fst].
  rewrite filter_eq_seq by lia. cbn [map ecol evl fst snd].
  now rewrite Qmult_1_r_eq.
Qed.

Lemma mul_selection_range : forall n cs tot off,
    Forall (fun c => c < n) cs ->
    mul (selection n cs) (selection tot (seq off n))
    = Ok (selection tot (map (fun c => off + c) cs)).
Proof.
  intros n cs tot off H.
  rewrite mul_selection_seq;
    [|reflexivity|rewrite selection_eq; now apply (selents_cols (fun c => c < n))].
  rewrite !selection_eq, map_length. cbn [nr ents]. now rewrite selents_shift_col.
Qed.

Lemma kron_selents : forall nd cs a,
    flat_map (fun e => map (fun d => (erow e * nd + d, ecol e * nd + d, (evl e * 1)%Q))
                           (seq 0 nd)) (selents a cs)
    = selents (a * nd) (flat_map (fun c => map (fun d => c * nd + d) (seq 0 nd)) cs).
Proof.
  intros nd cs; induction cs as [|c cs IH]; intros a; [reflexivity|].
  cbn [selents flat_map].
  now rewrite selents_app, selents_map_seq, map_length, seq_length, IH, Nat.mul_succ_l.
Qed.

(* sps.kron(S, eye(nd)) of a selection selects nd consecutive columns per column of S *)
Lemma kron_eye_selection : forall n cs nd,
    kron_eye (selection n cs) nd
    = selection (n * nd) (flat_map (fun c => map (fun d => c * nd + d) (seq 0 nd)) cs).
Proof.
  intros n cs nd. rewrite !selection_eq. unfold kron_eye; cbn [nr nc ents]. f_equal.
  - induction cs as [|c cs IH]; [reflexivity|].
    cbn [length flat_map]. rewrite app_length, map_length, seq_length, <- IH. lia.
  - apply (kron_selents nd cs 0).
Qed.

Lemma expand_arange : forall n nd, 1 <= nd -> expand_indices_nd (seq 0 n) nd = seq 0 (n * nd).
Proof.
  intros n nd Hnd. unfold expand_indices_nd.
  destruct (nd =? 1) eqn:E.
  - apply Nat.eqb_eq in E; subst. now rewrite Nat.mul_1_r.
  - induction n as [|n IH]; [reflexivity|].
    rewrite seq_S, flat_map_app, IH. cbn [flat_map plus]. rewrite app_nil_r.
    rewrite map_add_seq, Nat.add_0_r.
    replace (S n * nd) with (n * nd + nd) by lia.
    rewrite seq_app. cbn [plus]. f_equal. f_equal. lia.
Qed.

(* prolongation of one grid: rows = global indices (tot), columns = local indices; its
   transpose selects the grid's index range *)
Definition pmat (tot off s : nat) : mat :=
  mkM tot s (map (fun k => (off + k, k, 1%Q)) (seq 0 s)).

Lemma transpose_pmat : forall tot off s, transpose (pmat tot off s) = selection tot (seq off s).
Proof.
  intros. rewrite selection_eq, seq_length, <- (map_id (seq off s)), selents_map_seq.
  unfold transpose, pmat; cbn [nr nc ents]. now rewrite map_map.
Qed.

Lemma coo_ones_seq : forall tot off s,
    coo_ones tot s (map (fun i => off + i) (seq 0 s)) = Ok (pmat tot off s).
Proof.
  intros. unfold coo_ones. rewrite map_length, seq_length, Nat.eqb_refl.
  unfold pmat. do 2 f_equal. rewrite combine_map_l, map_map. reflexivity.
Qed.

Fixpoint pdict_spec (num : grid -> nat) (tot nd : nat) (l : list grid) (off : nat)
         (acc : pdict) : pdict :=
  match l with
  | [] => acc
  | g :: r => pdict_spec num tot nd r (off + num g * nd)
                         ((gid g, pmat tot off (num g * nd)) :: acc)
  end.

(* the grids that advance the offset are non-empty; the others contribute nothing *)
Definition loop_ok (num : grid -> nat) (always : bool) (g : grid) : Prop :=
  if always || (0 <? gdim g) then 0 < num g else num g = 0.

Lemma proj_loop_spec : forall num always tot nd l off acc,
    1 <= nd -> Forall (loop_ok num always) l ->
    proj_loop num always tot nd l off acc = Ok (pdict_spec num tot nd l off acc).
Proof.
  intros num always tot nd l; induction l as [|g r IH]; intros off acc Hnd Hok; [reflexivity|].
  inversion Hok as [|x xs Hg Hr]; subst.
  cbn [proj_loop pdict_spec]. rewrite expand_arange by exact Hnd.
  rewrite coo_ones_seq. cbn [bind].
  unfold loop_ok in Hg.
  destruct (always || (0 <? gdim g)).
  - (* the index list is not empty; its last element is off + num g * nd - 1 *)
    destruct (num g * nd) as [|s'] eqn:Hs; [nia|].
    rewrite seq_S, map_app, rev_app_distr. cbn [map rev app].
    rewrite IH by assumption. do 2 f_equal. lia.
  - rewrite Hg. cbn [Nat.mul]. rewrite IH by assumption. now rewrite Nat.add_0_r.
Qed.

Lemma lookup_pdict_notin : forall num tot nd l off acc k,
    ~ In k (map gid l) -> lookup (pdict_spec num tot nd l off acc) k = lookup acc k.
Proof.
  intros num tot nd l; induction l as [|g r IH]; intros off acc k Hk; [reflexivity|].
  cbn [pdict_spec]. rewrite IH by (intro H; apply Hk; now right).
  cbn [lookup]. destruct (Nat.eqb_spec (gid g) k) as [E|_]; [|reflexivity].
  exfalso. apply Hk. now left.
Qed.

Lemma lookup_pdict_in : forall num tot nd l off acc g,
    NoDup (map gid l) -> In g l ->
    lookup (pdict_spec num tot nd l off acc) (gid g)
    = Ok (pmat tot (off + pre num l (gid g) * nd) (num g * nd)).
Proof.
  intros num tot nd l; induction l as [|g0 r IH]; intros off acc g Hnd Hin; [destruct Hin|].
  cbn [map] in Hnd. apply NoDup_cons_iff in Hnd. destruct Hnd as (Hx & Hnd).
  cbn [pdict_spec pre].
  destruct Hin as [->|Hin].
  - rewrite lookup_pdict_notin by exact Hx. cbn [lookup]. rewrite Nat.eqb_refl.
    do 2 f_equal. lia.
  - destruct (Nat.eqb_spec (gid g0) (gid g)) as [E|_].
    + exfalso. apply Hx. rewrite E. now apply in_map.
    + rewrite IH by assumption. do 2 f_equal. lia.
Qed.

Definition pdict_of (num : grid -> nat) (sds : list grid) (nd : nat) : pdict :=
  pdict_spec num (total num sds nd) nd sds 0 [].

Lemma lookup_pdict_of : forall num sds nd g,
    NoDup (map gid sds) -> In g sds ->
    lookup (pdict_of num sds nd) (gid g)
    = Ok (pmat (total num sds nd) (pre num sds (gid g) * nd) (num g * nd)).
Proof. intros num sds nd g Hnd Hin. exact (lookup_pdict_in num _ nd sds 0 [] g Hnd Hin). Qed.

Lemma lookup_pdict_of_missing : forall num sds nd k,
    ~ In k (map gid sds) -> lookup (pdict_of num sds nd) k = Err KeyErr.
Proof. intros. unfold pdict_of. now rewrite lookup_pdict_notin. Qed.

Lemma cell_projections_spec : forall sds nd,
    1 <= nd -> Forall wf_grid sds -> cell_projections sds nd = Ok (pdict_of ncells sds nd).
Proof.
  intros sds nd Hnd Hwf. apply proj_loop_spec; [exact Hnd|].
  eapply Forall_impl; [|exact Hwf]. intros g (Hc & _). exact Hc.
Qed.

Lemma face_projections_spec : forall sds nd,
    1 <= nd -> Forall wf_grid sds -> face_projections sds nd = Ok (pdict_of nfaces sds nd).
Proof.
  intros sds nd Hnd Hwf. apply proj_loop_spec; [exact Hnd|].
  eapply Forall_impl; [|exact Hwf]. intros g (_ & H0 & H1). unfold loop_ok. cbn [orb].
  destruct (Nat.ltb_spec 0 (gdim g)); [now apply H1|apply H0; lia].
Qed.

Lemma projections_spec : forall e all nd,
    1 <= nd -> Forall wf_grid all ->
    projections_of e (mkSP all nd) = Ok (pdict_of (num_of e) all nd).
Proof.
  intros [] all nd; [apply cell_projections_spec|apply face_projections_spec].
Qed.

Lemma lookups_spec : forall num all nd req,
    NoDup (map gid all) -> incl req all ->
    lookups (pdict_of num all nd) req
    = Ok (map (fun g => pmat (total num all nd) (pre num all (gid g) * nd) (num g * nd)) req).
Proof.
  intros num all nd req Hnd; induction req as [|g r IH]; intros Hinc; [reflexivity|].
  apply incl_cons_inv in Hinc. destruct Hinc as (Hg & Hinc).
  cbn [lookups map]. now rewrite lookup_pdict_of, IH.
Qed.

Lemma lookups_missing : forall num all nd req,
    NoDup (map gid all) ->
    (exists g, In g req /\ ~ In (gid g) (map gid all)) ->
    (forall g, In g req -> In (gid g) (map gid all) -> In g all) ->
    lookups (pdict_of num all nd) req = Err KeyErr.
Proof.
  intros num all nd req Hnodup; induction req as [|x xs IH]; intros (g0 & Hg0 & Hmiss) Hcons;
    [destruct Hg0|].
  cbn [lookups].
  destruct (in_dec Nat.eq_dec (gid x) (map gid all)) as [Hin|Hnin].
  - rewrite lookup_pdict_of; [|exact Hnodup|apply Hcons; [now left|exact Hin]]. cbn [bind].
    destruct Hg0 as [->|Hg0]; [contradiction|].
    rewrite IH; [reflexivity|now exists g0|]. intros y Hy. apply Hcons. now right.
  - now rewrite lookup_pdict_of_missing.
Qed.

Lemma nodupb_iff : forall l, nodupb l = true <-> NoDup l.
Proof.
  induction l as [|x l IH]; cbn [nodupb]; [split; [constructor|reflexivity]|].
  rewrite andb_true_iff, negb_true_iff, IH, NoDup_cons_iff, <- existsb_eqb_In.
  now rewrite not_true_iff_false.
Qed.

Lemma sp_init_ok : forall all nd, NoDup (map gid all) -> sp_init all nd = Ok (mkSP all nd).
Proof. intros all nd H. unfold sp_init. apply nodupb_iff in H. now rewrite H. Qed.

Lemma sp_init_duplicate : forall all nd, ~ NoDup (map gid all) -> sp_init all nd = Err ValueErr.
Proof.
  intros all nd H. unfold sp_init. rewrite <- nodupb_iff in H.
  apply not_true_is_false in H. now rewrite H.
Qed.

Lemma restriction_nonempty : forall e sp req,
    req <> [] ->
    restriction e sp req
    = bind (projections_of e sp) (fun d =>
        bind (lookups d req) (fun ms => vstack (map transpose ms))).
Proof. intros e sp [|g r] H; [congruence|reflexivity]. Qed.

Lemma restriction_selects : forall e all nd req,
    1 <= nd -> Forall wf_grid all -> NoDup (map gid all) -> incl req all ->
    restriction e (mkSP all nd) req
    = Ok (selection (total (num_of e) all nd) (blocks (num_of e) all nd req)).
Proof.
  intros e all nd req Hnd Hwf Hnodup Hinc.
  assert (Hreq : req = [] \/ req <> []) by (destruct req; [now left|now right]).
  destruct Hreq as [->|Hne].
  - unfold restriction. now rewrite projections_spec.
  - rewrite restriction_nonempty, projections_spec by assumption. cbn [bind].
    rewrite lookups_spec by assumption. cbn [bind].
    replace (map transpose (map _ req))
      with (map (selection (total (num_of e) all nd)) (map (block (num_of e) all nd) req))
      by (rewrite !map_map; apply map_ext; intros g; symmetry; apply transpose_pmat).
    rewrite vstack_selections by (destruct req; [congruence|discriminate]).
    unfold blocks. now rewrite flat_map_concat_map.
Qed.

Lemma get_indicator : forall n cs i j, NoDup cs ->
    Qeq (get (indicator n cs) i j)
        (if (i =? j) && existsb (Nat.eqb i) cs then 1%Q else 0%Q).
Proof.
  intros n cs i j. unfold get, indicator; cbn [ents].
  induction cs as [|c cs IH]; intros Hnd.
  - cbn. rewrite andb_false_r. reflexivity.
  - apply NoDup_cons_iff in Hnd. destruct Hnd as (Hc & Hr). specialize (IH Hr).
    cbn [map fold_right erow ecol evl fst snd existsb].
    destruct (Nat.eqb_spec c i) as [Eci|Eci], (Nat.eqb_spec c j) as [Ecj|Ecj]; cbn [andb];
      rewrite IH; subst.
    + (* the entry at (i, i): no further one, as cs has no repetition *)
      rewrite <- existsb_eqb_In in Hc. apply not_true_is_false in Hc.
      rewrite Nat.eqb_refl, Hc. reflexivity.
    + destruct (Nat.eqb_spec i j) as [E|E]; [congruence|]. reflexivity.
    + destruct (Nat.eqb_spec i j) as [E|E]; [congruence|]. reflexivity.
    + destruct (Nat.eqb_spec i c) as [E|E]; [congruence|]. reflexivity.
Qed.

Lemma existsb_seq : forall i n, existsb (Nat.eqb i) (seq 0 n) = (i <? n).
Proof.
  intros i n. apply eq_true_iff_eq. rewrite existsb_eqb_In, in_seq, Nat.ltb_lt. lia.
Qed.

Lemma get_identity : forall n i j,
    Qeq (get (identity n) i j) (if (i =? j) && (i <? n) then 1%Q else 0%Q).
Proof.
  intros n i j. change (identity n) with (indicator n (seq 0 n)).
  rewrite get_indicator by apply seq_NoDup. rewrite existsb_seq. reflexivity.
Qed.

Definition at_ij (i j : nat) (e : entry) : bool := (erow e =? i) && (ecol e =? j).

Lemma get_absent : forall A i j,
    existsb (at_ij i j) (ents A) = false -> get A i j = 0%Q.
Proof.
  intros A i j. unfold get. induction (ents A) as [|e l IH]; intros H; [reflexivity|].
  cbn [existsb] in H. apply orb_false_iff in H. destruct H as (He & Hl).
  cbn [fold_right]. unfold at_ij in He. rewrite He. now apply IH.
Qed.

(* [mat_eqb] compares the two matrices at every coordinate that occurs in either list;
   elsewhere both are zero *)
Lemma mat_eqb_sound : forall A B,
    mat_eqb A B = true ->
    nr A = nr B /\ nc A = nc B /\ forall i j, Qeq (get A i j) (get B i j).
Proof.
  intros A B H. unfold mat_eqb in H.
  repeat (apply andb_prop in H; destruct H as (H & ?)).
  apply Nat.eqb_eq in H. split; [exact H|]. split; [now apply Nat.eqb_eq|].
  intros i j.
  destruct (existsb (at_ij i j) (ents A ++ ents B)) eqn:E.
  - apply existsb_exists in E. destruct E as (e & He & Hij).
    apply andb_prop in Hij. destruct Hij as (Hi & Hj).
    apply Nat.eqb_eq in Hi. apply Nat.eqb_eq in Hj. subst.
    apply Qeq_bool_iff. rewrite forallb_forall in H1, H2.
    apply in_app_or in He. destruct He; [now apply H2|now apply H1].
  - rewrite existsb_app in E. apply orb_false_iff in E. destruct E as (EA & EB).
    rewrite (get_absent A i j EA), (get_absent B i j EB). reflexivity.
Qed.
