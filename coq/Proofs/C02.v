(* C02 — proofs about the parser model: node by node the parser's evaluation agrees with the
   direct forward-mode semantics; only reverse-operation nodes raise "unknown operation";
   the overloads build trees without such nodes; time shifts of whole trees. *)
From Coq Require Import List ZArith QArith Qabs Qcanon Bool Arith Lia.
Import ListNotations.
From PP Require Import Model.C02.
Local Open Scope Qc_scope.

Lemma nth_error_skipn {A} (s : nat) (l : list A) (n : nat) :
  nth_error (skipn s l) n = nth_error l (s + n).
Proof.
  revert l. induction s as [|s IH]; intros [|x l]; cbn [skipn plus nth_error]; auto.
  now destruct n.
Qed.

Lemma bind_ok {A} (r : res A) : bind r (fun x => Ok x) = r.
Proof. now destruct r. Qed.

Lemma bind_Ok {A B} (r : res A) (f : A -> res B) (b : B) :
  bind r f = Ok b -> exists a, r = Ok a /\ f a = Ok b.
Proof. destruct r; cbn [bind]; [eauto | discriminate]. Qed.

Lemma bind_ext {A B} (r : res A) (f g : A -> res B) :
  (forall a, f a = g a) -> bind r f = bind r g.
Proof. intros H. destruct r; cbn [bind]; auto. Qed.

Lemma same_len_sym {A B} (a : list A) (b : list B) : same_len a b = same_len b a.
Proof. apply Nat.eqb_sym. Qed.

Lemma same_len_map {A B C} (f : B -> C) (a : list A) (b : list B) :
  same_len a (map f b) = same_len a b.
Proof. unfold same_len. now rewrite map_length. Qed.

Lemma same_len_repeat {A} (w : list A) (c : Qc) : same_len (repeat c (length w)) w = true.
Proof. unfold same_len. rewrite repeat_length. apply Nat.eqb_refl. Qed.

Lemma same_len_repeat' {A} (w : list A) (c : Qc) : same_len w (repeat c (length w)) = true.
Proof. rewrite same_len_sym. apply same_len_repeat. Qed.

Lemma map2_ext {A B C} (f g : A -> B -> C) :
  (forall x y, f x y = g x y) -> forall a b, map2 f a b = map2 g a b.
Proof. intros H. induction a as [|x a IH]; intros [|y b]; cbn; congruence. Qed.

Lemma map2_swap {A B C} (f : A -> B -> C) a b : map2 f a b = map2 (fun y x => f x y) b a.
Proof. revert b. induction a as [|x a IH]; intros [|y b]; cbn; congruence. Qed.

Lemma map2_map_l {A A' B C} (f : A' -> B -> C) (g : A -> A') a b :
  map2 f (map g a) b = map2 (fun x y => f (g x) y) a b.
Proof. revert b. induction a as [|x a IH]; intros [|y b]; cbn; congruence. Qed.

Lemma map2_map_r {A B B' C} (f : A -> B' -> C) (g : B -> B') a b :
  map2 f a (map g b) = map2 (fun x y => f x (g y)) a b.
Proof. revert b. induction a as [|x a IH]; intros [|y b]; cbn; congruence. Qed.

Lemma map_map2 {A B C D} (g : C -> D) (f : A -> B -> C) a b :
  map g (map2 f a b) = map2 (fun x y => g (f x y)) a b.
Proof. revert b. induction a as [|x a IH]; intros [|y b]; cbn; congruence. Qed.

Lemma vadd_comm a b : vadd a b = vadd b a.
Proof. unfold vadd. rewrite map2_swap. apply map2_ext. intros; ring. Qed.

Lemma vmul_comm a b : vmul a b = vmul b a.
Proof. unfold vmul. rewrite map2_swap. apply map2_ext. intros; ring. Qed.

Lemma vneg_vsub a b : vneg (vsub a b) = vsub b a.
Proof. unfold vneg, vsub. rewrite map_map2, map2_swap. apply map2_ext. intros; ring. Qed.

Lemma vadd_vneg v w : vadd v (vneg w) = vsub v w.
Proof. unfold vadd, vneg. now rewrite map2_map_r. Qed.

Lemma scale_rows_compose a b j : scale_rows a (scale_rows b j) = scale_rows (vmul a b) j.
Proof.
  revert b j. induction a as [|x a IH]; intros [|y b] [|r j]; cbn; try reflexivity.
  rewrite IH. f_equal. unfold vscale. rewrite map_map. apply map_ext. intros; ring.
Qed.

Lemma minus_one : Q2Qc (-1) = - (1).
Proof. apply Qc_is_canon. reflexivity. Qed.

Lemma as_int_minus_one : as_int (Q2Qc (-1)) = Some (-1)%Z.
Proof. reflexivity. Qed.

Lemma qpowz_m1 x : qpowz x (-1) = / x.
Proof. unfold qpowz. change (Pos.to_nat 1) with 1%nat. cbn [Qcpower]. now rewrite Qcmult_1_r. Qed.

Lemma qpowz_m2 x : qpowz x (-1 - 1) = / (x * x).
Proof.
  change (qpowz x (-1 - 1)) with (/ Qcpower x 2). cbn [Qcpower]. now rewrite Qcmult_1_r.
Qed.

(* value part of  w / v  computed as  v**(-1) * w *)
Lemma div_val v w : vmul (map (fun x => qpowz x (-1)) v) w = map2 Qcdiv w v.
Proof.
  unfold vmul. rewrite map2_map_l, map2_swap. apply map2_ext. intros y x.
  rewrite qpowz_m1. apply Qcmult_comm.
Qed.

(* Jacobian scaling of  w / v  computed as  w * ((-1) * v**(-2)) *)
Lemma div_jac v w :
  vmul w (map (fun x => Q2Qc (-1) * qpowz x (-1 - 1)) v)
  = map2 (fun wi vi => - wi / (vi * vi)) w v.
Proof.
  unfold vmul. rewrite map2_map_r. apply map2_ext. intros y x.
  rewrite minus_one, qpowz_m2. unfold Qcdiv. ring.
Qed.

Lemma vec_op_add_comm a b : vec_op Add a b = vec_op Add b a.
Proof.
  unfold vec_op. rewrite (same_len_sym a b).
  destruct (same_len b a); cbn [negb]; [now rewrite vadd_comm | reflexivity].
Qed.

Lemma vec_op_sub_flip a b : bind (vec_op Sub b a) neg = vec_op Sub a b.
Proof.
  unfold vec_op. rewrite (same_len_sym a b).
  destruct (same_len b a); cbn [negb bind neg]; [now rewrite vneg_vsub | reflexivity].
Qed.

Lemma node_add_flip w b : pyop Add b (VVec w) = math_node Add (VVec w) b.
Proof.
  destruct b as [c | u | nc m | v j | s | l]; cbn [pyop math_node ad_add]; try reflexivity.
  - apply vec_op_add_comm.
  - apply vec_op_add_comm.
  - destruct (same_len v w); [now rewrite vadd_comm | reflexivity].
Qed.

Lemma node_sub_flip w b : bind (pyop Sub b (VVec w)) neg = math_node Sub (VVec w) b.
Proof.
  destruct b as [c | u | nc m | v j | s | l]; cbn [pyop math_node ad_sub ad_add neg bind];
    try reflexivity.
  - apply vec_op_sub_flip.
  - apply vec_op_sub_flip.
  - unfold vneg at 1. rewrite same_len_map. destruct (same_len v w); cbn [bind neg]; [| reflexivity].
    now rewrite vadd_vneg, vneg_vsub.
Qed.

Lemma node_div_flip w v j : ad_rtruediv v j (VVec w) = math_node Div (VVec w) (VAd v j).
Proof.
  unfold ad_rtruediv, ad_pow. rewrite as_int_minus_one.
  change (Z.ltb (-1) 1) with true. cbn [andb math_node].
  destruct (has_zero v); cbn [bind]; [reflexivity|].
  unfold ad_mul. rewrite same_len_sym, same_len_map, same_len_sym.
  destruct (same_len v w); [| reflexivity].
  now rewrite scale_rows_compose, div_val, div_jac.
Qed.

Lemma node_refines o a b : is_rop o = false -> parse_node o a b = direct_node o a b.
Proof.
  intros Ho. destruct o; try discriminate Ho; clear Ho.
  - (* Add *) destruct a; try reflexivity.
    cbn [parse_node direct_node]. rewrite bind_ok. apply node_add_flip.
  - (* Sub *) destruct a; try reflexivity.
    cbn [parse_node direct_node]. apply node_sub_flip.
  - (* Mul *) destruct a; try reflexivity. destruct b; try reflexivity.
    cbn [parse_node direct_node math_node pyop ad_mul].
    destruct (same_len v0 v); [now rewrite vmul_comm | reflexivity].
  - (* Div *) destruct a; try reflexivity. destruct b; try reflexivity.
    cbn [parse_node direct_node]. apply node_div_flip.
  - (* Pow *) destruct a; try reflexivity; destruct b; reflexivity.
  - (* Matmul *) destruct a; try reflexivity; destruct b; reflexivity.
Qed.

Lemma no_rops_ind (P : tree -> Prop) :
  (forall l, P (Leaf l)) ->
  (forall o a b, is_rop o = false -> P a -> P b -> P (Bin o a b)) ->
  forall t, no_rops t = true -> P t.
Proof.
  intros HL HB. induction t as [l | o a IHa b IHb]; cbn [no_rops]; [auto|].
  intros [[Ho%negb_true_iff Ha]%andb_true_iff Hb]%andb_true_iff. auto.
Qed.

Lemma refines t e : no_rops t = true -> parse t e = direct t e.
Proof.
  revert t. apply no_rops_ind; [reflexivity|]. intros o a b Ho IHa IHb.
  cbn [parse direct]. rewrite IHa, IHb.
  apply bind_ext. intros va. apply bind_ext. intros vb. now apply node_refines.
Qed.

(* "Encountered unknown operation" is raised only for reverse-operation nodes: in every other
   operation none of the outcomes is that error *)
Definition nu {A} (r : res A) : Prop := r <> Err EUnknownOp.

Lemma bind_nu {A B} (r : res A) (f : A -> res B) : nu r -> (forall a, nu (f a)) -> nu (bind r f).
Proof. intros Hr Hf. destruct r; cbn [bind]; [apply Hf | unfold nu in *; congruence]. Qed.

Lemma if_nu {A} (c : bool) (r s : res A) : nu r -> nu s -> nu (if c then r else s).
Proof. now destruct c. Qed.

#[local] Hint Resolve bind_nu if_nu : nu.
#[local] Hint Extern 1 (nu _) => (unfold nu; discriminate) : nu.

Lemma neg_nu a : nu (neg a).
Proof. unfold neg; destruct a; auto with nu. Qed.
Lemma ad_add_nu v j o : nu (ad_add v j o).
Proof. unfold ad_add; destruct o; auto with nu. Qed.
Lemma ad_mul_nu v j o : nu (ad_mul v j o).
Proof. unfold ad_mul; destruct o; auto with nu. Qed.
Lemma ad_pow_nu v j o : nu (ad_pow v j o).
Proof. unfold ad_pow; destruct o as [c| | | | |]; try destruct (as_int c); auto with nu. Qed.
Lemma ad_rpow_nu v j o : nu (ad_rpow v j o).
Proof. unfold ad_rpow; destruct o; auto with nu. Qed.
Lemma ad_rmatmul_nu v j o : nu (ad_rmatmul v j o).
Proof. unfold ad_rmatmul; destruct o; auto with nu. Qed.
Lemma vec_op_nu o a b : nu (vec_op o a b).
Proof. unfold vec_op; destruct o; auto with nu. Qed.
Lemma slicer_matmul_nu s b : nu (slicer_matmul s b).
Proof. unfold slicer_matmul; destruct b; auto with nu. Qed.
Lemma num_op_nu o x y : nu (num_op o x y).
Proof. unfold num_op; destruct o; try destruct (as_int y); auto with nu. Qed.

#[local] Hint Resolve neg_nu ad_add_nu ad_mul_nu ad_pow_nu ad_rpow_nu ad_rmatmul_nu
  vec_op_nu slicer_matmul_nu : nu.

Lemma ad_sub_nu v j o : nu (ad_sub v j o).
Proof. unfold ad_sub; auto with nu. Qed.
Lemma ad_rsub_nu v j o : nu (ad_rsub v j o).
Proof. unfold ad_rsub; auto using ad_sub_nu with nu. Qed.
Lemma ad_truediv_nu v j o : nu (ad_truediv v j o).
Proof. unfold ad_truediv; destruct o; auto with nu. Qed.
Lemma ad_rtruediv_nu v j o : nu (ad_rtruediv v j o).
Proof.
  unfold ad_rtruediv; destruct o; auto with nu.
  all: apply bind_nu; auto with nu; intros []; auto with nu.
Qed.

#[local] Hint Resolve ad_sub_nu ad_rsub_nu ad_truediv_nu ad_rtruediv_nu : nu.

Lemma pyop_nu o a b : nu (pyop o a b).
Proof.
  destruct a as [x| |nc m| | |], b as [y| | | | |]; cbn [pyop]; auto with nu.
  1: { pose proof (num_op_nu o x y). destruct (num_op o x y); unfold nu in *; congruence. }
  all: destruct o; auto with nu.
  destruct (as_int y); auto with nu.
Qed.

#[local] Hint Resolve pyop_nu : nu.

Lemma sum_slices_nu l x : nu (sum_slices l x).
Proof.
  unfold sum_slices. assert (H : nu (Ok (VNum 0))) by auto with nu. revert H.
  generalize (Ok (VNum 0)).
  induction l as [|s l IH]; intros acc H; cbn [fold_left]; [exact H | apply IH; auto 6 with nu].
Qed.

Lemma parse_node_nu o a b : is_rop o = false -> nu (parse_node o a b).
Proof.
  intros Ho. destruct o; try discriminate Ho; cbn [parse_node];
    destruct a; auto using sum_slices_nu with nu; destruct b; auto with nu.
Qed.

Lemma lookup_nu l k : nu (lookup l k).
Proof. unfold lookup; destruct (nth_error l _); auto with nu. Qed.

Lemma getitem_nu b dofs : nu (getitem b dofs).
Proof. unfold getitem; destruct b; auto with nu. Qed.

Lemma parse_leaf_nu l e : nu (parse_leaf l e).
Proof. destruct l; cbn [parse_leaf]; auto using lookup_nu, getitem_nu with nu. Qed.

Lemma parse_nu t e : no_rops t = true -> nu (parse t e).
Proof.
  revert t. apply no_rops_ind; [intros l; apply parse_leaf_nu|]. intros o a b Ho IHa IHb.
  cbn [parse]. auto 6 using parse_node_nu with nu.
Qed.

Definition operand_ok (x : operand) : bool := match x with OTree t => no_rops t | _ => true end.

Lemma wrap_no_rops x : operand_ok x = true -> no_rops (wrap x) = true.
Proof. now destruct x. Qed.

Lemma overload_no_rops o x y :
  is_rop o = false -> operand_ok x = true -> operand_ok y = true ->
  no_rops (overload o x y) = true.
Proof.
  intros Ho Hx%wrap_no_rops Hy%wrap_no_rops.
  destruct x; destruct o; try discriminate Ho; cbn [overload no_rops is_rop negb andb];
    cbn [wrap] in *; now rewrite ?Hx, ?Hy.
Qed.

Lemma shift_leaf_compose p a b l l' l'' :
  shift_leaf p a l = Ok l' -> shift_leaf p b l' = Ok l'' -> shift_leaf p (a + b) l = Ok l''.
Proof.
  destruct l; cbn [shift_leaf]; try now intros [= <-].
  - destruct p.
    + destruct (Z.leb 0 i) eqn:Hi; intros [= <-]. cbn [shift_leaf]. rewrite Hi.
      intros [= <-]. now rewrite Z.add_assoc.
    + destruct (Z.leb 0 t) eqn:Ht; intros [= <-]. cbn [shift_leaf]. rewrite Ht.
      intros [= <-]. now rewrite Z.add_assoc.
  - destruct p; intros [= <-]; cbn [shift_leaf]; intros [= <-]; now rewrite ?Z.add_assoc.
Qed.

Lemma shift_tree_compose p a b t : forall t' t'',
  shift_tree p a t = Ok t' -> shift_tree p b t' = Ok t'' -> shift_tree p (a + b) t = Ok t''.
Proof.
  induction t as [l | o x IHx y IHy]; intros t' t'' H1 H2; cbn [shift_tree] in *.
  - apply bind_Ok in H1 as (l1 & E1 & [= <-]). cbn [shift_tree] in H2.
    apply bind_Ok in H2 as (l2 & E2 & [= <-]). now rewrite (shift_leaf_compose _ _ _ _ _ _ E1 E2).
  - apply bind_Ok in H1 as (x1 & Ex & H1). apply bind_Ok in H1 as (y1 & Ey & [= <-]).
    cbn [shift_tree] in H2.
    apply bind_Ok in H2 as (x2 & Ex2 & H2). apply bind_Ok in H2 as (y2 & Ey2 & [= <-]).
    now rewrite (IHx _ _ Ex Ex2), (IHy _ _ Ey Ey2).
Qed.

(* evaluation of a time-shifted tree whose time-dependent leaves are all at previous time
   steps already = evaluation of the tree against the stores with the [s] most recent time
   steps dropped: every such leaf reads [s] steps further back *)
Fixpoint all_prev_time (t : tree) : bool :=
  match t with
  | Leaf (LVar _ t _) => Z.leb 0 t
  | Leaf (LTdda _ t) => Z.leb 0 t
  | Leaf _ => true
  | Bin _ a b => all_prev_time a && all_prev_time b
  end.

Definition drop_steps (s : nat) (e : env) : env :=
  {| state := state e; deriv := deriv e; ts := skipn s (ts e); its := its e;
     src_it0 := src_it0 e; src_ts := skipn s (src_ts e) |}.

Lemma lookup_skipn (l : list vec) (s : nat) (k : Z) :
  (0 <= k)%Z -> lookup (skipn s l) k = lookup l (k + Z.of_nat s).
Proof.
  intros Hk. unfold lookup. rewrite nth_error_skipn.
  replace (Z.to_nat (k + Z.of_nat s)) with (s + Z.to_nat k)%nat by lia.
  now rewrite (proj2 (Z.ltb_ge k 0)), (proj2 (Z.ltb_ge (k + Z.of_nat s) 0)) by lia.
Qed.

Lemma shift_time_semantics (s : nat) t : forall t' e,
  all_prev_time t = true ->
  shift_tree true (Z.of_nat s) t = Ok t' ->
  parse t' e = parse t (drop_steps s e).
Proof.
  induction t as [l | o a IHa b IHb]; intros t' e Hp H; cbn [shift_tree all_prev_time] in *.
  - destruct l; cbn [shift_leaf bind] in H; try (injection H as <-; reflexivity).
    + destruct (Z.leb 0 i); [discriminate H|]. injection H as <-.
      cbn [parse parse_leaf drop_steps ts]. apply Z.leb_le in Hp.
      rewrite (proj2 (Z.leb_le 0 t)), (proj2 (Z.leb_le 0 (t + Z.of_nat s))) by lia.
      now rewrite lookup_skipn.
    + injection H as <-. cbn [parse parse_leaf drop_steps src_ts]. apply Z.leb_le in Hp.
      rewrite (proj2 (Z.leb_le 0 t)), (proj2 (Z.leb_le 0 (t + Z.of_nat s))) by lia.
      now rewrite lookup_skipn.
  - apply andb_true_iff in Hp as [Hpa Hpb].
    apply bind_Ok in H as (a1 & Ea & H). apply bind_Ok in H as (b1 & Eb & [= <-]).
    cbn [parse]. now rewrite (IHa _ e Hpa Ea), (IHb _ e Hpb Eb).
Qed.
