(* C40 — instance independence: a homomorphism between two number records commutes with
   every function of the model (constructors with their tests, rotate, copy, restriction,
   histories).  Instance: Q2R from the rational instance executed by the tie to the reals. *)
From Coq Require Import List ZArith Bool Lia.
Import ListNotations.
From PP Require Import Model.C40 Proofs.C40.

Definition rmap {A B} (f : A -> B) (r : res A) : res B :=
  match r with Ok a => Ok (f a) | Err e => Err e end.

Section Hom.
  Context {A B : Type} (oa : numops A) (ob : numops B) (h : A -> B).
  Hypothesis h_zero : h (zero oa) = zero ob.
  Hypothesis h_add : forall x y, h (add oa x y) = add ob (h x) (h y).
  Hypothesis h_mul : forall x y, h (mul oa x y) = mul ob (h x) (h y).
  Hypothesis h_sub : forall x y, h (sub oa x y) = sub ob (h x) (h y).
  Hypothesis h_neg : forall x, isneg ob (h x) = isneg oa x.

  Definition hrow (r : row A) : row B := let '(a, b, c) := r in (h a, h b, h c).
  Definition hm (m : m33 A) : m33 B := let '(r0, r1, r2) := m in (hrow r0, hrow r1, hrow r2).

  Lemma get_hm : forall m i j, get (hm m) i j = h (get m i j).
  Proof. intros [[[[a b] c] [[d e] f]] [[g k] l]] i j; destruct i, j; reflexivity. Qed.

  Lemma map_get_hm : forall i j t,
    map (fun m => get m i j) (map hm t) = map h (map (fun m => get m i j) t).
  Proof. intros i j t. rewrite !map_map. apply map_ext. intros m. apply get_hm. Qed.

  Lemma nthT_hom : forall l c, nthT ob (map h l) c = h (nthT oa l c).
  Proof. intros l c. unfold nthT. rewrite <- h_zero. apply map_nth. Qed.

  Lemma any_neg_hom : forall l, any_neg ob (map h l) = any_neg oa l.
  Proof.
    unfold any_neg. induction l as [|x l IH]; cbn; [reflexivity|]. now rewrite h_neg, IH.
  Qed.

  Definition omap (o : option (list A)) : option (list B) := option_map (map h) o.

  Lemma dflt_hom : forall o d,
    match omap o with Some a => a | None => map h d end =
    map h (match o with Some a => a | None => d end).
  Proof. intros [a|] d; reflexivity. Qed.

  Lemma zeros_hom : forall l,
    map (mul ob (zero ob)) (map h l) = map h (map (mul oa (zero oa)) l).
  Proof. intros l. rewrite !map_map. apply map_ext. intros x. now rewrite h_mul, h_zero. Qed.

  Lemma rot1_hom : forall R K, rot1 ob (hm R) (hm K) = hm (rot1 oa R K).
  Proof.
    intros R K. apply m33_ext; intros a i. rewrite get_hm. unfold rot1, sum3.
    rewrite !get_build, !get_hm. now rewrite !h_add, !h_mul, !h_add, !h_mul.
  Qed.

  Lemma rotate_hom : forall R t, rotate ob (hm R) (map hm t) = map hm (rotate oa R t).
  Proof.
    intros R t. unfold rotate. rewrite !map_map. apply map_ext. intros K. apply rot1_hom.
  Qed.

  Lemma cellm_hom : forall kxx kyy kzz kxy kxz kyz c,
    cellm ob (map h kxx) (omap kyy) (omap kzz) (omap kxy) (omap kxz) (omap kyz) c =
    hm (cellm oa kxx kyy kzz kxy kxz kyz c).
  Proof. intros. unfold cellm. now rewrite zeros_hom, !dflt_hom, !nthT_hom. Qed.

  Lemma lead2_hom : forall m, lead2 ob (hm m) = h (lead2 oa m).
  Proof. intros m. unfold lead2. now rewrite !get_hm, h_sub, !h_mul. Qed.

  Lemma lead3_hom : forall m, lead3 ob (hm m) = h (lead3 oa m).
  Proof.
    intros m. unfold lead3. now rewrite !get_hm, h_add, !h_sub, !h_mul, !h_sub, !h_mul.
  Qed.

  Lemma checked_hom : forall b t, checked ob b (map hm t) = rmap (map hm) (checked oa b t).
  Proof.
    intros b t. unfold checked.
    rewrite !map_map, (map_ext _ _ lead2_hom), (map_ext _ _ lead3_hom).
    rewrite <- (map_map (lead2 oa) h), <- (map_map (lead3 oa) h), !any_neg_hom.
    now destruct b, (any_neg oa (map (lead2 oa) t)), (any_neg oa (map (lead3 oa) t)).
  Qed.

  Lemma second_order_hom : forall kxx kyy kzz kxy kxz kyz,
    second_order ob (map h kxx) (omap kyy) (omap kzz) (omap kxy) (omap kxz) (omap kyz) =
    rmap (map hm) (second_order oa kxx kyy kzz kxy kxz kyz).
  Proof.
    intros. rewrite !second_order_checked, map_length, any_neg_hom, <- checked_hom, map_map.
    f_equal. apply map_ext. intros c. apply cellm_hom.
  Qed.

  Lemma copy2_hom : forall t, copy2 ob (map hm t) = rmap (map hm) (copy2 oa t).
  Proof.
    intros t. unfold copy2. rewrite !map_get_hm.
    exact (second_order_hom _ (Some _) (Some _) (Some _) (Some _) (Some _)).
  Qed.

  Lemma restrict2_hom : forall t cells,
    restrict2 ob (map hm t) cells = rmap (map hm) (restrict2 oa t cells).
  Proof.
    intros t cells. unfold restrict2. rewrite copy2_hom.
    destruct (copy2 oa t) as [t'|e]; cbn [rmap]; [|reflexivity].
    rewrite take_cells_map. destruct (take_cells t' cells); reflexivity.
  Qed.

  Definition hop (o : @op2 A) : @op2 B :=
    match o with Rotate R => Rotate (hm R) | Restrict c => Restrict c | Copy => Copy end.

  Lemma run2_hom : forall ops_ t,
    run2 ob (map hm t) (map hop ops_) = map (rmap (map hm)) (run2 oa t ops_).
  Proof.
    induction ops_ as [|o r IH]; intros t; cbn [run2 map hop]; [reflexivity|].
    destruct o as [R|cells|]; cbn [hop run2 map].
    - rewrite rotate_hom, IH. reflexivity.
    - rewrite restrict2_hom. destruct (restrict2 oa t cells) as [t'|e]; cbn [rmap map];
        now rewrite IH.
    - rewrite copy2_hom. destruct (copy2 oa t) as [t'|e]; cbn [rmap map]; now rewrite IH.
  Qed.

  Lemma nmul_hom : forall n x, h (nmul oa n x) = nmul ob n (h x).
  Proof.
    induction n as [|n IH]; intros x; [exact h_zero|].
    destruct n as [|n]; [reflexivity|].
    change (nmul oa (S (S n)) x) with (add oa x (nmul oa (S n) x)).
    change (nmul ob (S (S n)) (h x)) with (add ob (h x) (nmul ob (S n) (h x))).
    now rewrite h_add, IH.
  Qed.

  Lemma stiff_cell_hom : forall mu la,
    stiff_cell ob (h mu) (h la) = map (map h) (stiff_cell oa mu la).
  Proof.
    intros mu la. unfold stiff_cell. rewrite map_map. apply map_ext. intros rows.
    rewrite map_map. apply map_ext. intros ab. now rewrite h_add, !nmul_hom.
  Qed.

  Definition h4 (t : @tensor4 A) : @tensor4 B :=
    {| t_mu := map h (t_mu t); t_lmbda := map h (t_lmbda t);
       t_values := map (map (map h)) (t_values t) |}.

  Lemma combine_map_hom : forall (l1 l2 : list A),
    combine (map h l1) (map h l2) = map (fun p => (h (fst p), h (snd p))) (combine l1 l2).
  Proof.
    induction l1 as [|x l1 IH]; intros [|y l2]; cbn; try reflexivity. now rewrite IH.
  Qed.

  Lemma fourth_order_hom : forall mu la,
    fourth_order ob (map h mu) (map h la) = rmap h4 (fourth_order oa mu la).
  Proof.
    intros mu la. unfold fourth_order. rewrite !map_length.
    destruct (Nat.eqb (length mu) (length la)); cbn [negb rmap]; [|reflexivity].
    unfold h4; cbn [t_mu t_lmbda t_values]. f_equal. f_equal.
    rewrite combine_map_hom, !map_map. apply map_ext. intros [m l]. cbn [fst snd].
    apply stiff_cell_hom.
  Qed.

  Lemma copy4_hom : forall t, copy4 ob (h4 t) = rmap h4 (copy4 oa t).
  Proof.
    intros t. unfold copy4. unfold h4 at 1 2; cbn [t_mu t_lmbda t_values].
    rewrite fourth_order_hom. now destruct (fourth_order oa (t_mu t) (t_lmbda t)).
  Qed.

  Lemma restrict4_hom : forall t cells,
    restrict4 ob (h4 t) cells = rmap h4 (restrict4 oa t cells).
  Proof.
    intros t cells. unfold restrict4. rewrite copy4_hom.
    destruct (copy4 oa t) as [c|e]; cbn [rmap]; [|reflexivity].
    unfold h4 at 1 2 3, m99; cbn [t_mu t_lmbda t_values]. rewrite !take_cells_map.
    destruct (take_cells (t_mu c) cells), (take_cells (t_lmbda c) cells); try reflexivity.
    now destruct (take_cells _ cells).
  Qed.
End Hom.

From Coq Require Import QArith Qreals Reals Lra.

Definition ROpsT : numops R := {|
  zero := 0%R; one := 1%R; add := Rplus; mul := Rmult; sub := Rminus;
  isneg := fun x => if Rlt_dec x 0 then true else false |}.

Lemma Q2R_red : forall q, Q2R (Qred q) = Q2R q.
Proof. intros q. apply Qeq_eqR. apply Qred_correct. Qed.

Lemma Q2R_hom :
  Q2R (zero QOps) = zero ROpsT /\
  (forall x y, Q2R (add QOps x y) = add ROpsT (Q2R x) (Q2R y)) /\
  (forall x y, Q2R (mul QOps x y) = mul ROpsT (Q2R x) (Q2R y)) /\
  (forall x y, Q2R (sub QOps x y) = sub ROpsT (Q2R x) (Q2R y)) /\
  (forall x, isneg ROpsT (Q2R x) = isneg QOps x).
Proof.
  repeat split.
  - unfold Q2R; cbn. lra.
  - intros x y. cbn [add QOps ROpsT]. now rewrite Q2R_red, Q2R_plus.
  - intros x y. cbn [mul QOps ROpsT]. now rewrite Q2R_red, Q2R_mult.
  - intros x y. cbn [sub QOps ROpsT]. now rewrite Q2R_red, Q2R_minus.
  - intros [n d]. cbn [isneg QOps ROpsT Qnum]. unfold Q2R; cbn [Qnum Qden].
    assert (0 < / IZR (Z.pos d))%R as Hd by (apply Rinv_0_lt_compat, IZR_lt; reflexivity).
    destruct (Z.ltb_spec n 0) as [Hn|Hn]; destruct (Rlt_dec (IZR n * / IZR (Z.pos d)) 0) as [Hr|Hr];
      try reflexivity; exfalso.
    + apply Hr. apply IZR_lt in Hn. nra.
    + apply IZR_le in Hn. nra.
Qed.
