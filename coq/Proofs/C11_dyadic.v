(* C11 / C13 — the dyadic arithmetic the certificates are executed with is exact: the value
   map dy : dyad -> Q sends dadd, dmul, dopp, dsub, dabs to +, *, -, -, |.| of Q (up to Qeq).
   (Transfer of the field operations; the comparison dleb and the transfer of the whole
   polymorphic model functions from the dyadic instance to R are not proved.) *)
From Coq Require Import ZArith QArith Qabs Qpower Lia.
From PP Require Import Model.C11.
Local Open Scope Q_scope.

Definition two : Q := 2 # 1.
Lemma two_nz : ~ two == 0. Proof. unfold two. discriminate. Qed.

Lemma pow2_pos (e : Z) : (0 < 2 ^ e)%Z \/ (e < 0)%Z.
Proof. destruct (Z_lt_le_dec e 0); [right; assumption | left; apply Z.pow_pos_nonneg; lia]. Qed.

Lemma dy_spec (m e : Z) : dy (m, e) == inject_Z m * two ^ e.
Proof.
  unfold dy. destruct (0 <=? e)%Z eqn:E.
  - apply Z.leb_le in E. rewrite inject_Z_mult. rewrite (Zpower_Qpower 2 e E). reflexivity.
  - apply Z.leb_gt in E. rewrite Qred_correct.
    assert (Hp : (0 < 2 ^ (- e))%Z) by (apply Z.pow_pos_nonneg; lia).
    rewrite Qmake_Qdiv. rewrite Z2Pos.id by exact Hp.
    rewrite (Zpower_Qpower 2 (- e)) by lia.
    assert (Hpow : two ^ e == / (two ^ (- e))).
    { rewrite <- (Qpower_opp two (- e)). rewrite Z.opp_involutive. reflexivity. }
    rewrite Hpow. change (inject_Z 2) with two. unfold Qdiv. reflexivity.
Qed.

Lemma shiftl_spec (m d : Z) : (0 <= d)%Z -> inject_Z (Z.shiftl m d) == inject_Z m * two ^ d.
Proof.
  intros Hd. rewrite Z.shiftl_mul_pow2 by exact Hd. rewrite inject_Z_mult.
  rewrite (Zpower_Qpower 2 d Hd). reflexivity.
Qed.

(* the mantissa with the larger exponent is shifted to the smaller one *)
Lemma dy_align (m1 m2 x1 x2 : Z) :
  (x1 <= x2)%Z -> dy ((m1 + Z.shiftl m2 (x2 - x1))%Z, x1) == dy (m1, x1) + dy (m2, x2).
Proof.
  intros E. rewrite !dy_spec, inject_Z_plus, shiftl_spec by lia.
  replace x2 with ((x2 - x1) + x1)%Z at 2 by lia.
  rewrite (Qpower_plus two _ _ two_nz). ring.
Qed.

Lemma dy_dadd (a b : dyad) : dy (dadd a b) == dy a + dy b.
Proof.
  destruct a as [m1 x1], b as [m2 x2]. unfold dadd.
  destruct (Z.leb_spec x1 x2) as [E|E]; [apply dy_align, E|].
  rewrite Z.add_comm, Qplus_comm. apply dy_align. lia.
Qed.

Lemma dy_dmul (a b : dyad) : dy (dmul a b) == dy a * dy b.
Proof.
  destruct a as [m1 x1], b as [m2 x2]. unfold dmul. rewrite !dy_spec.
  rewrite inject_Z_mult, (Qpower_plus two _ _ two_nz). ring.
Qed.

Lemma dy_dopp (a : dyad) : dy (dopp a) == - dy a.
Proof. destruct a as [m x]. unfold dopp. rewrite !dy_spec, inject_Z_opp. ring. Qed.

Lemma dy_dsub (a b : dyad) : dy (dsub a b) == dy a - dy b.
Proof. unfold dsub. rewrite dy_dadd, dy_dopp. ring. Qed.

Lemma dy_zero : dy (0, 0)%Z == 0. Proof. reflexivity. Qed.
Lemma dy_one : dy (1, 0)%Z == 1. Proof. reflexivity. Qed.

Lemma two_pow_nonneg (x : Z) : 0 <= two ^ x.
Proof. apply Qpower_pos. unfold two. discriminate. Qed.

Lemma dy_dabs (a : dyad) : dy (dabs a) == Qabs (dy a).
Proof.
  destruct a as [m x]. unfold dabs. rewrite !dy_spec. rewrite Qabs_Qmult.
  rewrite (Qabs_pos (two ^ x) (two_pow_nonneg x)). reflexivity.
Qed.
