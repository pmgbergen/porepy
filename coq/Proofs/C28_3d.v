(* C28 — segments_3d.  The point branch: exact correctness under the guard [sep3] (the
   projected discriminant test does not fire, and the final |z1 - z2| < tol test answers
   like z1 == z2); for integer end points of the box the guard is just a non-zero projected
   discriminant.  The parallel branch: None, correctly, when the second segment starts off
   the line of the first. *)
From Coq Require Import List QArith Qabs Bool ZArith Lia Lqa.
Import ListNotations.
From PP Require Import Model.C28 Proofs.C28.
Open Scope Q_scope.

Definition sep3 (tol : Q) (s1 e1 s2 e2 : pt3) : bool :=
  let dl1 := map2 Qminus e1 s1 in
  let dl2 := map2 Qminus e2 s2 in
  let m1 := map (fun x => qltb tol (Qabs x)) dl1 in
  let m2 := map (fun x => qltb tol (Qabs x)) dl2 in
  let ms := map2 orb m1 m2 in
  let '(i0, i1, ni) := pick_axes ms in
  let discr := c3 dl1 i0 * c3 dl2 i1 - c3 dl1 i1 * c3 dl2 i0 in
  negb (qltb (Qabs discr) tol) &&
  let discr' := c3 dl1 i0 * (- c3 dl2 i1) - c3 dl1 i1 * (- c3 dl2 i0) in
  let t1 := ((c3 s2 i0 - c3 s1 i0) * (- c3 dl2 i1)
             - (c3 s2 i1 - c3 s1 i1) * (- c3 dl2 i0)) / discr' in
  let t2 := (c3 dl1 i0 * (c3 s2 i1 - c3 s1 i1)
             - c3 dl1 i1 * (c3 s2 i0 - c3 s1 i0)) / discr' in
  let z1 := c3 s1 ni + t1 * c3 dl1 ni in
  let z2 := c3 s2 ni + t2 * c3 dl2 ni in
  implb (qltb (Qabs (z1 - z2)) tol) (Qeq_bool z1 z2).

(* a common point of the two parametrised segments a + s u, c + t w *)
Definition meet (a u c w p : pt3) : Prop :=
  exists s t, 0 <= s /\ s <= 1 /\ 0 <= t /\ t <= 1 /\
    forall i, (i < 3)%nat -> c3 p i == c3 a i + s * c3 u i /\ c3 p i == c3 c i + t * c3 w i.

Lemma common3_meet : forall a b c d u w p,
  (forall i, (i < 3)%nat -> c3 u i == c3 b i - c3 a i) ->
  (forall i, (i < 3)%nat -> c3 w i == c3 d i - c3 c i) ->
  (common3 p a b c d <-> meet a u c w p).
Proof.
  intros a b c d u w p Hu Hw. unfold common3, on_seg3, meet. split.
  - intros [(s & S0 & S1 & Hs) (t & T0 & T1 & Ht)]. exists s, t.
    repeat split; try assumption; [rewrite Hu|rewrite Hw]; auto.
  - intros (s & t & S0 & S1 & T0 & T1 & H).
    split; [exists s|exists t]; repeat split; try assumption; intros i Hi;
      [rewrite <- Hu|rewrite <- Hw]; trivial; apply H, Hi.
Qed.

Lemma c3_diff : forall b0 b1 b2 a0 a1 a2 i, (i < 3)%nat ->
  c3 [b0 - a0; b1 - a1; b2 - a2] i == c3 [b0; b1; b2] i - c3 [a0; a1; a2] i.
Proof. intros b0 b1 b2 a0 a1 a2 i Hi. idx3 i Hi; reflexivity. Qed.

Definition pt_correct (a u c w : pt3) (r : res3) : Prop :=
  match r with
  | R3None => forall p, ~ meet a u c w p
  | R3Cols [q] => forall p, meet a u c w p <-> peq3 p q
  | _ => False
  end.

Lemma pt_correct_correct3 : forall a0 a1 a2 b0 b1 b2 c0 c1 c2 d0 d1 d2 r,
  pt_correct [a0; a1; a2] [b0 - a0; b1 - a1; b2 - a2] [c0; c1; c2] [d0 - c0; d1 - c1; d2 - c2] r ->
  correct3 [a0; a1; a2] [b0; b1; b2] [c0; c1; c2] [d0; d1; d2] r.
Proof.
  intros a0 a1 a2 b0 b1 b2 c0 c1 c2 d0 d1 d2 r H.
  pose proof (fun p => common3_meet _ _ _ _ _ _ p (c3_diff b0 b1 b2 a0 a1 a2)
                                    (c3_diff d0 d1 d2 c0 c1 c2)) as M.
  destruct r as [|[|q [|q2 r]]|e]; cbn [pt_correct correct3] in *; try contradiction;
    intro p; rewrite M; apply H.
Qed.

(* Cramer in the projection (i0, i1) fixes the parameters of any meeting point; what is
   left of the two line equations is the one on the axis ni, which the code tests *)
Lemma seg3d_pt_correct : forall tol a c u w i0 i1 ni,
  0 < tol -> axes_ok (i0, i1, ni) ->
  ~ c3 u i0 * c3 w i1 - c3 u i1 * c3 w i0 == 0 ->
  (let discr' := c3 u i0 * (- c3 w i1) - c3 u i1 * (- c3 w i0) in
   let t1 := ((c3 c i0 - c3 a i0) * (- c3 w i1) - (c3 c i1 - c3 a i1) * (- c3 w i0)) / discr' in
   let t2 := (c3 u i0 * (c3 c i1 - c3 a i1) - c3 u i1 * (c3 c i0 - c3 a i0)) / discr' in
   let z1 := c3 a ni + t1 * c3 u ni in
   let z2 := c3 c ni + t2 * c3 w ni in
   implb (qltb (Qabs (z1 - z2)) tol) (Qeq_bool z1 z2) = true) ->
  pt_correct a u c w (seg3d_pt tol a c u w i0 i1 ni).
Proof.
  intros tol a c u w i0 i1 ni Ht Hax Hd G. unfold seg3d_pt. cbv zeta in *.
  assert (ND : ~ c3 u i0 * - c3 w i1 - c3 u i1 * - c3 w i0 == 0) by (intro Z0; apply Hd; lra).
  pose proof (fun s t => cramer (c3 u i0) (c3 u i1) (c3 w i0) (c3 w i1)
                                (c3 c i0 - c3 a i0) (c3 c i1 - c3 a i1) s t ND) as CR.
  set (D := c3 u i0 * - c3 w i1 - c3 u i1 * - c3 w i0) in *.
  set (t1 := ((c3 c i0 - c3 a i0) * - c3 w i1 - (c3 c i1 - c3 a i1) * - c3 w i0) / D) in *.
  set (t2 := (c3 u i0 * (c3 c i1 - c3 a i1) - c3 u i1 * (c3 c i0 - c3 a i0)) / D) in *.
  destruct (proj2 (CR t1 t2)) as [Cx Cy]; [split; reflexivity|].
  (* a meeting point has the parameters t1, t2, and the two lines agree on the axis ni *)
  assert (M : forall p s t,
            (forall i, (i < 3)%nat -> c3 p i == c3 a i + s * c3 u i /\ c3 p i == c3 c i + t * c3 w i) ->
            s == t1 /\ t == t2 /\ c3 a ni + t1 * c3 u ni == c3 c ni + t2 * c3 w ni).
  { intros p s t H. apply (axes_all i0 i1 ni _ Hax) in H. destruct H as ([X X'] & [Y Y'] & [Z Z']).
    destruct (proj1 (CR s t)) as [Es Et]; [split; lra|]. rewrite <- Es, <- Et. repeat split; lra. }
  destruct (qltb t1 0 || qltb 1 t1 || qltb t2 0 || qltb 1 t2) eqn:ER.
  { intros p (s & t & S0 & S1 & T0 & T1 & H). destruct (M p s t H) as (Es & Et & _).
    rewrite !orb_true_iff, !qltb_true in ER. lra. }
  rewrite !orb_false_iff, !qltb_false in ER.
  destruct (qltb _ tol) eqn:EZ.
  - cbn [implb] in G. apply Qeq_bool_iff in G.
    destruct (vec_axes i0 i1 ni (c3 a i0 + t1 * c3 u i0) (c3 a i1 + t1 * c3 u i1)
                       (c3 a ni + t1 * c3 u ni) Hax) as (E0 & E1 & E2).
    cbv zeta in E0, E1, E2. set (v := List.map _ _) in *. clearbody v.
    intro p. unfold peq3. split.
    + intros (s & t & _ & _ & _ & _ & H). destruct (M p s t H) as (Es & _ & _).
      apply (axes_all i0 i1 ni _ Hax). apply (axes_all i0 i1 ni _ Hax) in H.
      rewrite E0, E1, E2, <- Es. tauto.
    + intro H. exists t1, t2. repeat (split; [tauto|]).
      apply (axes_all i0 i1 ni _ Hax). apply (axes_all i0 i1 ni _ Hax) in H.
      cbv beta in H. rewrite E0, E1, E2 in H. destruct H as (H0 & H1 & H2). rewrite H0, H1, H2.
      repeat split; lra.
  - intros p (s & t & _ & _ & _ & _ & H). destruct (M p s t H) as (_ & _ & Ez).
    apply qltb_false in EZ. apply (Qle_not_lt _ _ EZ), qabs_zero_lt; [exact Ht|lra].
Qed.

(* segments_3d, point branch: for arbitrary rational end points and tol > 0, under the
   guard [sep3] the result is exactly the intersection of the two segments. *)
Lemma seg3d_correct_sep : forall tol a0 a1 a2 b0 b1 b2 c0 c1 c2 d0 d1 d2,
  0 < tol ->
  sep3 tol [a0; a1; a2] [b0; b1; b2] [c0; c1; c2] [d0; d1; d2] = true ->
  correct3 [a0; a1; a2] [b0; b1; b2] [c0; c1; c2] [d0; d1; d2]
           (seg3d tol [a0; a1; a2] [b0; b1; b2] [c0; c1; c2] [d0; d1; d2]).
Proof.
  intros tol a0 a1 a2 b0 b1 b2 c0 c1 c2 d0 d1 d2 Ht S.
  apply pt_correct_correct3.
  unfold seg3d, sep3 in *. cbn [map2 List.map] in *. cbv zeta in *.
  match type of S with context [pick_axes ?m] =>
    pose proof (pick_axes_ok m) as Hax; destruct (pick_axes m) as [[i0 i1] ni] end.
  apply andb_prop in S. destruct S as [S1 S2].
  apply negb_true_iff in S1. rewrite S1.
  apply seg3d_pt_correct; try assumption.
  apply qltb_false in S1. intro Z0. rewrite Z0 in S1. cbn in S1. lra.
Qed.

Definition proj_discr (s1 e1 s2 e2 : pt3) : Q :=
  let dl1 := map2 Qminus e1 s1 in
  let dl2 := map2 Qminus e2 s2 in
  let m1 := map (fun x => qltb tol8 (Qabs x)) dl1 in
  let m2 := map (fun x => qltb tol8 (Qabs x)) dl2 in
  let '(i0, i1, ni) := pick_axes (map2 orb m1 m2) in
  c3 dl1 i0 * c3 dl2 i1 - c3 dl1 i1 * c3 dl2 i0.

Definition zpt3 (x y z : Z) : pt3 := [inject_Z x; inject_Z y; inject_Z z].

(* the two z-values are multiples of 1/D: closer than tol8 means equal *)
Lemma z_sep_int : forall a c u w n1 n2 D,
  isint a -> isint c -> isint u -> isint w -> isint n1 -> isint n2 -> isint D ->
  ~ D == 0 -> - bigM <= D <= bigM ->
  let z1 := a + n1 / D * u in let z2 := c + n2 / D * w in
  Qabs (z1 - z2) < tol8 -> z1 == z2.
Proof.
  intros a c u w n1 n2 D Ia Ic Iu Iw I1 I2 ID ND B z1 z2 H.
  assert (G1 : on_grid D z1)
    by (apply (isint_eq (a * D + n1 * u)); [unfold z1; field; exact ND|auto with isint]).
  assert (G2 : on_grid D z2)
    by (apply (isint_eq (c * D + n2 * w)); [unfold z2; field; exact ND|auto with isint]).
  apply Qabs_Qlt_condition in H. destruct H as [H1 H2].
  assert (L1 : z1 <= z2) by (apply (grid_gap D z1 z2 ID ND B G1 G2); lra).
  assert (L2 : z2 <= z1) by (apply (grid_gap D z2 z1 ID ND B G2 G1); lra).
  lra.
Qed.

Lemma c3_all : forall (P : Q -> Prop) x y z i, P x -> P y -> P z -> P 0 -> P (c3 [x; y; z] i).
Proof. intros P x y z [|[|[|[|i]]]] Hx Hy Hz H0; assumption. Qed.

Lemma seg3d_correct_int : forall ax ay az bx by_ bz cx cy cz dx dy dz : Z,
  inbox ax -> inbox ay -> inbox az -> inbox bx -> inbox by_ -> inbox bz ->
  inbox cx -> inbox cy -> inbox cz -> inbox dx -> inbox dy -> inbox dz ->
  let A := zpt3 ax ay az in let B := zpt3 bx by_ bz in
  let C := zpt3 cx cy cz in let D := zpt3 dx dy dz in
  ~ proj_discr A B C D == 0 ->
  correct3 A B C D (seg3d tol8 A B C D).
Proof.
  intros ax ay az bx by_ bz cx cy cz dx dy dz Bax Bay Baz Bbx Bby Bbz Bcx Bcy Bcz Bdx Bdy Bdz
         A B C D HP.
  unfold A, B, C, D, zpt3 in *. clear A B C D.
  apply seg3d_correct_sep; [exact tol8_pos|].
  unfold sep3, proj_discr in *. cbn [map2 List.map] in *. cbv zeta in *.
  match goal with |- context [pick_axes ?m] => destruct (pick_axes m) as [[i0 i1] ni] end.
  set (u := [inject_Z bx - inject_Z ax; inject_Z by_ - inject_Z ay; inject_Z bz - inject_Z az]) in *.
  set (w := [inject_Z dx - inject_Z cx; inject_Z dy - inject_Z cy; inject_Z dz - inject_Z cz]) in *.
  set (a := [inject_Z ax; inject_Z ay; inject_Z az]). set (c := [inject_Z cx; inject_Z cy; inject_Z cz]).
  (* every coordinate that occurs is an integer, every difference is within 2000 *)
  set (P := fun q => isint q /\ -2000 <= q <= 2000).
  assert (P0 : P 0) by (split; [exists 0%Z; reflexivity|lra]).
  assert (Pu : forall i, P (c3 u i)) by (intro i; apply c3_all; trivial; apply diff_bound; assumption).
  assert (Pw : forall i, P (c3 w i)) by (intro i; apply c3_all; trivial; apply diff_bound; assumption).
  assert (Ia : forall i, isint (c3 a i)) by (intro i; apply c3_all; auto with isint; apply P0).
  assert (Ic : forall i, isint (c3 c i)) by (intro i; apply c3_all; auto with isint; apply P0).
  pose proof (fun i => proj1 (Pu i)) as Iu. pose proof (fun i => proj1 (Pw i)) as Iw.
  clearbody u w a c.
  apply andb_true_intro. split.
  - apply negb_true_iff, qltb_false.
    assert (I : isint (c3 u i0 * c3 w i1 - c3 u i1 * c3 w i0)) by auto with isint.
    pose proof (isint_abs_ge1 _ I HP). unfold tol8. lra.
  - match goal with |- implb ?b _ = true => destruct b eqn:EZ end; [|reflexivity].
    cbn [implb]. apply Qeq_bool_iff. apply qltb_true in EZ.
    apply z_sep_int; auto 6 with isint.
    + intro Z0. apply HP. lra.
    + apply det_bound; (apply Pu || apply Pw).
Qed.

(* whatever the earlier tests say, a start-difference that is not parallel to segment 1
   (some component of (s2 - s1) x d1 beyond tol) makes the parallel branch return None *)
Lemma seg3d_par_offline : forall tol s1 e1 s2 e2 dl1 dl2 m1 m2,
  let ds := map2 Qminus s2 s1 in
  (qltb tol (Qabs (c3 ds 1 * c3 dl1 2 - c3 ds 2 * c3 dl1 1)) = true \/
   qltb tol (Qabs (c3 ds 2 * c3 dl1 0 - c3 ds 0 * c3 dl1 2)) = true \/
   qltb tol (Qabs (c3 ds 0 * c3 dl1 1 - c3 ds 1 * c3 dl1 0)) = true) ->
  seg3d_par tol s1 e1 s2 e2 dl1 dl2 m1 m2 = R3None.
Proof.
  intros tol s1 e1 s2 e2 dl1 dl2 m1 m2 ds H. unfold seg3d_par. cbv zeta. fold ds.
  destruct (negb (bools_eqb m1 m2)); [reflexivity|].
  do 2 (match goal with |- (if ?b then _ else _) = _ => destruct b end; [reflexivity|]).
  destruct H as [H|[H|H]]; rewrite H;
    repeat match goal with |- (if ?b then _ else _) = _ => destruct b end; reflexivity.
Qed.

Lemma parallel_offline_disjoint : forall a0 a1 a2 b0 b1 b2 c0 c1 c2 d0 d1 d2 p,
  let u0 := b0 - a0 in let u1 := b1 - a1 in let u2 := b2 - a2 in
  let w0 := d0 - c0 in let w1 := d1 - c1 in let w2 := d2 - c2 in
  u1 * w2 - u2 * w1 == 0 -> u2 * w0 - u0 * w2 == 0 -> u0 * w1 - u1 * w0 == 0 ->
  ~ ((c1 - a1) * u2 - (c2 - a2) * u1 == 0 /\ (c2 - a2) * u0 - (c0 - a0) * u2 == 0 /\
     (c0 - a0) * u1 - (c1 - a1) * u0 == 0) ->
  ~ common3 p [a0; a1; a2] [b0; b1; b2] [c0; c1; c2] [d0; d1; d2].
Proof.
  intros a0 a1 a2 b0 b1 b2 c0 c1 c2 d0 d1 d2 p u0 u1 u2 w0 w1 w2 P0 P1 P2 N
         [[s [_ [_ Hs]]] [t [_ [_ Ht]]]].
  pose proof (Hs 0%nat ltac:(lia)) as S0. pose proof (Hs 1%nat ltac:(lia)) as S1.
  pose proof (Hs 2%nat ltac:(lia)) as S2. pose proof (Ht 0%nat ltac:(lia)) as T0.
  pose proof (Ht 1%nat ltac:(lia)) as T1. pose proof (Ht 2%nat ltac:(lia)) as T2.
  unfold c3 in *. cbn [List.nth] in *.
  set (p0 := List.nth 0 p 0) in *. set (p1 := List.nth 1 p 0) in *. set (p2 := List.nth 2 p 0) in *.
  unfold u0, u1, u2, w0, w1, w2 in *.
  (* each component is the 2-D statement [parallel_meet] in one coordinate plane *)
  apply N. split; [|split].
  - apply (parallel_meet (a1, a2) (b1, b2) (c1, c2) (d1, d2) (p1, p2) s t);
      [unfold discr2; cbn [fst snd]; lra|split; assumption..].
  - apply (parallel_meet (a2, a0) (b2, b0) (c2, c0) (d2, d0) (p2, p0) s t);
      [unfold discr2; cbn [fst snd]; lra|split; assumption..].
  - apply (parallel_meet (a0, a1) (b0, b1) (c0, c1) (d0, d1) (p0, p1) s t);
      [unfold discr2; cbn [fst snd]; lra|split; assumption..].
Qed.

(* segments_3d on parallel lines that are not the same line (beyond tol): returns None, and
   that is the exact answer.  Any rational end points, any tol > 0. *)
Lemma seg3d_parallel_offline_correct : forall tol a0 a1 a2 b0 b1 b2 c0 c1 c2 d0 d1 d2,
  0 < tol ->
  let u0 := b0 - a0 in let u1 := b1 - a1 in let u2 := b2 - a2 in
  let w0 := d0 - c0 in let w1 := d1 - c1 in let w2 := d2 - c2 in
  u1 * w2 - u2 * w1 == 0 -> u2 * w0 - u0 * w2 == 0 -> u0 * w1 - u1 * w0 == 0 ->
  (tol < Qabs ((c1 - a1) * u2 - (c2 - a2) * u1) \/ tol < Qabs ((c2 - a2) * u0 - (c0 - a0) * u2) \/
   tol < Qabs ((c0 - a0) * u1 - (c1 - a1) * u0)) ->
  seg3d tol [a0; a1; a2] [b0; b1; b2] [c0; c1; c2] [d0; d1; d2] = R3None /\
  correct3 [a0; a1; a2] [b0; b1; b2] [c0; c1; c2] [d0; d1; d2]
           (seg3d tol [a0; a1; a2] [b0; b1; b2] [c0; c1; c2] [d0; d1; d2]).
Proof.
  intros tol a0 a1 a2 b0 b1 b2 c0 c1 c2 d0 d1 d2 Ht u0 u1 u2 w0 w1 w2 P0 P1 P2 Hoff.
  assert (E : seg3d tol [a0; a1; a2] [b0; b1; b2] [c0; c1; c2] [d0; d1; d2] = R3None).
  { unfold seg3d. cbn [map2 List.map]. cbv zeta. fold u0 u1 u2 w0 w1 w2.
    match goal with |- context [pick_axes ?m] =>
      pose proof (pick_axes_ok m) as Hax; destruct (pick_axes m) as [[i0 i1] ni] end.
    (* whichever projection is picked, its discriminant is a component of u x w = 0 *)
    rewrite (proj2 (qltb_true _ tol)).
    - apply seg3d_par_offline. unfold c3. cbn [map2 List.nth]. fold u0 u1 u2.
      rewrite !qltb_true. exact Hoff.
    - apply qabs_zero_lt; [exact Ht|].
      destruct Hax as [X|[X|X]]; injection X as -> -> ->; unfold c3; cbn [List.nth]; lra. }
  split; [exact E|]. rewrite E. cbn [correct3]. intro p.
  apply (parallel_offline_disjoint a0 a1 a2 b0 b1 b2 c0 c1 c2 d0 d1 d2 p P0 P1 P2).
  intros (Z0 & Z1 & Z2). fold u0 u1 u2 in Z0, Z1, Z2.
  destruct Hoff as [H | [H | H]]; [rewrite Z0 in H|rewrite Z1 in H|rewrite Z2 in H];
    cbn in H; lra.
Qed.
