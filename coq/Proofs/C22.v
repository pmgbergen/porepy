(* C22 — proofs about PP.Model.C22.  An extracted incidence is a submatrix of its parent
   (submatrix_of, extract_submatrix_spec, extract_subgrid_cells); the views of a subgrid
   (section ViewProofs); the overlap layers (section Overlap: act_exact, overlap_spec,
   overlap_mono, overlap_S). *)
From Coq Require Import List ZArith Bool Arith Lia Sorted Permutation.
Import ListNotations.
From PP Require Import Lib.ListFacts Model.C22.

Lemma forallb_ltb n l : forallb (fun j => j <? n) l = true <-> Forall (fun j => j < n) l.
Proof.
  rewrite forallb_forall, Forall_forall. split; intros H j Hj; apply Nat.ltb_lt, H, Hj.
Qed.

Lemma nth_true_lt (l : list bool) i : nth i l false = true -> i < length l.
Proof.
  intros H. destruct (lt_dec i (length l)) as [Hl|Hl]; [exact Hl|].
  rewrite nth_overflow in H by lia. discriminate.
Qed.

Lemma filter_seq_sorted (p : nat -> bool) s n : StronglySorted lt (filter p (seq s n)).
Proof.
  revert s. induction n as [|n IH]; intros s; cbn; [constructor|].
  destruct (p s); [|apply IH]. constructor; [apply IH|].
  apply Forall_forall. intros x Hx. apply filter_In in Hx. destruct Hx as [Hx _].
  apply in_seq in Hx. lia.
Qed.

Lemma ins_In x l y : In y (ins x l) <-> x = y \/ In y l.
Proof.
  induction l as [|a t IH]; cbn [ins In].
  - tauto.
  - destruct (x <? a) eqn:E1; cbn [In]; [tauto|].
    destruct (x =? a) eqn:E2; cbn [In].
    + apply Nat.eqb_eq in E2. subst. tauto.
    + rewrite IH. tauto.
Qed.

Lemma ins_sorted x l : StronglySorted lt l -> StronglySorted lt (ins x l).
Proof.
  induction 1 as [|a t Hs IH Hf]; cbn [ins].
  - constructor; constructor.
  - destruct (x <? a) eqn:E1.
    + apply Nat.ltb_lt in E1. constructor.
      * constructor; assumption.
      * constructor; [exact E1|]. eapply Forall_impl; [|exact Hf]. cbn; intros; lia.
    + destruct (x =? a) eqn:E2.
      * constructor; assumption.
      * apply Nat.ltb_ge in E1. apply Nat.eqb_neq in E2. constructor; [exact IH|].
        rewrite Forall_forall in *. intros y Hy. apply ins_In in Hy.
        destruct Hy as [<-|Hy]; [lia|apply Hf, Hy].
Qed.

Lemma usort_In l y : In y (usort l) <-> In y l.
Proof.
  induction l as [|a t IH]; cbn; [tauto|]. rewrite ins_In, IH. tauto.
Qed.

Lemma usort_sorted l : StronglySorted lt (usort l).
Proof. induction l as [|a t IH]; cbn; [constructor|apply ins_sorted, IH]. Qed.

Lemma index_of_spec u r :
  In r u -> index_of u r < length u /\ nth (index_of u r) u 0 = r.
Proof.
  induction u as [|x t IH]; cbn; [tauto|]. intros H. destruct (x =? r) eqn:E.
  - apply Nat.eqb_eq in E. split; [lia|exact E].
  - apply Nat.eqb_neq in E. destruct H as [H|H]; [congruence|].
    destruct (IH H) as [H1 H2]. split; [lia|exact H2].
Qed.

Lemma renumber_spec u (c : col) :
  (forall e, In e c -> In (fst e) u) ->
  relabel u (renumber u c) = c /\ Forall (fun e => fst e < length u) (renumber u c).
Proof.
  intros H. unfold relabel, renumber. split.
  - rewrite map_map. rewrite <- (map_id c) at 2.
    apply map_ext_in. intros [r v] He. cbn. f_equal.
    apply (index_of_spec u r), (H (r, v) He).
  - apply Forall_map, Forall_forall. intros e He. apply index_of_spec, H, He.
Qed.

Lemma slice_Ok m ind s :
  slice m ind = Ok s <->
  Forall (fun j => j < length m) ind /\ s = map (fun j => nth j m []) ind.
Proof.
  unfold slice. rewrite <- forallb_ltb.
  destruct (forallb _ ind); split; intros H; try easy.
  - injection H as <-. auto.
  - destruct H as [_ ->]. reflexivity.
Qed.

Lemma slice_Err m ind e : slice m ind = Err e -> e = IndexErr.
Proof. unfold slice. destruct (forallb _ ind); congruence. Qed.

(* [sub] consists of the columns [ind] of [m], in this order, with the rows renumbered by
   their positions in [u]: the sorted list of the rows these columns mention *)
Record submatrix_of (m : csc) (ind : list nat) (sub : csc) (u : list nat) : Prop := {
  sm_ind : Forall (fun j => j < length m) ind;
  sm_length : length sub = length ind;
  sm_sorted : StronglySorted lt u;
  sm_rows : forall r, In r u <-> exists j, In j ind /\ In r (map fst (nth j m []));
  sm_col : forall i, i < length ind ->
      relabel u (nth i sub []) = nth (nth i ind 0) m [] /\
      Forall (fun e => fst e < length u) (nth i sub [])
}.

Lemma extract_submatrix_spec m ind sub u :
  extract_submatrix m ind = Ok (sub, u) -> submatrix_of m ind sub u.
Proof.
  unfold extract_submatrix. destruct (slice m ind) as [s|] eqn:E; [|discriminate].
  apply slice_Ok in E. destruct E as [HF ->]. intros [= <- <-].
  assert (Hu : forall r, In r (usort (all_rows (map (fun j => nth j m []) ind))) <->
                         exists j, In j ind /\ In r (map fst (nth j m []))).
  { intros r. unfold all_rows. rewrite usort_In, in_flat_map. split.
    - intros [c [Hc Hr]]. apply in_map_iff in Hc. destruct Hc as [j [<- Hj]]. eauto.
    - intros [j [Hj Hr]]. exists (nth j m []). split; [|exact Hr].
      apply (in_map (fun j => nth j m []) ind j Hj). }
  constructor; [exact HF|rewrite !map_length; reflexivity|apply usort_sorted|exact Hu|].
  intros i Hi. rewrite map_map, (nth_map_lt _ ind i 0) by exact Hi.
  apply renumber_spec. intros e He. apply Hu. exists (nth i ind 0).
  split; [apply nth_In, Hi|apply in_map, He].
Qed.

Lemma extract_submatrix_total m ind :
  Forall (fun j => j < length m) ind -> exists sub u, extract_submatrix m ind = Ok (sub, u).
Proof.
  intros H. unfold extract_submatrix. rewrite (proj2 (slice_Ok m ind _) (conj H eq_refl)). eauto.
Qed.

Lemma extract_submatrix_err m ind e : extract_submatrix m ind = Err e -> e = IndexErr.
Proof.
  unfold extract_submatrix. destruct (slice m ind) eqn:E; [discriminate|].
  intros [= <-]. apply (slice_Err m ind _ E).
Qed.

Lemma insd_perm x l : Permutation (insd x l) (x :: l).
Proof.
  induction l as [|a t IH]; cbn [insd]; [reflexivity|].
  destruct (x <=? a); [reflexivity|].
  rewrite IH. apply perm_swap.
Qed.

Lemma isort_perm l : Permutation (isort l) l.
Proof.
  induction l as [|a t IH]; cbn; [constructor|]. rewrite insd_perm. constructor. exact IH.
Qed.

Lemma insd_sorted x l : StronglySorted le l -> StronglySorted le (insd x l).
Proof.
  induction 1 as [|a t Hs IH Hf]; cbn [insd].
  - constructor; constructor.
  - destruct (x <=? a) eqn:E.
    + apply Nat.leb_le in E. constructor; [constructor; assumption|].
      constructor; [exact E|]. eapply Forall_impl; [|exact Hf]. cbn; intros; lia.
    + apply Nat.leb_gt in E. constructor; [exact IH|].
      eapply Permutation_Forall; [symmetry; apply insd_perm|].
      constructor; [lia|exact Hf].
Qed.

Lemma isort_sorted l : StronglySorted le (isort l).
Proof. induction l as [|a t IH]; cbn; [constructor|apply insd_sorted, IH]. Qed.

Lemma mask_idx_from_In k b j :
  In j (mask_idx_from k b) <-> k <= j /\ nth (j - k) b false = true.
Proof.
  revert k. induction b as [|x t IH]; intros k; cbn [mask_idx_from].
  - destruct (j - k); cbn; intuition discriminate.
  - destruct (le_lt_dec j k).
    + replace (j - k) with 0 by lia.
      destruct x; cbn [In nth]; rewrite ?IH; intuition (discriminate || lia).
    + replace (j - k) with (S (j - S k)) by lia.
      destruct x; cbn [In nth]; rewrite IH; intuition lia.
Qed.

Lemma mask_idx_In b j : In j (mask_idx b) <-> nth j b false = true.
Proof.
  unfold mask_idx. rewrite mask_idx_from_In, Nat.sub_0_r. intuition lia.
Qed.

Lemma mask_idx_from_sorted k b : StronglySorted lt (mask_idx_from k b).
Proof.
  revert k. induction b as [|x t IH]; intros k; cbn; [constructor|].
  destruct x; [|apply IH]. constructor; [apply IH|].
  apply Forall_forall. intros j Hj. apply mask_idx_from_In in Hj. lia.
Qed.

Lemma mask_idx_lt b j : In j (mask_idx b) -> j < length b.
Proof. intros H. apply nth_true_lt, mask_idx_In, H. Qed.

Definition requested (c : cells) : list nat :=
  match c with CIdx l => l | CMask b => mask_idx b end.

(* the subgrid's two incidence matrices are the parent's restricted to the cells, and to
   the faces of those cells *)
Definition maps_ok (cf fn : csc) (sg : subgrid) : Prop :=
  submatrix_of cf (sg_cells sg) (sg_cf sg) (sg_faces sg) /\
  submatrix_of fn (sg_faces sg) (sg_fn sg) (sg_nodes sg).

Lemma extract_idx_maps cf fn c sg :
  extract_idx cf fn c = Ok sg -> sg_cells sg = c /\ maps_ok cf fn sg.
Proof.
  unfold extract_idx.
  destruct (extract_submatrix cf c) as [[cf_sub uf]|] eqn:E1; [|discriminate].
  destruct (extract_submatrix fn uf) as [[fn_sub un]|] eqn:E2; [|discriminate].
  intros [= <-]. split; [reflexivity|]. split; cbn; apply extract_submatrix_spec; assumption.
Qed.

Lemma extract_subgrid_cells cf fn c sort sg :
  extract_subgrid cf fn c sort = Ok sg ->
  Permutation (sg_cells sg) (requested c) /\
  (sort = true -> StronglySorted le (sg_cells sg)) /\
  maps_ok cf fn sg.
Proof.
  destruct c as [l|b]; cbn; [|destruct (length b =? length cf); [|discriminate]];
    intros H; apply extract_idx_maps in H; destruct H as [-> Hm];
    (split; [destruct sort; [apply isort_perm|reflexivity]|]);
    (split; [intros ->; apply isort_sorted|exact Hm]).
Qed.

Definition wf_grid (cf fn : csc) : Prop :=
  forall c e, In e (nth c cf []) -> fst e < length fn.

Definition valid_cells (cf : csc) (c : cells) : Prop :=
  match c with
  | CIdx l => Forall (fun j => j < length cf) l
  | CMask b => length b = length cf
  end.

Lemma extract_idx_total cf fn c :
  wf_grid cf fn -> Forall (fun j => j < length cf) c -> exists sg, extract_idx cf fn c = Ok sg.
Proof.
  intros Hwf Hc. unfold extract_idx.
  destruct (extract_submatrix_total cf c Hc) as [sub [uf E1]]. rewrite E1.
  apply extract_submatrix_spec in E1.
  assert (Hfin : Forall (fun j => j < length fn) uf).
  { apply Forall_forall. intros f Hin. apply (sm_rows _ _ _ _ E1) in Hin.
    destruct Hin as [j [_ Hr]]. apply in_map_iff in Hr. destruct Hr as [e [<- He]].
    apply (Hwf j e He). }
  destruct (extract_submatrix_total fn uf Hfin) as [sub2 [un E2]]. rewrite E2. eauto.
Qed.

Lemma extract_idx_err cf fn c e : extract_idx cf fn c = Err e -> e = IndexErr.
Proof.
  unfold extract_idx.
  destruct (extract_submatrix cf c) as [[cf_sub uf]|] eqn:E1;
    [destruct (extract_submatrix fn uf) as [[fn_sub un]|] eqn:E2; [discriminate|]|];
    intros [= <-]; eapply extract_submatrix_err; eassumption.
Qed.

Lemma extract_subgrid_total cf fn c sort :
  wf_grid cf fn -> valid_cells cf c -> exists sg, extract_subgrid cf fn c sort = Ok sg.
Proof.
  intros Hwf Hv.
  assert (H : Forall (fun j => j < length cf) (requested c)).
  { destruct c as [l|b]; [exact Hv|]. apply Forall_forall. intros j Hj.
    rewrite <- Hv. apply mask_idx_lt, Hj. }
  assert (H' : Forall (fun j => j < length cf) (if sort then isort (requested c) else requested c)).
  { destruct sort; [|exact H]. eapply Permutation_Forall; [symmetry; apply isort_perm|exact H]. }
  destruct c as [l|b]; cbn in *; [|rewrite Hv, Nat.eqb_refl]; apply extract_idx_total; assumption.
Qed.

Lemma extract_subgrid_err cf fn c sort e :
  wf_grid cf fn -> extract_subgrid cf fn c sort = Err e ->
  e = IndexErr /\ ~ valid_cells cf c.
Proof.
  intros Hwf H. split.
  - destruct c as [l|b]; cbn in H; [|destruct (length b =? length cf); [|congruence]];
      apply (extract_idx_err _ _ _ _ H).
  - intros Hv. destruct (extract_subgrid_total cf fn c sort Hwf Hv) as [sg E]. congruence.
Qed.

Section ViewProofs.
  Variable X : Type.
  Variable d : X.
  Variables (cf fn : csc) (sg : subgrid) (nodes : list X).
  Hypothesis Hm : maps_ok cf fn sg.

  Lemma take_nodes_nth un k :
    k < length un -> nth k (take_nodes d nodes un) d = nth (nth k un 0) nodes d.
  Proof. intros H. unfold take_nodes. apply (nth_map_lt (fun n => nth n nodes d) un k 0 d H). Qed.

  Lemma face_view_sub j :
    j < length (sg_faces sg) ->
    face_view d (take_nodes d nodes (sg_nodes sg)) (sg_fn sg) j
    = face_view d nodes fn (nth j (sg_faces sg) 0).
  Proof.
    intros Hj. destruct (sm_col _ _ _ _ (proj2 Hm) j Hj) as [Hrel Hloc].
    unfold face_view. rewrite <- Hrel. unfold relabel. rewrite map_map.
    apply map_ext_in. intros e He. cbn. rewrite Forall_forall in Hloc.
    apply take_nodes_nth, Hloc, He.
  Qed.

  Lemma cell_view_sub i :
    i < length (sg_cells sg) ->
    cell_view d (take_nodes d nodes (sg_nodes sg)) (sg_cf sg) (sg_fn sg) i
    = cell_view d nodes cf fn (nth i (sg_cells sg) 0).
  Proof.
    intros Hi. destruct (sm_col _ _ _ _ (proj1 Hm) i Hi) as [Hrel Hloc].
    unfold cell_view. rewrite <- Hrel. unfold relabel. rewrite map_map.
    apply map_ext_in. intros e He. cbn. f_equal. rewrite Forall_forall in Hloc.
    apply face_view_sub, Hloc, He.
  Qed.
End ViewProofs.

Open Scope Z_scope.

Fixpoint sumZ (l : list Z) : Z := match l with [] => 0 | x :: t => x + sumZ t end.
Definition bit (x : Z) : Prop := 0 <= x <= 1.

Lemma sumZ_nonneg l : Forall (fun x => 0 <= x) l -> 0 <= sumZ l.
Proof. induction 1; cbn; lia. Qed.

Lemma sumZ_repeat0 n : sumZ (repeat 0 n) = 0.
Proof. induction n; cbn; lia. Qed.

Lemma repeat_bits n : Forall bit (repeat 0 n).
Proof. apply Forall_forall. intros x Hx. apply repeat_spec in Hx. unfold bit. lia. Qed.

Lemma set_one_length l i : length (set_one l i) = length l.
Proof. revert i. induction l as [|x t IH]; intros [|i]; cbn; auto. Qed.

Lemma set_one_bits l i : Forall bit l -> Forall bit (set_one l i).
Proof.
  intros H. revert i. induction H as [|x t Hx Ht IH]; intros [|i]; cbn; auto.
  constructor; [unfold bit; lia|exact Ht].
Qed.

Lemma set_one_sum l i : Forall bit l -> sumZ (set_one l i) <= sumZ l + 1.
Proof.
  intros H. revert i. induction H as [|x t Hx Ht IH]; intros [|i]; cbn [set_one sumZ]; try lia.
  - unfold bit in Hx. lia.
  - specialize (IH i). lia.
Qed.

Lemma set_one_hd_keep l i : hd 0 l = 1 -> hd 0 (set_one l i) = 1.
Proof. destruct l as [|x t]; destruct i; cbn; auto. Qed.

Lemma cumsum_length l acc : length (cumsum_from acc l) = length l.
Proof. revert acc. induction l; intros; cbn; auto. Qed.

Lemma cumsum_bounds l : Forall (fun x => 0 <= x) l -> forall acc,
  Forall (fun y => acc + hd 0 l <= y <= acc + sumZ l) (cumsum_from acc l).
Proof.
  induction 1 as [|x t Hx Ht IH]; intros acc; cbn; [constructor|].
  pose proof (sumZ_nonneg t Ht) as Hs. constructor; [lia|].
  eapply Forall_impl; [|apply (IH (acc + x))]. cbn. intros y Hy.
  assert (0 <= hd 0 t) by (destruct Ht; cbn; lia). lia.
Qed.

Lemma dim_index_err fine coarse :
  1 <= fine -> fine < coarse -> dim_index fine coarse = Err ValueErr.
Proof.
  intros H1 H2. unfold dim_index. destruct (coarse <=? 0) eqn:E1; [lia|].
  rewrite Z.div_small by lia. reflexivity.
Qed.

Lemma prodZ_cons a l : prodZ (a :: l) = a * prodZ l.
Proof. reflexivity. Qed.

(* digits in mixed radix: the part id of a cell from its coarse index along each axis *)
Lemma radix_range c P x q : 0 <= x < c -> 0 <= q < P -> 0 <= x + q * c < c * P.
Proof. nia. Qed.

Lemma radix_digits c P p :
  0 < c -> 0 <= p < c * P -> exists x q, 0 <= x < c /\ 0 <= q < P /\ p = x + q * c.
Proof.
  intros Hc Hp. exists (p mod c), (p / c).
  pose proof (Z.mod_pos_bound p c Hc). pose proof (Z.div_mod p c).
  repeat split; try lia; [apply Z.div_pos; lia|apply Z.div_lt_upper_bound; lia].
Qed.

Close Scope Z_scope.

Lemma mem_In r l : mem r l = true <-> In r l.
Proof.
  unfold mem. rewrite existsb_exists. split.
  - intros [x [Hx E]]. apply Nat.eqb_eq in E. subst. exact Hx.
  - intros H. exists r. split; [exact H|apply Nat.eqb_refl].
Qed.

Lemma row_hit_spec cols ac r :
  row_hit cols ac r = true <->
  exists a, a < length cols /\ nth a ac false = true /\ In r (nth a cols []).
Proof.
  unfold row_hit. rewrite existsb_exists. split.
  - intros [a [Ha E]]. apply in_seq in Ha. apply andb_true_iff in E. destruct E as [E1 E2].
    apply mem_In in E2. exists a. repeat split; [lia|exact E1|exact E2].
  - intros [a [Ha [E1 E2]]]. exists a. split; [apply in_seq; lia|].
    apply andb_true_iff. split; [exact E1|apply mem_In, E2].
Qed.

Lemma col_hit_spec ar cl :
  col_hit ar cl = true <-> exists r, In r cl /\ nth r ar false = true.
Proof. unfold col_hit. apply existsb_exists. Qed.

Section Overlap.
  Variable cols : list (list nat).
  Variable nrows : nat.
  Variable cell_ind : list nat.

  Definition ov (n : nat) := ov_state cols nrows (init_cells (length cols) cell_ind) n.
  (* cell c / row r is active after n passes of the loop *)
  Definition act (n c : nat) : bool := nth c (fst (ov n)) false.
  Definition ract (n r : nat) : bool := nth r (snd (ov n)) false.

  Definition share (a c : nat) : Prop :=
    exists r, In r (nth a cols []) /\ In r (nth c cols []).

  Definition rows_in_range : Prop :=
    forall c r, In r (nth c cols []) -> r < nrows.

  Lemma ov_S n : ov (S n) = ov_step cols nrows (ov n).
  Proof. reflexivity. Qed.

  Lemma ov_lengths n : length (fst (ov n)) = length cols /\ length (snd (ov n)) = nrows.
  Proof.
    induction n as [|n IH].
    - unfold ov; cbn. unfold init_cells. rewrite map_length, seq_length, repeat_length. auto.
    - rewrite ov_S. destruct (ov n) as [ac ar]. cbn.
      rewrite !map_length, !seq_length. auto.
  Qed.

  Lemma ract_S n r : r < nrows -> ract (S n) r = ract n r || row_hit cols (fst (ov n)) r.
  Proof.
    intros H. unfold ract. rewrite ov_S. destruct (ov n) as [ac ar]. cbn.
    apply (nth_map_seq (fun r => nth r ar false || row_hit cols ac r) 0 nrows r false H).
  Qed.

  Lemma act_S n c : c < length cols ->
    act (S n) c = act n c || col_hit (snd (ov (S n))) (nth c cols []).
  Proof.
    intros H. unfold act. rewrite ov_S. destruct (ov n) as [ac ar]. cbn.
    apply (nth_map_seq (fun c => nth c ac false || col_hit _ (nth c cols [])) 0 (length cols) c false H).
  Qed.

  Lemma act_range n c : act n c = true -> c < length cols.
  Proof. rewrite <- (proj1 (ov_lengths n)). apply nth_true_lt. Qed.

  Lemma ract_range n r : ract n r = true -> r < nrows.
  Proof. rewrite <- (proj2 (ov_lengths n)). apply nth_true_lt. Qed.

  Lemma act_0 c : c < length cols -> (act 0 c = true <-> In c cell_ind).
  Proof.
    intros H. unfold act, ov; cbn. unfold init_cells.
    rewrite (nth_map_seq (fun c => mem c cell_ind) 0 (length cols) c false H). apply mem_In.
  Qed.

  Lemma act_mono n c : act n c = true -> act (S n) c = true.
  Proof.
    intros H. rewrite act_S by (apply (act_range n), H). rewrite H. reflexivity.
  Qed.

  Lemma act_mono_le n m c : n <= m -> act n c = true -> act m c = true.
  Proof. intros Hle Ha. induction Hle as [|m Hle IH]; [exact Ha|apply act_mono, IH]. Qed.

  Lemma act_neighbours n a c :
    rows_in_range -> c < length cols -> act n a = true -> share a c -> act (S n) c = true.
  Proof.
    intros Hr Hc Ha [r [Hra Hrc]]. rewrite act_S by exact Hc.
    apply orb_true_iff. right. apply col_hit_spec. exists r. split; [exact Hrc|].
    fold (ract (S n) r). rewrite ract_S by (apply (Hr a), Hra).
    apply orb_true_iff. right. apply row_hit_spec.
    exists a. split; [apply (act_range n), Ha|]. split; [exact Ha|exact Hra].
  Qed.

  Lemma ract_inv n r : ract (S n) r = true -> exists a, act n a = true /\ In r (nth a cols []).
  Proof.
    intros H. pose proof (ract_range _ _ H) as Hl. revert H.
    induction n as [|n IH]; intros H; rewrite ract_S in H by exact Hl;
      apply orb_true_iff in H; destruct H as [H|H].
    - unfold ract, ov in H; cbn in H. rewrite nth_repeat in H. discriminate.
    - apply row_hit_spec in H. destruct H as [a [_ H]]. eauto.
    - destruct (IH H) as [a [Ha Hin]]. exists a. split; [apply act_mono, Ha|exact Hin].
    - apply row_hit_spec in H. destruct H as [a [_ H]]. eauto.
  Qed.

  Lemma act_exact n c :
    act (S n) c = true -> act n c = true \/ exists a, act n a = true /\ share a c.
  Proof.
    intros H. pose proof (act_range _ _ H) as Hc. rewrite act_S in H by exact Hc.
    apply orb_true_iff in H. destruct H as [H|H]; [left; exact H|]. right.
    apply col_hit_spec in H. destruct H as [r [Hrc Hr]].
    destruct (ract_inv n r Hr) as [a [Ha Hra]]. exists a. split; [exact Ha|exists r; auto].
  Qed.

  Lemma overlap_spec n l :
    overlap cols nrows cell_ind n = Ok l ->
    Forall (fun c => c < length cols) cell_ind /\
    StronglySorted lt l /\ (forall c, In c l <-> act n c = true).
  Proof.
    unfold overlap. destruct (forallb _ cell_ind) eqn:E; [|discriminate].
    intros [= <-]. split; [apply forallb_ltb, E|]. split; [apply filter_seq_sorted|].
    intros c. rewrite filter_In, in_seq. fold (ov n). fold (act n c). split; [tauto|].
    intros Ha. split; [|exact Ha]. pose proof (act_range _ _ Ha). lia.
  Qed.

  Lemma overlap_range n l :
    overlap cols nrows cell_ind n = Ok l -> Forall (fun c => c < length cols) l.
  Proof.
    intros E. apply overlap_spec in E. destruct E as (_ & _ & Hl).
    apply Forall_forall. intros c Hc. apply (act_range n), Hl, Hc.
  Qed.

  Lemma overlap_initial n l : overlap cols nrows cell_ind n = Ok l -> incl cell_ind l.
  Proof.
    intros E c Hc. apply overlap_spec in E. destruct E as (Hv & _ & Hl).
    rewrite Forall_forall in Hv. apply Hl, (act_mono_le 0 n c); [lia|]. apply act_0; auto.
  Qed.

  Lemma overlap_0 l :
    overlap cols nrows cell_ind 0 = Ok l -> forall c, In c l <-> In c cell_ind.
  Proof.
    intros E c. split; [|apply (overlap_initial 0 l E)].
    apply overlap_spec in E. destruct E as (_ & _ & Hl). intros Hc. apply Hl in Hc.
    apply (act_0 c (act_range 0 c Hc)), Hc.
  Qed.

  Lemma overlap_mono n m l l' :
    n <= m -> overlap cols nrows cell_ind n = Ok l -> overlap cols nrows cell_ind m = Ok l' ->
    incl l l'.
  Proof.
    intros Hle E E' c Hc. apply overlap_spec in E. destruct E as (_ & _ & Hl).
    apply overlap_spec in E'. destruct E' as (_ & _ & Hl'). apply Hl', (act_mono_le n m c Hle), Hl, Hc.
  Qed.

  Lemma overlap_S n l l' :
    rows_in_range ->
    overlap cols nrows cell_ind n = Ok l -> overlap cols nrows cell_ind (S n) = Ok l' ->
    (forall a c, In a l -> c < length cols -> share a c -> In c l') /\
    (forall c, In c l' -> In c l \/ exists a, In a l /\ share a c).
  Proof.
    intros Hr E E'. apply overlap_spec in E. destruct E as (_ & _ & Hl).
    apply overlap_spec in E'. destruct E' as (_ & _ & Hl'). split.
    - intros a c Ha Hc Hsh. apply Hl', (act_neighbours n a c Hr Hc); [apply Hl, Ha|exact Hsh].
    - intros c Hc. apply Hl', act_exact in Hc. destruct Hc as [Hc|[a [Ha Hsh]]].
      + left. apply Hl, Hc.
      + right. exists a. split; [apply Hl, Ha|exact Hsh].
  Qed.

  Lemma overlap_total n :
    Forall (fun c => c < length cols) cell_ind -> exists l, overlap cols nrows cell_ind n = Ok l.
  Proof. intros H. apply forallb_ltb in H. unfold overlap. rewrite H. eauto. Qed.

  Lemma overlap_err n e :
    overlap cols nrows cell_ind n = Err e ->
    e = IndexErr /\ ~ Forall (fun c => c < length cols) cell_ind.
  Proof.
    unfold overlap. rewrite <- forallb_ltb. destruct (forallb _ cell_ind); [discriminate|].
    intros [= <-]. split; [reflexivity|discriminate].
  Qed.
End Overlap.
