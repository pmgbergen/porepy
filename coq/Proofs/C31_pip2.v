(* C31 — point_in_polygon: points separated from the polygon by a line are reported
   outside (winding number 0); with C31.pip_opt_all_left this settles convex polygons. *)
From Coq Require Import List QArith Qabs Bool ZArith Arith Lia Lqa.
Import ListNotations.
From PP Require Import Model.C28 Model.C31 Proofs.C28 Proofs.C31.
Open Scope Q_scope.

Definition lin (al be : Q) (v : v2) : Q := al * fst v + be * snd v.

Lemma lin_nonzero : forall al be v, 0 < lin al be v -> is_zero2 v = false.
Proof.
  intros al be v L. destruct (is_zero2 v) eqn:E; [|reflexivity].
  apply is_zero2_true in E. destruct E as [E1 E2]. unfold lin in L. rewrite E1, E2 in L. lra.
Qed.

(* an edge from the lexicographically negative to the positive half-plane, both end points
   in the open half-plane lin > 0, turns against the sign of be *)
Lemma edge_sign : forall al be v w,
  0 < lin al be v -> 0 < lin al be w -> lex_neg v -> lex_pos w ->
  qsgn be <> 0%Z /\ qsgn (edge_cross v w) = (- qsgn be)%Z /\ qsgn (edge_cross w v) = qsgn be.
Proof.
  intros al be v w Lv Lw Hv Hw.
  assert (S : edge_cross w v == - edge_cross v w) by (unfold edge_cross; ring).
  assert (BC : be * edge_cross v w < 0).
  { clear S. destruct v as [vx vy], w as [wx wy].
    unfold lin, lex_neg, lex_pos, edge_cross in *. cbn [fst snd] in *.
    assert (I : be * (vx * wy - vy * wx)
                == vx * (al * wx + be * wy) - (al * vx + be * vy) * wx) by ring.
    rewrite I. set (lv := al * vx + be * vy) in *. set (lw := al * wx + be * wy) in *.
    destruct Hv as [Hv | [Hv0 Hv]], Hw as [Hw | [Hw0 Hw]].
    - nra.
    - rewrite Hw0. nra.
    - rewrite Hv0. nra.
    - exfalso. unfold lv, lw in *. rewrite Hv0 in Lv. rewrite Hw0 in Lw. nra. }
  destruct (qsgn_spec be) as [[Hb ->] | [[Hb ->] | [Hb ->]]],
           (qsgn_spec (edge_cross v w)) as [[Hc ->] | [[Hc ->] | [Hc ->]]],
           (qsgn_spec (edge_cross w v)) as [[Hd ->] | [[Hd ->] | [Hd ->]]];
    repeat split; try discriminate; exfalso; nra.
Qed.

(* inside the half-plane every edge contributes - sgn be * (sgn w - sgn v) / 2, and an
   active edge never has a vanishing cross product *)
Lemma pair_contrib : forall al be v w,
  0 < lin al be v -> 0 < lin al be w ->
  (2 * contrib (v, w) = - qsgn be * (vertex_sgn w - vertex_sgn v))%Z /\ degenerate (v, w) = false.
Proof.
  intros al be v w Lv Lw. unfold contrib, degenerate. cbn [fst snd].
  pose proof (lin_nonzero al be v Lv) as Nv. pose proof (lin_nonzero al be w Lw) as Nw.
  destruct (vertex_sgn_spec v) as [[Hv ->] | [[Hv ->] | [Hv _]]]; [| |congruence];
    (destruct (vertex_sgn_spec w) as [[Hw ->] | [[Hw ->] | [Hw _]]]; [| |congruence]);
    simpl (_ - _)%Z; cbn [Z.eqb negb].
  - rewrite andb_false_r. split; [lia|reflexivity].
  - destruct (edge_sign al be w v Lw Lv Hw Hv) as (N & _ & ->).
    rewrite andb_true_r. split; [lia|apply Z.eqb_neq; exact N].
  - destruct (edge_sign al be v w Lv Lw Hv Hw) as (N & -> & _).
    rewrite andb_true_r. split; [lia|apply Z.eqb_neq; lia].
  - rewrite andb_false_r. split; [lia|reflexivity].
Qed.

(* along a path inside the half-plane the winding sum telescopes *)
Lemma half_plane_path : forall al be r u f,
  (forall v, In v (u :: r) \/ v = f -> 0 < lin al be v) ->
  let es := combine (u :: r) (r ++ [f]) in
  (2 * zsum (map contrib es) = - qsgn be * (vertex_sgn f - vertex_sgn u))%Z /\
  (forall e, In e es -> degenerate e = false).
Proof.
  intros al be r. unfold zsum. induction r as [|v r IH]; intros u f H.
  - destruct (pair_contrib al be u f) as [E D]; [apply H; cbn; tauto ..|].
    cbn [app combine map fold_right]. split; [lia|]. intros e [<- | []]. exact D.
  - destruct (pair_contrib al be u v) as [E D]; [apply H; cbn; tauto ..|].
    destruct (IH v f) as [E' D']; [intros x Hx; apply H; cbn in *; tauto|].
    change (combine (u :: v :: r) ((v :: r) ++ [f]))
      with ((u, v) :: combine (v :: r) (r ++ [f])).
    cbn [map fold_right]. split; [lia|]. intros e [<- | Hin]; [exact D|exact (D' e Hin)].
Qed.

Lemma separated_closed : forall al be vs,
  let es := combine vs (roll1 vs) in
  (forall v, In v vs -> 0 < lin al be v) ->
  (forall v, In v vs -> is_zero2 v = false) /\
  (forall e, In e es -> degenerate e = false) /\
  zsum (map contrib es) = 0%Z.
Proof.
  intros al be vs es H. split; [intros v Hin; exact (lin_nonzero al be v (H v Hin))|].
  destruct vs as [|u r]; [split; [intros e []|reflexivity]|].
  destruct (half_plane_path al be r u u) as [E D].
  - intros v [Hin | ->]; apply H; [exact Hin|left; reflexivity].
  - split; [exact D|]. cbv zeta in E. unfold es. cbn [roll1]. lia.
Qed.

(* a point separated from all vertices by a line through it is reported outside, whatever
   the default *)
Lemma pip_opt_separated : forall poly p al be,
  (forall a, In a poly -> 0 < al * (fst a - fst p) + be * (snd a - snd p)) ->
  pip_opt poly p = Some false.
Proof.
  intros poly p al be H.
  destruct (separated_closed al be (map (shift p) poly)) as (HZ & HD & HW).
  - intros v Hin. apply in_map_iff in Hin. destruct Hin as (a & <- & Hin). exact (H a Hin).
  - apply (pip_opt_decided poly p false HZ HD). tauto.
Qed.

(* convex formulation: some edge (a,b) has the point strictly on its right while every
   vertex is on its left or on its line *)
Lemma pip_opt_convex_outside : forall poly p a b,
  cross3 a b p < 0 ->
  (forall v, In v poly -> 0 <= cross3 a b v) ->
  pip_opt poly p = Some false.
Proof.
  intros poly p a b Hp Hv.
  apply (pip_opt_separated poly p (- (snd b - snd a)) (fst b - fst a)).
  intros v Hin. specialize (Hv v Hin). unfold cross3 in *. nra.
Qed.
