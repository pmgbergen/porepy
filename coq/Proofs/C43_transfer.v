(* C43 — transfer: what the tie executes (the Q instance of the model) is the R instance
   of the theorems on the embedded data (Q2R), whenever the Q instance is defined
   (integer powers). *)
From Coq Require Import String Ascii List ZArith QArith Qabs Bool Reals Qreals Lra Lia.
Import ListNotations.
From PP Require Import Model.C43 Proofs.C43.
Open Scope string_scope.
Open Scope R_scope.

Definition envR (env : list (string * Q)) : list (string * R) :=
  map (fun p => (fst p, Q2R (snd p))) env.

Definition env_posQ (env : list (string * Q)) : Prop := Forall (fun p => (0 < snd p)%Q) env.

(* a run [q] of the executed instance is reproduced by the run [r] of the other one: same
   values through [f], same exception; nothing is said where [q] is outside the model *)
Definition agrees {A B} (f : A -> B) (q : res A) (r : res B) : Prop :=
  match q with Ok x => r = Ok (f x) | Err e => r = Err e | Unmodelled => True end.

Lemma agrees_bind {A B C D} (f : A -> B) (g : C -> D) q r k k' :
  agrees f q r -> (forall x, q = Ok x -> agrees g (k x) (k' (f x))) ->
  agrees g (bind q k) (bind r k').
Proof.
  destruct q as [x|e|]; cbn; [intros -> H; now apply H|intros -> _; reflexivity|trivial].
Qed.

Lemma agrees_elim {A B} (f : A -> B) q r : agrees f q r ->
  (forall x, q = Ok x -> r = Ok (f x)) /\ (forall e, q = Err e -> r = Err e).
Proof. intros H. split; intros ? ->; exact H. Qed.

Lemma Q2R_lt0 : forall q, (0 < q)%Q -> 0 < Q2R q.
Proof. intros q H. apply Qlt_Rlt in H. now rewrite RMicromega.Q2R_0 in H. Qed.

Lemma env_pos_envR : forall env, env_posQ env -> env_pos (envR env).
Proof. intros env H. apply Forall_map. exact (Forall_impl _ (fun p => Q2R_lt0 (snd p)) H). Qed.

Lemma assoc_envR : forall env k, assoc k (envR env) = option_map Q2R (assoc k env).
Proof.
  induction env as [|[k' v] env IH]; intros k; cbn; [reflexivity|].
  destruct (String.eqb k k'); auto.
Qed.

Section Transfer.
  Variable pif : Q.
  Hypothesis pif_pos : (0 < pif)%Q.
  Variable derived : list (string * uexpr).
  Variable other : list string.
  Hypothesis derived_pos : table_pos derived = true.
  Variable env : list (string * Q).
  Hypothesis Henv : env_posQ env.

  Notation qops := (QOps pif).
  Notation rops := (ROps (Q2R pif)).
  Notation renv := (envR env).

  Let pi_pos : 0 < Q2R pif := Q2R_lt0 pif pif_pos.
  Let renv_pos : env_pos renv := env_pos_envR env Henv.

  (* division and powers commute with Q2R on positive numbers; positivity is read off the
     real run *)
  Lemma eval_transfer : forall e, expr_pos e = true ->
    agrees Q2R (eval qops env e) (eval rops renv e).
  Proof.
    induction e as [b|q| |a IHa b IHb|a IHa b IHb|a IHa n]; intros Hp; cbn [eval expr_pos] in *.
    - rewrite assoc_envR. now destruct (assoc b env).
    - reflexivity.
    - reflexivity.
    - apply andb_true_iff in Hp as [Ha Hb].
      apply (agrees_bind Q2R); [auto|]. intros x _. apply (agrees_bind Q2R); [auto|]. intros y _.
      cbn [agrees tmul QOps ROps]. now rewrite Q2R_Qred, Q2R_mult.
    - apply andb_true_iff in Hp as [Ha Hb].
      apply (agrees_bind Q2R); [auto|]. intros x _. apply (agrees_bind Q2R); [auto|]. intros y Ey.
      specialize (IHb Hb). rewrite Ey in IHb. apply eval_pos in IHb; auto.
      cbn [agrees tdiv QOps ROps]. now rewrite Q2R_Qred, Q2R_div by now apply Q2R_pos_nonzero.
    - apply (agrees_bind Q2R); [auto|]. intros x Ex.
      specialize (IHa Hp). rewrite Ex in IHa. apply eval_pos in IHa; auto.
      cbn [agrees tpowZ QOps ROps].
      now rewrite Q2R_Qred, RMicromega.Q2RpowerRZ by (left; now apply Q2R_pos_nonzero).
  Qed.

  Lemma getattr_transfer : forall name,
    agrees Q2R (getattr qops derived other env name) (getattr rops derived other renv name).
  Proof.
    intros name. rewrite !getattr_eq, assoc_envR.
    destruct (assoc name env); [reflexivity|]. cbn [option_map].
    destruct (assoc name derived) as [e|] eqn:Ed; [eapply eval_transfer, table_pos_assoc; eauto|].
    destruct (unknown_attr_cases other name) as [U|U]; rewrite !U; reflexivity.
  Qed.

  Lemma sub_factor_transfer : forall sub,
    agrees Q2R (sub_factor qops derived other env sub) (sub_factor rops derived other renv sub).
  Proof.
    intros sub. unfold sub_factor.
    destruct (tokenize sub) as [s|s p|]; [apply getattr_transfer| |reflexivity].
    apply (agrees_bind Q2R); [apply getattr_transfer|]. intros x Ex.
    pose proof (getattr_transfer s) as Hx. rewrite Ex in Hx. apply getattr_pos in Hx; auto.
    destruct (parse_float p) as [q| |]; try reflexivity. cbn [tpowQ QOps ROps].
    destruct (Pos.eqb_spec (Qden (Qred q)) 1) as [Ed|]; [|exact I]. cbn [agrees].
    now rewrite Q2R_Qred, RMicromega.Q2RpowerRZ, Rpower_integer by (auto; left; now apply Q2R_pos_nonzero).
  Qed.

  Lemma scale_transfer : forall ts f x, 0 < Q2R f ->
    Q2R (scale qops ts f x) = scale rops ts (Q2R f) (Q2R x).
  Proof.
    intros ts f x Hf. unfold scale. destruct ts; cbn [tmul tdiv QOps ROps]; rewrite Q2R_Qred; [apply Q2R_mult|].
    now apply Q2R_div, Q2R_pos_nonzero.
  Qed.

  Lemma loop_transfer : forall subs ts v,
    agrees (map Q2R) (convert_loop qops derived other env subs ts v)
                     (convert_loop rops derived other renv subs ts (map Q2R v)).
  Proof.
    induction subs as [|s r IH]; intros ts v; cbn [convert_loop]; [reflexivity|].
    pose proof (sub_factor_transfer s) as Hs.
    destruct (sub_factor qops derived other env s) as [f|er|]; cbn in Hs; [|now rewrite Hs|exact I].
    rewrite Hs. apply sub_factor_pos in Hs; auto.
    rewrite map_map, (map_ext _ (fun x => Q2R (scale qops ts f x)))
      by (intros; symmetry; now apply scale_transfer).
    rewrite <- (map_map (scale qops ts f) Q2R). apply IH.
  Qed.

  Lemma convert_agrees : forall v units ts,
    agrees (map Q2R) (convert qops derived other env v units ts)
                     (convert rops derived other renv (map Q2R v) units ts).
  Proof.
    intros v units ts. unfold convert.
    destruct (is_marker (strip_spaces units)); [reflexivity|apply loop_transfer].
  Qed.
End Transfer.
