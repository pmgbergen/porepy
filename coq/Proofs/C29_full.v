(* C29 — proofs, part 4: non-crossing.  Filter completeness at the level of the pipeline
   (every pair of segments is a candidate or meets at most in a common end), the split
   points of two parents with a collinear overlap, two children of different parents. *)
From Coq Require Import List QArith Qabs Bool Arith ZArith Lia Lqa Permutation Sorted.
Import ListNotations.
From PP Require Import Model.C28 Proofs.C28 Model.C29 Proofs.C29 Proofs.C29_nc Proofs.C29_main.
Open Scope Q_scope.

Lemma guard2_guard : forall tol segs, guard2 tol segs = true -> guard tol segs = true.
Proof. intros tol segs H. unfold guard2 in H. apply andb_true_iff in H. apply H. Qed.

Section Full2.
  Variables (tol : Q) (segs : list seg).
  Hypothesis G2 : guard2 tol segs = true.

  Let G : guard tol segs = true := guard2_guard tol segs G2.
  Let hs := hits tol segs.
  Let U := uniqU tol (all_pt tol segs).
  Let T : 0 < tol := g_tol tol segs G.
  Let L (k : nat) (g : seg) : list nat := local_inds tol U hs (k, g).
  Let chain_of := local_chain tol segs G.
  Let proper := g_proper tol segs G.

  Lemma flags_at : forall ig, In ig (indexed segs) ->
    (gs_of tol (indexed segs) ig = false ->
       forall jg, In jg (others tol (indexed segs) ig) -> peq (sS (snd jg)) (sS (snd ig))) /\
    (ge_of tol (indexed segs) ig = false ->
       forall jg, In jg (others tol (indexed segs) ig) -> peq (sE (snd jg)) (sS (snd ig))).
  Proof.
    intros ig Hi. pose proof G2 as F. unfold guard2 in F. apply andb_true_iff in F.
    destruct F as [_ F]. rewrite forallb_forall in F. specialize (F ig Hi).
    unfold flags_exact_at in F. fold (gs_of tol (indexed segs) ig) (ge_of tol (indexed segs) ig) in F.
    apply andb_true_iff in F. destruct F as [F1 F2].
    split; intros E jg Hj; [rewrite E in F1|rewrite E in F2]; cbn in *;
      rewrite forallb_forall in *; apply peqb_iff; auto.
  Qed.

  Lemma pair_class : forall i gi j gj,
    In (i, gi) (indexed segs) -> In (j, gj) (indexed segs) -> (i < j)%nat ->
    In ((i, gi), (j, gj)) (cand_pairs tol segs) \/
    (forall p, common p (sS gi) (sE gi) (sS gj) (sE gj) ->
               peq p (sS gi) /\ (peq p (sS gj) \/ peq p (sE gj))).
  Proof.
    intros i gi j gj Hi Hj Lt.
    destruct (overlap (bbox tol gi) (bbox tol gj)) eqn:O.
    2:{ right. intros p C. rewrite (common_overlap tol gi gj p T C) in O. discriminate. }
    destruct (relevant tol gi (gs_of tol (indexed segs) (i, gi)) (ge_of tol (indexed segs) (i, gi)) gj) eqn:R.
    - left. apply cand_iff. cbn [fst snd]. tauto.
    - right. intros p C.
      assert (Ho : In (j, gj) (others tol (indexed segs) (i, gi))) by (apply in_others; assumption).
      destruct (flags_at (i, gi) Hi) as [F1 F2].
      eapply side_filter_complete; [| | |exact R|exact C].
      + intro E. apply (F1 E (j, gj) Ho).
      + intro E. apply (F2 E (j, gj) Ho).
      + apply (proper j gj Hj).
  Qed.

  (* the pair {k, m} was answered with a collinear overlap [q1, q2] *)
  Definition seg_pair (k : nat) (g : seg) (m : nat) (g' : seg) (q1 q2 : pt2) : Prop :=
    (In ((k, g), (m, g')) (cand_pairs tol segs) /\ isect_of tol ((k, g), (m, g')) = R2Seg q1 q2) \/
    (In ((m, g'), (k, g)) (cand_pairs tol segs) /\ isect_of tol ((m, g'), (k, g)) = R2Seg q1 q2).

  Lemma seg_pair_sym : forall k g m g' q1 q2, seg_pair k g m g' q1 q2 -> seg_pair m g' k g q1 q2.
  Proof. intros k g m g' q1 q2 [H|H]; [right|left]; exact H. Qed.

  Definition seg_endpoint (q : pt2) (g g' : seg) : Prop :=
    is_endpoint q (sS g) (sE g) (sS g') (sE g').

  Lemma seg_pair_facts : forall k g m g' q1 q2, seg_pair k g m g' q1 q2 ->
    (forall p, (on_seg p (sS g) (sE g) /\ on_seg p (sS g') (sE g')) <-> on_seg p q1 q2) /\
    LP tol segs k g q1 /\ LP tol segs k g q2 /\ LP tol segs m g' q1 /\ LP tol segs m g' q2 /\
    seg_endpoint q1 g g' /\ seg_endpoint q2 g g'.
  Proof.
    assert (K : forall i gi j gj q1 q2, In ((i, gi), (j, gj)) (cand_pairs tol segs) ->
              isect_of tol ((i, gi), (j, gj)) = R2Seg q1 q2 ->
              (forall p, common p (sS gi) (sE gi) (sS gj) (sE gj) <-> on_seg p q1 q2) /\
              (LP tol segs i gi q1 /\ LP tol segs j gj q1) /\
              (LP tol segs i gi q2 /\ LP tol segs j gj q2) /\
              seg_endpoint q1 gi gj /\ seg_endpoint q2 gi gj).
    { intros i gi j gj q1 q2 Hpr E.
      pose proof (cand_correct tol segs G _ _ _ _ Hpr) as C.
      pose proof (hit_points tol segs _ _ _ _ q1 Hpr) as H1.
      pose proof (hit_points tol segs _ _ _ _ q2 Hpr) as H2.
      rewrite E in C, H1, H2. destruct C as [_ C]. cbn in H1, H2. unfold LP.
      destruct (cand_indexed _ _ _ _ _ _ Hpr) as [Hi _].
      split; [exact C|]. split; [cbn; tauto|]. split; [cbn; tauto|].
      apply (seg_ends tol _ _ _ _ q1 q2); [lra|apply (proper i gi Hi)|apply (cand_sep tol segs G _ _ _ _ Hpr)|exact E]. }
    intros k g m g' q1 q2 [[Hpr E]|[Hpr E]];
      destruct (K _ _ _ _ _ _ Hpr E) as (C & [A1 A2] & [B1 B2] & E1 & E2).
    - split; [exact C|]. repeat split; assumption.
    - split; [intro p; rewrite <- (C p); unfold common; tauto|].
      repeat split; try assumption; apply is_endpoint_swap; assumption.
  Qed.

  Lemma common_local : forall k g m g' p,
    In (k, g) (indexed segs) -> In (m, g') (indexed segs) -> k <> m ->
    on_seg p (sS g) (sE g) -> on_seg p (sS g') (sE g') ->
    ((exists q, LP tol segs k g q /\ peq p q) /\ (exists q, LP tol segs m g' q /\ peq p q)) \/
    (exists q1 q2, seg_pair k g m g' q1 q2).
  Proof.
    assert (K : forall i gi j gj p, In (i, gi) (indexed segs) -> In (j, gj) (indexed segs) ->
              (i < j)%nat -> common p (sS gi) (sE gi) (sS gj) (sE gj) ->
              ((exists q, LP tol segs i gi q /\ peq p q) /\ (exists q, LP tol segs j gj q /\ peq p q)) \/
              (exists q1 q2, In ((i, gi), (j, gj)) (cand_pairs tol segs) /\
                             isect_of tol ((i, gi), (j, gj)) = R2Seg q1 q2)).
    { intros i gi j gj p Hi Hj Lt C. unfold LP.
      destruct (pair_class i gi j gj Hi Hj Lt) as [Hpr|FC].
      - pose proof (cand_correct tol segs G _ _ _ _ Hpr) as CC.
        pose proof (hit_points tol segs _ _ _ _ p Hpr) as HP.
        destruct (isect_of tol ((i, gi), (j, gj))) as [|q|q1 q2|e] eqn:E; cbn in CC.
        + destruct (CC p C).
        + left. pose proof (hit_points tol segs _ _ _ _ q Hpr) as Hq. rewrite E in Hq.
          destruct Hq as [Q1 Q2]; [left; reflexivity|]. apply CC in C.
          split; exists q; cbn; tauto.
        + right. exists q1, q2. tauto.
        + destruct CC.
      - left. destruct (FC p C) as [P1 P2]. split; [exists (sS gi); cbn; tauto|].
        destruct P2 as [P2|P2]; [exists (sS gj)|exists (sE gj)]; cbn; tauto. }
    intros k g m g' p Hk Hm Ne O1 O2. destruct (Nat.lt_ge_cases k m) as [Lt|Lt].
    - destruct (K k g m g' p Hk Hm Lt (conj O1 O2)) as [H|(q1 & q2 & H)]; [left; exact H|].
      right. exists q1, q2. left. exact H.
    - destruct (K m g' k g p Hm Hk ltac:(lia) (conj O2 O1)) as [H|(q1 & q2 & H)]; [left; tauto|].
      right. exists q1, q2. right. exact H.
  Qed.

  (* what the answer for a pair {m, m'} says about one of its points r, symmetric form *)
  Definition pair_point (g' g'' : seg) (r : pt2) : Prop :=
    (forall p, on_seg p (sS g') (sE g') -> on_seg p (sS g'') (sE g'') -> peq p r) \/
    seg_endpoint r g' g''.

  Lemma pair_point_sym : forall g' g'' r, pair_point g' g'' r -> pair_point g'' g' r.
  Proof.
    intros g' g'' r [S|E]; [left; intros p A B; apply S; assumption|right; apply is_endpoint_swap, E].
  Qed.

  Lemma via_third : forall k g m g' q1 q2 m' g'' r,
    seg_pair k g m g' q1 q2 ->
    In (k, g) (indexed segs) -> In (m, g') (indexed segs) -> In (m', g'') (indexed segs) ->
    k <> m' ->
    on_seg r q1 q2 -> on_seg r (sS g'') (sE g'') -> pair_point g' g'' r ->
    exists q, LP tol segs k g q /\ peq r q.
  Proof.
    intros k g m g' q1 q2 m' g'' r SP Hk Hm Hm' Ne Oq Og'' PP.
    destruct (seg_pair_facts _ _ _ _ _ _ SP) as [C [Lq1 [Lq2 [_ [_ _]]]]].
    destruct (proj2 (C r) Oq) as [Og Og'].
    destruct (proj2 (C q1) (on_seg_start q1 q2)) as [Oq1g Oq1g'].
    destruct (proj2 (C q2) (on_seg_end q1 q2)) as [Oq2g Oq2g'].
    destruct (common_local k g m' g'' r Hk Hm' Ne Og Og'') as [[X _]|[w1 [w2 SP']]]; [exact X|].
    destruct (seg_pair_facts _ _ _ _ _ _ SP') as [C' [Lw1 [Lw2 [_ [_ _]]]]].
    pose proof (proj1 (C' r) (conj Og Og'')) as Ow.
    destruct (proj2 (C' w1) (on_seg_start w1 w2)) as [Ow1g Ow1g''].
    destruct (proj2 (C' w2) (on_seg_end w1 w2)) as [Ow2g Ow2g''].
    destruct (peq_dec r q1) as [E|N1]; [exists q1; tauto|].
    destruct (peq_dec r q2) as [E|N2]; [exists q2; tauto|].
    destruct (peq_dec r w1) as [E|N3]; [exists w1; tauto|].
    destruct (peq_dec r w2) as [E|N4]; [exists w2; tauto|].
    exfalso. destruct PP as [Single|End].
    - destruct (two_overlaps_share (sS g) (sE g) q1 q2 w1 w2 r (proper k g Hk))
        as [p' [O1 [O2 Np]]]; try assumption.
      apply Np. apply Single; [apply (proj2 (C p') O1)|apply (proj2 (C' p') O2)].
    - assert (X : (peq r (sS g') \/ peq r (sE g')) \/ (peq r (sS g'') \/ peq r (sE g'')))
        by (clear - End; unfold seg_endpoint, is_endpoint in End; tauto).
      destruct X as [X|X];
        [destruct (endpoint_in_sub (sS g') (sE g') q1 q2 r (proper m g' Hm) Oq1g' Oq2g' X Oq)
        |destruct (endpoint_in_sub (sS g'') (sE g'') w1 w2 r (proper m' g'' Hm') Ow1g'' Ow2g'' X Ow)];
        contradiction.
  Qed.

  Lemma overlap_local : forall k g m g' q1 q2 r,
    seg_pair k g m g' q1 q2 ->
    In (k, g) (indexed segs) -> In (m, g') (indexed segs) -> k <> m ->
    LP tol segs m g' r -> on_seg r q1 q2 ->
    exists q, LP tol segs k g q /\ peq r q.
  Proof.
    intros k g m g' q1 q2 r SP Hk Hm Ne Lr Oq.
    destruct (seg_pair_facts _ _ _ _ _ _ SP) as [C [Lq1 [Lq2 [_ [_ _]]]]].
    destruct (proj2 (C q1) (on_seg_start q1 q2)) as [_ Oq1g'].
    destruct (proj2 (C q2) (on_seg_end q1 q2)) as [_ Oq2g'].
    assert (EndCase : peq r (sS g') \/ peq r (sE g') -> exists q, LP tol segs k g q /\ peq r q).
    { intro E. destruct (endpoint_in_sub (sS g') (sE g') q1 q2 r (proper m g' Hm)) as [P|P];
        try assumption; [exists q1|exists q2]; tauto. }
    destruct Lr as [<-|[<-|Lr]]; [apply EndCase; left; apply peq_refl|apply EndCase; right; apply peq_refl|].
    destruct (isect_for_inv tol segs m r Lr) as (i & gi & j & gj & Hpr & Hmij & Hr).
    destruct (cand_indexed _ _ _ _ _ _ Hpr) as [Hi Hj].
    pose proof (cand_correct tol segs G _ _ _ _ Hpr) as CC.
    destruct (res_pts_common _ _ _ _ _ _ CC Hr) as [R1 R2].
    destruct (hit_points tol segs _ _ _ _ r Hpr Hr) as [Li Lj].
    (* what the answer says about r *)
    assert (PP : pair_point gi gj r).
    { destruct (isect_of tol ((i, gi), (j, gj))) as [|q|u1 u2|e] eqn:E; cbn in Hr, CC; try contradiction.
      - destruct Hr as [<-|[]]. left. intros p A B. apply CC. split; assumption.
      - right. destruct (seg_ends tol _ _ _ _ u1 u2 ltac:(lra) (proper i gi Hi)
                                  (cand_sep tol segs G _ _ _ _ Hpr) E) as [E1 E2].
        destruct Hr as [<-|[<-|[]]]; assumption. }
    (* the other segment of that pair is k itself, or a third one *)
    assert (Other : forall o go, In (o, go) (indexed segs) -> In r (isect_for o hs) ->
              on_seg r (sS go) (sE go) -> pair_point g' go r -> exists q, LP tol segs k g q /\ peq r q).
    { intros o go Ho Lo Oo PP'. destruct (Nat.eq_dec k o) as [->|Nko].
      - rewrite (indexed_fun _ _ _ _ Hk Ho). exists r. split; [right; right; exact Lo|apply peq_refl].
      - apply (via_third k g m g' q1 q2 o go r); assumption. }
    destruct Hmij as [-> | ->].
    - rewrite <- (indexed_fun _ _ _ _ Hm Hi) in PP. apply (Other j gj Hj Lj R2 PP).
    - rewrite <- (indexed_fun _ _ _ _ Hm Hj) in PP. apply (Other i gi Hi Li R1), pair_point_sym, PP.
  Qed.

  Lemma overlap_member : forall k g m g' q1 q2 a,
    seg_pair k g m g' q1 q2 -> In (k, g) (indexed segs) -> In (m, g') (indexed segs) -> k <> m ->
    In a (L m g') -> on_seg (upt U a) q1 q2 -> In a (L k g).
  Proof.
    intros k g m g' q1 q2 a SP Hk Hm Ne Ha Oa.
    destruct (local_on tol segs G m g' a Hm Ha) as [La _].
    apply (proj1 (local_in tol segs m g' a)) in Ha. destruct Ha as [r [Lr ->]].
    destruct (LP_index tol segs G m g' r Hm Lr) as (_ & _ & Pr).
    assert (Or : on_seg r q1 q2) by (eapply on_seg_peq; [exact Pr|apply peq_refl|apply peq_refl|exact Oa]).
    destruct (overlap_local k g m g' q1 q2 r SP Hk Hm Ne Lr Or) as [q [Lq Pq]].
    destruct (LP_index tol segs G k g q Hk Lq) as (Zq & Lz & Pz).
    assert (Eq : idx tol U r = idx tol U q).
    { apply (U_inj tol T (all_pt tol segs)); trivial.
      eapply peq_trans; [exact Pr|]. eapply peq_trans; [exact Pq|apply peq_sym; exact Pz]. }
    unfold L, U, hs in *. rewrite Eq. exact Zq.
  Qed.

  (* a child of m that contains a point strictly inside the overlap lies in the overlap, so
     its ends are chain points of k as well *)
  Lemma child_in_overlap : forall k g m g' q1 q2 a b p,
    seg_pair k g m g' q1 q2 -> In (k, g) (indexed segs) -> In (m, g') (indexed segs) -> k <> m ->
    In (a, b) (cpairs (L m g')) -> on_seg p (upt U a) (upt U b) ->
    on_seg p q1 q2 -> ~ peq p q1 -> ~ peq p q2 ->
    In a (L k g) /\ In b (L k g).
  Proof.
    intros k g m g' q1 q2 a b p SP Hk Hm Ne Hab O Oq N1 N2.
    destruct (seg_pair_facts _ _ _ _ _ _ SP) as (_ & _ & _ & Lq1 & Lq2 & _).
    destruct (LP_index tol segs G m g' q1 Hm Lq1) as (Z1 & _ & P1).
    destruct (LP_index tol segs G m g' q2 Hm Lq2) as (Z2 & _ & P2).
    destruct (cpairs_in _ _ _ Hab) as [Ha Hb].
    destruct (child_within _ _ _ _ (chain_of m g' Hm) a b _ _ p Hab Z1 Z2 O) as [Ia Ib].
    - eapply on_seg_peq; [apply peq_refl|apply peq_sym; exact P1|apply peq_sym; exact P2|exact Oq].
    - intro E. apply N1, (peq_trans _ _ _ E P1).
    - intro E. apply N2, (peq_trans _ _ _ E P2).
    - pose proof (fun x => on_seg_peq _ _ _ _ _ _ (peq_refl (upt U x)) P1 P2) as Q.
      split; [apply (overlap_member k g m g' q1 q2 a SP Hk Hm Ne Ha), Q, Ia
             |apply (overlap_member k g m g' q1 q2 b SP Hk Hm Ne Hb), Q, Ib].
  Qed.

  Definition ends_of (p : pt2) (a b : nat) : Prop := peq p (upt U a) \/ peq p (upt U b).

  Lemma ends_dec : forall p a b, ends_of p a b \/ (~ peq p (upt U a) /\ ~ peq p (upt U b)).
  Proof.
    intros p a b. unfold ends_of.
    destruct (peq_dec p (upt U a)); destruct (peq_dec p (upt U b)); tauto.
  Qed.

  Lemma overlap_nc : forall k g m g' q1 q2 a1 b1 a2 b2 p,
    seg_pair k g m g' q1 q2 -> In (k, g) (indexed segs) -> In (m, g') (indexed segs) -> k <> m ->
    In (a1, b1) (cpairs (L k g)) -> In (a2, b2) (cpairs (L m g')) ->
    on_seg p (upt U a1) (upt U b1) -> on_seg p (upt U a2) (upt U b2) ->
    ~ ((peq (upt U a1) (upt U a2) /\ peq (upt U b1) (upt U b2)) \/
       (peq (upt U a1) (upt U b2) /\ peq (upt U b1) (upt U a2))) ->
    ends_of p a1 b1 /\ ends_of p a2 b2.
  Proof.
    intros k g m g' q1 q2 a1 b1 a2 b2 p SP Hk Hm Ne H1 H2 O1 O2 NS.
    destruct (seg_pair_facts _ _ _ _ _ _ SP) as [C [Lq1 [Lq2 [Lq1' [Lq2' _]]]]].
    pose proof (chain_of k g Hk) as CK. pose proof (chain_of m g' Hm) as CM.
    pose proof (proj1 (C p) (conj (child_on_parent _ _ _ _ CK a1 b1 p H1 O1)
                                  (child_on_parent _ _ _ _ CM a2 b2 p H2 O2))) as Oq.
    destruct (peq_dec p q1) as [E1|N1].
    { split; [apply (split_point_end tol segs G k g a1 b1 q1 p Hk H1 Lq1 E1 O1)
             |apply (split_point_end tol segs G m g' a2 b2 q1 p Hm H2 Lq1' E1 O2)]. }
    destruct (peq_dec p q2) as [E2|N2].
    { split; [apply (split_point_end tol segs G k g a1 b1 q2 p Hk H1 Lq2 E2 O1)
             |apply (split_point_end tol segs G m g' a2 b2 q2 p Hm H2 Lq2' E2 O2)]. }
    assert (Ne' : m <> k) by congruence.
    destruct (child_in_overlap k g m g' q1 q2 a2 b2 p SP Hk Hm Ne H2 O2 Oq N1 N2) as [Ka2 Kb2].
    destruct (child_in_overlap m g' k g q1 q2 a1 b1 p (seg_pair_sym _ _ _ _ _ _ SP) Hm Hk Ne' H1 O1 Oq N1 N2)
      as [Ma1 Mb1].
    (* an end of one child is a chain point of the other parent too, so an end of the
       other child; if p is an end of neither, each child lies within the other *)
    assert (F12 : ends_of p a1 b1 -> ends_of p a2 b2)
      by (intros [E|E]; [apply (member_end _ _ _ _ CM a2 b2 a1 p H2 Ma1 E O2)
                        |apply (member_end _ _ _ _ CM a2 b2 b1 p H2 Mb1 E O2)]).
    assert (F21 : ends_of p a2 b2 -> ends_of p a1 b1)
      by (intros [E|E]; [apply (member_end _ _ _ _ CK a1 b1 a2 p H1 Ka2 E O1)
                        |apply (member_end _ _ _ _ CK a1 b1 b2 p H1 Kb2 E O1)]).
    destruct (ends_dec p a1 b1) as [E1|[X1 Y1]]; [split; [exact E1|exact (F12 E1)]|].
    destruct (ends_dec p a2 b2) as [E2|[X2 Y2]]; [split; [exact (F21 E2)|exact E2]|].
    exfalso.
    destruct (child_within _ _ _ _ CK a1 b1 a2 b2 p H1 Ka2 Kb2 O1 O2 X2 Y2) as [I1 I2].
    destruct (child_within _ _ _ _ CM a2 b2 a1 b1 p H2 Ma1 Mb1 O2 O1 X1 Y1) as [J1 J2].
    apply NS, mutual_containment; try assumption.
    apply (child_proper _ _ _ _ CM a2 b2 H2).
  Qed.

  Lemma diff_parent_nc : forall k g m g' a1 b1 a2 b2 p,
    In (k, g) (indexed segs) -> In (m, g') (indexed segs) -> k <> m ->
    In (a1, b1) (cpairs (L k g)) -> In (a2, b2) (cpairs (L m g')) ->
    on_seg p (upt U a1) (upt U b1) -> on_seg p (upt U a2) (upt U b2) ->
    ~ ((peq (upt U a1) (upt U a2) /\ peq (upt U b1) (upt U b2)) \/
       (peq (upt U a1) (upt U b2) /\ peq (upt U b1) (upt U a2))) ->
    ends_of p a1 b1 /\ ends_of p a2 b2.
  Proof.
    intros k g m g' a1 b1 a2 b2 p Hk Hm Ne H1 H2 O1 O2 NS.
    pose proof (child_on_parent _ _ _ _ (chain_of k g Hk) a1 b1 p H1 O1) as Og.
    pose proof (child_on_parent _ _ _ _ (chain_of m g' Hm) a2 b2 p H2 O2) as Og'.
    destruct (common_local k g m g' p Hk Hm Ne Og Og') as [[[q [Lq Pq]] [q' [Lq' Pq']]]|[q1 [q2 SP]]].
    - split; [apply (split_point_end tol segs G k g a1 b1 q p Hk H1 Lq Pq O1)
             |apply (split_point_end tol segs G m g' a2 b2 q' p Hm H2 Lq' Pq' O2)].
    - apply (overlap_nc k g m g' q1 q2 a1 b1 a2 b2 p SP); assumption.
  Qed.

  Lemma seg_pair_new : forall k g m g' q1 q2, seg_pair k g m g' q1 q2 -> new_pts hs <> [].
  Proof.
    intros k g m g' q1 q2 [[Hpr E]|[Hpr E]]; apply (answer_new tol segs _ _ _ _ q1 Hpr);
      rewrite E; left; reflexivity.
  Qed.

  Lemma nc_full : forall pre out, split tol segs = Edges pre out ->
    ForallOrdPairs (fun e1 e2 => forall p,
      on_seg p (eA e1) (eB e1) -> on_seg p (eA e2) (eB e2) ->
      touch_ends p e1 /\ touch_ends p e2) out.
  Proof.
    intros pre out S. destruct (split_cases tol segs pre out S) as [[E [_ O]]|[NE _]].
    - (* the input is returned unchanged: the only recorded points are the end points *)
      subst out. apply fop_map. apply fop_indexed.
      intros i gi j gj Hi Hj Lt p O1 O2. unfold eA, eB, touch_ends in *. cbn [fst snd] in *.
      assert (Early : forall k g q, LP tol segs k g q -> q = sS g \/ q = sE g).
      { intros k g q [H|[H|H]]; [left; symmetry; exact H|right; symmetry; exact H|].
        exfalso. apply (isect_in_new tol segs) in H. rewrite E in H. destruct H. }
      destruct (common_local i gi j gj p Hi Hj ltac:(lia) O1 O2)
        as [[[q [Lq Pq]] [q' [Lq' Pq']]]|[q1 [q2 SP]]].
      + split; [destruct (Early _ _ _ Lq) as [-> | ->]|destruct (Early _ _ _ Lq') as [-> | ->]]; tauto.
      + exfalso. apply (seg_pair_new _ _ _ _ _ _ SP). exact E.
    - eapply fop_impl_in; [apply (no_dups tol segs G pre out S NE)|].
      intros e1 e2 H1 H2 ND p O1 O2.
      destruct (out_child tol segs pre out S NE e1 H1) as (k & g & a1 & b1 & Hk & Hab1 & _ & ->).
      destruct (out_child tol segs pre out S NE e2 H2) as (m & g' & a2 & b2 & Hm & Hab2 & _ & ->).
      unfold eA, eB, touch_ends in *. cbn [fst snd] in *.
      apply seg_minmax in O1. apply seg_minmax in O2.
      assert (NS : ~ ((peq (upt U a1) (upt U a2) /\ peq (upt U b1) (upt U b2)) \/
                      (peq (upt U a1) (upt U b2) /\ peq (upt U b1) (upt U a2)))).
      { intro X. apply ND, (geom_minmax tol segs), X. }
      assert (Ends : ends_of p a1 b1 /\ ends_of p a2 b2).
      { destruct (Nat.eq_dec k m) as [Ekm|Ne].
        - subst m. rewrite (indexed_fun _ _ _ _ Hm Hk) in *.
          apply (same_chain_nc _ _ _ _ (chain_of k g Hk) a1 b1 a2 b2 p Hab1 Hab2); trivial.
          intro X. apply NS. left. exact X.
        - apply (diff_parent_nc k g m g' a1 b1 a2 b2 p Hk Hm Ne Hab1 Hab2 O1 O2 NS). }
      destruct Ends. split; apply ends_minmax; assumption.
  Qed.
End Full2.
