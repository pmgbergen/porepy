(* C28 — segments_3d on the finite box {-1,0,1}^3: outside the two open defect families the
   model equals an exact reference intersection [isect3_ref].
   Non-parallel directions: the reference is the exact intersection for all rational end points
   (Cramer's rule on a projection with non-zero minor, [isect3_ref_nonpar]), the model is exact
   by [seg3d_correct_int], and two exact answers agree ([correct3_same]).
   Parallel directions, c off the line ab: both answer "none" ([par_offline_same]).
   All four points on one line: the 2580 such quadruples of the box are evaluated. *)
From Coq Require Import List QArith Qabs Bool ZArith Lia Lqa.
Import ListNotations.
From PP Require Import Model.C28 Proofs.C28 Proofs.C28_3d.
Open Scope Q_scope.

Definition t3 := (Z * Z * Z)%type.
Definition q3 (p : t3) : pt3 := let '(x, y, z) := p in [inject_Z x; inject_Z y; inject_Z z].

Definition vsub (a b : pt3) : pt3 := map2 Qminus a b.
Definition vcross (a b : pt3) : pt3 :=
  [c3 a 1 * c3 b 2 - c3 a 2 * c3 b 1; c3 a 2 * c3 b 0 - c3 a 0 * c3 b 2;
   c3 a 0 * c3 b 1 - c3 a 1 * c3 b 0].
Definition vzero (a : pt3) : bool := forallb (fun x => Qeq_bool x 0) a.
Definition vlin (a : pt3) (t : Q) (u : pt3) : pt3 := map2 (fun x y => x + t * y) a u.
Definition veq (a b : pt3) : bool := vzero (vsub a b).

(* exact intersection of the segments ab, cd (a <> b, c <> d) *)
Definition isect3_ref (a b c d : pt3) : res3 :=
  let u := vsub b a in let w := vsub d c in let s := vsub c a in
  if vzero (vcross u w) then
    if negb (vzero (vcross s u)) then R3None
    else
      let k := if negb (Qeq_bool (c3 u 0) 0) then 0%nat
               else if negb (Qeq_bool (c3 u 1) 0) then 1%nat else 2%nat in
      let ts := (c3 c k - c3 a k) / c3 u k in
      let te := (c3 d k - c3 a k) / c3 u k in
      let lo := qmax (qmin ts te) 0 in
      let hi := qmin (qmax ts te) 1 in
      if qltb hi lo then R3None
      else if Qeq_bool lo hi then R3Cols [vlin a lo u]
      else R3Cols [vlin a lo u; vlin a hi u]
  else
    let '(i, j) := if negb (Qeq_bool (c3 (vcross u w) 2) 0) then (0, 1)%nat
                   else if negb (Qeq_bool (c3 (vcross u w) 1) 0) then (0, 2)%nat
                   else (1, 2)%nat in
    let D := c3 u i * (- c3 w j) - c3 u j * (- c3 w i) in
    let t1 := (c3 s i * (- c3 w j) - c3 s j * (- c3 w i)) / D in
    let t2 := (c3 u i * c3 s j - c3 u j * c3 s i) / D in
    if Qle_bool 0 t1 && Qle_bool t1 1 && Qle_bool 0 t2 && Qle_bool t2 1
       && veq (vlin a t1 u) (vlin c t2 w)
    then R3Cols [vlin a t1 u] else R3None.

(* same classification, same points (two columns as an unordered pair) *)
Definition res3_same (r r' : res3) : bool :=
  match r, r' with
  | R3None, R3None => true
  | R3Cols [p], R3Cols [q] => veq p q
  | R3Cols [p1; p2], R3Cols [q1; q2] => (veq p1 q1 && veq p2 q2) || (veq p1 q2 && veq p2 q1)
  | _, _ => false
  end.

Definition family1 (a b c d : pt3) : bool :=        (* projected discriminant 0, lines not parallel *)
  let u := vsub b a in let w := vsub d c in
  let m1 := map (fun x => qltb tol8 (Qabs x)) u in
  let m2 := map (fun x => qltb tol8 (Qabs x)) w in
  let '(i0, i1, ni) := pick_axes (map2 orb m1 m2) in
  Qeq_bool (c3 u i0 * c3 w i1 - c3 u i1 * c3 w i0) 0 && negb (vzero (vcross u w)).

Definition family2 (a b c d : pt3) : bool :=        (* parallel lines meeting in exactly one point *)
  vzero (vcross (vsub b a) (vsub d c)) &&
  match isect3_ref a b c d with R3Cols [_] => true | _ => false end.

Definition inb1 (p : t3) : Prop :=
  let '(x, y, z) := p in (-1 <= x <= 1)%Z /\ (-1 <= y <= 1)%Z /\ (-1 <= z <= 1)%Z.

Lemma map2_length : forall {A B C} (f : A -> B -> C) l m,
  length (map2 f l m) = Nat.min (length l) (length m).
Proof. induction l; destruct m; cbn; auto. Qed.

Lemma nth_map2 : forall {A B C} (f : A -> B -> C) l m k da db dc,
  (k < length l)%nat -> (k < length m)%nat ->
  nth k (map2 f l m) dc = f (nth k l da) (nth k m db).
Proof.
  induction l as [|x l IH]; intros [|y m] [|k] da db dc; cbn; intros; try lia; auto.
  apply IH; lia.
Qed.

Lemma vzero_spec : forall l, vzero l = true <-> forall k, (k < length l)%nat -> c3 l k == 0.
Proof.
  intro l. unfold vzero. rewrite forallb_forall. split.
  - intros H k Hk. apply Qeq_bool_iff, H, nth_In, Hk.
  - intros H x Hx. apply (In_nth _ _ 0) in Hx as (k & Hk & <-). apply Qeq_bool_iff, H, Hk.
Qed.

Lemma veq_spec : forall p q,
  veq p q = true <-> forall k, (k < length p)%nat -> (k < length q)%nat -> c3 p k == c3 q k.
Proof.
  intros p q. unfold veq, vsub. rewrite vzero_spec, map2_length. unfold c3.
  split; intros H k.
  - intros Hp Hq. specialize (H k ltac:(lia)). rewrite (nth_map2 _ _ _ _ 0 0) in H by assumption. lra.
  - intro Hk. rewrite (nth_map2 _ _ _ _ 0 0) by lia. specialize (H k ltac:(lia) ltac:(lia)). lra.
Qed.

Section Vec3.
Variables a b : pt3.
Hypotheses (La : length a = 3%nat) (Lb : length b = 3%nat).

Lemma vsub_length3 : length (vsub b a) = 3%nat.
Proof. unfold vsub. rewrite map2_length, La, Lb. reflexivity. Qed.

Lemma vlin_length3 : forall t, length (vlin a t b) = 3%nat.
Proof. intro t. unfold vlin. rewrite map2_length, La, Lb. reflexivity. Qed.

Lemma c3_vsub : forall k, (k < 3)%nat -> c3 (vsub b a) k = c3 b k - c3 a k.
Proof. intros k Hk. apply nth_map2; lia. Qed.

Lemma c3_vlin : forall t k, (k < 3)%nat -> c3 (vlin a t b) k = c3 a k + t * c3 b k.
Proof. intros t k Hk. apply (nth_map2 (fun x y => x + t * y)); lia. Qed.

Lemma veq_peq3 : veq a b = true <-> peq3 a b.
Proof. rewrite veq_spec, La, Lb. unfold peq3. split; auto. Qed.

End Vec3.

(* the last branch of [isect3_ref], for the projection on the axes i, j *)
Definition hit_test (a u c w : pt3) (t1 t2 : Q) : bool :=
  Qle_bool 0 t1 && Qle_bool t1 1 && Qle_bool 0 t2 && Qle_bool t2 1
  && veq (vlin a t1 u) (vlin c t2 w).
Definition skew_ref (a u c w s : pt3) (i j : nat) : res3 :=
  let D := c3 u i * (- c3 w j) - c3 u j * (- c3 w i) in
  let t1 := (c3 s i * (- c3 w j) - c3 s j * (- c3 w i)) / D in
  let t2 := (c3 u i * c3 s j - c3 u j * c3 s i) / D in
  if hit_test a u c w t1 t2 then R3Cols [vlin a t1 u] else R3None.

Lemma hit_test_spec : forall a u c w x y,
  length a = 3%nat -> length u = 3%nat -> length c = 3%nat -> length w = 3%nat ->
  (hit_test a u c w x y = true <->
   (0 <= x /\ x <= 1) /\ (0 <= y /\ y <= 1) /\ peq3 (vlin a x u) (vlin c y w)).
Proof.
  intros a u c w x y La Lu Lc Lw. unfold hit_test.
  rewrite !andb_true_iff, !Qle_bool_iff,
    (veq_peq3 _ _ (vlin_length3 a u La Lu x) (vlin_length3 c w Lc Lw y)). tauto.
Qed.

Section Skew.
Variables a b c d : pt3.
Hypotheses (La : length a = 3%nat) (Lb : length b = 3%nat)
           (Lc : length c = 3%nat) (Ld : length d = 3%nat).
Let u := vsub b a.
Let w := vsub d c.

Lemma common3_skew : forall p, common3 p a b c d <-> meet a u c w p.
Proof.
  intro p. apply common3_meet; intros k Hk; unfold u, w; rewrite c3_vsub by assumption;
    reflexivity.
Qed.

Variables i j : nat.
Hypotheses (Hi : (i < 3)%nat) (Hj : (j < 3)%nat).
Let s := vsub c a.
Let D := c3 u i * (- c3 w j) - c3 u j * (- c3 w i).
Let t1 := (c3 s i * (- c3 w j) - c3 s j * (- c3 w i)) / D.
Let t2 := (c3 u i * c3 s j - c3 u j * c3 s i) / D.
Hypothesis ND : ~ D == 0.

Let Lu : length u = 3%nat := vsub_length3 a b La Lb.
Let Lw : length w = 3%nat := vsub_length3 c d Lc Ld.

(* the parameters of a common point solve the projected 2x2 system *)
Lemma skew_unique : forall p x y,
  (forall k, (k < 3)%nat -> c3 p k == c3 a k + x * c3 u k /\ c3 p k == c3 c k + y * c3 w k) ->
  x == t1 /\ y == t2.
Proof.
  intros p x y H. destruct (H i Hi) as [Ei Ei']. destruct (H j Hj) as [Ej Ej'].
  apply cramer; [exact ND|]. split; unfold s; rewrite c3_vsub by assumption; lra.
Qed.

Lemma skew_common : forall p,
  common3 p a b c d <-> hit_test a u c w t1 t2 = true /\ peq3 p (vlin a t1 u).
Proof.
  intro p. rewrite common3_skew, (hit_test_spec a u c w t1 t2 La Lu Lc Lw). unfold peq3. split.
  - intros (x & y & X0 & X1 & Y0 & Y1 & H). destruct (skew_unique p x y H) as [Ex Ey].
    assert (H' : forall k, (k < 3)%nat ->
              c3 p k == c3 a k + t1 * c3 u k /\ c3 p k == c3 c k + t2 * c3 w k)
      by (intros k Hk; rewrite <- Ex, <- Ey; exact (H k Hk)).
    split; [split; [lra|split; [lra|]]|]; intros k Hk;
      destruct (H' k Hk) as [Hx Hy]; rewrite !c3_vlin by assumption; lra.
  - intros [(R1 & R2 & E) P]. exists t1, t2. repeat (split; [lra|]). intros k Hk.
    specialize (E k Hk). specialize (P k Hk). rewrite !c3_vlin in * by assumption. lra.
Qed.

Lemma skew_ref_correct : correct3 a b c d (skew_ref a u c w s i j).
Proof.
  unfold skew_ref. cbv zeta. fold D. fold t1 t2.
  destruct (hit_test a u c w t1 t2) eqn:T; cbn [correct3]; intro p; rewrite skew_common, T.
  - tauto.
  - intros [Hh _]. discriminate.
Qed.

Lemma skew_ref_shape :
  skew_ref a u c w s i j = R3None \/
  exists q, length q = 3%nat /\ skew_ref a u c w s i j = R3Cols [q].
Proof.
  unfold skew_ref. cbv zeta.
  destruct (hit_test _ _ _ _ _ _); [right|left; reflexivity].
  eexists. split; [|reflexivity]. apply vlin_length3; assumption.
Qed.
End Skew.

(* a non-zero cross product has a non-zero component: the minor of the chosen projection *)
Lemma isect3_ref_skew : forall a b c d,
  let u := vsub b a in let w := vsub d c in
  vzero (vcross u w) = false ->
  exists i j, (i < 3)%nat /\ (j < 3)%nat /\
    ~ c3 u i * (- c3 w j) - c3 u j * (- c3 w i) == 0 /\
    isect3_ref a b c d = skew_ref a u c w (vsub c a) i j.
Proof.
  intros a b c d u w H. unfold isect3_ref. fold u w. cbv zeta. rewrite H. clearbody u w.
  change (Qeq_bool (c3 (vcross u w) 0) 0 && (Qeq_bool (c3 (vcross u w) 1) 0 &&
          (Qeq_bool (c3 (vcross u w) 2) 0 && true)) = false) in H.
  destruct (Qeq_bool (c3 (vcross u w) 2) 0) eqn:E2;
    [destruct (Qeq_bool (c3 (vcross u w) 1) 0) eqn:E1|]; cbn [negb];
    [ exists 1%nat, 2%nat; rewrite !andb_true_r in H; rename H into E
    | exists 0%nat, 2%nat; rename E1 into E | exists 0%nat, 1%nat; rename E2 into E ];
    (repeat split; try lia); intro Z0; apply Qeq_bool_neq in E; apply E;
    unfold vcross, c3 in *; cbn [nth] in *; lra.
Qed.

Lemma isect3_ref_nonpar : forall a b c d,
  length a = 3%nat -> length b = 3%nat -> length c = 3%nat -> length d = 3%nat ->
  vzero (vcross (vsub b a) (vsub d c)) = false ->
  correct3 a b c d (isect3_ref a b c d) /\
  (isect3_ref a b c d = R3None \/
   exists q, length q = 3%nat /\ isect3_ref a b c d = R3Cols [q]).
Proof.
  intros a b c d La Lb Lc Ld H.
  destruct (isect3_ref_skew a b c d H) as (i & j & Hi & Hj & ND & ->). split.
  - apply skew_ref_correct; assumption.
  - apply skew_ref_shape; assumption.
Qed.

Lemma correct3_same : forall a b c d r r',
  correct3 a b c d r -> correct3 a b c d r' ->
  r' = R3None \/ (exists q, length q = 3%nat /\ r' = R3Cols [q]) ->
  res3_same r r' = true.
Proof.
  intros a b c d r r' H H' S.
  assert (E : forall q1 q2, on_seg3 q1 q1 q2 /\ on_seg3 q2 q1 q2).
  { intros q1 q2. split; [exists 0|exists 1]; (split; [lra|split; [lra|]]); intros k _; ring. }
  destruct S as [-> | (q' & L & ->)]; cbn [correct3] in H';
    destruct r as [|[|q [|q2 [|]]]|]; cbn [correct3] in H; try contradiction.
  - reflexivity.
  - destruct (H' q). apply H, peq3_refl.
  - destruct (H' q). apply H, E.
  - destruct (H q'). apply H', peq3_refl.
  - cbn [res3_same]. apply veq_spec. intros k _ Hk. rewrite L in Hk.
    symmetry. revert k Hk. apply H, H', peq3_refl.
  - destruct H as [N H]. destruct N. destruct (E q q2) as [E1 E2].
    apply H, H' in E1. apply H, H' in E2. exact (peq3_trans _ _ _ E1 (peq3_sym _ _ E2)).
Qed.

Lemma family1_spec : forall a b c d,
  family1 a b c d
  = Qeq_bool (proj_discr a b c d) 0 && negb (vzero (vcross (vsub b a) (vsub d c))).
Proof.
  intros a b c d. unfold family1, proj_discr, vsub. cbv zeta.
  destruct (pick_axes _) as [[i0 i1] ni]. reflexivity.
Qed.

Definition sub3 (p q : t3) : t3 :=
  let '(px, py, pz) := p in let '(qx, qy, qz) := q in (px - qx, py - qy, pz - qz)%Z.
Definition add3 (p q : t3) : t3 :=
  let '(px, py, pz) := p in let '(qx, qy, qz) := q in (px + qx, py + qy, pz + qz)%Z.
Definition zero3 (u : t3) : bool :=
  let '(x, y, z) := u in ((x =? 0) && (y =? 0) && (z =? 0))%Z.
Definition crossZ (u w : t3) : t3 :=
  let '(ux, uy, uz) := u in let '(wx, wy, wz) := w in
  (uy * wz - uz * wy, uz * wx - ux * wz, ux * wy - uy * wx)%Z.
Definition parZ (a b c d : t3) : bool := zero3 (crossZ (sub3 b a) (sub3 d c)).
Definition inb1b (p : t3) : bool :=
  let '(x, y, z) := p in
  ((-1 <=? x) && (x <=? 1) && (-1 <=? y) && (y <=? 1) && (-1 <=? z) && (z <=? 1))%Z.

Lemma q3_length : forall p, length (q3 p) = 3%nat.
Proof. intros [[x y] z]. reflexivity. Qed.

Lemma Qeq_bool_inject_Z : forall z, Qeq_bool (inject_Z z) 0 = (z =? 0)%Z.
Proof. intros [|p|p]; reflexivity. Qed.

Lemma vzero_q3 : forall z, vzero (q3 z) = zero3 z.
Proof.
  intros [[x y] z]. unfold vzero, q3, zero3. cbn [forallb].
  rewrite !Qeq_bool_inject_Z, andb_true_r, andb_assoc. reflexivity.
Qed.

Lemma vsub_q3 : forall a b, vsub (q3 a) (q3 b) = q3 (sub3 a b).
Proof.
  intros [[ax ay] az] [[bx by_] bz]. unfold sub3, vsub, q3. cbn [map2]. unfold Qminus, Z.sub.
  rewrite !inject_Z_plus, !inject_Z_opp. reflexivity.
Qed.

Lemma vcross_q3 : forall u w, vcross (q3 u) (q3 w) = q3 (crossZ u w).
Proof.
  intros [[ux uy] uz] [[wx wy] wz]. unfold crossZ, vcross, q3, c3. cbn [nth]. unfold Qminus, Z.sub.
  rewrite !inject_Z_plus, !inject_Z_opp, !inject_Z_mult. reflexivity.
Qed.

Lemma parZ_spec : forall a b c d,
  vzero (vcross (vsub (q3 b) (q3 a)) (vsub (q3 d) (q3 c))) = parZ a b c d.
Proof. intros a b c d. rewrite !vsub_q3, vcross_q3. apply vzero_q3. Qed.

Lemma q3_beyond_tol : forall z, zero3 z = false ->
  tol8 < Qabs (c3 (q3 z) 0) \/ tol8 < Qabs (c3 (q3 z) 1) \/ tol8 < Qabs (c3 (q3 z) 2).
Proof.
  assert (T : forall x, x <> 0%Z -> tol8 < Qabs (inject_Z x)).
  { intros x Hx. unfold tol8, Qlt. cbn. lia. }
  intros [[x y] z] H. unfold zero3 in H. unfold q3, c3. cbn [nth].
  destruct (Z.eqb_spec x 0); [|left; apply T; assumption].
  destruct (Z.eqb_spec y 0); [|right; left; apply T; assumption].
  destruct (Z.eqb_spec z 0); [discriminate|right; right; apply T; assumption].
Qed.

Lemma par_offline_same : forall a b c d : t3,
  parZ a b c d = true -> parZ a c a b = false ->
  res3_same (seg3d tol8 (q3 a) (q3 b) (q3 c) (q3 d)) (isect3_ref (q3 a) (q3 b) (q3 c) (q3 d)) = true.
Proof.
  intros a b c d P O.
  assert (R : isect3_ref (q3 a) (q3 b) (q3 c) (q3 d) = R3None).
  { unfold isect3_ref. cbv zeta. rewrite !parZ_spec, P, O. reflexivity. }
  rewrite R. rewrite <- parZ_spec, vzero_spec in P.
  unfold parZ in O. apply q3_beyond_tol in O. rewrite <- vcross_q3, <- !vsub_q3 in O.
  destruct a as [[ax ay] az], b as [[bx by_] bz], c as [[cx cy] cz], d as [[dx dy] dz]. cbn [q3].
  destruct (seg3d_parallel_offline_correct tol8 (inject_Z ax) (inject_Z ay) (inject_Z az)
              (inject_Z bx) (inject_Z by_) (inject_Z bz) (inject_Z cx) (inject_Z cy) (inject_Z cz)
              (inject_Z dx) (inject_Z dy) (inject_Z dz)) as [-> _];
    [reflexivity | exact (P 0%nat ltac:(cbn; lia)) | exact (P 1%nat ltac:(cbn; lia))
    | exact (P 2%nat ltac:(cbn; lia)) | exact O | reflexivity].
Qed.

Lemma zero3_sub3 : forall a b, veq (q3 a) (q3 b) = false -> zero3 (sub3 b a) = false.
Proof.
  intros [[ax ay] az] [[bx by_] bz] N. destruct (zero3 _) eqn:E; [|reflexivity].
  unfold zero3, sub3 in E. rewrite !andb_true_iff, !Z.eqb_eq, !Z.sub_move_0_r in E.
  destruct E as [[-> ->] ->]. rewrite <- N. symmetry. apply veq_spec. reflexivity.
Qed.

Lemma add3_sub3 : forall a b, add3 a (sub3 b a) = b.
Proof. intros [[ax ay] az] [[bx by_] bz]. unfold add3, sub3. rewrite !Zplus_minus. reflexivity. Qed.

Lemma inb1b_true : forall p, inb1 p -> inb1b p = true.
Proof.
  intros [[x y] z] H. unfold inb1 in H. unfold inb1b. rewrite !andb_true_iff, !Z.leb_le. tauto.
Qed.

Definition zrange (m : nat) : list Z :=
  map (fun k => (Z.of_nat k - Z.of_nat m)%Z) (seq 0 (2 * m + 1)).
Definition pts (m : nat) : list t3 :=
  flat_map (fun x => flat_map (fun y => map (fun z => (x, y, z)) (zrange m)) (zrange m)) (zrange m).

Lemma in_zrange : forall m x, (- Z.of_nat m <= x <= Z.of_nat m)%Z -> In x (zrange m).
Proof.
  intros m x H. apply in_map_iff. exists (Z.to_nat (x + Z.of_nat m)).
  split; [lia|apply in_seq; lia].
Qed.

Lemma in_pts : forall m x y z,
  In x (zrange m) -> In y (zrange m) -> In z (zrange m) -> In (x, y, z) (pts m).
Proof.
  intros m x y z Hx Hy Hz. apply in_flat_map. exists x. split; [exact Hx|].
  apply in_flat_map. exists y. split; [exact Hy|]. apply in_map, Hz.
Qed.

Lemma in_box : forall p, inb1 p -> In p (pts 1).
Proof. intros [[x y] z] (Hx & Hy & Hz). apply in_pts; apply in_zrange; assumption. Qed.

Lemma in_dirs : forall a b, inb1 a -> inb1 b -> In (sub3 b a) (pts 2).
Proof.
  intros [[ax ay] az] [[bx by_] bz] (? & ? & ?) (? & ? & ?).
  apply in_pts; apply in_zrange; cbn; lia.
Qed.

(* model and reference agree, unless the reference is a single point (on parallel
   directions that is [family2]) *)
Definition par_ok (a b c d : t3) : bool :=
  let A := q3 a in let B := q3 b in let C := q3 c in let D := q3 d in
  let r := isect3_ref A B C D in
  if match r with R3Cols [_] => true | _ => false end then true
  else res3_same (seg3d tol8 A B C D) r.

(* parallelism depends on the directions only: enumerate the pairs of non-zero parallel
   directions u, w first, then the segments a, a + u and c, c + w of the box with c on the
   line through a along u *)
Lemma collinear_all :
  (let box := pts 1 in let dirs := pts 2 in
   forallb (fun u => if zero3 u then true else
     forallb (fun w => if zero3 w then true else
       if zero3 (crossZ u w) then
         forallb (fun a => let b := add3 a u in
           if inb1b b then
             forallb (fun c => let d := add3 c w in
               if inb1b d then if zero3 (crossZ (sub3 c a) u) then par_ok a b c d else true
               else true) box
           else true) box
       else true) dirs) dirs) = true.
Proof. vm_compute. reflexivity. Qed.

Lemma par_ok_in : forall a b c d, inb1 a -> inb1 b -> inb1 c -> inb1 d ->
  zero3 (sub3 b a) = false -> zero3 (sub3 d c) = false ->
  parZ a b c d = true -> parZ a c a b = true ->
  par_ok a b c d = true.
Proof.
  intros a b c d Ha Hb Hc Hd Zu Zw P O. pose proof collinear_all as H. cbv zeta in H.
  rewrite forallb_forall in H. specialize (H _ (in_dirs a b Ha Hb)). rewrite Zu in H.
  rewrite forallb_forall in H. specialize (H _ (in_dirs c d Hc Hd)). rewrite Zw in H.
  fold (parZ a b c d) in H. rewrite P in H.
  rewrite forallb_forall in H. specialize (H a (in_box a Ha)).
  rewrite add3_sub3, (inb1b_true b Hb) in H.
  rewrite forallb_forall in H. specialize (H c (in_box c Hc)).
  fold (parZ a c a b) in H. rewrite add3_sub3, (inb1b_true d Hd), O in H. exact H.
Qed.

Lemma seg3d_box : forall a b c d : t3,
  inb1 a -> inb1 b -> inb1 c -> inb1 d ->
  let A := q3 a in let B := q3 b in let C := q3 c in let D := q3 d in
  veq A B = false -> veq C D = false ->
  family1 A B C D = false -> family2 A B C D = false ->
  res3_same (seg3d tol8 A B C D) (isect3_ref A B C D) = true.
Proof.
  intros a b c d Ha Hb Hc Hd A B C D N1 N2 F1 F2.
  pose proof (parZ_spec a b c d) as P. fold A B C D in P.
  destruct (parZ a b c d) eqn:EP.
  - destruct (parZ a c a b) eqn:EO; [|exact (par_offline_same a b c d EP EO)].
    assert (H : par_ok a b c d = true)
      by (apply par_ok_in; try assumption; apply zero3_sub3; assumption).
    unfold par_ok in H. cbv zeta in H. fold A B C D in H.
    unfold family2 in F2. rewrite P in F2. cbn [andb] in F2. rewrite F2 in H. exact H.
  - rewrite family1_spec, P, andb_true_r in F1. apply Qeq_bool_neq in F1.
    destruct (isect3_ref_nonpar A B C D (q3_length a) (q3_length b) (q3_length c) (q3_length d) P)
      as [K S].
    apply (correct3_same A B C D); [|exact K|exact S].
    destruct a as [[ax ay] az], b as [[bx by_] bz], c as [[cx cy] cz], d as [[dx dy] dz].
    assert (I : forall x, (-1 <= x <= 1)%Z -> inbox x) by (unfold inbox; lia).
    destruct Ha as (? & ? & ?), Hb as (? & ? & ?), Hc as (? & ? & ?), Hd as (? & ? & ?).
    apply seg3d_correct_int; try (apply I; assumption). exact F1.
Qed.
