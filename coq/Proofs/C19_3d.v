(* C19 (3-D part) — proofs about PP.Model.C19_3d.  What holds coordinate by coordinate is
   proved once for a coordinate [comp] ([linear], [coord]) and read off for vx, vy and vz. *)
From Coq Require Import List ZArith QArith Qabs Qfield Bool Arith Lia Lqa Permutation.
Import ListNotations.
From PP Require Import Lib.ListFacts Model.C19 Model.C19_3d Proofs.C19.
Open Scope Q_scope.

Definition veq (a b : v3) : Prop := vx a == vx b /\ vy a == vy b /\ vz a == vz b.

(* vectors in components, without the Qred normalisations *)
Ltac vnorm :=
  unfold vdot, vcross, vsub, vadd, vscale, mk3, vx, vy, vz, v0 in *; cbn [fst snd] in *;
  rewrite ?Qred_correct in *.

(* a linear functional on vectors: the Qred normalisations are invisible up to == *)
Record linear (comp : v3 -> Q) : Prop := {
  lin_zero : comp v0 == 0;
  lin_add a b : comp (vadd a b) == comp a + comp b;
  lin_scale k a : comp (vscale k a) == k * comp a }.
Arguments lin_zero {comp}.
Arguments lin_add {comp}.
Arguments lin_scale {comp}.

Lemma linear_vx : linear vx.  Proof. split; intros; vnorm; reflexivity. Qed.
Lemma linear_vy : linear vy.  Proof. split; intros; vnorm; reflexivity. Qed.
Lemma linear_vz : linear vz.  Proof. split; intros; vnorm; reflexivity. Qed.

Lemma vdot_eq a b : vdot a b == vx a * vx b + vy a * vy b + vz a * vz b.
Proof. unfold vdot. apply Qred_correct. Qed.

Lemma linear_vdot b : linear (fun a => vdot a b).
Proof. split; intros; rewrite !vdot_eq; vnorm; ring. Qed.

Lemma linear_vsum comp l : linear comp -> comp (vsum l) == sumQ (map comp l).
Proof.
  intro H. induction l as [|a l IH]; [apply (lin_zero H)|]. cbn [vsum fold_right map]. fold (vsum l).
  rewrite (lin_add H), IH. reflexivity.
Qed.

Lemma vdot_vscale k a b : vdot (vscale k a) b == k * vdot a b.
Proof. exact (lin_scale (linear_vdot b) k a). Qed.

Lemma vdot_vsum l b : vdot (vsum l) b == sumQ (map (fun a => vdot a b) l).
Proof. exact (linear_vsum _ l (linear_vdot b)). Qed.

Lemma sumQr_sumQ l : sumQr l == sumQ l.
Proof.
  induction l as [|a l IH]; [reflexivity|]. cbn [sumQr fold_right].
  rewrite Qred_correct. fold (sumQr l). rewrite IH. reflexivity.
Qed.

Lemma rot_length {A} (l : list A) : length (rot l) = length l.
Proof. destruct l as [|a l]; [reflexivity|]. unfold rot. rewrite app_length. cbn [length]. lia. Qed.

Lemma loop_closed ps : Permutation (map fst (loop_edges ps)) (map snd (loop_edges ps)).
Proof.
  unfold loop_edges.
  assert (length ps = length (rot ps)) as L by (symmetry; apply rot_length).
  rewrite (map_fst_combine _ _ L), (map_snd_combine _ _ L).
  destruct ps; cbn; [constructor|apply Permutation_cons_append].
Qed.

Definition crossx (e : v3 * v3) : Q := vy (fst e) * vz (snd e) - vz (fst e) * vy (snd e).
Definition crossy (e : v3 * v3) : Q := vz (fst e) * vx (snd e) - vx (fst e) * vz (snd e).
Definition crossz (e : v3 * v3) : Q := vx (fst e) * vy (snd e) - vy (fst e) * vx (snd e).

Definition swap (e : v3 * v3) : v3 * v3 := (snd e, fst e).

(* [comp] is a coordinate and [g] that coordinate of the cross product: g is antisymmetric, and
   a sub-normal is half the cross product of its edge plus a difference of a potential of the
   two ends *)
Record coord (comp : v3 -> Q) (g : v3 * v3 -> Q) : Prop := {
  co_linear : linear comp;
  co_swap e : g (swap e) == - g e;
  co_sub_normal c e : comp (sub_normal c e) ==
    (1 # 2) * g e + ((1 # 2) * g (snd e, c) - (1 # 2) * g (fst e, c)) }.
Arguments co_linear {comp g}.
Arguments co_swap {comp g}.
Arguments co_sub_normal {comp g}.

Lemma coord_x : coord vx crossx.
Proof.
  split; [exact linear_vx|intro e; unfold crossx, swap; cbn [fst snd]; ring|].
  intros [[c1 c2] c3] [[[a1 a2] a3] [[b1 b2] b3]]. unfold sub_normal, crossx. vnorm. ring.
Qed.
Lemma coord_y : coord vy crossy.
Proof.
  split; [exact linear_vy|intro e; unfold crossy, swap; cbn [fst snd]; ring|].
  intros [[c1 c2] c3] [[[a1 a2] a3] [[b1 b2] b3]]. unfold sub_normal, crossy. vnorm. ring.
Qed.
Lemma coord_z : coord vz crossz.
Proof.
  split; [exact linear_vz|intro e; unfold crossz, swap; cbn [fst snd]; ring|].
  intros [[c1 c2] c3] [[[a1 a2] a3] [[b1 b2] b3]]. unfold sub_normal, crossz. vnorm. ring.
Qed.

(* the face normal is the vector area of the node loop, whatever the temporary centre: the
   potential differences telescope over a closed set of directed edges *)
Lemma closed_normal comp g c es : coord comp g -> Permutation (map fst es) (map snd es) ->
  comp (vsum (map (sub_normal c) es)) == (1 # 2) * sumQ (map g es).
Proof.
  intros H HP. rewrite (linear_vsum _ _ (co_linear H)), map_map.
  rewrite (sumQ_map_ext _ _ es (fun e _ => co_sub_normal H c e)).
  rewrite (sumQ_map_add (fun e => (1 # 2) * g e)
             (fun e => (1 # 2) * g (snd e, c) - (1 # 2) * g (fst e, c))).
  rewrite (sumQ_telescope fst snd (fun r => (1 # 2) * g (r, c)) es HP).
  rewrite (sumQ_map_scale (1 # 2) g). ring.
Qed.

Lemma face_normal_coord comp g ps : coord comp g ->
  comp (face_normal ps) == (1 # 2) * sumQ (map g (loop_edges ps)).
Proof. intro H. apply (closed_normal comp g _ _ H), loop_closed. Qed.

Definition vector_area (ps : list v3) : v3 :=
  mk3 ((1 # 2) * sumQ (map crossx (loop_edges ps))) ((1 # 2) * sumQ (map crossy (loop_edges ps)))
      ((1 # 2) * sumQ (map crossz (loop_edges ps))).

Lemma face_normal_vector_area c ps : veq (face_normal_c c ps) (vector_area ps).
Proof.
  pose proof (loop_closed ps) as HP. unfold face_normal_c.
  repeat split; [apply (closed_normal vx crossx)|apply (closed_normal vy crossy)|apply (closed_normal vz crossz)];
    auto using coord_x, coord_y, coord_z.
Qed.

Definition cface := (list v3 * Z)%type.          (* node loop, cell_faces sign *)
Definition oedges (f : cface) : list (v3 * v3) :=
  if (snd f =? 1)%Z then loop_edges (fst f) else map swap (loop_edges (fst f)).
Definition cell_edges3 (fs : list cface) : list (v3 * v3) := flat_map oedges fs.
Definition watertight (fs : list cface) : Prop :=
  Permutation (cell_edges3 fs) (map swap (cell_edges3 fs)).
Definition signs3_ok (fs : list cface) : Prop :=
  forall f, In f fs -> snd f = 1%Z \/ snd f = (-1)%Z.

Lemma sumQ_map_swap (g : v3 * v3 -> Q) E :
  (forall e, g (swap e) == - g e) -> sumQ (map g (map swap E)) == - sumQ (map g E).
Proof.
  intro Hg. rewrite map_map.
  rewrite (sumQ_map_ext (fun e => g (swap e)) (fun e => (-1) * g e)) by (intros e _; rewrite Hg; ring).
  rewrite (sumQ_map_scale (-1) g). ring.
Qed.

Lemma antisym_sum_zero (g : v3 * v3 -> Q) E :
  (forall e, g (swap e) == - g e) -> Permutation E (map swap E) -> sumQ (map g E) == 0.
Proof.
  intros Hg HP. pose proof (sumQ_map_swap g E Hg) as H.
  rewrite <- (sumQ_perm _ _ (Permutation_map g HP)) in H. lra.
Qed.

Lemma face_signed_normal comp g f : coord comp g -> (snd f = 1%Z \/ snd f = (-1)%Z) ->
  inject_Z (snd f) * comp (face_normal (fst f)) == (1 # 2) * sumQ (map g (oedges f)).
Proof.
  intros H Hs. rewrite (face_normal_coord comp g _ H). unfold oedges.
  destruct Hs as [-> | ->]; cbn [Z.eqb Pos.eqb].
  - unfold inject_Z. ring.
  - rewrite (sumQ_map_swap g _ (co_swap H)). unfold inject_Z. ring.
Qed.

Lemma normals_sum_zero_comp comp g fs : coord comp g -> signs3_ok fs -> watertight fs ->
  sumQ (map (fun f => inject_Z (snd f) * comp (face_normal (fst f))) fs) == 0.
Proof.
  intros H Hs Hw.
  rewrite (sumQ_map_ext _ (fun f => (1 # 2) * sumQ (map g (oedges f))))
    by (intros f Hf; apply face_signed_normal; auto).
  rewrite (sumQ_map_scale (1 # 2) (fun f => sumQ (map g (oedges f)))).
  rewrite <- (sumQ_flat_map g oedges fs). fold (cell_edges3 fs).
  rewrite (antisym_sum_zero g _ (co_swap H) Hw). ring.
Qed.

Lemma normals_sum_zero_3d fs : signs3_ok fs -> watertight fs ->
  sumQ (map (fun f => inject_Z (snd f) * vx (face_normal (fst f))) fs) == 0 /\
  sumQ (map (fun f => inject_Z (snd f) * vy (face_normal (fst f))) fs) == 0 /\
  sumQ (map (fun f => inject_Z (snd f) * vz (face_normal (fst f))) fs) == 0.
Proof.
  intros Hs Hw.
  repeat split; eapply normals_sum_zero_comp; eauto using coord_x, coord_y, coord_z.
Qed.

Lemma tet_volume_eq t0 t : tet_volume t0 t ==
  ((vx (st_c t) - vx t0) * vx (outer t) + (vy (st_c t) - vy t0) * vy (outer t)
   + (vz (st_c t) - vz t0) * vz (outer t)) / 3.
Proof.
  unfold tet_volume. rewrite Qred_correct. destruct (st_c t) as [[c1 c2] c3], t0 as [[a1 a2] a3].
  destruct (outer t) as [[o1 o2] o3]. vnorm. reflexivity.
Qed.

Definition osum (comp : v3 -> Q) (ts : list subtri) : Q := sumQ (map (fun t => comp (outer t)) ts).

Lemma volume_shift t0 t1 ts :
  cell_volume3 t0 ts - cell_volume3 t1 ts ==
  ((vx t1 - vx t0) * osum vx ts + (vy t1 - vy t0) * osum vy ts + (vz t1 - vz t0) * osum vz ts) / 3.
Proof.
  unfold cell_volume3, osum. rewrite !sumQr_sumQ.
  induction ts as [|t ts IH]; cbn [map]; rewrite ?sumQ_cons.
  - cbn. field.
  - rewrite !tet_volume_eq.
    assert (forall a b c d : Q, a + b - (c + d) == (a - c) + (b - d)) as E by (intros; ring).
    rewrite E, IH. field.
Qed.

Lemma volume_indep_3d t0 t1 ts :
  osum vx ts == 0 -> osum vy ts == 0 -> osum vz ts == 0 ->
  cell_volume3 t0 ts == cell_volume3 t1 ts.
Proof.
  intros Hx Hy Hz. pose proof (volume_shift t0 t1 ts) as H. rewrite Hx, Hy, Hz in H.
  assert (cell_volume3 t0 ts - cell_volume3 t1 ts == 0) as H0 by (rewrite H; field). lra.
Qed.

Definition cell_ts (fs : list cface) : list subtri :=
  flat_map (fun f => face_subtris (fst f) (snd f)) fs.
(* all sub-triangles of all faces are oriented like their face (faces star-shaped w.r.t.
   their node mean; in particular convex planar faces) *)
Definition star_faces (fs : list cface) : Prop := forall t, In t (cell_ts fs) -> st_sgn t = 1.

Lemma face_outer_sum (comp : v3 -> Q) f : linear comp ->
  (forall t, In t (face_subtris (fst f) (snd f)) -> st_sgn t = 1) ->
  osum comp (face_subtris (fst f) (snd f)) == inject_Z (snd f) * comp (face_normal (fst f)).
Proof.
  intros H Hsg. unfold osum.
  rewrite (sumQ_map_ext _ (fun t => inject_Z (snd f) * comp (st_n t))).
  - rewrite (sumQ_map_scale (inject_Z (snd f)) (fun t => comp (st_n t))).
    unfold face_subtris. rewrite map_map. cbn [st_n].
    unfold face_normal, face_normal_c. rewrite (linear_vsum _ _ H), map_map. reflexivity.
  - intros t Ht. unfold outer. rewrite (lin_scale H), Qred_correct, (Hsg t Ht).
    unfold face_subtris in Ht. apply in_map_iff in Ht. destruct Ht as (e & <- & _). cbn [st_s st_n]. ring.
Qed.

Lemma cell_outer_sum comp g fs : coord comp g ->
  signs3_ok fs -> watertight fs -> star_faces fs -> osum comp (cell_ts fs) == 0.
Proof.
  intros H Hs Hw Hst. unfold osum, cell_ts.
  rewrite (sumQ_flat_map (fun t => comp (outer t)) (fun f => face_subtris (fst f) (snd f)) fs).
  rewrite (sumQ_map_ext _ (fun f => inject_Z (snd f) * comp (face_normal (fst f)))).
  - apply (normals_sum_zero_comp comp g); auto.
  - intros f Hf. apply (face_outer_sum comp f (co_linear H)).
    intros t Ht. apply Hst. unfold cell_ts. apply in_flat_map. exists f. auto.
Qed.

Lemma volume_indep_cell fs t0 t1 : signs3_ok fs -> watertight fs -> star_faces fs ->
  cell_volume3 t0 (cell_ts fs) == cell_volume3 t1 (cell_ts fs).
Proof.
  intros Hs Hw Hst.
  apply volume_indep_3d; eapply cell_outer_sum; eauto using coord_x, coord_y, coord_z.
Qed.

Lemma parallel_dot s a N : veq (vcross a N) v0 ->
  vdot s a * vdot N N == vdot a N * vdot s N.
Proof.
  intros (Hx & Hy & Hz). rewrite !vdot_eq.
  destruct s as [[s1 s2] s3], a as [[a1 a2] a3], N as [[n1 n2] n3]. vnorm.
  assert ((s1 * a1 + s2 * a2 + s3 * a3) * (n1 * n1 + n2 * n2 + n3 * n3)
          - (a1 * n1 + a2 * n2 + a3 * n3) * (s1 * n1 + s2 * n2 + s3 * n3)
          == s1 * (n2 * (a1 * n2 - a2 * n1) - n3 * (a3 * n1 - a1 * n3))
             + s2 * (n3 * (a2 * n3 - a3 * n2) - n1 * (a1 * n2 - a2 * n1))
             + s3 * (n1 * (a3 * n1 - a1 * n3) - n2 * (a2 * n3 - a3 * n2))) as E by ring.
  rewrite Hx, Hy, Hz in E. lra.
Qed.

Definition planar_star (ps : list v3) : Prop :=
  let c := mean3 ps in let N := face_normal ps in
  (forall e, In e (loop_edges ps) ->
     veq (vcross (sub_normal c e) N) v0 /\ 0 <= vdot (sub_normal c e) N) /\
  0 < vdot N N.

Definition scdot (c : v3) (e : v3 * v3) : Q := vdot (sub_centroid c e) (sub_normal c e).

Lemma face_gauss ps : planar_star ps ->
  vdot (face_center ps) (face_normal ps) == sumQ (map (scdot (mean3 ps)) (loop_edges ps)).
Proof.
  unfold planar_star. cbn zeta. intros [Hall HN].
  set (c := mean3 ps) in *. set (N := face_normal ps) in *. set (es := loop_edges ps) in *.
  assert (sumQr (map (sub_weight c N) es) == vdot N N) as HW.
  { rewrite sumQr_sumQ.
    rewrite (sumQ_map_ext _ (fun e => vdot (sub_normal c e) N)).
    - rewrite <- (map_map (sub_normal c) (fun a => vdot a N)), <- vdot_vsum. reflexivity.
    - intros e He. unfold sub_weight. apply Qabs_pos. apply Hall. exact He. }
  unfold face_center. fold c N es. rewrite vdot_vscale, vdot_vsum, map_map, HW.
  rewrite (sumQ_map_ext (fun e => vdot (vscale (sub_weight c N e) (sub_centroid c e)) N)
             (fun e => vdot N N * scdot c e)).
  - rewrite (sumQ_map_scale (vdot N N) (scdot c)). field. lra.
  - intros e He. destruct (Hall e He) as [Hp Hpos]. rewrite vdot_vscale.
    unfold sub_weight. rewrite (Qabs_pos _ Hpos).
    unfold scdot. rewrite (Qmult_comm (vdot N N)), (parallel_dot _ _ _ Hp). reflexivity.
Qed.

Lemma tet_volume_at_origin t : 3 * tet_volume v0 t == vdot (st_c t) (outer t).
Proof.
  rewrite tet_volume_eq, vdot_eq. unfold v0, vx, vy, vz. cbn [fst snd]. field.
Qed.

(* Projections of a sub-triangle are taken on variables here: on the concrete fields
   (qsign of a dot product of Qred-normalised vectors) the same conversion makes Qed
   compare huge unfolded terms. *)
Lemma tet_term n sg c fc s :
  let t := {| st_n := n; st_sgn := sg; st_c := c; st_fc := fc; st_s := s |} in
  st_sgn t = 1 -> vdot (st_c t) (outer t) == s * vdot c n.
Proof.
  cbn [st_sgn st_c]. intros ->. unfold outer. cbn [st_s st_sgn st_n].
  rewrite !vdot_eq, (lin_scale linear_vx), (lin_scale linear_vy), (lin_scale linear_vz), Qred_correct.
  ring.
Qed.

Lemma face_tet_sum ps s : planar_star ps ->
  (forall t, In t (face_subtris ps s) -> st_sgn t = 1) ->
  sumQ (map (fun t => vdot (st_c t) (outer t)) (face_subtris ps s))
  == inject_Z s * vdot (face_center ps) (face_normal ps).
Proof.
  intros Hpl Hsg. rewrite (face_gauss _ Hpl).
  rewrite <- (sumQ_map_scale (inject_Z s) (scdot (mean3 ps))).
  unfold face_subtris in *. rewrite map_map. apply sumQ_map_ext. intros e He.
  apply tet_term. exact (Hsg _ (in_map _ _ e He)).
Qed.

Lemma gauss_3d fs t0 : signs3_ok fs -> watertight fs -> star_faces fs ->
  (forall f, In f fs -> planar_star (fst f)) ->
  sumQ (map (fun f => inject_Z (snd f) * vdot (face_center (fst f)) (face_normal (fst f))) fs)
  == 3 * cell_volume3 t0 (cell_ts fs).
Proof.
  intros Hs Hw Hst Hpl.
  rewrite (volume_indep_cell fs t0 v0 Hs Hw Hst).
  unfold cell_volume3. rewrite sumQr_sumQ.
  rewrite <- (sumQ_map_scale 3 (tet_volume v0)).
  rewrite (sumQ_map_ext (fun t => 3 * tet_volume v0 t) (fun t => vdot (st_c t) (outer t)))
    by (intros; apply tet_volume_at_origin).
  unfold cell_ts.
  rewrite (sumQ_flat_map (fun t => vdot (st_c t) (outer t)) (fun f => face_subtris (fst f) (snd f)) fs).
  apply sumQ_map_ext. intros f Hf. symmetry. apply face_tet_sum; [exact (Hpl f Hf)|].
  intros t Ht. apply Hst. apply in_flat_map. exists f. auto.
Qed.

Definition pair_dec : forall a b : nat * nat, {a = b} + {a <> b}.
Proof. decide equality; apply Nat.eq_dec. Defined.

Lemma pair_eqb_eq a b : pair_eqb a b = true <-> a = b.
Proof.
  unfold pair_eqb. destruct a as [a1 a2], b as [b1 b2]. cbn [fst snd].
  rewrite andb_true_iff, !Nat.eqb_eq. split; [intros [-> ->]; reflexivity|intro H; inversion H; auto].
Qed.

Lemma countp_count_occ l x : countp l x = count_occ pair_dec l x.
Proof.
  unfold countp. induction l as [|a l IH]; [reflexivity|]. cbn [filter count_occ].
  destruct (pair_dec a x) as [->|Hne].
  - assert (pair_eqb x x = true) as -> by (apply pair_eqb_eq; reflexivity). cbn [length]. rewrite IH. reflexivity.
  - assert (pair_eqb x a = false) as ->.
    { destruct (pair_eqb x a) eqn:E; auto. apply pair_eqb_eq in E. congruence. }
    exact IH.
Qed.

Lemma swapi_invol e : swapi (swapi e) = e.
Proof. destruct e; reflexivity. Qed.

Lemma count_occ_map_swapi l x : count_occ pair_dec (map swapi l) x = count_occ pair_dec l (swapi x).
Proof.
  rewrite <- (swapi_invol x) at 1. symmetry. apply count_occ_map.
  intros a b E. rewrite <- (swapi_invol a), E. apply swapi_invol.
Qed.

Lemma counts_reverse_perm E :
  forallb (fun e => Nat.eqb (countp E e) (countp E (swapi e))) E = true ->
  Permutation E (map swapi E).
Proof.
  intro H. rewrite forallb_forall in H.
  assert (forall e, In e E -> count_occ pair_dec E e = count_occ pair_dec E (swapi e)) as Hin.
  { intros e He. specialize (H e He). apply Nat.eqb_eq in H. rewrite !countp_count_occ in H. exact H. }
  apply (Permutation_count_occ pair_dec). intro x. rewrite count_occ_map_swapi.
  destruct (in_dec pair_dec x E) as [Hx|Hx]; [apply Hin; exact Hx|].
  destruct (in_dec pair_dec (swapi x) E) as [Hs|Hs].
  - specialize (Hin _ Hs). rewrite swapi_invol in Hin. symmetry. exact Hin.
  - apply (count_occ_not_In pair_dec) in Hx. apply (count_occ_not_In pair_dec) in Hs. congruence.
Qed.

Definition xnode (g : grid3) (i : nat) : v3 := nth i (k_nodes g) v0.
Definition coord2 (g : grid3) (e : nat * nat) : v3 * v3 := (xnode g (fst e), xnode g (snd e)).
Definition cell_cfaces (g : grid3) (c : nat) : list cface :=
  map (fun x => (face_pts g (fst (fst x)), snd x)) (cell_entries3 g c).

Lemma rot_map {A B} (f : A -> B) l : rot (map f l) = map f (rot l).
Proof. destruct l as [|a l]; [reflexivity|]. cbn [rot map]. rewrite map_app. reflexivity. Qed.

Lemma combine_map2 {A B} (f : A -> B) : forall l l' : list A,
  combine (map f l) (map f l') = map (fun e => (f (fst e), f (snd e))) (combine l l').
Proof. induction l as [|a l IH]; intros [|b l']; cbn; auto. rewrite IH. reflexivity. Qed.

Lemma loop_edges_map g l : loop_edges (map (xnode g) l) = map (coord2 g) (iloop l).
Proof. unfold loop_edges, iloop. rewrite rot_map, combine_map2. reflexivity. Qed.

Lemma cell_subtris_ts g c : cell_subtris g c = cell_ts (cell_cfaces g c).
Proof.
  unfold cell_subtris, cell_ts, cell_cfaces, cell_entries3.
  induction (filter (fun x => Nat.eqb (snd (fst x)) c) (k_cf g)) as [|x l IH]; [reflexivity|].
  cbn [flat_map map fst snd]. rewrite IH. reflexivity.
Qed.

Lemma cell_edges_coord g c : cell_edges3 (cell_cfaces g c) = map (coord2 g) (cell_iedges g c).
Proof.
  unfold cell_edges3, cell_cfaces, cell_iedges.
  induction (cell_entries3 g c) as [|x l IH]; [reflexivity|].
  cbn [flat_map map]. rewrite map_app, IH. f_equal.
  unfold oedges. cbn [fst snd]. unfold face_pts. fold (xnode g). rewrite loop_edges_map.
  destruct (snd x =? 1)%Z; [reflexivity|]. rewrite !map_map. apply map_ext. intros [a b]. reflexivity.
Qed.

Lemma watertight_b_sound g c : watertight_b g c = true ->
  signs3_ok (cell_cfaces g c) /\ watertight (cell_cfaces g c).
Proof.
  unfold watertight_b. intro H. apply andb_true_iff in H. destruct H as [HE HS]. split.
  - intros f Hf. unfold cell_cfaces in Hf. apply in_map_iff in Hf. destruct Hf as (x & <- & Hx).
    rewrite forallb_forall in HS. specialize (HS x Hx). cbn [snd].
    apply orb_true_iff in HS. destruct HS as [E|E]; apply Z.eqb_eq in E; auto.
  - unfold watertight. rewrite cell_edges_coord. apply counts_reverse_perm in HE.
    apply (Permutation_map (coord2 g)) in HE. rewrite !map_map in *.
    erewrite (map_ext (fun x => swap (coord2 g x)) (fun x => coord2 g (swapi x))); [exact HE|].
    intros [a b]. reflexivity.
Qed.

Lemma is_zero3_veq a : is_zero3 a = true -> veq a v0.
Proof.
  unfold is_zero3. intro H. apply andb_true_iff in H. destruct H as [H Hz].
  apply andb_true_iff in H. destruct H as [Hx Hy].
  apply Qeq_bool_iff in Hx, Hy, Hz. unfold veq, v0, vx, vy, vz in *. cbn [fst snd] in *. auto.
Qed.

Lemma qsign_pos x : 0 < x -> qsign x = 1.
Proof. intro H. unfold qsign. destruct (Qlt_le_dec 0 x); [reflexivity|lra]. Qed.

Lemma star_planar_b_sound ps s : star_planar_b ps = true ->
  planar_star ps /\ forall t, In t (face_subtris ps s) -> st_sgn t = 1.
Proof.
  unfold star_planar_b. cbn zeta. intro H. apply andb_true_iff in H. destruct H as [H HN].
  apply andb_true_iff in H. destruct H as [Hpl Hpos].
  unfold planar in Hpl. rewrite forallb_forall in Hpl, Hpos.
  assert (forall e, In e (loop_edges ps) -> 0 < vdot (sub_normal (mean3 ps) e) (face_normal ps)) as Hp.
  { intros e He. specialize (Hpos e He). destruct (Qlt_le_dec 0 _); [assumption|discriminate]. }
  split.
  - unfold planar_star. cbn zeta. split.
    + intros e He. split; [apply is_zero3_veq; apply Hpl; exact He|]. apply Qlt_le_weak. apply Hp. exact He.
    + destruct (Qlt_le_dec 0 _); [assumption|discriminate].
  - intros t Ht. unfold face_subtris in Ht. apply in_map_iff in Ht. destruct Ht as (e & <- & He).
    cbn [st_sgn]. apply qsign_pos. apply Hp. exact He.
Qed.

Lemma cell_hyps_b_sound g c : cell_hyps_b g c = true ->
  signs3_ok (cell_cfaces g c) /\ watertight (cell_cfaces g c) /\ star_faces (cell_cfaces g c) /\
  (forall f, In f (cell_cfaces g c) -> planar_star (fst f)).
Proof.
  unfold cell_hyps_b. intro H. apply andb_true_iff in H. destruct H as [Hw Hs].
  destruct (watertight_b_sound g c Hw) as [H1 H2]. rewrite forallb_forall in Hs.
  split; [exact H1|]. split; [exact H2|]. split.
  - intros t Ht. unfold cell_ts in Ht. apply in_flat_map in Ht. destruct Ht as (f & Hf & Ht).
    unfold cell_cfaces in Hf. apply in_map_iff in Hf. destruct Hf as (x & <- & Hx). cbn [fst snd] in Ht.
    exact (proj2 (star_planar_b_sound _ (snd x) (Hs x Hx)) t Ht).
  - intros f Hf. unfold cell_cfaces in Hf. apply in_map_iff in Hf. destruct Hf as (x & <- & Hx). cbn [fst].
    exact (proj1 (star_planar_b_sound _ 1%Z (Hs x Hx))).
Qed.

Lemma existsb_false_in {A} (f : A -> bool) l : existsb f l = false ->
  forall x, In x l -> f x = false.
Proof.
  induction l as [|a l IH]; intros H x []; cbn in H; apply orb_false_iff in H; destruct H; subst; auto.
Qed.

Lemma geometry3_ok g r : geometry3 g = G3Ok r ->
  let fs := map (face_pts g) (seq 0 (length (k_faces g))) in
  let cells := map (cell_subtris g) (seq 0 (k_nc g)) in
  q_fn r = map face_normal fs /\ q_fc r = map face_center fs /\ q_area2 r = map face_area2 fs /\
  q_vol r = map (fun ts => cell_volume3 (tmp_center ts) ts) cells /\
  q_cc r = map (fun ts => cell_center3 (tmp_center ts) ts) cells /\
  (forall ts t, In ts cells -> In t ts -> - (1 # 1000000000000) < tet_volume (tmp_center ts) t).
Proof.
  unfold geometry3. destruct (forallb planar _); cbn [negb]; [|discriminate].
  destruct (existsb _ _) eqn:EV; [discriminate|]. intro E. injection E as <-.
  cbn [q_fn q_fc q_area2 q_vol q_cc]. repeat (split; [reflexivity|]).
  intros ts t Hts Ht.
  pose proof (existsb_false_in _ _ EV ts Hts) as H1. cbn zeta in H1.
  pose proof (existsb_false_in _ _ H1 t Ht) as H2. cbn beta in H2.
  destruct (Qlt_le_dec (- (1 # 1000000000000)) (tet_volume (tmp_center ts) t)) as [L|L]; [exact L|].
  exfalso. apply Qle_bool_iff in L. congruence.
Qed.
