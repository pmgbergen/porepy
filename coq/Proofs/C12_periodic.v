(* C12 — symmetry of Div * flux with Div = the STORED cell_faces^T on grids with a periodic
   face map (general theorem; the tie additionally evaluates it exactly on every periodic
   instance).  Stored entries are those whose geometry face is their row face. *)
From Coq Require Import List ZArith Bool Arith Lia Reals Lra.
Import ListNotations.
From PP Require Import Model.C12 Proofs.C12 Proofs.C12_vs.

Local Open Scope R_scope.

Section Periodic.
  Variable I : input R.

  Definition stored (e : inc) : bool := (tf e =? tg e)%nat.

  (* (cell_faces^T * flux)[i, j] *)
  Definition sdivflux (i j : nat) : R :=
    lsum (fun e => if (tc e =? i)%nat && stored e then IZR (ts e) * entry (rflux I) (tf e) j else 0)
         (cf I).

  Definition face_part (f i j : nat) : R :=
    lsum (fun e => if (tc e =? i)%nat && stored e then IZR (ts e) * entry (rflux I) f j else 0)
         (on_face I f).

  Lemma lsum_by_face (w : inc -> R) (faces : list nat) : forall L : list inc,
    NoDup faces -> (forall e, In e L -> In (tf e) faces) ->
    lsum w L = lsum (fun f => lsum w (filter (fun e => (tf e =? f)%nat) L)) faces.
  Proof.
    intros L Hnd. induction L as [|e L IH]; intros Hin.
    - cbn [filter]. symmetry. apply lsum_zero. reflexivity.
    - rewrite lsum_cons, IH by (intros; apply Hin; right; assumption).
      rewrite <- (lsum_diag_at (fun _ => w e) (tf e) faces Hnd (Hin e (or_introl eq_refl))).
      rewrite <- lsum_plus. apply lsum_ext. intros f _. cbn [filter].
      rewrite (Nat.eqb_sym f (tf e)).
      destruct (tf e =? f)%nat; [rewrite lsum_cons; reflexivity | lra].
  Qed.

  Lemma sdivflux_faces faces i j :
    NoDup faces -> (forall e, In e (cf I) -> In (tf e) faces) ->
    sdivflux i j = lsum (fun f => face_part f i j) faces.
  Proof.
    intros Hnd Hin. unfold sdivflux. rewrite (lsum_by_face _ faces (cf I) Hnd Hin).
    apply lsum_ext. intros f _. unfold face_part. fold (on_face I f).
    apply lsum_ext. intros e He. apply on_face_in in He. destruct He as [_ ->]. reflexivity.
  Qed.

  (* a face all of whose entries are stored ones (no periodic partner) *)
  Definition plain_face (f : nat) : Prop := forall e, In e (on_face I f) -> stored e = true.

  Lemma plain_part f i j :
    plain_face f -> face_part f i j = rt_flux I f * csum I f i * csum I f j.
  Proof.
    intros Hp. unfold face_part. rewrite entry_flux.
    rewrite (lsum_ext _ (fun e => rt_flux I f * csum I f j * (if (tc e =? i)%nat then IZR (ts e) else 0))).
    - rewrite lsum_scal. fold (csum I f i). ring.
    - intros e He. rewrite (Hp e He), andb_true_r. destruct (tc e =? i)%nat; ring.
  Qed.

  (* a periodic pair contributes t (e_cl - e_cr) (e_cl - e_cr)^T: only the own entry of each
     face is stored, and it sees the partner's cell with the opposite sign *)
  Lemma pair_part l r cl cr sl sr i j :
    periodic_pair I l r cl cr sl sr -> l <> r ->
    (sl = 1 \/ sl = -1)%Z -> (sr = 1 \/ sr = -1)%Z ->
    face_part l i j + face_part r i j =
    rt_full I l * ((if (cl =? i)%nat then 1 else 0) - (if (cr =? i)%nat then 1 else 0))
                * ((if (cl =? j)%nat then 1 else 0) - (if (cr =? j)%nat then 1 else 0)).
  Proof.
    intros Hp Hlr Hsl Hsr.
    pose proof (periodic_entry I _ _ _ _ _ _ Hp j) as El.
    pose proof (periodic_entry I _ _ _ _ _ _ (periodic_pair_sym I _ _ _ _ _ _ Hp) j) as Er.
    rewrite <- (periodic_t_full I _ _ _ _ _ _ Hp) in Er. destruct Hp as (Hl & Hr & _).
    apply Nat.eqb_neq in Hlr. unfold face_part. rewrite Hl, Hr, El, Er, !lsum_cons, !lsum_nil.
    unfold stored. cbn [tf tc ts tg geo fst snd].
    rewrite !Nat.eqb_refl, (Nat.eqb_sym r l), Hlr, !andb_true_r, !andb_false_r.
    destruct Hsl as [-> | ->], Hsr as [-> | ->]; destruct (cl =? i)%nat, (cr =? i)%nat; ring.
  Qed.

  (* every row face is a plain face or belongs to exactly one periodic pair *)
  Theorem periodic_symmetric (plain : list nat) (pairs : list (nat * nat)) :
    NoDup (plain ++ map fst pairs ++ map snd pairs) ->
    (forall e, In e (cf I) -> In (tf e) (plain ++ map fst pairs ++ map snd pairs)) ->
    (forall f, In f plain -> plain_face f) ->
    (forall p, In p pairs ->
       fst p <> snd p /\
       exists cl cr sl sr, periodic_pair I (fst p) (snd p) cl cr sl sr /\
                           (sl = 1 \/ sl = -1)%Z /\ (sr = 1 \/ sr = -1)%Z) ->
    forall i j, sdivflux i j = sdivflux j i.
  Proof.
    intros Hnd Hcov Hplain Hpairs i j.
    rewrite !(sdivflux_faces _ _ _ Hnd Hcov). rewrite !lsum_app, !lsum_map.
    f_equal.
    - apply lsum_ext. intros f Hf. rewrite !plain_part by (apply Hplain, Hf). ring.
    - rewrite <- !lsum_plus. apply lsum_ext. intros p Hp.
      destruct (Hpairs p Hp) as (Hne & cl & cr & sl & sr & Hpp & Hsl & Hsr).
      rewrite !(pair_part _ _ cl cr sl sr) by assumption. ring.
  Qed.
End Periodic.
