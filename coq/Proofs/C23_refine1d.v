(* C23 — refine_grid_1d: the node bookkeeping yields, cell by cell, the children.
   A refined cell is the chain of node indices  start, first interior, ..., last interior, end;
   its index array lists the consecutive pairs of that chain, and the children of a cell are the
   consecutive pairs of the points  a = p_0, p_1, ..., p_r = b. *)
From Coq Require Import List ZArith QArith Bool Arith Lia.
Import ListNotations.
From PP Require Import Lib.ListFacts Model.C23 Proofs.C23.
Close Scope Q_scope.

Definition peq (p q : v3 * v3) : Prop := veq (fst p) (fst q) /\ veq (snd p) (snd q).

(* old_2_new_nodes is sound: a stored index points at a copy of the old node *)
Definition map_ok (nodes x : list v3) (m : list (nat * nat)) : Prop :=
  forall n j, lookup m n = Some j -> j < length x /\ nth j x vzero = nth n nodes vzero.

Lemma map_ok_app nodes x y m : map_ok nodes x m -> map_ok nodes (x ++ y) m.
Proof.
  intros H n j E. destruct (H n j E) as [H1 H2]. split.
  - rewrite app_length. lia.
  - rewrite app_nth1 by exact H1. exact H2.
Qed.

Lemma place_spec nodes x m n :
  map_ok nodes x m ->
  let '(x', m', j) := place x m n (nth n nodes vzero) in
  (exists ext, x' = x ++ ext) /\ j < length x' /\ nth j x' vzero = nth n nodes vzero /\
  map_ok nodes x' m'.
Proof.
  intros H. unfold place. destruct (lookup m n) as [j|] eqn:E.
  - destruct (H n j E) as [H1 H2]. split; [exists []; rewrite app_nil_r; reflexivity|]. auto.
  - assert (Hnew : length x < length (x ++ [nth n nodes vzero]) /\
                   nth (length x) (x ++ [nth n nodes vzero]) vzero = nth n nodes vzero).
    { rewrite app_length, app_nth2, Nat.sub_diag by lia. cbn. split; [lia|reflexivity]. }
    split; [eexists; reflexivity|]. split; [apply Hnew|]. split; [apply Hnew|].
    intros n0 j0 E0. cbn [lookup] in E0. destruct (Nat.eqb_spec n n0) as [<-|_].
    + injection E0 as <-. exact Hnew.
    + apply (map_ok_app nodes x _ m H n0 j0 E0).
Qed.

Definition unpairs (ps : list (nat * nat)) : list nat := flat_map (fun p => [fst p; snd p]) ps.

Lemma unpairs_app p q : unpairs (p ++ q) = unpairs p ++ unpairs q.
Proof. apply flat_map_app. Qed.

Lemma pairs_of_unpairs_app ps l : pairs_of (unpairs ps ++ l) = ps ++ pairs_of l.
Proof.
  induction ps as [|[a b] t IH]; [reflexivity|].
  cbn [unpairs flat_map fst snd app]. cbn [pairs_of]. fold (unpairs t). rewrite IH. reflexivity.
Qed.

Lemma pairs_of_unpairs ps : pairs_of (unpairs ps) = ps.
Proof. rewrite <- (app_nil_r (unpairs ps)), pairs_of_unpairs_app. apply app_nil_r. Qed.

Lemma cell_ends_app x ps l :
  cell_ends x (unpairs ps ++ l) = cell_ends x (unpairs ps) ++ cell_ends x l.
Proof.
  unfold cell_ends. rewrite pairs_of_unpairs_app, pairs_of_unpairs, map_app. reflexivity.
Qed.

Lemma cell_ends_prefix x y ps :
  Forall (fun j => j < length x) (unpairs ps) ->
  cell_ends (x ++ y) (unpairs ps) = cell_ends x (unpairs ps).
Proof.
  intros H. unfold cell_ends. rewrite pairs_of_unpairs. apply map_ext_in. intros [a b] Hin.
  rewrite Forall_forall in H. cbn [fst snd].
  assert (In a (unpairs ps) /\ In b (unpairs ps)) as [Ha Hb].
  { split; apply in_flat_map; exists (a, b); (split; [exact Hin|cbn; tauto]). }
  rewrite !app_nth1 by (apply H; assumption). reflexivity.
Qed.

Lemma cell_ends_chain x chain :
  cell_ends x (unpairs (consecutive chain)) = consecutive (map (fun j => nth j x vzero) chain).
Proof. unfold cell_ends. rewrite pairs_of_unpairs, consecutive_map. reflexivity. Qed.

(* [a, g i1, g i1, g i2, g i2, ..., e] lists the pairs (a, g i1), (g i1, g i2), ..., (g ik, e) *)
Lemma chain_is_unpairs (g : nat -> nat) l : forall a e,
  a :: flat_map (fun i => [g i; g i]) l ++ [e] = unpairs (consecutive (a :: map g l ++ [e])).
Proof.
  induction l as [|i l IH]; intros a e; [reflexivity|].
  cbn [flat_map map app]. rewrite IH. reflexivity.
Qed.

Lemma children_consecutive r a b :
  children r a b = consecutive (map (fun i => vlerp (theta r i) a b) (seq 0 (S r))).
Proof. symmetry. apply consecutive_map_seq. Qed.

Lemma Forall2_app_inv_r' {A B} (R : A -> B -> Prop) l1 l2 m1 m2 :
  Forall2 R l1 m1 -> Forall2 R l2 m2 -> Forall2 R (l1 ++ l2) (m1 ++ m2).
Proof. apply Forall2_app. Qed.

Lemma veq_refl' a : veq a a.
Proof. apply veq_refl. Qed.

Lemma chain_children (r : nat) (a b : v3) (x : list v3) (si c0 ei : nat) :
  1 <= r ->
  nth si x vzero = a -> nth ei x vzero = b ->
  (forall i, i < r - 1 -> nth (c0 + i) x vzero = vlerp (theta r (S i)) a b) ->
  Forall2 peq (cell_ends x ([si] ++ flat_map (fun i => [c0 + i; c0 + i]) (seq 0 (r - 1)) ++ [ei]))
              (children r a b).
Proof.
  intros Hr Hs He Hm. destruct r as [|k]; [lia|]. replace (S k - 1) with k in * by lia.
  cbn [app]. rewrite chain_is_unpairs, cell_ends_chain, children_consecutive.
  apply (Forall2_consecutive veq).
  (* point by point: start, the k interior nodes, end *)
  change (seq 0 (S (S k))) with (0 :: seq 1 (S k)). rewrite seq_S. cbn [map]. rewrite !map_app.
  constructor; [|apply Forall2_app].
  - rewrite Hs. apply veq_sym, vlerp_t0, theta_0.
  - rewrite <- seq_shift, !map_map. apply Forall2_map2. intros i Hi. apply in_seq in Hi.
    rewrite Hm by lia. apply veq_refl.
  - repeat constructor. rewrite He. apply veq_sym, vlerp_t1, theta_r. lia.
Qed.

Record inv (nodes : list v3) (r : nat) (done : list (nat * nat)) (s : st1) : Prop := {
  inv_map : map_ok nodes (st_x s) (st_map s);
  inv_pairs : exists ps, st_ind s = unpairs ps /\ Forall (fun j => j < length (st_x s)) (unpairs ps);
  inv_cells : Forall2 peq (cell_ends (st_x s) (st_ind s)) (refine_spec nodes done r)
}.

Lemma inv_init nodes r : inv nodes r [] {| st_x := []; st_map := []; st_ind := [] |}.
Proof. constructor; cbn; [discriminate|exists []; split; [reflexivity|constructor]|constructor]. Qed.

(* two indices per decoded cell, r decoded cells per refined cell *)
Lemma inv_ind_length nodes r done s :
  inv nodes r done s -> length (st_ind s) = 2 * (length done * r).
Proof.
  intros [_ (ps & Hind & _) Hcells]. apply Forall2_len in Hcells. unfold cell_ends in Hcells.
  rewrite map_length, Hind, pairs_of_unpairs, refine_spec_length in Hcells.
  rewrite Hind. unfold unpairs. rewrite (flat_map_length_const _ ps 2) by (intros; reflexivity). lia.
Qed.

Lemma refine_cell_inv nodes r done s c :
  1 <= r -> inv nodes r done s -> inv nodes r (done ++ [c]) (refine_cell nodes r s c).
Proof.
  intros Hr [Hmap [ps [Hind Hlt]] Hcells]. destruct c as [st en].
  unfold refine_cell.
  pose proof (place_spec nodes (st_x s) (st_map s) st Hmap) as P1.
  destruct (place (st_x s) (st_map s) st (nth st nodes vzero)) as [[x1 m1] si].
  destruct P1 as [[ext1 Hx1] [Hsi [Hsv Hmap1]]].
  set (a := nth st nodes vzero) in *. set (b := nth en nodes vzero) in *.
  set (interior := map (fun i => vlerp (theta r i) a b) (seq 1 (r - 1))).
  pose proof (place_spec nodes (x1 ++ interior) m1 en (map_ok_app _ _ _ _ Hmap1)) as P2.
  fold b in P2. destruct (place (x1 ++ interior) m1 en b) as [[x3 m3] ei].
  destruct P2 as [[ext2 Hx3] [Hei [Hev Hmap3]]].
  assert (Hlen_int : length interior = r - 1) by (unfold interior; rewrite map_length; apply seq_length).
  (* x3 extends the old node list, then x1, then the interior nodes *)
  assert (Hx3' : x3 = st_x s ++ (ext1 ++ interior ++ ext2)).
  { rewrite Hx3, Hx1, <- !app_assoc. reflexivity. }
  assert (Hle : length x1 + (r - 1) <= length x3).
  { rewrite Hx3, !app_length, Hlen_int. lia. }
  assert (Hs3 : nth si x3 vzero = a).
  { rewrite Hx3, <- app_assoc, app_nth1 by exact Hsi. exact Hsv. }
  assert (Hm3 : forall i, i < r - 1 -> nth (length x1 + i) x3 vzero = vlerp (theta r (S i)) a b).
  { intros i Hi. rewrite Hx3, app_nth1, app_nth2 by (rewrite ?app_length; lia).
    replace (length x1 + i - length x1) with i by lia.
    unfold interior. rewrite nth_map_seq by exact Hi. reflexivity. }
  constructor; cbn [st_x st_map st_ind app].
  - exact Hmap3.
  - exists (ps ++ consecutive (si :: map (Nat.add (length x1)) (seq 0 (r - 1)) ++ [ei])).
    rewrite unpairs_app, <- chain_is_unpairs, Hind. split; [reflexivity|].
    apply Forall_app. split.
    + eapply Forall_impl; [|exact Hlt]. cbn. intros j Hj. rewrite Hx3', app_length. lia.
    + constructor; [lia|]. apply Forall_app. split; [|repeat constructor; exact Hei].
      apply Forall_forall. intros j Hj. apply in_flat_map in Hj. destruct Hj as [i [Hi Hj]].
      apply in_seq in Hi. cbn in Hj. destruct Hj as [<-|[<-|[]]]; lia.
  - rewrite Hind, cell_ends_app. unfold refine_spec. rewrite flat_map_app. cbn [flat_map fst snd].
    rewrite app_nil_r. apply Forall2_app.
    + rewrite Hx3', (cell_ends_prefix _ _ ps Hlt), <- Hind. exact Hcells.
    + apply chain_children; assumption.
Qed.

Lemma fold_inv nodes r cells : 1 <= r -> forall done s,
  inv nodes r done s -> inv nodes r (done ++ cells) (fold_left (refine_cell nodes r) cells s).
Proof.
  intros Hr. induction cells as [|c t IH]; intros done s H; cbn [fold_left].
  - rewrite app_nil_r. exact H.
  - replace (done ++ c :: t) with ((done ++ [c]) ++ t) by (rewrite <- app_assoc; reflexivity).
    apply IH, refine_cell_inv; assumption.
Qed.

