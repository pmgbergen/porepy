(* C27 — lemmas: per-interface / per-grid matrices placed at the global offsets:
   MortarProjections._construct_projection, Trace, Divergence. *)
From Coq Require Import List QArith Bool Arith Lia Permutation.
Import ListNotations.
From PP Require Import Lib.ListFacts Model.C27 Model.C27_spec Model.C27_ext Proofs.C27.
Local Open Scope nat_scope.

Lemma filter_lt_split : forall (M : list entry) s,
    Permutation (filter (fun b => erow b <? s) M ++ filter (fun b => erow b =? s) M)
                (filter (fun b => erow b <? S s) M).
Proof.
  induction M as [|a M IH]; intros s; [constructor|].
  cbn [filter].
  destruct (Nat.ltb_spec (erow a) s) as [E1|E1];
    destruct (Nat.eqb_spec (erow a) s) as [E2|E2];
    destruct (Nat.ltb_spec (erow a) (S s)) as [E3|E3]; try lia.
  - cbn [app]. apply perm_skip. apply IH.
  - apply Permutation_sym, Permutation_cons_app, Permutation_sym, IH.
  - apply IH.
Qed.

Lemma bucket_perm_lt : forall (M : list entry) s,
    Permutation (flat_map (fun k => filter (fun b => erow b =? k) M) (seq 0 s))
                (filter (fun b => erow b <? s) M).
Proof.
  intros M s; induction s as [|s IH].
  - cbn [seq flat_map]. rewrite filter_none; [constructor|]. intros a _. reflexivity.
  - rewrite seq_S, flat_map_app. cbn [flat_map plus]. rewrite app_nil_r.
    eapply Permutation_trans; [|apply filter_lt_split].
    apply Permutation_app_tail. exact IH.
Qed.

Lemma bucket_perm : forall (M : list entry) s,
    Forall (fun e => erow e < s) M ->
    Permutation (flat_map (fun k => filter (fun b => erow b =? k) M) (seq 0 s)) M.
Proof.
  intros M s H. eapply Permutation_trans; [apply bucket_perm_lt|].
  rewrite filter_all; [apply Permutation_refl|].
  intros a Ha. rewrite Forall_forall in H. apply Nat.ltb_lt. now apply H.
Qed.

(* the rows of L move to the range; the product lists them row by row *)
Lemma mul_pmat_l : forall L tot off s,
    nr L = s -> Forall (fun e => erow e < s) (ents L) ->
    exists es,
      mul (pmat tot off s) L = Ok (mkM tot (nc L) es) /\
      Permutation es (map (fun e => (off + erow e, ecol e, evl e)) (ents L)).
Proof.
  intros L tot off s Hnr Hrows. rewrite mul_ok by (symmetry; exact Hnr).
  eexists. split; [reflexivity|]. unfold mul_ents, pmat; cbn [ents].
  rewrite flat_map_map. cbn [erow ecol evl fst snd].
  eapply Permutation_trans; [|apply Permutation_map, (bucket_perm (ents L) s Hrows)].
  rewrite map_flat_map.
  erewrite flat_map_ext_in; [apply Permutation_refl|].
  intros k _. apply map_ext_in. intros b Hb. apply filter_In in Hb. destruct Hb as (_ & Hb).
  apply Nat.eqb_eq in Hb. now rewrite Hb, Qmult_1_l_eq.
Qed.

Lemma mem_gid_in : forall k sds, mem_gid k sds = true -> exists g, In g sds /\ gid g = k.
Proof.
  intros k sds H. unfold mem_gid in H. apply existsb_exists in H.
  destruct H as (g & Hg & E). apply Nat.eqb_eq in E. now exists g.
Qed.

Lemma locs_fit_length : forall num tm is_primary sds nd ifs locs,
    locs_fit num tm is_primary sds nd ifs locs -> length ifs = length locs.
Proof.
  intros num tm is_primary sds nd ifs; induction ifs as [|i ri IH]; intros [|L rl] H;
    cbn [locs_fit] in H; try reflexivity; try contradiction.
  destruct H as (_ & H). cbn [length]. f_equal. now apply IH.
Qed.

Lemma uniq_In : forall l x, In x (uniq l) <-> In x l.
Proof.
  induction l as [|y l IH]; intros x; cbn [uniq In]; [reflexivity|].
  rewrite filter_In, IH, negb_true_iff, Nat.eqb_neq.
  destruct (Nat.eq_dec y x); intuition congruence.
Qed.

Lemma uniq_const : forall c l, l <> [] -> Forall (fun x => x = c) l -> uniq l = [c].
Proof.
  intros c l; induction l as [|x l IH]; intros Hne H; [congruence|].
  inversion H as [|y ys Hx Hl]; subst. cbn [uniq].
  destruct l as [|y l]; [reflexivity|].
  rewrite IH; [|discriminate|exact Hl]. cbn [filter]. now rewrite Nat.eqb_refl.
Qed.

Lemma construct_mixed_codim : forall sds ifs nd to_mortar is_primary locs i j,
    In i ifs -> In j ifs -> icodim i <> icodim j ->
    construct_projection sds ifs nd to_mortar is_primary locs = Err ValueErr.
Proof.
  intros sds ifs nd to_mortar is_primary locs i j Hi Hj Hne.
  unfold construct_projection. destruct ifs as [|i0 r0]; [destruct Hi|].
  destruct (uniq (map icodim (i0 :: r0))) as [|a [|b t]] eqn:Eu; try reflexivity.
  exfalso. apply Hne.
  assert (H : forall x, In x (i0 :: r0) -> icodim x = a).
  { intros x Hx. apply (in_map icodim), uniq_In in Hx. rewrite Eu in Hx.
    destruct Hx as [<-|[]]. reflexivity. }
  now rewrite (H i), (H j).
Qed.

Lemma side_projections : forall (faces : bool) sds nd,
    1 <= nd -> Forall wf_grid sds ->
    (if faces then face_projections sds nd else cell_projections sds nd)
    = Ok (pdict_of (if faces then nfaces else ncells) sds nd).
Proof. intros [] sds nd; [apply face_projections_spec|apply cell_projections_spec]. Qed.

Lemma construct_projection_codim : forall sds ifs nd to_mortar is_primary locs c,
    1 <= nd -> Forall wf_grid sds ->
    ifs <> [] -> Forall (fun i => icodim i = c) ifs -> c = 1 \/ c = 2 ->
    let num := side_num is_primary c in
    construct_projection sds ifs nd to_mortar is_primary locs
    = bind (cp_blocks to_mortar is_primary sds nd (total num sds nd) (pdict_of num sds nd)
                      ifs locs)
           (fun ms => if to_mortar then vstack ms else hstack ms).
Proof.
  intros sds ifs nd to_mortar is_primary locs c Hnd Hwf Hne Hcod Hc num.
  unfold construct_projection. destruct ifs as [|i0 r0]; [congruence|].
  rewrite (uniq_const c) by (try discriminate; now apply Forall_map).
  replace ((c =? 1) || (c =? 2)) with true by (destruct Hc as [->| ->]; reflexivity).
  rewrite side_projections by assumption. cbn [bind].
  unfold num, side_num, total. now rewrite (Nat.mul_comm nd).
Qed.

Definition blk_to (num : grid -> nat) (is_primary : bool) (sds : list grid) (nd tot : nat)
           (p : intf * mat) : mat :=
  mkM (imc (fst p) * nd) tot
      (if mem_gid (side_gid is_primary (fst p)) sds
       then map (fun e => (erow e, pre num sds (side_gid is_primary (fst p)) * nd + ecol e, evl e))
                (ents (snd p))
       else []).

Lemma cp_blocks_to : forall num is_primary sds nd ifs locs,
    NoDup (map gid sds) ->
    locs_fit num true is_primary sds nd ifs locs ->
    cp_blocks true is_primary sds nd (total num sds nd) (pdict_of num sds nd) ifs locs
    = Ok (map (blk_to num is_primary sds nd (total num sds nd)) (combine ifs locs)).
Proof.
  intros num is_primary sds nd ifs; induction ifs as [|i ri IH]; intros [|L rl] Hnd Hfit;
    try contradiction; [reflexivity|]. destruct Hfit as (Hi & Hr).
  cbn [cp_blocks combine map]. fold (side_gid is_primary i).
  unfold blk_to at 1. cbn [fst snd]. rewrite (IH rl Hnd Hr).
  destruct (mem_gid (side_gid is_primary i) sds) eqn:Em; [|reflexivity].
  destruct (mem_gid_in _ _ Em) as (g & Hg & Eg).
  destruct (Hi g Hg Eg) as (Hnr & Hnc & Hcols).
  rewrite <- Eg, lookup_pdict_of by assumption. cbn [bind].
  now rewrite transpose_pmat, (mul_selection_seq L _ _ _ Hnc Hcols), Hnr.
Qed.

Lemma vstack_blk_to : forall num is_primary sds nd tot ifs locs a,
    vstack_ents (map (blk_to num is_primary sds nd tot) (combine ifs locs)) a
    = placed_to_mortar num is_primary sds nd ifs locs a.
Proof.
  intros num is_primary sds nd tot ifs; induction ifs as [|i ri IH]; intros [|L rl] a;
    try reflexivity.
  cbn [combine map vstack_ents placed_to_mortar blk_to nr ents fst snd]. rewrite IH. f_equal.
  destruct (mem_gid (side_gid is_primary i) sds); [|reflexivity]. now rewrite map_map.
Qed.

Lemma cp_to_mortar : forall num is_primary sds nd ifs locs,
    NoDup (map gid sds) -> ifs <> [] ->
    locs_fit num true is_primary sds nd ifs locs ->
    bind (cp_blocks true is_primary sds nd (total num sds nd) (pdict_of num sds nd) ifs locs)
         vstack
    = Ok (mkM (sum_by (fun i => imc i * nd) ifs) (total num sds nd)
              (placed_to_mortar num is_primary sds nd ifs locs 0)).
Proof.
  intros num is_primary sds nd ifs locs Hnodup Hne Hfit.
  rewrite cp_blocks_to by assumption. cbn [bind].
  pose proof (locs_fit_length _ _ _ _ _ _ _ Hfit) as Hlen.
  rewrite (vstack_ok _ (total num sds nd)).
  - rewrite vstack_blk_to, sum_by_map. do 2 f_equal.
    rewrite <- (map_fst_combine ifs locs Hlen) at 2. now rewrite sum_by_map.
  - destruct ifs, locs; try discriminate; congruence.
  - apply Forall_map, Forall_forall. reflexivity.
Qed.

(* one block: the per-interface matrix with its rows moved to the range of the subdomain, up to
   the order of the entries *)
Lemma cp_block_from : forall num is_primary sds nd i L,
    NoDup (map gid sds) ->
    (forall g, In g sds -> gid g = side_gid is_primary i ->
       nc L = imc i * nd /\ nr L = num g * nd /\ Forall (fun e => erow e < num g * nd) (ents L)) ->
    let tot := total num sds nd in
    exists B,
      (if mem_gid (side_gid is_primary i) sds
       then bind (lookup (pdict_of num sds nd) (side_gid is_primary i)) (fun P => mul P L)
       else Ok (zeros tot (imc i * nd))) = Ok B /\
      nr B = tot /\ nc B = imc i * nd /\
      Permutation (ents B)
        (if mem_gid (side_gid is_primary i) sds
         then map (fun e => (pre num sds (side_gid is_primary i) * nd + erow e, ecol e, evl e))
                  (ents L)
         else []).
Proof.
  intros num is_primary sds nd i L Hnd Hi tot.
  destruct (mem_gid (side_gid is_primary i) sds) eqn:Em.
  - destruct (mem_gid_in _ _ Em) as (g & Hg & Eg).
    destruct (Hi g Hg Eg) as (Hnc & Hnr & Hrows).
    rewrite <- Eg, lookup_pdict_of by assumption. cbn [bind].
    destruct (mul_pmat_l L tot (pre num sds (gid g) * nd) _ Hnr Hrows) as (es & Hmul & Hperm).
    exists (mkM tot (nc L) es). now repeat split.
  - exists (zeros tot (imc i * nd)). now repeat split.
Qed.

Lemma cp_blocks_from : forall num is_primary sds nd ifs locs,
    NoDup (map gid sds) ->
    locs_fit num false is_primary sds nd ifs locs ->
    exists Bs,
      cp_blocks false is_primary sds nd (total num sds nd) (pdict_of num sds nd) ifs locs
      = Ok Bs /\
      length Bs = length ifs /\
      Forall (fun B => nr B = total num sds nd) Bs /\
      sum_by nc Bs = sum_by (fun i => imc i * nd) ifs /\
      forall a, Permutation (hstack_ents Bs a)
                            (placed_from_mortar num is_primary sds nd ifs locs a).
Proof.
  intros num is_primary sds nd ifs; induction ifs as [|i ri IH]; intros [|L rl] Hnd Hfit;
    try contradiction.
  - exists []. repeat split; constructor.
  - destruct Hfit as (Hi & Hr).
    destruct (cp_block_from num is_primary sds nd i L Hnd Hi) as (B & HB & Hnr & Hnc & Hp).
    destruct (IH rl Hnd Hr) as (Bs & HBs & Hlen & Hall & Hsum & Hperm).
    exists (B :: Bs). cbn [cp_blocks]. fold (side_gid is_primary i). rewrite HB, HBs.
    cbn [bind length sum_by hstack_ents placed_from_mortar]. rewrite Hlen, Hsum, Hnc.
    repeat split; [now constructor|]. intros a. apply Permutation_app; [|apply Hperm].
    apply (Permutation_map (shift_col a)) in Hp. eapply Permutation_trans; [exact Hp|].
    destruct (mem_gid (side_gid is_primary i) sds); [|constructor]. now rewrite map_map.
Qed.

Lemma cp_from_mortar : forall num is_primary sds nd ifs locs,
    NoDup (map gid sds) -> ifs <> [] ->
    locs_fit num false is_primary sds nd ifs locs ->
    exists es,
      bind (cp_blocks false is_primary sds nd (total num sds nd) (pdict_of num sds nd) ifs locs)
           hstack
      = Ok (mkM (total num sds nd) (sum_by (fun i => imc i * nd) ifs) es) /\
      Permutation es (placed_from_mortar num is_primary sds nd ifs locs 0).
Proof.
  intros num is_primary sds nd ifs locs Hnodup Hne Hfit.
  destruct (cp_blocks_from num is_primary sds nd ifs locs Hnodup Hfit)
    as (Bs & HBs & Hlen & Hall & Hsum & Hperm).
  rewrite HBs. cbn [bind]. rewrite (hstack_ok _ (total num sds nd)), Hsum.
  - eexists. split; [reflexivity|apply Hperm].
  - destruct Bs, ifs; try discriminate; congruence.
  - exact Hall.
Qed.

Lemma sum_shapes : forall rnum cnum nd l locs,
    length l = length locs -> Forall (diag_fit rnum cnum nd) (combine l locs) ->
    sum_by nr locs = sum_by rnum l * nd /\ sum_by nc locs = sum_by cnum l * nd.
Proof.
  intros rnum cnum nd l; induction l as [|g r IH]; intros [|T rl] Hlen Hfit;
    try discriminate; [split; reflexivity|].
  cbn [combine] in Hfit. apply Forall_cons_iff in Hfit. destruct Hfit as ((Hnr & Hnc & _) & Hr).
  destruct (IH rl) as (H1 & H2); [now injection Hlen|exact Hr|].
  cbn [sum_by fst snd] in *. lia.
Qed.

(* the accumulated offsets of the block-diagonal matrix are the offsets of the projections *)
Lemma bdiag_from : forall rnum cnum nd l locs all,
    length l = length locs -> NoDup (map gid (all ++ l)) ->
    Forall (diag_fit rnum cnum nd) (combine l locs) ->
    bdiag_ents locs (sum_by rnum all * nd) (sum_by cnum all * nd)
    = placed_diag rnum cnum (all ++ l) nd (combine l locs).
Proof.
  intros rnum cnum nd l; induction l as [|g r IH]; intros [|T rl] all Hlen Hnd Hfit;
    try discriminate; [reflexivity|].
  cbn [combine] in Hfit. apply Forall_cons_iff in Hfit. destruct Hfit as ((Hnr & Hnc & _) & Hr).
  cbn [fst snd] in Hnr, Hnc.
  cbn [bdiag_ents combine]. unfold placed_diag. cbn [flat_map fst snd].
  rewrite !pre_app_head by exact Hnd. f_equal.
  rewrite (app_assoc all [g] r : all ++ g :: r = _) in *.
  fold (placed_diag rnum cnum ((all ++ [g]) ++ r) nd (combine r rl)).
  rewrite <- IH by (assumption || now injection Hlen).
  f_equal; rewrite sum_by_app; cbn [sum_by]; lia.
Qed.

Lemma block_diag_placed : forall rnum cnum sds nd locs,
    sds <> [] -> length sds = length locs -> NoDup (map gid sds) ->
    Forall (diag_fit rnum cnum nd) (combine sds locs) ->
    exists M, block_diag locs = Ok M /\
              nr M = total rnum sds nd /\ nc M = total cnum sds nd /\
              ents M = placed_diag rnum cnum sds nd (combine sds locs).
Proof.
  intros rnum cnum sds nd locs Hne Hlen Hnd Hfit.
  pose proof (bdiag_from rnum cnum nd sds locs [] Hlen Hnd Hfit) as HB.
  cbn [app sum_by Nat.mul] in HB.
  destruct (sum_shapes rnum cnum nd sds locs Hlen Hfit) as (H1 & H2).
  unfold block_diag.
  destruct locs as [|A [|B rl]].
  - destruct sds; [congruence|discriminate Hlen].
  - (* a single block is returned as it is *)
    exists A. split; [reflexivity|]. cbn [sum_by] in H1, H2. unfold total.
    split; [lia|]. split; [lia|].
    rewrite <- HB. cbn [bdiag_ents]. rewrite app_nil_r.
    rewrite <- (map_id (ents A)) at 1. apply map_ext. intros [[i j] v]. reflexivity.
  - eexists. split; [reflexivity|]. cbn [nr nc ents]. unfold total.
    split; [exact H1|]. split; [exact H2|exact HB].
Qed.

Definition tblock (sds : list grid) (nd tot : nat) (p : grid * mat) : mat :=
  mkM (nr (snd p)) tot
      (map (fun e => (erow e, pre ncells sds (gid (fst p)) * nd + ecol e, evl e)) (ents (snd p))).

Lemma trace_blocks_spec : forall sds nd l locs,
    NoDup (map gid sds) -> incl l sds -> length l = length locs ->
    Forall (diag_fit nfaces ncells nd) (combine l locs) ->
    trace_blocks (pdict_of ncells sds nd) l locs
    = Ok (map (tblock sds nd (total ncells sds nd)) (combine l locs)).
Proof.
  intros sds nd l; induction l as [|g r IH]; intros [|T rl] Hnd Hinc Hlen Hfit;
    try discriminate; [reflexivity|].
  cbn [combine] in Hfit. apply Forall_cons_iff in Hfit. destruct Hfit as ((Hnr & Hnc & Hcols) & Hr).
  apply incl_cons_inv in Hinc. destruct Hinc as (Hg & Hinc).
  cbn [trace_blocks combine map]. rewrite lookup_pdict_of by assumption. cbn [bind].
  rewrite transpose_pmat, (mul_selection_seq T _ _ _ Hnc Hcols). cbn [bind].
  now rewrite IH by (assumption || now injection Hlen).
Qed.

(* the accumulated row offsets of the stack are the offsets of the face projections *)
Lemma vstack_tblocks_from : forall nd tot l locs all,
    length l = length locs -> NoDup (map gid (all ++ l)) ->
    Forall (diag_fit nfaces ncells nd) (combine l locs) ->
    vstack_ents (map (tblock (all ++ l) nd tot) (combine l locs)) (sum_by nfaces all * nd)
    = placed_diag nfaces ncells (all ++ l) nd (combine l locs).
Proof.
  intros nd tot l; induction l as [|g r IH]; intros [|T rl] all Hlen Hnd Hfit;
    try discriminate; [reflexivity|].
  cbn [combine] in Hfit. apply Forall_cons_iff in Hfit. destruct Hfit as ((Hnr & _) & Hr).
  cbn [fst snd] in Hnr.
  cbn [combine map vstack_ents]. unfold placed_diag. cbn [flat_map tblock nr ents fst snd].
  rewrite map_map, (pre_app_head nfaces) by exact Hnd. f_equal.
  rewrite (app_assoc all [g] r : all ++ g :: r = _) in *.
  fold (placed_diag nfaces ncells ((all ++ [g]) ++ r) nd (combine r rl)).
  rewrite <- IH by (assumption || now injection Hlen).
  f_equal. rewrite sum_by_app. cbn [sum_by]. lia.
Qed.

(* the stacked blocks, for any nd (Trace itself refuses nd <> 1) *)
Lemma trace_blocks_placed : forall sds nd locs,
    sds <> [] -> NoDup (map gid sds) -> length sds = length locs ->
    Forall (diag_fit nfaces ncells nd) (combine sds locs) ->
    bind (trace_blocks (pdict_of ncells sds nd) sds locs) vstack
    = Ok (mkM (total nfaces sds nd) (total ncells sds nd)
              (placed_diag nfaces ncells sds nd (combine sds locs))).
Proof.
  intros sds nd locs Hne Hnd Hlen Hfit.
  rewrite (trace_blocks_spec sds nd sds locs Hnd (incl_refl _) Hlen Hfit). cbn [bind].
  rewrite (vstack_ok _ (total ncells sds nd)).
  - rewrite (vstack_tblocks_from nd _ sds locs [] Hlen Hnd Hfit), sum_by_map.
    change (fun x => nr (tblock sds nd (total ncells sds nd) x))
      with (fun x : grid * mat => nr (snd x)).
    rewrite <- (sum_by_map nr snd), map_snd_combine by exact Hlen.
    now rewrite (proj1 (sum_shapes _ _ _ _ _ Hlen Hfit)).
  - destruct sds, locs; try discriminate; congruence.
  - apply Forall_map, Forall_forall. reflexivity.
Qed.
