(* C36 — the flat (indptr / indices / data) arithmetic of _slice_matrix yields exactly the
   rows of the row-level model [slice_csr]. *)
From Coq Require Import List ZArith Bool Arith Lia Permutation Sorted.
Import ListNotations.
From PP Require Import Lib.ListFacts Lib.Csr Model.C36 Model.C36_flat Proofs.C36.
From PP Require Model.C35 Proofs.C35_csr.

Lemma StronglySorted_map {A B} (R : B -> B -> Prop) (f : A -> B) l :
  StronglySorted (fun a b => R (f a) (f b)) l -> StronglySorted R (map f l).
Proof.
  induction 1 as [|a l _ IH Hf]; cbn; constructor; [exact IH|].
  apply Forall_map. exact Hf.
Qed.

(* writes at distinct positions do not depend on their order: the pairs (idx[k], vals[k])
   may be listed along any permutation [ks] of the positions *)
Lemma scatter_reorder {E} (out : list E) idx vals ks (e : E) :
  Permutation ks (seq 0 (length idx)) -> NoDup idx -> length vals = length idx ->
  Forall (fun i => i < length out) idx ->
  scatter out (map (fun k => nth k idx 0) ks) (map (fun k => nth k vals e) ks)
  = scatter out idx vals.
Proof.
  intros HP Hnd Hl Hb. rewrite Forall_forall in Hb.
  assert (Hidx : Permutation (map (fun k => nth k idx 0) ks) idx).
  { eapply perm_trans; [apply Permutation_map, HP|]. rewrite map_nth_seq. apply Permutation_refl. }
  apply (nth_ext _ _ e e); [rewrite !scatter_length; reflexivity|].
  intros i _. destruct (in_dec Nat.eq_dec i idx) as [Hin|Hnin].
  - destruct (In_nth _ _ 0 Hin) as [k [Hk <-]].
    assert (Hkk : In k ks) by (apply (Permutation_in _ (Permutation_sym HP)), in_seq; lia).
    destruct (In_nth _ _ 0 Hkk) as [m [Hm <-]].
    rewrite (scatter_nodup _ idx) by (auto using nth_In; lia).
    rewrite <- (nth_map_lt (fun k => nth k idx 0) ks m 0 0 Hm).
    rewrite scatter_nodup.
    + apply (nth_map_lt (fun k => nth k vals e)). exact Hm.
    + exact (Permutation_NoDup (Permutation_sym Hidx) Hnd).
    + rewrite !map_length. reflexivity.
    + rewrite map_length. exact Hm.
    + rewrite (nth_map_lt _ ks m 0 0 Hm). auto using nth_In.
  - rewrite !scatter_notin; auto. intros H. exact (Hnin (Permutation_in _ Hidx H)).
Qed.

Lemma upd_app_r {E} : forall (pre suf : list E) p v, length pre <= p ->
    upd (pre ++ suf) p v = pre ++ upd suf (p - length pre) v.
Proof.
  induction pre as [|a pre IH]; intros suf p v H; cbn [app length].
  - rewrite Nat.sub_0_r. reflexivity.
  - destruct p as [|p]; [cbn in H; lia|]. cbn [upd]. f_equal. cbn. apply IH. cbn in H. lia.
Qed.

Lemma upd_repeat {E} (z v : E) : forall q m, q < m ->
    upd (repeat z m) q v = repeat z q ++ v :: repeat z (m - S q).
Proof.
  induction q as [|q IH]; intros [|m] H; try lia; cbn [repeat upd app Nat.sub].
  - rewrite Nat.sub_0_r. reflexivity.
  - f_equal. apply IH. lia.
Qed.

Lemma concat_repeat_nil {E} n : concat (repeat (@nil E) n) = [].
Proof. induction n as [|n IH]; [reflexivity|exact IH]. Qed.

(* writes at strictly increasing positions into empty slots keep the concatenation order *)
Lemma concat_scatter_sorted {E} : forall ps (vs : list (list E)) pre m,
    length ps = length vs -> StronglySorted lt ps ->
    Forall (fun p => length pre <= p < length pre + m) ps ->
    concat (scatter (pre ++ repeat [] m) ps vs) = concat pre ++ concat vs.
Proof.
  induction ps as [|p ps IH]; intros [|v vs] pre m Hl Hs Hb; try discriminate; cbn [scatter].
  - rewrite concat_app, concat_repeat_nil. reflexivity.
  - inversion Hb as [|? ? Hp Hb']; inversion Hs as [|? ? Hs' Hlt]; subst.
    rewrite upd_app_r, upd_repeat by lia. set (q := p - length pre).
    replace (pre ++ repeat [] q ++ v :: repeat [] (m - S q))
      with ((pre ++ repeat [] q ++ [v]) ++ repeat [] (m - S q))
      by (rewrite <- !app_assoc; reflexivity).
    rewrite IH.
    + rewrite !concat_app, concat_repeat_nil. cbn. rewrite app_nil_r, <- app_assoc. reflexivity.
    + cbn in Hl. lia.
    + exact Hs'.
    + rewrite !app_length, repeat_length. cbn [length]. rewrite Forall_forall in *.
      intros r Hr. specialize (Hb' r Hr). specialize (Hlt r Hr). lia.
Qed.

Section Sort.
  Variable key : nat -> nat.
  Notation kle := (fun a b => key a <= key b).

  Lemma ins_perm k l : Permutation (ins_by key k l) (k :: l).
  Proof.
    induction l as [|a r IH]; cbn [ins_by]; [apply Permutation_refl|].
    destruct (key k <? key a); [apply Permutation_refl|].
    eapply perm_trans; [apply perm_skip; exact IH|apply perm_swap].
  Qed.

  Lemma ins_sorted k l : StronglySorted kle l -> StronglySorted kle (ins_by key k l).
  Proof.
    induction 1 as [|a r Hs IH Hle]; cbn [ins_by]; [repeat constructor|].
    destruct (key k <? key a) eqn:Hc.
    - apply Nat.ltb_lt in Hc. repeat (constructor; try assumption); [lia|].
      eapply Forall_impl; [|exact Hle]. cbn beta. lia.
    - apply Nat.ltb_ge in Hc. constructor; [exact IH|].
      apply (Permutation_Forall (Permutation_sym (ins_perm k r))). constructor; assumption.
  Qed.

  Lemma fold_ins_perm : forall l acc,
      Permutation (fold_left (fun acc k => ins_by key k acc) l acc) (l ++ acc).
  Proof.
    induction l as [|k l IH]; intros acc; cbn [fold_left app]; [apply Permutation_refl|].
    eapply perm_trans; [apply IH|].
    eapply perm_trans; [apply Permutation_app_head, ins_perm|].
    apply Permutation_sym, Permutation_middle.
  Qed.

  Lemma fold_ins_sorted : forall l acc,
      StronglySorted kle acc -> StronglySorted kle (fold_left (fun acc k => ins_by key k acc) l acc).
  Proof. induction l as [|k l IH]; intros acc Hs; cbn [fold_left]; auto using ins_sorted. Qed.
End Sort.

Lemma argsort_perm keys : Permutation (argsort keys) (seq 0 (length keys)).
Proof. unfold argsort. rewrite <- (app_nil_r (seq 0 (length keys))) at 2. apply fold_ins_perm. Qed.

Lemma argsort_sorted keys :
  NoDup keys -> StronglySorted lt (map (fun k => nth k keys 0) (argsort keys)).
Proof.
  intros Hnd. apply StronglySorted_le_lt.
  - apply StronglySorted_map, fold_ins_sorted. constructor.
  - apply (Permutation_NoDup (Permutation_sym (Permutation_map _ (argsort_perm keys)))).
    rewrite map_nth_seq. exact Hnd.
Qed.

Section Flat.
  Variables (s : slicer) (A : csr).
  Hypotheses (Hwf : wf_slicer s) (Hnd : NoDup (rng s)) (W : C35_csr.wfP A) (Hn : nmaj A = dsize s).

  (* as in [slice_matrix_flat]: positions in range order; start, length and content of the
     stored row that position k reads *)
  Let ks := argsort (rng s).
  Let lo k := nth (nth k (dom s) 0) (indptr A) 0.
  Let cnt k := nth (S (nth k (dom s) 0)) (indptr A) 0 - lo k.
  Let rowk k := nth (nth k (dom s) 0) (rows A) [].

  Lemma ks_lt k : In k ks -> k < length (rng s).
  Proof. intros Hk. apply (Permutation_in _ (argsort_perm (rng s))), in_seq in Hk. lia. Qed.

  Lemma row_seg k :
    In k ks ->
    rowk k = seg (lo k) (lo k + cnt k) (entries A) /\ lo k + cnt k <= length (entries A).
  Proof.
    intros Hk. destruct Hwf as [Hl [Hd _]]. rewrite Forall_forall in Hd.
    assert (Hdk : nth k (dom s) 0 < nmaj A).
    { rewrite Hn. apply Hd, nth_In. rewrite Hl. apply ks_lt, Hk. }
    destruct (C35_csr.line_bounds A _ W Hdk) as [B1 B2].
    unfold rowk, rows, cnt, lo.
    rewrite C35_csr.rows_of_nth by (rewrite (C35_csr.wf_len A W); lia).
    rewrite Nat.add_comm, Nat.sub_add by exact B1. auto.
  Qed.

  Lemma row_length k : In k ks -> length (rowk k) = cnt k.
  Proof.
    intros Hk. destruct (row_seg k Hk) as [-> B]. rewrite C35_csr.seg_length; lia.
  Qed.

  Lemma flat_entries : entries (slice_matrix_flat s A) = concat (map rowk ks).
  Proof.
    change (entries (slice_matrix_flat s A))
      with (let sub := flat_map (fun k => seq (lo k) (cnt k)) ks in
            combine (take 0 (indices A) sub) (take 0%Z (data A) sub)).
    cbn zeta. rewrite C35_csr.gather_combine by (symmetry; apply (C35_csr.wf_data A W)).
    rewrite (C35_csr.gather_flat_map (0, 0%Z)). f_equal. apply map_ext_in. intros k Hk.
    destruct (row_seg k Hk) as [-> B]. apply (C35_csr.gather_seq (0, 0%Z)). exact B.
  Qed.

  Theorem slice_matrix_flat_rows :
    rows (slice_matrix_flat s A) = sliced s [] (rows A).
  Proof.
    unfold sliced.
    pose proof Hwf as [Hl [_ [Hr _]]].
    pose proof (argsort_perm (rng s)) as Hperm. fold ks in Hperm.
    (* the rows, scattered in sorted range order *)
    set (Rs := scatter (repeat [] (rsize s)) (map (fun k => nth k (rng s) 0) ks) (map rowk ks)).
    transitivity Rs.
    - unfold rows. rewrite flat_entries.
      (* the new index pointer is  0 :: cumsum (map length Rs) ... *)
      change (indptr (slice_matrix_flat s A))
        with (cumsum_from 0 (scatter (repeat 0 (S (rsize s)))
                                     (map (fun k => S (nth k (rng s) 0)) ks) (map cnt ks))).
      rewrite <- (map_map (fun k => nth k (rng s) 0) S).
      change (repeat 0 (S (rsize s))) with (0 :: repeat 0 (rsize s)). rewrite scatter_S.
      replace (scatter (repeat 0 (rsize s)) (map (fun k => nth k (rng s) 0) ks) (map cnt ks))
        with (map (@length _) Rs).
      2:{ unfold Rs. rewrite scatter_map, map_map, map_repeat. f_equal.
          apply map_ext_in, row_length. }
      (* ... and, the positions being increasing, the entries are  concat Rs *)
      replace (concat (map rowk ks)) with (concat Rs).
      + apply (C35_csr.rows_of_concat Rs [] 0). reflexivity.
      + apply (concat_scatter_sorted _ _ []); [rewrite !map_length; reflexivity | |].
        * apply argsort_sorted. exact Hnd.
        * apply Forall_map, Forall_forall. intros k Hk. cbn [length]. rewrite Forall_forall in Hr.
          split; [lia|]. apply Hr, nth_In, ks_lt, Hk.
    - rewrite <- (scatter_reorder _ (rng s) (map (fun d => nth d (rows A) []) (dom s)) ks []);
        try assumption.
      + unfold Rs. f_equal. apply map_ext_in. intros k Hk. symmetry.
        apply (nth_map_lt (fun d => nth d (rows A) [])). rewrite Hl. apply ks_lt, Hk.
      + rewrite map_length. exact Hl.
      + rewrite repeat_length. exact Hr.
  Qed.
End Flat.
