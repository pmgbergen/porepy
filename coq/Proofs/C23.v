(* C23 — proofs about PP.Model.C23: the subdivision points theta r i of refine_grid_1d and
   remesh_1d; the four children of a triangle in refine_triangle_grid; the column loop of
   structured_refinement (1-D); the cell map, node layers and layer heights of extrude_grid.
   The node bookkeeping of refine_grid_1d is in Proofs.C23_refine1d, its sign array in
   Proofs.C23_signs. *)
From Coq Require Import List ZArith QArith Qabs Bool Arith Lia Lqa Permutation Sorted.
Import ListNotations.
From PP Require Import Lib.ListFacts Model.C23.
Close Scope Q_scope.

Lemma nth_flat_map_const {A B} (f : A -> list B) (l : list A) (n : nat) (d : B) (da : A) :
  (forall a, In a l -> length (f a) = n) ->
  forall k i, k < length l -> i < n ->
  nth (k * n + i) (flat_map f l) d = nth i (f (nth k l da)) d.
Proof.
  induction l as [|a t IH]; intros H k i Hk Hi; cbn in Hk; [lia|].
  cbn [flat_map]. pose proof (H a (or_introl eq_refl)) as Ha. destruct k as [|k].
  - cbn [Nat.mul Nat.add nth]. apply app_nth1. rewrite Ha. exact Hi.
  - rewrite app_nth2 by (rewrite Ha; cbn; lia). rewrite Ha. cbn [nth].
    replace (S k * n + i - n) with (k * n + i) by (cbn; lia).
    apply IH; [intros a' Ha'; apply H; right; exact Ha'|lia|exact Hi].
Qed.

Lemma stride_divmod nc c k j : c < nc -> (c + k * nc = j <-> c = j mod nc /\ k = j / nc).
Proof.
  intros Hc. split.
  - intros <-. rewrite Nat.mod_add, Nat.div_add, Nat.mod_small, Nat.div_small by lia. lia.
  - intros [-> ->]. pose proof (Nat.div_mod j nc). lia.
Qed.

Lemma nth_repeat_blocks m n k i :
  k < m -> i < n -> nth (k * n + i) (flat_map (fun k => repeat k n) (seq 0 m)) 0 = k.
Proof.
  intros Hk Hi. rewrite (nth_flat_map_const _ (seq 0 m) n 0 0)
    by (rewrite ?seq_length; auto; intros; apply repeat_length).
  rewrite seq_nth, (nth_indep _ 0 k) by (rewrite ?repeat_length; assumption). apply nth_repeat.
Qed.

Lemma nth_repeat_blocks_div m n j :
  j < m * n -> nth j (flat_map (fun k => repeat k n) (seq 0 m)) 0 = j / n.
Proof.
  intros Hj. assert (n <> 0) as Hn by lia. rewrite (Nat.div_mod j n Hn) at 1.
  rewrite (Nat.mul_comm n). apply nth_repeat_blocks; [|apply Nat.mod_upper_bound, Hn].
  apply Nat.div_lt_upper_bound; lia.
Qed.

Lemma in_combine_seq {A} (l : list A) (d : A) j x :
  In (j, x) (combine (seq 0 (length l)) l) <-> j < length l /\ x = nth j l d.
Proof.
  split.
  - intros H. apply (In_nth _ _ (0, d)) in H. destruct H as [n [Hn E]].
    rewrite combine_length, seq_length, Nat.min_id in Hn.
    rewrite combine_nth, seq_nth in E by (rewrite ?seq_length; auto).
    injection E as <- <-. auto.
  - intros [Hj ->].
    replace (j, nth j l d) with (nth j (combine (seq 0 (length l)) l) (0, d)).
    + apply nth_In. rewrite combine_length, seq_length, Nat.min_id. exact Hj.
    + rewrite combine_nth, seq_nth by (rewrite ?seq_length; auto). reflexivity.
Qed.

Lemma Forall2_map2 {A B C} (R : B -> C -> Prop) (f : A -> B) (g : A -> C) l :
  (forall a, In a l -> R (f a) (g a)) -> Forall2 R (map f l) (map g l).
Proof.
  induction l as [|a l IH]; intros H; cbn [map]; constructor.
  - apply H. left. reflexivity.
  - apply IH. intros a' Ha'. apply H. right. exact Ha'.
Qed.

Lemma Forall2_len {A B} (R : A -> B -> Prop) l m : Forall2 R l m -> length l = length m.
Proof. induction 1; cbn; congruence. Qed.

Lemma consecutive_cons {A} (a b : A) t : consecutive (a :: b :: t) = (a, b) :: consecutive (b :: t).
Proof. reflexivity. Qed.

Lemma consecutive_length {A} (l : list A) : length (consecutive l) = length l - 1.
Proof.
  induction l as [|a [|b t] IH]; try reflexivity.
  rewrite consecutive_cons. cbn [length] in *. lia.
Qed.

Lemma consecutive_map {A B} (f : A -> B) l :
  consecutive (map f l) = map (fun p => (f (fst p), f (snd p))) (consecutive l).
Proof.
  induction l as [|a [|b t] IH]; try reflexivity.
  cbn [map] in *. rewrite !consecutive_cons, IH. reflexivity.
Qed.

Lemma consecutive_map_seq {A} (P : nat -> A) n : forall s,
  consecutive (map P (seq s (S n))) = map (fun i => (P i, P (S i))) (seq s n).
Proof.
  induction n as [|n IH]; intros s; [reflexivity|].
  cbn [seq map]. rewrite consecutive_cons. f_equal. apply (IH (S s)).
Qed.

Lemma Forall2_consecutive {A B} (R : A -> B -> Prop) l m : Forall2 R l m ->
  Forall2 (fun p q => R (fst p) (fst q) /\ R (snd p) (snd q)) (consecutive l) (consecutive m).
Proof.
  induction 1 as [|a b l m Hab H IH]; [constructor|].
  destruct H as [|a' b' l m Hab' H]; [constructor|].
  rewrite !consecutive_cons. constructor; [split; assumption|exact IH].
Qed.

Open Scope Q_scope.

Lemma Zpos_of_nat (r : nat) : (1 <= r)%nat -> Z.pos (Pos.of_nat r) = Z.of_nat r.
Proof.
  intros H. rewrite <- positive_nat_Z. rewrite Nat2Pos.id by lia. reflexivity.
Qed.

Lemma theta_div (r i : nat) : (1 <= r)%nat ->
  theta r i == inject_Z (Z.of_nat i) / inject_Z (Z.of_nat r).
Proof.
  intros H. unfold theta. rewrite Qmake_Qdiv. rewrite (Zpos_of_nat r H). reflexivity.
Qed.

Lemma inject_nat_pos (r : nat) : (1 <= r)%nat -> 0 < inject_Z (Z.of_nat r).
Proof. intros H. replace 0 with (inject_Z 0) by reflexivity. rewrite <- Zlt_Qlt. lia. Qed.

Lemma theta_0 r : theta r 0 == 0.
Proof. reflexivity. Qed.

Lemma theta_r r : (1 <= r)%nat -> theta r r == 1.
Proof. intros H. unfold theta, Qeq. cbn [Qnum Qden]. rewrite (Zpos_of_nat r H). lia. Qed.

Lemma theta_step r i : (1 <= r)%nat ->
  theta r (S i) - theta r i == 1 / inject_Z (Z.of_nat r).
Proof.
  intros H. rewrite !(theta_div r _ H). pose proof (inject_nat_pos r H).
  rewrite Nat2Z.inj_succ. unfold Z.succ. rewrite inject_Z_plus.
  change (inject_Z 1) with 1. field. lra.
Qed.

Lemma theta_range r i : (1 <= r)%nat -> (i <= r)%nat -> 0 <= theta r i <= 1.
Proof.
  intros H Hi. unfold theta, Qle. cbn [Qnum Qden]. rewrite (Zpos_of_nat r H). lia.
Qed.

Lemma lerp_0 a b : lerp 0 a b == a.
Proof. unfold lerp. ring. Qed.
Lemma lerp_1 a b : lerp 1 a b == b.
Proof. unfold lerp. ring. Qed.
Lemma lerp_diff t s a b : lerp t a b - lerp s a b == (t - s) * (b - a).
Proof. unfold lerp. ring. Qed.

Global Instance lerp_compat : Proper (Qeq ==> Qeq ==> Qeq ==> Qeq) lerp.
Proof. intros t t' Ht a a' Ha b b' Hb. unfold lerp. rewrite Ht, Ha, Hb. reflexivity. Qed.

Definition vscale (s : Q) (a : v3) : v3 := let '(a1, a2, a3) := a in (s * a1, s * a2, s * a3).
Definition vadd : v3 -> v3 -> v3 := vmap2 Qplus.
Definition vsum (l : list v3) : v3 := fold_right vadd vzero l.

Definition between (a b p : v3) : Prop := exists t, 0 <= t <= 1 /\ veq p (vlerp t a b).

Lemma veq_refl a : veq a a.
Proof. destruct a as [[a1 a2] a3]. cbn. repeat split; reflexivity. Qed.

Lemma veq_sym a b : veq a b -> veq b a.
Proof.
  destruct a as [[a1 a2] a3], b as [[b1 b2] b3]. cbn. intros [H1 [H2 H3]].
  repeat split; symmetry; assumption.
Qed.

Lemma vlerp_t0 t a b : t == 0 -> veq (vlerp t a b) a.
Proof.
  intros H. destruct a as [[a1 a2] a3], b as [[b1 b2] b3]. cbn.
  rewrite !H. repeat split; apply lerp_0.
Qed.

Lemma vlerp_t1 t a b : t == 1 -> veq (vlerp t a b) b.
Proof.
  intros H. destruct a as [[a1 a2] a3], b as [[b1 b2] b3]. cbn.
  rewrite !H. repeat split; apply lerp_1.
Qed.

Lemma vlerp_diff t s a b d : t - s == d ->
  veq (vsub (vlerp t a b) (vlerp s a b)) (vscale d (vsub b a)).
Proof.
  intros H. destruct a as [[a1 a2] a3], b as [[b1 b2] b3]. cbn.
  rewrite <- H. repeat split; apply lerp_diff.
Qed.

Lemma between_theta r i a b : (1 <= r)%nat -> (i <= r)%nat -> between a b (vlerp (theta r i) a b).
Proof. intros Hr Hi. exists (theta r i). split; [apply theta_range; assumption|apply veq_refl]. Qed.

Lemma children_length r a b : length (children r a b) = r.
Proof. unfold children. rewrite map_length, seq_length. reflexivity. Qed.

Lemma children_nth r a b i : (i < r)%nat ->
  nth i (children r a b) (vzero, vzero) = (vlerp (theta r i) a b, vlerp (theta r (S i)) a b).
Proof. intros H. unfold children. rewrite nth_map_seq by exact H. reflexivity. Qed.

Lemma refine_spec_length nodes cells r : length (refine_spec nodes cells r) = (length cells * r)%nat.
Proof. apply flat_map_length_const. intros; apply children_length. Qed.

Lemma refine_spec_nth nodes cells r k i : (k < length cells)%nat -> (i < r)%nat ->
  nth (k * r + i) (refine_spec nodes cells r) (vzero, vzero)
  = nth i (children r (nth (fst (nth k cells (0, 0)%nat)) nodes vzero)
                      (nth (snd (nth k cells (0, 0)%nat)) nodes vzero)) (vzero, vzero).
Proof.
  intros Hk Hi. unfold refine_spec.
  rewrite (nth_flat_map_const _ cells r (vzero, vzero) (0, 0)%nat); auto.
  intros; apply children_length.
Qed.

Definition mtheta (m i : nat) : Q := (Z.of_nat i # Pos.of_nat (m - 1)).

Lemma remesh_nth start en m i : (i < m)%nat ->
  nth i (remesh_nodes start en m) vzero = vlerp (theta (m - 1) i) en start.
Proof. intros H. unfold remesh_nodes. rewrite nth_map_seq by exact H. reflexivity. Qed.

Close Scope Q_scope.

Definition joins (p : nat * nat) (u v : nat) : Prop := p = (u, v) \/ p = (v, u).

(* in a sorted list the copies of a value are adjacent, so first_dup (after sortn) finds the
   shared node of two faces: the only value that occurs twice among their four end points *)
Lemma insn_perm x l : Permutation (x :: l) (insn x l).
Proof.
  induction l as [|y t IH]; cbn; [reflexivity|].
  destruct (x <=? y); [reflexivity|]. rewrite perm_swap, IH. reflexivity.
Qed.

Lemma sortn_count l m : count_occ Nat.eq_dec (sortn l) m = count_occ Nat.eq_dec l m.
Proof.
  symmetry. apply Permutation_count_occ. induction l as [|x l IH]; cbn; [constructor|].
  rewrite <- insn_perm, <- IH. reflexivity.
Qed.

Lemma insn_sorted x l : StronglySorted le l -> StronglySorted le (insn x l).
Proof.
  induction l as [|y t IH]; cbn; intro H; [repeat constructor|].
  inversion H as [|? ? Ht Hy]; subst.
  destruct (Nat.leb_spec x y) as [L|L]; constructor; auto.
  - constructor; [exact L|]. eapply Forall_impl; [|exact Hy]. intros; lia.
  - rewrite <- insn_perm. constructor; [lia|exact Hy].
Qed.

Lemma sortn_sorted l : StronglySorted le (sortn l).
Proof. induction l; cbn; [constructor|apply insn_sorted; assumption]. Qed.

Lemma first_dup_sorted s y : StronglySorted le s ->
  (forall m, m <> y -> count_occ Nat.eq_dec s m <= 1) -> 2 <= count_occ Nat.eq_dec s y ->
  first_dup s = Some y.
Proof.
  induction 1 as [|a t Ht IH Ha]; intros H1 H2; [cbn in H2; lia|].
  destruct t as [|b t'];
    [pose proof (count_occ_bound Nat.eq_dec y [a]) as B; cbn [length] in B; lia|].
  cbn [first_dup]. destruct (Nat.eqb_spec a b) as [<-|Hab].
  - f_equal. destruct (Nat.eq_dec a y) as [E|E]; [exact E|].
    specialize (H1 a E). rewrite !count_occ_cons_eq in H1 by reflexivity. lia.
  - apply IH.
    + intros m Hm. specialize (H1 m Hm). revert H1. cbn [count_occ].
      destruct (Nat.eq_dec a m); lia.
    + destruct (Nat.eq_dec a y) as [->|E]; [|rewrite count_occ_cons_neq in H2; assumption].
      (* y heads the list and differs from its successor: it does not occur again *)
      exfalso. rewrite count_occ_cons_eq in H2 by reflexivity.
      assert (In y (b :: t')) as Hin by (apply (count_occ_In Nat.eq_dec); lia).
      inversion Ht as [|? ? _ Hb]; subst. rewrite Forall_forall in Ha, Hb.
      destruct Hin as [->|Hin]; [congruence|].
      specialize (Ha b (or_introl eq_refl)). specialize (Hb y Hin). lia.
Qed.

Lemma common_node_spec p q x y z :
  x <> y -> y <> z -> x <> z -> joins p y x -> joins q z y -> common_node p q = y.
Proof.
  intros Hxy Hyz Hxz Hp Hq. unfold common_node.
  rewrite (first_dup_sorted _ y); [reflexivity|apply sortn_sorted|intros m Hm|];
    rewrite sortn_count; destruct Hp as [-> | ->], Hq as [-> | ->]; cbn [count_occ fst snd];
    repeat destruct (Nat.eq_dec _ _); lia.
Qed.

Lemma joins_sym p u v : joins p u v -> joins p v u.
Proof. intros [H|H]; [right|left]; exact H. Qed.

(* the children of a cell whose faces join a-b, b-c, c-a, whichever way each face is stored *)
Lemma refine_tri_cell_joins fn off f0 f1 f2 a b c :
  a <> b -> b <> c -> a <> c ->
  joins (nth f0 fn (0, 0)) a b -> joins (nth f1 fn (0, 0)) b c -> joins (nth f2 fn (0, 0)) c a ->
  refine_tri_cell fn off (f0, f1, f2)
  = [(b, off + f1, off + f0); (c, off + f2, off + f1); (a, off + f0, off + f2);
     (off + f0, off + f1, off + f2)].
Proof.
  intros Hab Hbc Hac J0 J1 J2. unfold refine_tri_cell.
  rewrite (common_node_spec _ _ c b a), (common_node_spec _ _ a c b),
    (common_node_spec _ _ b a c) by (assumption || apply not_eq_sym; assumption).
  reflexivity.
Qed.

Definition centres (nodes : list v3) (fn : list (nat * nat)) : list v3 :=
  map (fun f => vmid (nth (fst f) nodes vzero) (nth (snd f) nodes vzero)) fn.

Lemma new_nodes_corner nodes fn n :
  n < length nodes -> nth n (nodes ++ centres nodes fn) vzero = nth n nodes vzero.
Proof. intros H. apply app_nth1, H. Qed.

Lemma new_nodes_mid nodes fn f :
  f < length fn ->
  nth (length nodes + f) (nodes ++ centres nodes fn) vzero
  = vmid (nth (fst (nth f fn (0, 0))) nodes vzero) (nth (snd (nth f fn (0, 0))) nodes vzero).
Proof.
  intros H. rewrite app_nth2 by lia. replace (length nodes + f - length nodes) with f by lia.
  unfold centres. rewrite (nth_map_lt _ fn f (0, 0) vzero H). reflexivity.
Qed.

Open Scope Q_scope.

(* a point of the closed parent triangle used by the refinement: a vertex or an edge
   midpoint (convex combinations with weights in {0, 1/2, 1}) *)
Definition vertex_or_midpoint (A B C P : v3) : Prop :=
  veq P A \/ veq P B \/ veq P C \/ veq P (vmid A B) \/ veq P (vmid B C) \/ veq P (vmid C A).

Lemma vmid_comm A B : veq (vmid A B) (vmid B A).
Proof.
  destruct A as [[a1 a2] a3], B as [[b1 b2] b3]. cbn. repeat split; field.
Qed.

Definition quarter (A B C : v3) (t : v3 * v3 * v3) : Prop :=
  let '(P, Q, R) := t in
  4 * area2 P Q R == area2 A B C /\
  vertex_or_midpoint A B C P /\ vertex_or_midpoint A B C Q /\ vertex_or_midpoint A B C R.

Lemma vom_A A B C : vertex_or_midpoint A B C A.
Proof. left. apply veq_refl. Qed.
Lemma vom_B A B C : vertex_or_midpoint A B C B.
Proof. right; left. apply veq_refl. Qed.
Lemma vom_C A B C : vertex_or_midpoint A B C C.
Proof. right; right; left. apply veq_refl. Qed.
Lemma vom_AB A B C : vertex_or_midpoint A B C (vmid A B).
Proof. right; right; right; left. apply veq_refl. Qed.
Lemma vom_BA A B C : vertex_or_midpoint A B C (vmid B A).
Proof. right; right; right; left. apply vmid_comm. Qed.
Lemma vom_BC A B C : vertex_or_midpoint A B C (vmid B C).
Proof. right; right; right; right; left. apply veq_refl. Qed.
Lemma vom_CB A B C : vertex_or_midpoint A B C (vmid C B).
Proof. right; right; right; right; left. apply vmid_comm. Qed.
Lemma vom_CA A B C : vertex_or_midpoint A B C (vmid C A).
Proof. right; right; right; right; right. apply veq_refl. Qed.
Lemma vom_AC A B C : vertex_or_midpoint A B C (vmid A C).
Proof. right; right; right; right; right. apply vmid_comm. Qed.

Lemma face_centre nodes fn f u v :
  (f < length fn)%nat -> joins (nth f fn (0, 0)%nat) u v ->
  veq (nth (length nodes + f) (nodes ++ centres nodes fn) vzero)
      (vmid (nth u nodes vzero) (nth v nodes vzero)).
Proof.
  intros Hf J. rewrite new_nodes_mid by exact Hf.
  destruct J as [-> | ->]; cbn [fst snd]; [apply veq_refl|apply vmid_comm].
Qed.

(* the three corner triangles and the middle triangle on the edge midpoints *)
Lemma quarter_children A B C Mab Mbc Mca :
  veq Mab (vmid A B) -> veq Mbc (vmid B C) -> veq Mca (vmid C A) ->
  quarter A B C (B, Mbc, Mab) /\ quarter A B C (C, Mca, Mbc) /\
  quarter A B C (A, Mab, Mca) /\ quarter A B C (Mab, Mbc, Mca).
Proof.
  intros Hab Hbc Hca.
  assert (vertex_or_midpoint A B C Mab) by (do 3 right; left; exact Hab).
  assert (vertex_or_midpoint A B C Mbc) by (do 4 right; left; exact Hbc).
  assert (vertex_or_midpoint A B C Mca) by (do 5 right; exact Hca).
  unfold quarter. repeat split; auto using vom_A, vom_B, vom_C;
    destruct A as [[a1 a2] a3], B as [[b1 b2] b3], C as [[c1 c2] c3],
             Mab as [[p1 p2] p3], Mbc as [[q1 q2] q3], Mca as [[r1 r2] r3];
    cbn in Hab, Hbc, Hca |- *;
    destruct Hab as (P1 & P2 & _), Hbc as (Q1 & Q2 & _), Hca as (R1 & R2 & _);
    rewrite ?P1, ?P2, ?Q1, ?Q2, ?R1, ?R2; field.
Qed.

Close Scope Q_scope.

Definition first_inside (coarse : list (Q * Q)) (k : nat) (x : Q) : Prop :=
  inside1 (nth k coarse (0, 0)%Q) x = true /\
  forall k', k' < k -> inside1 (nth k' coarse (0, 0)%Q) x = false.

Definition nowhere (coarse : list (Q * Q)) (x : Q) : Prop :=
  forall k, k < length coarse -> inside1 (nth k coarse (0, 0)%Q) x = false.

Lemma inside1_default x : inside1 (0, 0)%Q x = false.
Proof. unfold inside1. cbn [fst snd]. destruct (Qle_bool x 0); reflexivity. Qed.

Lemma first_inside_0 c t x : first_inside (c :: t) 0 x <-> inside1 c x = true.
Proof.
  unfold first_inside. cbn [nth]. split; [tauto|]. intros H. split; [exact H|]. intros k' Hk'. lia.
Qed.

Lemma first_inside_S c t k x :
  first_inside (c :: t) (S k) x <-> inside1 c x = false /\ first_inside t k x.
Proof.
  unfold first_inside. cbn [nth]. split.
  - intros [H1 H2]. split; [apply (H2 0); lia|]. split; [exact H1|].
    intros k' Hk'. apply (H2 (S k')). lia.
  - intros [H0 [H1 H2]]. split; [exact H1|]. intros [|k'] Hk'; [exact H0|]. apply H2. lia.
Qed.

Lemma first_inside_lt coarse k x : first_inside coarse k x -> k < length coarse.
Proof.
  intros [H _]. destruct (Nat.lt_ge_cases k (length coarse)) as [L|L]; [exact L|].
  rewrite nth_overflow, inside1_default in H by exact L. discriminate.
Qed.

Lemma first_inside_unique coarse k k' x :
  first_inside coarse k x -> first_inside coarse k' x -> k = k'.
Proof.
  intros [H1 H2] [H1' H2']. destruct (lt_eq_lt_dec k k') as [[L|E]|L]; [|exact E|].
  - rewrite (H2' k L) in H1. discriminate.
  - rewrite (H2 k' L) in H1'. discriminate.
Qed.

Lemma nowhere_cons c t x : nowhere (c :: t) x <-> inside1 c x = false /\ nowhere t x.
Proof.
  unfold nowhere. cbn [length]. split.
  - intros H. split; [apply (H 0); lia|]. intros k Hk. apply (H (S k)). lia.
  - intros [H0 H] [|k] Hk; [exact H0|]. apply H. lia.
Qed.

Lemma first_inside_not_nowhere coarse k x : first_inside coarse k x -> ~ nowhere coarse x.
Proof.
  intros F N. pose proof (N k (first_inside_lt _ _ _ F)) as E. destruct F as [F _]. congruence.
Qed.

Lemma first_inside_or_nowhere coarse x :
  (exists k, first_inside coarse k x) \/ nowhere coarse x.
Proof.
  induction coarse as [|c t IH]; [right; intros k Hk; cbn in Hk; lia|].
  destruct (inside1 c x) eqn:E.
  - left. exists 0. apply first_inside_0, E.
  - destruct IH as [[k F]|N].
    + left. exists (S k). apply first_inside_S. auto.
    + right. apply nowhere_cons. auto.
Qed.

(* column k collects the test cells whose centre meets coarse cell k first; what is left meets none *)
Lemma sr_loop_spec coarse : forall test,
  length (fst (sr_loop coarse test)) = length coarse /\
  (forall k j, In j (nth k (fst (sr_loop coarse test)) []) <->
               exists x, In (j, x) test /\ first_inside coarse k x) /\
  (forall p, In p (snd (sr_loop coarse test)) <-> In p test /\ nowhere coarse (snd p)).
Proof.
  induction coarse as [|c t IH]; intros test.
  - cbn [sr_loop fst snd]. split; [reflexivity|]. split.
    + intros k j. split; [destruct k; intros []|]. intros (x & _ & F).
      apply first_inside_lt in F. cbn in F. lia.
    + intros p. split; [|tauto]. intros H. split; [exact H|]. intros k Hk. cbn in Hk. lia.
  - cbn [sr_loop]. specialize (IH (filter (fun p => negb (inside1 c (snd p))) test)).
    destruct (sr_loop t _) as [cols left]. cbn [fst snd] in *. destruct IH as (H1 & H2 & H3).
    split; [cbn [length]; rewrite H1; reflexivity|]. split.
    + intros [|k] j; cbn [nth].
      * rewrite in_map_iff. setoid_rewrite first_inside_0. split.
        -- intros ([j' x] & <- & Hin). apply filter_In in Hin. exists x. exact Hin.
        -- intros (x & Hin & Hc). exists (j, x). split; [reflexivity|]. apply filter_In. auto.
      * rewrite H2. setoid_rewrite first_inside_S. setoid_rewrite filter_In.
        setoid_rewrite negb_true_iff. cbn [snd]. split; intros (x & A & B); exists x; tauto.
    + intros p. rewrite H3, filter_In, negb_true_iff, nowhere_cons. tauto.
Qed.

(* the call fails exactly when there are not more fine than coarse cells or some centre lies in
   no coarse cell; otherwise column k lists the fine cells whose centre meets coarse cell k first *)
Lemma structured_refinement_1d_cases coarse centres :
  ((length centres <= length coarse \/
    exists j, j < length centres /\ nowhere coarse (nth j centres 0%Q)) /\
   structured_refinement_1d coarse centres = Err AssertErr) \/
  (length coarse < length centres /\
   (forall j, j < length centres -> exists k, first_inside coarse k (nth j centres 0%Q)) /\
   exists cols, structured_refinement_1d coarse centres = Ok cols /\ length cols = length coarse /\
     forall k j, In j (nth k cols []) <->
                 j < length centres /\ first_inside coarse k (nth j centres 0%Q)).
Proof.
  unfold structured_refinement_1d.
  destruct (Nat.leb_spec (length centres) (length coarse)) as [El|El]; [left; auto|].
  set (test := combine (seq 0 (length centres)) centres).
  destruct (sr_loop_spec coarse test) as (H1 & H2 & H3).
  destruct (sr_loop coarse test) as [cols left]. cbn [fst snd] in *.
  destruct left as [|[j x] left'].
  - right. split; [exact El|]. split.
    + intros j Hj.
      destruct (first_inside_or_nowhere coarse (nth j centres 0%Q)) as [F|N]; [exact F|].
      destruct (proj2 (H3 (j, nth j centres 0%Q))).
      split; [apply (in_combine_seq centres 0%Q); auto|exact N].
    + exists cols. split; [reflexivity|]. split; [exact H1|].
      intros k j. rewrite H2. unfold test. setoid_rewrite (in_combine_seq centres 0%Q).
      split; [intros (x & [Hj ->] & F); auto|intros [Hj F]; eauto].
  - left. split; [|reflexivity]. right.
    destruct (proj1 (H3 (j, x)) (or_introl eq_refl)) as [Hin N].
    apply (in_combine_seq centres 0%Q) in Hin. destruct Hin as [Hj ->]. eauto.
Qed.

Lemma cell_map_length nc layers : length (cell_map nc layers) = nc.
Proof. unfold cell_map. rewrite map_length. apply seq_length. Qed.

Lemma cell_map_row nc layers c : c < nc ->
  nth c (cell_map nc layers) [] = map (fun k => c + k * nc) (seq 0 layers).
Proof. intros Hc. unfold cell_map. rewrite nth_map_seq by exact Hc. reflexivity. Qed.

Lemma extrude_nodes_length nodes z : length (extrude_nodes nodes z) = length z * length nodes.
Proof. apply flat_map_length_const. intros; apply map_length. Qed.

Lemma extrude_nodes_nth nodes z k i : k < length z -> i < length nodes ->
  nth (k * length nodes + i) (extrude_nodes nodes z) vzero
  = let '(x, y, _) := nth i nodes vzero in (x, y, nth k z 0%Q).
Proof.
  intros Hk Hi. unfold extrude_nodes.
  rewrite (nth_flat_map_const _ z (length nodes) vzero 0%Q) by (auto; intros; apply map_length).
  rewrite (nth_map_lt _ nodes i vzero vzero Hi). reflexivity.
Qed.

Open Scope Q_scope.

Fixpoint increasing (z : list Q) : Prop :=
  match z with
  | a :: ((b :: _) as t) => a <= b /\ increasing t
  | _ => True
  end.
Fixpoint decreasing (z : list Q) : Prop :=
  match z with
  | a :: ((b :: _) as t) => b <= a /\ decreasing t
  | _ => True
  end.

Lemma layer_heights_cons a b t :
  layer_heights (a :: b :: t) = Qabs (b - a) :: layer_heights (b :: t).
Proof. reflexivity. Qed.

Lemma sumQ_cons x l : sumQ (x :: l) = x + sumQ l.
Proof. reflexivity. Qed.

Lemma last_cons2 (a b : Q) t : last (a :: b :: t) 0 = last (b :: t) 0.
Proof. reflexivity. Qed.

Lemma sum_heights_nonneg z : 0 <= sumQ (layer_heights z).
Proof.
  induction z as [|a [|b t] IH]; try (cbn; lra).
  rewrite layer_heights_cons, sumQ_cons. pose proof (Qabs_nonneg (b - a)). lra.
Qed.

(* for monotone z the sum of the layer heights telescopes *)
Lemma sum_heights_inc z : increasing z -> sumQ (layer_heights z) == last z 0 - hd 0 z.
Proof.
  induction z as [|a [|b t] IH]; try (intros _; cbn; ring). intros [Hab Ht].
  rewrite layer_heights_cons, sumQ_cons, (IH Ht), last_cons2, Qabs_pos by lra. cbn [hd]. ring.
Qed.

Lemma sum_heights_dec z : decreasing z -> sumQ (layer_heights z) == hd 0 z - last z 0.
Proof.
  induction z as [|a [|b t] IH]; try (intros _; cbn; ring). intros [Hab Ht].
  rewrite layer_heights_cons, sumQ_cons, (IH Ht), last_cons2, Qabs_neg by lra. cbn [hd]. ring.
Qed.

(* the sum of the heights is non-negative, which fixes the sign of last - hd *)
Lemma sum_heights_abs z :
  increasing z \/ decreasing z -> sumQ (layer_heights z) == Qabs (last z 0 - hd 0 z).
Proof.
  intros H. pose proof (sum_heights_nonneg z) as Hn. destruct H as [H|H].
  - rewrite (sum_heights_inc z H) in Hn |- *. rewrite Qabs_pos by exact Hn. reflexivity.
  - rewrite (sum_heights_dec z H) in Hn |- *. rewrite Qabs_neg by lra. ring.
Qed.

Lemma sumQ_scale v l : sumQ (map (Qmult v) l) == v * sumQ l.
Proof.
  induction l as [|x t IH]; [cbn; ring|]. cbn [map]. rewrite !sumQ_cons, IH. ring.
Qed.

Lemma forallb_Qle (f g : Q -> Q) z :
  forallb (fun x => Qle_bool (f x) (g x)) z = true <-> Forall (fun x => f x <= g x) z.
Proof.
  rewrite forallb_forall, Forall_forall. split; intros H x Hx; apply Qle_bool_iff, H, Hx.
Qed.

Lemma sign_ok_iff z :
  sign_ok z = true <-> Forall (fun x => 0 <= x) z \/ Forall (fun x => x <= 0) z.
Proof.
  unfold sign_ok. rewrite orb_true_iff.
  rewrite (forallb_Qle (fun _ => 0) (fun x => x)), (forallb_Qle (fun x => x) (fun _ => 0)).
  reflexivity.
Qed.

Close Scope Q_scope.
