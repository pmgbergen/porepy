(* C42 — the chain rule for the composed function f(normalize(x)) (Coquelicot): what it means
   for the outer function to be differentiable, and derivatives of finite sums. *)
From Coq Require Import List Reals Lra Lia Arith Bool.
From Coquelicot Require Import Coquelicot.
Import ListNotations.
From PP Require Import Model.C42 Proofs.C42 Proofs.C42_chain.
Open Scope R_scope.

(* f is differentiable at z with gradient g: it obeys the chain rule along every curve through
   z whose components are differentiable (every Frechet-differentiable f does; affine f
   below) *)
Definition differentiable_at (f : list R -> R) (z g : list R) : Prop :=
  forall (c : R -> list R) (c' : list R),
    c 0 = z -> length c' = length z -> (forall e, length (c e) = length z) ->
    (forall i, (i < length z)%nat -> is_derive (fun e => nth i (c e) 0) 0 (nth i c' 0)) ->
    is_derive (fun e => f (c e)) 0 (rsum (map2 Rmult g c')).

Lemma is_derive_rsum (F : nat -> R -> R) (F' : nat -> R) (l : list nat) :
  (forall i, In i l -> is_derive (F i) 0 (F' i)) ->
  is_derive (fun e => rsum (map (fun i => F i e) l)) 0 (rsum (map F' l)).
Proof.
  induction l as [|i l IH]; intros H; cbn [map tsum].
  - exact (@is_derive_const R_AbsRing R_NormedModule 0 0).
  - apply (is_derive_plus (F i) (fun e => rsum (map (fun i0 => F i0 e) l))); auto using in_eq, in_cons.
Qed.

Lemma dot_as_index_sum : forall g l, length l = length g ->
  rsum (map2 Rmult g l) = rsum (map (fun i => nth i g 0 * nth i l 0) (seq 0 (length g))).
Proof.
  induction g as [|x g IH]; intros [|y l] Hl; try discriminate; [reflexivity|].
  cbn [map2 tsum length seq map nth]. rewrite <- seq_shift, map_map, IH by (cbn in Hl; lia).
  reflexivity.
Qed.

Lemma is_derive_dot g (c : R -> list R) c' : length c' = length g ->
  (forall e, length (c e) = length g) ->
  (forall i, (i < length g)%nat -> is_derive (fun e => nth i (c e) 0) 0 (nth i c' 0)) ->
  is_derive (fun e => rsum (map2 Rmult g (c e))) 0 (rsum (map2 Rmult g c')).
Proof.
  intros Hc' Hc Hd. rewrite dot_as_index_sum by assumption.
  apply (is_derive_ext (fun e => rsum (map (fun i => nth i g 0 * nth i (c e) 0) (seq 0 (length g))))).
  { intros e. now rewrite dot_as_index_sum. }
  apply (is_derive_rsum (fun i e => nth i g 0 * nth i (c e) 0) (fun i => nth i g 0 * nth i c' 0)).
  intros i Hi. apply in_seq in Hi.
  apply (is_derive_scal (fun e => nth i (c e) 0) 0 (nth i g 0)), Hd. lia.
Qed.
