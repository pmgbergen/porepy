(* C10 — both storage slots of the product model refine C08's history windows
   (every storage call of the driver is one of four disciplined calls, so C08's
   step_refines applies to each); the clock of the product run is the C09 time loop on the
   events derived from the solver verdicts.  The simulation is stated for slots that start
   as windows over copies of the initial values; Proofs/C10_gen.v establishes that start for
   the index lists of prepare_simulation. *)
From Coq Require Import List ZArith Bool Arith Lia.
Import ListNotations.
From PP Require Model.C08 Model.C09 Proofs.C08 Proofs.C08_var Proofs.C09_loop.
From PP Require Import Model.C10.

Section Storage.
  Variable V : Type.
  Variable vadd : V -> V -> V.

  Notation R := (C08.R V).
  Notation sstep := (C08.step vadd).

  Lemma call_ok d s h o : 1 <= d -> R d s h -> C08.disciplined V d o ->
    exists s', sstep s o = (s', C08.hout V d h o) /\ R d s' (C08.hstep vadd h o).
  Proof.
    intros Hd HR Ho. destruct (C08_var.step_refines V vadd d s h o Hd HR Ho) as [HR' <-].
    exists (fst (sstep s o)). split; [apply surjective_pairing|exact HR'].
  Qed.

  Lemma get0 d s c r : 1 <= d -> R d s (c :: r) -> sstep s (C08.OpGet 0) = (s, C08.OVal c).
  Proof.
    intros Hd HR. rewrite (surjective_pairing (sstep s _)), C08.get_pure.
    destruct (call_ok d s (c :: r) (C08.OpGet 0) Hd HR) as (s' & -> & _); [cbn; lia|].
    destruct d; [lia|reflexivity].
  Qed.

  Lemma set0 d s h v : 1 <= d -> R d s h ->
    exists s', sstep s (C08.OpSet 0 v) = (s', C08.ODone) /\ R d s' (v :: tl h).
  Proof. intros Hd HR. exact (call_ok d s h (C08.OpSet 0 v) Hd HR eq_refl). Qed.

  Lemma add0 d s c r v : 1 <= d -> R d s (c :: r) ->
    exists s', sstep s (C08.OpAdd 0 v) = (s', C08.ODone) /\ R d s' (vadd c v :: r).
  Proof. intros Hd HR. exact (call_ok d s (c :: r) (C08.OpAdd 0 v) Hd HR eq_refl). Qed.

  Lemma shift0 d s c r : 1 <= d -> R d s (c :: r) ->
    exists s', sstep s (C08.OpShift (Some (Z.of_nat d))) = (s', C08.ODone) /\
               R d s' (c :: c :: r).
  Proof. intros Hd HR. exact (call_ok d s (c :: r) (C08.OpShift _) Hd HR eq_refl). Qed.

  Lemma R_get d s h i : h <> [] -> R d s h ->
    slot_get s i = if i <? d then nth_error h i else None.
  Proof.
    intros Hh HR. destruct s as [dct|]; cbn [C08.R slot_get] in *; [|contradiction].
    rewrite HR. apply C08.nth_error_firstn_if.
  Qed.
End Storage.

Section Drive.
  Variable V : Type.
  Variable vadd : V -> V -> V.
  Variable T : Type.
  Variable O : C09.numops T.
  Variables dI dT : nat.
  Hypothesis HdI : 1 <= dI.
  Hypothesis HdT : 1 <= dT.
  Variable maxit : Z.
  Variable c : C09.cfg T.
  Variable sched : list T.
  Variable v0 : V.
  (* what the time-step history holds beyond the accepted solutions *)
  Variable pad : list V.

  Notation R := (C08.R V).
  Notation zI := (Z.of_nat dI).
  Notation zT := (Z.of_nat dT).
  Notation accept := (accept1 vadd (T := T)).
  Notation attempt s := (C09.increase_time_index T (C09.increase_time T O s)).

  (* iterate slot: index 0 holds [a] (and the slot is a window of depth dI) *)
  Definition WI (st : store V) (a : V) : Prop := exists r, R dI (its st) (a :: r).
  (* time-step slot: the window of depth dT over the accepted solutions [acc] (most recent
     first, initial values last) continued by [pad] *)
  Definition WT (st : store V) (acc : list V) : Prop := R dT (tss st) (acc ++ pad).

  Lemma after_iteration_ok st a inc : WI st a ->
    exists st', after_iteration V vadd zI st inc = (st', None) /\ tss st' = tss st /\
                WI st' (vadd a inc).
  Proof.
    intros [r HR]. unfold after_iteration.
    destruct (shift0 V vadd dI (its st) a r HdI HR) as (s1 & -> & R1).
    destruct (add0 V vadd dI s1 a (a :: r) inc HdI R1) as (s2 & -> & R2).
    eexists. split; [reflexivity|]. split; [reflexivity|]. exists (a :: r). exact R2.
  Qed.

  Lemma newton_ok inp : forall st k a, WI st a ->
    (forall e, n_res (newton V vadd maxit zI st k inp) <> NErr e) /\
    tss (n_store (newton V vadd maxit zI st k inp)) = tss st /\
    WI (n_store (newton V vadd maxit zI st k inp))
       (fold_left vadd (n_used (newton V vadd maxit zI st k inp)) a).
  Proof.
    induction inp as [|[[inc cv] dv] inp IH]; intros st k a HI; cbn [newton];
      destruct (k <=? maxit)%Z; try (repeat split; [discriminate|exact HI]).
    destruct (after_iteration_ok st a inc HI) as (st1 & -> & Ht1 & HI1).
    destruct dv; [|destruct cv]; try (repeat split; [discriminate|exact Ht1|exact HI1]).
    cbn [n_res n_store n_used fold_left]. rewrite <- Ht1. apply IH, HI1.
  Qed.

  Definition hook (res : nres) (s1 : C09.state T) (st : store V) : hout V T :=
    match res with
    | NConv k => after_convergence V vadd T O c sched zT s1 st k
    | _ => after_failure V vadd T O c sched s1 st
    end.

  Definition attempted (res : nres) (used : list V) (iters : list (store V)) (h : hout V T)
    : entry V T :=
    {| e_res := res; e_used := used; e_iters := iters; e_clock := h_clock h; e_out := h_out h;
       e_store := h_store h |}.

  (* what holds of one attempted time step, given the accepted solutions [acc] before it *)
  Definition entry_ok (acc : list V) (e : entry V T) : Prop :=
    (forall x, e_res e <> NErr x) /\ e_res e <> NOut /\
    WT (e_store e) (accept acc e) /\
    (no_exc e = true -> WI (e_store e) (hd v0 (accept acc e))).

  (* The clock part of the hook is the step of C09's loop on the verdict; the hook raises
     only through the clock, and then leaves the store alone; otherwise the iterate slot
     holds the newest accepted solution and the time-step slot the accepted ones. *)
  Lemma hook_ok res used iters s1 st a acc :
    res = NFail \/ (exists k, res = NConv k) ->
    WI st (fold_left vadd used a) -> WT st (a :: acc) ->
    let h := hook res s1 st in
    let e := attempted res used iters h in
    C09_loop.cstep T O c sched s1 (ev_of e) = (h_clock h, h_out h) /\
    entry_ok (a :: acc) e /\
    match h_out h with
    | C09.OErr x => h_exc h = Some (inl x)
    | _ => h_exc h = None /\ WI (h_store h) (hd v0 (accept (a :: acc) e))
    end.
  Proof.
    intros Hres [r HRi] HRt. unfold WT in HRt. cbn [app] in HRt. cbv zeta.
    (* the hook is evaluated once, the claims are read off the record it returns *)
    remember (hook res s1 st) as h eqn:Eh.
    unfold entry_ok, no_exc, accept1, ev_of. cbn [attempted e_res e_out e_store e_used].
    destruct Hres as [-> | [k ->]]; cbn [hook C09_loop.cstep] in *.
    - (* failure: compute_time_step(recompute), then iterate 0 := time-step 0 *)
      unfold after_failure in Eh. destruct (C09.constant c).
      { subst h. cbn. repeat split; auto; discriminate. }
      destruct (C09.compute_time_step T O c sched s1 None true) as [s2 o].
      rewrite (get0 V vadd dT (tss st) a (acc ++ pad) HdT HRt) in Eh.
      destruct (set0 V vadd dI (its st) _ a HdI HRi) as (i1 & E1 & R1). rewrite E1 in Eh.
      assert (HI1 : WI {| its := i1; tss := tss st |} a) by (exists r; exact R1).
      destruct o; subst h; cbn; repeat split; auto; discriminate.
    - (* convergence: compute_time_step(iterations), then shift and store the iterate *)
      unfold after_convergence in Eh. rewrite (get0 V vadd dI (its st) _ r HdI HRi) in Eh.
      destruct (if C09.constant c then _ else _) as [s2 o].
      destruct (shift0 V vadd dT (tss st) a (acc ++ pad) HdT HRt) as (t1 & E1 & R1).
      destruct (set0 V vadd dT t1 _ (fold_left vadd used a) HdT R1) as (t2 & E2 & R2).
      rewrite E1 in Eh. cbn [oerr] in Eh. rewrite E2 in Eh.
      assert (HI2 : WI {| its := its st; tss := t2 |} (fold_left vadd used a))
        by (exists r; exact HRi).
      destruct o; subst h; cbn; repeat split; auto; discriminate.
  Qed.

  Fixpoint trace_ok (acc : list V) (tr : list (entry V T)) : Prop :=
    match tr with
    | [] => True
    | e :: r => entry_ok acc e /\ trace_ok (accept acc e) r
    end.

  Lemma accept_nonempty acc e : acc <> [] -> accept acc e <> [].
  Proof.
    intros Hne. unfold accept1. destruct (e_res e); try exact Hne.
    destruct (e_out e); try exact Hne; destruct acc; try congruence; discriminate.
  Qed.

  Lemma accepts_nonempty tr : forall acc, acc <> [] -> fold_left accept tr acc <> [].
  Proof.
    induction tr as [|e tr IH]; intros acc Hne; [exact Hne|].
    cbn [fold_left]. apply IH, accept_nonempty, Hne.
  Qed.

  Definition run_ok (s : C09.state T) (acc : list V) (tr : list (entry V T)) (sp : stop)
    : Prop :=
    (forall e, sp <> RaisedStore e) /\
    trace_ok acc tr /\
    C09.drive T O c sched s (map ev_of tr) = (map clock_of tr, stop_of sp).

  Definition drive_spec (solves : list (list (V * bool * bool))) : Prop :=
    forall s st acc tr sp,
      acc <> [] -> WI st (hd v0 acc) -> WT st acc ->
      drive V vadd T O maxit zI zT c sched s st solves = (tr, sp) -> run_ok s acc tr sp.

  (* the part of the loop body that follows the Newton loop *)
  Lemma after_newton solves res used iters s st a acc tr sp :
    drive_spec solves ->
    res = NFail \/ (exists k, res = NConv k) ->
    C09.final_time_reached T O c sched s = false ->
    WI st (fold_left vadd used a) -> WT st (a :: acc) ->
    (let h := hook res (attempt s) st in
     let e := attempted res used iters h in
     match h_exc h with
     | Some (inl x) => ([e], RaisedClock x)
     | Some (inr x) => ([e], RaisedStore x)
     | None => let (tr, sp) := drive V vadd T O maxit zI zT c sched (h_clock h) (h_store h)
                                     solves in (e :: tr, sp)
     end) = (tr, sp) ->
    run_ok s (a :: acc) tr sp.
  Proof.
    intros IH Hres Efin HI HT. unfold run_ok.
    destruct (hook_ok res used iters (attempt s) st a acc Hres HI HT) as (Hclk & Hok & Hexc).
    cbv zeta. set (h := hook res (attempt s) st) in *.
    set (e := attempted res used iters h) in *.
    pose proof (fun evs => C09_loop.drive_cons T O c sched s (ev_of e) evs _ _ Efin Hclk) as Hloop.
    assert (Hce : clock_of e = (ev_of e, h_clock h, h_out h)) by reflexivity.
    revert Hexc Hloop Hce. destruct (h_out h); intros Hexc Hloop Hce.
    5:{ (* compute_time_step raised: the run ends here *)
        rewrite Hexc. intros [= <- <-]. split; [discriminate|]. split; [exact (conj Hok I)|].
        cbn [map]. rewrite Hce. apply Hloop. }
    all: destruct Hexc as [-> HIe];
      destruct (drive V vadd T O maxit zI zT c sched (h_clock h) (h_store h) solves)
        as [tr' sp'] eqn:Erec; intros [= <- <-];
      destruct (IH _ _ _ _ _ (accept_nonempty (a :: acc) e ltac:(discriminate)) HIe
                   (proj1 (proj2 (proj2 Hok))) Erec) as (IH1 & IH2 & IH3);
      (split; [exact IH1|]); (split; [exact (conj Hok IH2)|]);
      cbn [map]; rewrite Hce, Hloop, IH3; reflexivity.
  Qed.

  Lemma drive_ok solves : drive_spec solves.
  Proof.
    induction solves as [|inp solves IH]; intros s st acc tr sp Hne HI HT Hd; cbn [drive] in Hd;
      destruct (C09.final_time_reached T O c sched s) eqn:Efin;
      try (injection Hd as <- <-; split; [discriminate|split; [exact I|]];
           (apply C09_loop.drive_final || apply C09_loop.drive_nil); exact Efin).
    destruct acc as [|a acc]; [congruence|]. cbn [hd] in HI.
    rewrite (get0 V vadd dT (tss st) a (acc ++ pad) HdT HT) in Hd. cbn [snd oerr] in Hd.
    destruct (newton_ok inp st 0 a HI) as (Hnerr & Hts & HIn).
    set (n := newton V vadd maxit zI st 0 inp) in *.
    assert (HTn : WT (n_store n) (a :: acc)) by (unfold WT; rewrite Hts; exact HT).
    destruct (n_res n) as [k| | |x] eqn:Eres.
    - apply (after_newton solves (NConv k) (n_used n) (n_snaps n) s (n_store n)); eauto.
    - apply (after_newton solves NFail (n_used n) (n_snaps n) s (n_store n)); auto.
    - (* the scripted inputs ran out *)
      injection Hd as <- <-. split; [discriminate|split; [exact I|]].
      apply C09_loop.drive_nil, Efin.
    - destruct (Hnerr x eq_refl).
  Qed.

  Lemma trace_ok_app pre : forall acc post,
      trace_ok acc (pre ++ post) -> trace_ok (fold_left accept pre acc) post.
  Proof.
    induction pre as [|e pre IH]; intros acc post H; [exact H|].
    cbn [app trace_ok fold_left] in *. apply IH, H.
  Qed.

  Lemma final_store_WT tr : forall st acc,
      WT st acc -> trace_ok acc tr -> WT (final_store st tr) (fold_left accept tr acc).
  Proof.
    induction tr as [|e tr IH]; intros st acc HT Hok; [exact HT|].
    unfold final_store. cbn [map fold_left]. rewrite C09_loop.last_cons.
    destruct Hok as [(_ & _ & HTe & _) Hok]. apply (IH (e_store e) _ HTe Hok).
  Qed.
End Drive.
