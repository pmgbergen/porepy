(* C41 — proofs about the interpolation-table model (PP.Model.C41).
   Every query (interpolate / gradient, standard / adaptive table) is shown to return a vertex
   sum [vsum ws lr f]: the sum over the 2^d corners of one cell of (product of per-axis
   weights) * f (corner), for per-axis weight pairs ws and vertex pairs lr.  The theorems
   follow from three facts about vertex sums: for f affine in each variable the sum is f at
   the interpolated point ([vsum_interp]) and, with the weights (-1, 1) on one axis, the
   difference of f across the cell ([vsum_grad]); two sets of data that agree axis by axis,
   or meet in a common vertex, give the same sum for every f ([vsum_axeq]). *)
From Coq Require Import List ZArith QArith Qround Bool Lia Lqa.
Import ListNotations.
From PP Require Import Lib.ListFacts Model.C41.
Open Scope Q_scope.

Lemma Forall2_nth_error {A B} (P : A -> B -> Prop) l l' : Forall2 P l l' ->
  forall k b, nth_error l' k = Some b -> exists a, nth_error l k = Some a /\ P a b.
Proof.
  induction 1 as [|a b l l' Hab _ IH]; intros [|k] c Hc; try discriminate; cbn in *.
  - injection Hc as <-. eauto.
  - eauto.
Qed.

Lemma qsum_app l m : qsum (l ++ m) == qsum l + qsum m.
Proof. induction l as [|a l IH]; cbn [qsum app]; [ring | rewrite IH; ring]. Qed.

Lemma qsum_map_ext {A} (g g' : A -> Q) l :
  (forall a, In a l -> g a == g' a) -> qsum (map g l) == qsum (map g' l).
Proof.
  induction l as [|a l IH]; intros H; cbn [qsum map]; [reflexivity|].
  rewrite (H a (or_introl eq_refl)), IH; [reflexivity|]. intros; apply H; right; assumption.
Qed.

Lemma qsum_map_scale {A} (c : Q) (g : A -> Q) l :
  qsum (map (fun a => c * g a) l) == c * qsum (map g l).
Proof. induction l as [|a l IH]; cbn [qsum map]; [ring | rewrite IH; ring]. Qed.

Definition pick (p : Q * Q) (i : Z) : Q := if (i =? 0)%Z then fst p else snd p.
Definition wprod (ws : list (Q * Q)) (inc : list Z) : Q := qprod (map2 pick ws inc).
Definition vert (lr : list (Q * Q)) (inc : list Z) : list Q := map2 pick lr inc.
Definition vsum (ws lr : list (Q * Q)) (g : list Q -> Q) : Q :=
  qsum (map (fun inc => wprod ws inc * g (vert lr inc)) (incrs (length ws))).

Lemma vsum_nil g : vsum [] [] g == g [].
Proof. unfold vsum, wprod, vert. cbn. ring. Qed.

Lemma vsum_cons w ws p lr g :
  vsum (w :: ws) (p :: lr) g ==
  fst w * vsum ws lr (fun v => g (fst p :: v)) + snd w * vsum ws lr (fun v => g (snd p :: v)).
Proof.
  unfold vsum. cbn [length incrs]. rewrite map_app, qsum_app, !map_map.
  rewrite <- !qsum_map_scale.
  apply Qplus_comp; apply qsum_map_ext; intros inc _; unfold wprod, vert; cbn [map2 qprod pick Z.eqb];
    ring.
Qed.

Lemma vsum_ext ws lr g g' : (forall v, g v == g' v) -> vsum ws lr g == vsum ws lr g'.
Proof. intros H. unfold vsum. apply qsum_map_ext. intros inc _. rewrite H. reflexivity. Qed.

Lemma vsum_cons_app w ws p lr (f : list Q -> Q) pre :
  vsum (w :: ws) (p :: lr) (fun v => f (pre ++ v)) ==
  fst w * vsum ws lr (fun v => f ((pre ++ [fst p]) ++ v)) +
  snd w * vsum ws lr (fun v => f ((pre ++ [snd p]) ++ v)).
Proof.
  rewrite vsum_cons.
  apply Qplus_comp; apply Qmult_comp; try reflexivity; apply vsum_ext; intros v;
    now rewrite <- app_assoc.
Qed.

(* f is affine in each variable separately (this also makes f respect == in each variable) *)
Definition sep_affine (f : list Q -> Q) : Prop :=
  forall pre post a b t x, x == (1 - t) * a + t * b ->
    f (pre ++ x :: post) == (1 - t) * f (pre ++ a :: post) + t * f (pre ++ b :: post).

(* per-axis interpolation data: weights (1-t, t), vertices (L, R), x = (1-t) L + t R *)
Inductive interp_ax : list (Q * Q) -> list (Q * Q) -> list Q -> Prop :=
| ia_nil : interp_ax [] [] []
| ia_cons w p x ws lr xs :
    fst w == 1 - snd w -> x == (1 - snd w) * fst p + snd w * snd p ->
    interp_ax ws lr xs -> interp_ax (w :: ws) (p :: lr) (x :: xs).

Lemma vsum_interp f : sep_affine f ->
  forall ws lr xs, interp_ax ws lr xs ->
  forall pre, vsum ws lr (fun v => f (pre ++ v)) == f (pre ++ xs).
Proof.
  intros Hf ws lr xs H. induction H as [|w p x ws lr xs Hw Hx _ IH]; intros pre.
  - apply vsum_nil.
  - rewrite vsum_cons_app, !IH, <- !app_assoc, Hw. symmetry. apply Hf, Hx.
Qed.

Lemma vsum_grad f : sep_affine f ->
  forall ws lr xs, interp_ax ws lr xs ->
  forall axis p pre, nth_error lr axis = Some p ->
    vsum (set_nth axis (-(1), 1) ws) lr (fun v => f (pre ++ v)) ==
    f (pre ++ set_nth axis (snd p) xs) - f (pre ++ set_nth axis (fst p) xs).
Proof.
  intros Hf ws lr xs H. induction H as [|w p x ws lr xs Hw Hx Hia IH]; intros axis q pre Hq;
    [destruct axis; discriminate|].
  destruct axis as [|axis]; cbn [set_nth nth_error] in *; rewrite vsum_cons_app; cbn [fst snd].
  - injection Hq as <-. rewrite !(vsum_interp f Hf ws lr xs Hia), <- !app_assoc. cbn [app]. ring.
  - rewrite !(IH axis q _ Hq), <- !app_assoc. cbn [app].
    rewrite (Hf pre (set_nth axis (snd q) xs) _ _ _ x Hx), (Hf pre (set_nth axis (fst q) xs) _ _ _ x Hx), Hw.
    ring.
Qed.

Lemma nth_error_block {X T Y} (g : X -> T -> Y) (a : list X) (tails : list T) k t xk tl :
  nth_error a k = Some xk -> nth_error tails t = Some tl ->
  nth_error (flat_map (fun tail => map (fun x => g x tail) a) tails) (k + length a * t)%nat
  = Some (g xk tl).
Proof.
  intros Hk. revert t.
  induction tails as [|t0 tails IH]; intros [|t] Ht; try discriminate; cbn [flat_map].
  - injection Ht as <-. rewrite Nat.mul_0_r, Nat.add_0_r, nth_error_app1, nth_error_map, Hk;
      [reflexivity|]. rewrite map_length. apply nth_error_Some. congruence.
  - rewrite nth_error_app2; rewrite map_length; [|nia].
    replace (k + length a * S t - length a)%nat with (k + length a * t)%nat by nia.
    now apply IH.
Qed.

Lemma length_flat_block {X T Y} (g : X -> T -> Y) (a : list X) (tails : list T) :
  length (flat_map (fun tail => map (fun x => g x tail) a) tails) = (length a * length tails)%nat.
Proof.
  rewrite (flat_map_length_const _ _ (length a)) by (intros; apply map_length). apply Nat.mul_comm.
Qed.

Lemma zsum_strides_scale v : forall npt acc,
  zsum (map2 Z.mul v (strides_from acc npt)) = (acc * zsum (map2 Z.mul v (strides_from 1 npt)))%Z.
Proof.
  induction v as [|k v IH]; intros npt acc; [cbn; lia|].
  destruct npt as [|n npt]; [cbn; lia|].
  cbn [strides_from map2 zsum]. rewrite (IH npt (acc * n)%Z), (IH npt (1 * n)%Z). lia.
Qed.

(* vertex v of the grid (multi-index), its coordinates pt *)
Inductive vertex_at : list (list Q) -> list Z -> list Z -> list Q -> Prop :=
| va_nil : vertex_at [] [] [] []
| va_cons a axes n npt k v p pt :
    (0 <= k)%Z -> length a = Z.to_nat n -> nth_error a (Z.to_nat k) = Some p ->
    vertex_at axes npt v pt -> vertex_at (a :: axes) (n :: npt) (k :: v) (p :: pt).

Lemma vertex_index axes npt v pt : vertex_at axes npt v pt ->
  let idx := zsum (map2 Z.mul v (strides_from 1 npt)) in
  (0 <= idx)%Z /\ nth_error (fpoints axes) (Z.to_nat idx) = Some pt.
Proof.
  intros H. induction H as [|a axes n npt k v p pt Hk Hlen Hnth _ [IH0 IH1]]; cbn zeta in *.
  - split; [reflexivity|reflexivity].
  - cbn [strides_from map2 zsum fpoints]. rewrite zsum_strides_scale.
    set (T := zsum (map2 Z.mul v (strides_from 1 npt))) in *.
    assert (Hn : (0 < n)%Z).
    { assert (Z.to_nat k < length a)%nat by (apply nth_error_Some; congruence). lia. }
    split; [nia|].
    replace (Z.to_nat (k * 1 + 1 * n * T)) with (Z.to_nat k + length a * Z.to_nat T)%nat
      by (rewrite Hlen; nia).
    now apply (nth_error_block (fun x tail => x :: tail)).
Qed.

Definition bit (i : Z) : Prop := i = 0%Z \/ i = 1%Z.

Lemma incrs_spec d inc : In inc (incrs d) -> length inc = d /\ Forall bit inc.
Proof.
  revert inc. induction d as [|d IH]; cbn [incrs]; intros inc H.
  - destruct H as [<-|[]]. now split.
  - apply in_app_or in H as [H|H]; apply in_map_iff in H as (i0 & <- & [Hl Hb]%IH);
      (split; [cbn; lia|constructor; [unfold bit; lia|assumption]]).
Qed.

Definition mkw (r : Q) : Q * Q := (1 - r, r).

(* weights of interpolate (None) and of gradient along an axis: as the loops compute them
   from the right weights, and as pairs for [vsum] *)
Definition qweights (axis : option nat) (rw : list Q) (inc : list Z) : list Q :=
  match axis with
  | None => map2 axis_weight rw inc
  | Some ax => set_nth ax (2 * inject_Z (nth ax inc 0%Z) - 1) (map2 axis_weight rw inc)
  end.

Definition gw (axis : option nat) (ws : list (Q * Q)) : list (Q * Q) :=
  match axis with None => ws | Some ax => set_nth ax (-(1), 1) ws end.

Lemma set_nth_length {A} (l : list A) : forall k v, length (set_nth k v l) = length l.
Proof. induction l as [|a l IH]; intros [|k] v; cbn; try reflexivity. rewrite IH. reflexivity. Qed.

Lemma axis_weight_pick r i : bit i -> axis_weight r i == pick (mkw r) i.
Proof. intros [->| ->]; unfold axis_weight, pick, mkw; cbn; ring. Qed.

Lemma qprod_qweights rw : forall inc axis, Forall bit inc -> length inc = length rw ->
  match axis with None => True | Some ax => (ax < length rw)%nat end ->
  qprod (qweights axis rw inc) == wprod (gw axis (map mkw rw)) inc.
Proof.
  induction rw as [|r rw IH]; intros [|i inc] axis Hb Hl Ha; try discriminate.
  - destruct axis; [cbn in Ha; lia | reflexivity].
  - inversion Hb as [|? ? Hi Hb']; subst. injection Hl as Hl.
    destruct axis as [[|ax]|].
    + change ((2 * inject_Z i - 1) * qprod (qweights None rw inc) ==
              pick (-(1), 1) i * wprod (gw None (map mkw rw)) inc).
      rewrite (IH inc None Hb' Hl I).
      destruct Hi as [-> | ->]; unfold pick, inject_Z; cbn [Z.eqb fst snd]; ring.
    + change (axis_weight r i * qprod (qweights (Some ax) rw inc) ==
              pick (mkw r) i * wprod (gw (Some ax) (map mkw rw)) inc).
      now rewrite (IH inc (Some ax) Hb' Hl ltac:(cbn in *; lia)), (axis_weight_pick r i Hi).
    + change (axis_weight r i * qprod (qweights None rw inc) ==
              pick (mkw r) i * wprod (gw None (map mkw rw)) inc).
      now rewrite (IH inc None Hb' Hl I), (axis_weight_pick r i Hi).
Qed.

Lemma qweights_vsum axis rws lr (g : list Q -> Q) :
  match axis with None => True | Some ax => (ax < length rws)%nat end ->
  qsum (map (fun inc => qprod (qweights axis rws inc) * g (vert lr inc)) (incrs (length rws)))
  == vsum (gw axis (map mkw rws)) lr g.
Proof.
  intros Ha. unfold vsum.
  replace (length (gw axis (map mkw rws))) with (length rws)
    by (destruct axis; cbn [gw]; now rewrite ?set_nth_length, map_length).
  apply qsum_map_ext. intros inc [Hl Hb]%incrs_spec. now rewrite qprod_qweights.
Qed.

Definition stored (vals : list Q) (idx : Z) (q : Q) : Prop :=
  (0 <= idx)%Z /\ exists v, nth_error vals (Z.to_nat idx) = Some v /\ v == q.

Lemma pyget_some {A} (l : list A) i v :
  (0 <= i)%Z -> nth_error l (Z.to_nat i) = Some v -> pyget l i = ok v.
Proof. intros H0 H. unfold pyget. destruct (Z.ltb_spec i 0); [lia|]. now rewrite H. Qed.

Lemma stored_pyget vals idx q : stored vals idx q ->
  exists v, v == q /\ pyget vals idx = ok v /\ (idx <? Z.of_nat (length vals))%Z = true.
Proof.
  intros (H0 & v & Hv & Hq). exists v. split; [exact Hq|]. split; [now apply pyget_some|].
  assert (Z.to_nat idx < length vals)%nat by (apply nth_error_Some; congruence).
  apply Z.ltb_lt. lia.
Qed.

(* a loop that adds, for every increment whose value is found, weight * value to the
   accumulator (rounding with Qred) returns the accumulator plus the weighted sum *)
Section LoopSum.
  Variables (loop : list (list Z) -> Q -> res Q) (w valof : list Z -> Q) (found : list Z -> Prop).
  Hypothesis loop_nil : forall acc, loop [] acc = ok acc.
  Hypothesis loop_step : forall inc rest acc, found inc ->
    exists v, v == valof inc /\ loop (inc :: rest) acc = loop rest (Qred (acc + w inc * v)).

  Lemma loop_sum incs : (forall inc, In inc incs -> found inc) ->
    forall acc, exists r, loop incs acc = inr r /\
      r == acc + qsum (map (fun inc => w inc * valof inc) incs).
  Proof.
    induction incs as [|inc incs IH]; intros H acc.
    - exists acc. rewrite loop_nil. split; [reflexivity|cbn; ring].
    - destruct (loop_step inc incs acc (H inc (or_introl eq_refl))) as (v & Hv & ->).
      destruct (IH (fun i Hi => H i (or_intror Hi)) (Qred (acc + w inc * v))) as (r & Hr & Hrr).
      exists r. split; [exact Hr|]. rewrite Hrr, Qred_correct, Hv. cbn [map qsum]. ring.
  Qed.
End LoopSum.

Lemma interp_loop_sum vals rw base strides (valof : list Z -> Q) incs :
  (forall inc, In inc incs -> stored vals (lin_index base inc strides) (valof inc)) ->
  forall acc, exists r, interp_loop vals rw base strides incs acc = inr r /\
    r == acc + qsum (map (fun inc => qprod (qweights None rw inc) * valof inc) incs).
Proof.
  apply loop_sum; [reflexivity|]. intros inc rest acc (v & Hv & Hg & Hlt)%stored_pyget.
  exists v. split; [exact Hv|]. cbn [interp_loop]. now rewrite Hlt, Hg.
Qed.

Lemma grad_loop_sum vals rw base strides axis (valof : list Z -> Q) incs :
  (forall inc, In inc incs -> stored vals (lin_index base inc strides) (valof inc)) ->
  forall acc, exists r, grad_loop vals rw base strides axis incs acc = inr r /\
    r == acc + qsum (map (fun inc => qprod (qweights (Some axis) rw inc) * valof inc) incs).
Proof.
  apply loop_sum; [reflexivity|]. intros inc rest acc (v & Hv & Hg & _)%stored_pyget.
  exists v. split; [exact Hv|]. cbn [grad_loop]. now rewrite Hg.
Qed.

Lemma ainterp_loop_sum s rw b axis (valof : list Z -> Q) incs :
  (forall inc, In inc incs -> exists e, lookup s (map2 Z.add b inc) = Some e /\ e_val e == valof inc) ->
  forall acc, exists r, ainterp_loop s rw b axis incs acc = inr r /\
    r == acc + qsum (map (fun inc => qprod (qweights axis rw inc) * valof inc) incs).
Proof.
  apply loop_sum; [reflexivity|]. intros inc rest acc (e & He & Hv).
  exists (e_val e). split; [exact Hv|]. cbn [ainterp_loop]. now rewrite He.
Qed.

Lemma Qltb_false a b : b <= a -> Qltb a b = false.
Proof. intros H. unfold Qltb. apply Qle_bool_iff in H. rewrite H. reflexivity. Qed.

Lemma Qltb_true a b : a < b -> Qltb a b = true.
Proof.
  intros H. unfold Qltb. destruct (Qle_bool b a) eqn:E; [|reflexivity].
  apply Qle_bool_iff in E. exfalso. apply (Qlt_not_le _ _ H E).
Qed.

Lemma inject_Z_succ k : inject_Z (k + 1) == inject_Z k + 1.
Proof. now rewrite inject_Z_plus. Qed.

Lemma hstep_pos lo hi n : lo < hi -> (2 <= n)%Z ->
  0 < hstep lo hi n /\ (inject_Z (n - 2) + 1) * hstep lo hi n == hi - lo.
Proof.
  intros Hlh Hn. unfold hstep. replace (n - 1)%Z with (n - 2 + 1)%Z by lia. rewrite inject_Z_succ.
  assert (Hp : 0 <= inject_Z (n - 2)) by (rewrite <- (Zle_Qle 0); lia).
  split; [apply Qlt_shift_div_l; lra | field; lra].
Qed.

Lemma floor_cell base h x : 0 < h ->
  let k := inject_Z (Qfloor ((x - base) / h)) in base + h * k <= x /\ x < base + h * (k + 1).
Proof.
  intros Hh. set (q := (x - base) / h).
  assert (Hq : q * h == x - base) by (unfold q; field; lra).
  pose proof (Qfloor_le q) as H1. pose proof (Qlt_floor q) as H2.
  rewrite inject_Z_succ in H2.
  cbn zeta. set (k := inject_Z (Qfloor q)) in *. split; nra.
Qed.

(* the code's sanity assertion passes for weights in [0, 1] *)
Lemma weight_band r : 0 <= r -> r <= 1 -> Qle_bool (- tol13) r && Qle_bool r (1 + tol13) = true.
Proof.
  intros H0 H1. apply andb_true_intro. split; apply Qle_bool_iff; unfold tol13.
  - apply Qle_trans with 0; [discriminate|assumption].
  - apply Qle_trans with 1; [assumption|discriminate].
Qed.

Lemma cell_weight L h x : 0 < h -> L <= x -> x <= L + h ->
  let r := Qred ((x - L) / h) in 0 <= r /\ r <= 1 /\ x == (1 - r) * L + r * (L + h).
Proof.
  intros Hh HL HR r.
  assert (Hr : r * h == x - L) by (unfold r; rewrite Qred_correct; field; lra).
  repeat split; nra.
Qed.

Inductive box : list Q -> list Q -> list Z -> list Q -> Prop :=
| box_nil : box [] [] [] []
| box_cons lo hi n x los his npt xs :
    lo < hi -> (2 <= n)%Z -> lo <= x -> x <= hi -> box los his npt xs ->
    box (lo :: los) (hi :: his) (n :: npt) (x :: xs).

Definition Lr (lo hi : Q) (n b : Z) : Q * Q :=
  (lo + inject_Z b * hstep lo hi n, lo + inject_Z (b + 1) * hstep lo hi n).

Fixpoint LRs (los his : list Q) (npt bs : list Z) : list (Q * Q) :=
  match los, his, npt, bs with
  | lo :: los', hi :: his', n :: npt', b :: bs' => Lr lo hi n b :: LRs los' his' npt' bs'
  | _, _, _, _ => []
  end.

Inductive cells : list Q -> list Q -> list Z -> list Q -> list Z -> Prop :=
| cells_nil : cells [] [] [] [] []
| cells_cons lo hi n x b los his npt xs bs :
    lo < hi -> (2 <= n)%Z -> (0 <= b <= n - 2)%Z ->
    fst (Lr lo hi n b) <= x -> x <= snd (Lr lo hi n b) ->
    cells los his npt xs bs ->
    cells (lo :: los) (hi :: his) (n :: npt) (x :: xs) (b :: bs).

Lemma Lr_width lo hi n b : snd (Lr lo hi n b) == fst (Lr lo hi n b) + hstep lo hi n.
Proof. unfold Lr. cbn [fst snd]. rewrite inject_Z_succ. ring. Qed.

Lemma base_axis_inside x h lo hi n : lo <= x -> x <= hi ->
  base_axis x h lo hi n = ok (Z.min (Qfloor ((x - lo) / h)) (n - 2)).
Proof. intros Hl Hu. unfold base_axis. now rewrite (Qltb_false x lo Hl), (Qltb_false hi x Hu). Qed.

(* inside the box the base vertex and the right weights of the standard table are functions of
   the point: per axis the clamped floor, and the weight of x in the cell that starts there *)
Definition base1 (lo hi : Q) (n : Z) (x : Q) : Z :=
  Z.min (Qfloor ((x - lo) / hstep lo hi n)) (n - 2).

Fixpoint sbase (los his : list Q) (npt : list Z) (xs : list Q) : list Z :=
  match los, his, npt, xs with
  | lo :: los', hi :: his', n :: npt', x :: xs' => base1 lo hi n x :: sbase los' his' npt' xs'
  | _, _, _, _ => []
  end.

Fixpoint sweights (los his : list Q) (npt : list Z) (xs : list Q) : list Q :=
  match los, his, npt, xs with
  | lo :: los', hi :: his', n :: npt', x :: xs' =>
      Qred ((x - fst (Lr lo hi n (base1 lo hi n x))) / hstep lo hi n) :: sweights los' his' npt' xs'
  | _, _, _, _ => []
  end.

Lemma base_axis_ok x lo hi n : lo < hi -> (2 <= n)%Z -> lo <= x -> x <= hi ->
  let b := base1 lo hi n x in
  base_axis x (hstep lo hi n) lo hi n = ok b /\ (0 <= b <= n - 2)%Z /\
  fst (Lr lo hi n b) <= x /\ x <= snd (Lr lo hi n b).
Proof.
  intros Hlh Hn Hl Hu b. destruct (hstep_pos lo hi n Hlh Hn) as [Hh Hnh].
  split; [now apply base_axis_inside|]. subst b. unfold base1. rewrite Lr_width. unfold Lr. cbn [fst].
  destruct (floor_cell lo (hstep lo hi n) x Hh) as [HL HR]. cbn zeta in HL, HR.
  set (h := hstep lo hi n) in *. set (fl := Qfloor ((x - lo) / h)) in *.
  assert (H0 : (0 <= fl)%Z).
  { change 0%Z with (Qfloor 0). apply Qfloor_resp_le, Qle_shift_div_l; [exact Hh|lra]. }
  destruct (Z.min_spec fl (n - 2)) as [[Hlt ->]|[Hge ->]]; (split; [lia|]); [split; nra|].
  assert (Hle : inject_Z (n - 2) <= inject_Z fl) by (rewrite <- Zle_Qle; lia).
  split; nra.
Qed.

Lemma cells_length los his npt xs bs : cells los his npt xs bs ->
  length los = length xs /\ length (map3 hstep los his npt) = length xs.
Proof. induction 1; cbn; [split; reflexivity | lia]. Qed.

Lemma cells_widths los his npt xs bs : cells los his npt xs bs ->
  Forall2 (fun p h => 0 < h /\ snd p == fst p + h) (LRs los his npt bs) (map3 hstep los his npt).
Proof.
  induction 1 as [|lo hi n x b los his npt xs bs Hlh Hn _ _ _ _ IH]; cbn [LRs map3]; constructor;
    [|exact IH].
  split; [now apply hstep_pos | apply Lr_width].
Qed.

Lemma linspace_nth lo hi n k : (0 <= k < n)%Z ->
  nth_error (linspace lo hi n) (Z.to_nat k) = Some (lo + inject_Z k * hstep lo hi n).
Proof.
  intros Hk. unfold linspace.
  rewrite nth_error_map, (nth_error_nth' _ 0%nat) by (rewrite seq_length; lia).
  rewrite seq_nth by lia. cbn [option_map plus]. now rewrite Z2Nat.id by lia.
Qed.

Lemma linspace_length lo hi n : length (linspace lo hi n) = Z.to_nat n.
Proof. unfold linspace. rewrite map_length, seq_length. reflexivity. Qed.

Lemma vertex_cells los his npt xs bs : cells los his npt xs bs ->
  forall inc, length inc = length xs -> Forall bit inc ->
  vertex_at (map3 linspace los his npt) npt (map2 Z.add bs inc) (vert (LRs los his npt bs) inc).
Proof.
  intros H. induction H as [|lo hi n x b los his npt xs bs Hlh Hn Hb HL HR _ IH]; intros inc Hl Hbit.
  - destruct inc; [constructor|discriminate].
  - destruct inc as [|i inc]; [discriminate|]. inversion Hbit as [|? ? Hi Hbit']; subst.
    cbn [map3 map2 LRs]. unfold vert. cbn [map2]. fold (vert (LRs los his npt bs) inc).
    constructor.
    + destruct Hi; lia.
    + apply linspace_length.
    + rewrite linspace_nth by (destruct Hi; lia).
      destruct Hi as [-> | ->]; unfold pick, Lr; cbn [Z.eqb fst snd]; [rewrite Z.add_0_r|]; reflexivity.
    + apply IH; [cbn in Hl; lia|assumption].
Qed.

Lemma table_corner f los his npt xs bs : cells los his npt xs bs ->
  forall inc, In inc (incrs (length xs)) ->
  let t := mk_table los his npt f in
  stored (t_vals t) (lin_index bs inc (t_strides t)) (f (vert (LRs los his npt bs) inc)).
Proof.
  intros Hc inc [Hli Hbi]%incrs_spec.
  destruct (vertex_index _ _ _ _ (vertex_cells _ _ _ _ _ Hc inc Hli Hbi)) as [H0 Hn].
  split; [exact H0|]. eexists. cbn [mk_table t_vals t_strides]. split; [|apply Qred_correct].
  unfold lin_index. now rewrite nth_error_map, Hn.
Qed.

(* what both calls compute first for a point of the box: the base vertex of its cell and
   the right weights, which pass the sanity assertion *)
Lemma box_query los his npt xs : box los his npt xs ->
  let bs := sbase los his npt xs in
  let rws := sweights los his npt xs in
  cells los his npt xs bs /\
  find_base xs (map3 hstep los his npt) los his npt = ok bs /\
  right_weights xs (map3 linspace los his npt) (map3 hstep los his npt) bs = ok rws /\
  weights_ok rws = true /\ length rws = length xs /\
  interp_ax (map mkw rws) (LRs los his npt bs) xs.
Proof.
  induction 1 as [|lo hi n x los his npt xs Hlh Hn Hl Hu _ (Hc & Hfb & Hrw & Hok & Hlen & Hia)];
    cbn zeta in *.
  - repeat split; constructor.
  - destruct (base_axis_ok x lo hi n Hlh Hn Hl Hu) as (Hb & Hbr & HL & HR).
    destruct (hstep_pos lo hi n Hlh Hn) as [Hh _]. pose proof HR as HR'. rewrite Lr_width in HR'.
    destruct (cell_weight _ _ x Hh HL HR') as (H0 & H1 & Hx).
    cbn [sbase sweights]. set (b := base1 lo hi n x) in *.
    split; [now constructor|]. split; [|split; [|split; [|split]]].
    + cbn [map3 find_base]. rewrite Hb. cbn [bind ok]. now rewrite Hfb.
    + cbn [map3 right_weights].
      rewrite (pyget_some _ b _ (proj1 Hbr) (linspace_nth lo hi n b ltac:(lia))).
      cbn [bind ok]. now rewrite Hrw.
    + cbn [weights_ok forallb]. fold (weights_ok (sweights los his npt xs)). now rewrite Hok, weight_band.
    + cbn [length]. now rewrite Hlen.
    + cbn [map LRs]. constructor; [reflexivity| |exact Hia].
      unfold mkw. cbn [fst snd]. now rewrite Lr_width.
Qed.

Lemma interpolate_vsum f los his npt xs : box los his npt xs ->
  exists r, interpolate (mk_table los his npt f) xs = inr r /\
    r == vsum (map mkw (sweights los his npt xs)) (LRs los his npt (sbase los his npt xs)) f.
Proof.
  intros (Hc & Hfb & Hrw & Hok & Hlen & _)%box_query. destruct (cells_length _ _ _ _ _ Hc) as [Hl _].
  destruct (interp_loop_sum _ (sweights los his npt xs) _ _ _ _ (table_corner f _ _ _ _ _ Hc) 0)
    as (r & Hr & Hrr).
  exists r. split.
  - unfold interpolate. cbn [mk_table t_h t_low t_high t_npt t_axes] in *.
    rewrite Hfb. cbn [bind ok]. rewrite Hrw. cbn [bind ok]. now rewrite Hok, Hl.
  - rewrite Hrr, Qplus_0_l, <- Hlen. now apply (qweights_vsum None).
Qed.

(* exact reproduction of functions affine in each variable, on the closed box *)
Lemma interpolate_exact f los his npt xs : sep_affine f -> box los his npt xs ->
  exists r, interpolate (mk_table los his npt f) xs = inr r /\ r == f xs.
Proof.
  intros Hf Hb. destruct (interpolate_vsum f _ _ _ _ Hb) as (r & Hr & Hrr).
  destruct (box_query _ _ _ _ Hb) as (_ & _ & _ & _ & _ & Hia).
  exists r. split; [exact Hr|]. rewrite Hrr. apply (vsum_interp f Hf _ _ _ Hia []).
Qed.

Lemma gradient_vsum f los his npt xs axis : box los his npt xs -> (axis < length xs)%nat ->
  exists s ha, nth_error (map3 hstep los his npt) axis = Some ha /\
    gradient (mk_table los his npt f) xs axis = inr (s / ha) /\
    s == vsum (set_nth axis (-(1), 1) (map mkw (sweights los his npt xs)))
              (LRs los his npt (sbase los his npt xs)) f.
Proof.
  intros (Hc & Hfb & Hrw & Hok & Hlen & _)%box_query Ha.
  destruct (cells_length _ _ _ _ _ Hc) as [Hl Hlh].
  destruct (grad_loop_sum _ (sweights los his npt xs) _ _ axis _ _ (table_corner f _ _ _ _ _ Hc) 0)
    as (s & Hs & Hss).
  destruct (nth_error (map3 hstep los his npt) axis) as [ha|] eqn:Eh;
    [|apply nth_error_None in Eh; lia].
  exists s, ha. split; [reflexivity|]. split.
  - unfold gradient. cbn [mk_table t_h t_low t_high t_npt t_axes] in *.
    rewrite Hfb. cbn [bind ok]. rewrite Hrw. cbn [bind ok]. now rewrite Hok, Hl, Hs, Eh.
  - rewrite Hss, Qplus_0_l, <- Hlen. apply (qweights_vsum (Some axis)). lia.
Qed.

Lemma set_nth_split {A} (l : list A) : forall k, (k < length l)%nat ->
  exists pre post, forall v, set_nth k v l = pre ++ v :: post.
Proof.
  induction l as [|a l IH]; intros k Hk; [cbn in Hk; lia|].
  destruct k as [|k]; [exists [], l; reflexivity|].
  destruct (IH k ltac:(cbn in Hk; lia)) as [pre [post H]].
  exists (a :: pre), post. intros v. cbn [set_nth app]. rewrite H. reflexivity.
Qed.

Lemma sep_affine_quotient f xs ax L R h : sep_affine f -> (ax < length xs)%nat ->
  0 < h -> R == L + h -> forall a c, ~ a == c ->
  (f (set_nth ax R xs) - f (set_nth ax L xs)) / h ==
  (f (set_nth ax c xs) - f (set_nth ax a xs)) / (c - a).
Proof.
  intros Hf Ha Hh HR a c Hac. destruct (set_nth_split xs ax Ha) as (pre & post & Hsp).
  rewrite !Hsp. assert (Hca : ~ c - a == 0) by (intro E; apply Hac; lra).
  rewrite (Hf pre post a c ((L - a) / (c - a)) L) by (field; exact Hca).
  rewrite (Hf pre post a c ((L + h - a) / (c - a)) R) by (rewrite HR; field; exact Hca).
  field. split; [exact Hca|lra].
Qed.

Lemma vsum_grad_exact f ws lr xs hs ax ha s : sep_affine f -> interp_ax ws lr xs ->
  Forall2 (fun p h => 0 < h /\ snd p == fst p + h) lr hs -> (ax < length xs)%nat ->
  nth_error hs ax = Some ha -> s == vsum (set_nth ax (-(1), 1) ws) lr f ->
  forall a c, ~ a == c -> s / ha == (f (set_nth ax c xs) - f (set_nth ax a xs)) / (c - a).
Proof.
  intros Hf Hia Hw Ha Eh Hs a c Hac.
  destruct (Forall2_nth_error _ _ _ Hw _ _ Eh) as (p & Ep & Hh & Hp).
  rewrite Hs, (vsum_grad f Hf _ _ _ Hia ax p [] Ep). now apply sep_affine_quotient.
Qed.

(* for f affine in each variable the gradient is the exact partial derivative:
   the difference quotient of f along the axis between ANY two abscissae *)
Lemma gradient_exact f los his npt xs axis : sep_affine f -> box los his npt xs ->
  (axis < length xs)%nat ->
  exists g, gradient (mk_table los his npt f) xs axis = inr g /\
    forall a c, ~ a == c -> g == (f (set_nth axis c xs) - f (set_nth axis a xs)) / (c - a).
Proof.
  intros Hf Hb Ha. destruct (gradient_vsum f _ _ _ _ axis Hb Ha) as (s & ha & Eh & Hg & Hs).
  destruct (box_query _ _ _ _ Hb) as (Hc & _ & _ & _ & _ & Hia). exists (s / ha). split; [exact Hg|].
  exact (vsum_grad_exact f _ _ _ _ _ _ _ Hf Hia (cells_widths _ _ _ _ _ Hc) Ha Eh Hs).
Qed.

Lemma list_Zeqb_spec a : forall b, list_Zeqb a b = true <-> a = b.
Proof.
  unfold list_Zeqb. induction a as [|x a IH]; intros [|y b]; cbn; try easy.
  rewrite andb_assoc, (andb_comm _ (x =? y)%Z), <- andb_assoc, andb_true_iff, IH, Z.eqb_eq.
  split; [intros [-> ->]; reflexivity | intros [= -> ->]; auto].
Qed.

Definition Inv (f : list Q -> Q) (h base : list Q) (s : list entry) : Prop :=
  forall k e, lookup s k = Some e ->
    e_idx e = k /\ e_pt e = vertex_coord h base k /\ e_val e = Qred (f (vertex_coord h base k)).

Lemma lookup_app s e k :
  lookup (s ++ [e]) k =
  match lookup s k with Some x => Some x | None => if list_Zeqb (e_idx e) k then Some e else None end.
Proof.
  induction s as [|e0 s IH]; cbn [app lookup]; [reflexivity|].
  destruct (list_Zeqb (e_idx e0) k); [reflexivity|exact IH].
Qed.

Lemma fill_loop_spec f h base b incs : forall s, Inv f h base s ->
  let s' := fill_loop f h base b incs s in
  Inv f h base s' /\
  (forall k e, lookup s k = Some e -> lookup s' k = Some e) /\
  (forall inc, In inc incs -> exists e, lookup s' (map2 Z.add b inc) = Some e).
Proof.
  induction incs as [|inc0 incs IH]; intros s HI; cbn zeta.
  - cbn [fill_loop]. split; [exact HI|]. split; [auto|]. intros inc [].
  - cbn [fill_loop]. destruct (lookup s (map2 Z.add b inc0)) as [e0|] eqn:E0.
    + destruct (IH s HI) as [I1 [I2 I3]]. split; [exact I1|]. split; [exact I2|].
      intros inc [<-|Hin]; [exists e0; apply I2; exact E0|apply I3; exact Hin].
    + set (k0 := map2 Z.add b inc0) in *.
      set (new := {| e_idx := k0; e_pt := vertex_coord h base k0;
                     e_val := Qred (f (vertex_coord h base k0)) |}).
      assert (HI1 : Inv f h base (s ++ [new])).
      { intros k e Hk. rewrite lookup_app in Hk. destruct (lookup s k) as [x|] eqn:Ek.
        - injection Hk as <-. apply HI. exact Ek.
        - destruct (list_Zeqb (e_idx new) k) eqn:Eq; [|discriminate]. injection Hk as <-.
          apply list_Zeqb_spec in Eq. cbn [e_idx new] in Eq. subst k. repeat split. }
      destruct (IH (s ++ [new]) HI1) as [I1 [I2 I3]]. split; [exact I1|]. split.
      * intros k e Hk. apply I2. rewrite lookup_app, Hk. reflexivity.
      * intros inc [<-|Hin]; [|apply I3; exact Hin]. exists new. apply I2.
        rewrite lookup_app. fold k0. rewrite E0. cbn [e_idx new].
        now rewrite (proj2 (list_Zeqb_spec k0 k0) eq_refl).
Qed.

Inductive acells : list Q -> list Q -> list Q -> Prop :=
| ac_nil : acells [] [] []
| ac_cons x h base xs hs bases : 0 < h -> acells xs hs bases -> acells (x :: xs) (h :: hs) (base :: bases).

Definition LRA (h base : list Q) (b : list Z) : list (Q * Q) :=
  map3 (fun hi bi ki => (bi + hi * inject_Z ki, bi + hi * inject_Z (ki + 1))) h base b.

Definition aweights (xs hs bases : list Q) : list Q :=
  map3 (fun xi pi hi => Qred ((xi - pi) / hi)) xs
       (vertex_coord hs bases (afind_base xs hs bases)) hs.

Lemma aweights_spec xs hs bases : acells xs hs bases ->
  let b := afind_base xs hs bases in
  let rws := aweights xs hs bases in
  length b = length hs /\ length rws = length hs /\
  length xs = length hs /\ weights_ok rws = true /\
  interp_ax (map mkw rws) (LRA hs bases b) xs /\
  Forall2 (fun p h => 0 < h /\ snd p == fst p + h) (LRA hs bases b) hs.
Proof.
  unfold aweights, afind_base, vertex_coord, LRA.
  induction 1 as [|x h base xs hs bases Hh _ (L1 & L2 & L3 & Hok & Hia & Hw)]; cbn zeta in *.
  - repeat split; constructor.
  - cbn [map3 map length]. destruct (floor_cell base h x Hh) as [HL HR]. cbn zeta in HL, HR.
    set (k := Qfloor ((x - base) / h)) in *.
    assert (HR' : x <= base + h * inject_Z k + h) by lra.
    destruct (cell_weight _ h x Hh HL HR') as (H0 & H1 & Hx).
    assert (Hk : base + h * inject_Z (k + 1) == base + h * inject_Z k + h)
      by (rewrite inject_Z_succ; ring).
    repeat split; try lia.
    + cbn [weights_ok forallb] in *. now rewrite weight_band.
    + constructor; [reflexivity| |exact Hia]. unfold mkw. cbn [fst snd]. now rewrite Hk.
    + constructor; [|exact Hw]. split; [exact Hh|exact Hk].
Qed.

Lemma vertex_coord_vert hs : forall bases b inc, Forall bit inc ->
  vertex_coord hs bases (map2 Z.add b inc) = vert (LRA hs bases b) inc.
Proof.
  unfold vertex_coord, LRA, vert.
  induction hs as [|h hs IH]; intros [|base bases] [|k b] [|i inc] Hb; try reflexivity.
  inversion Hb as [|? ? Hi Hb']; subst. cbn [map2 map3]. rewrite (IH bases b inc Hb').
  destruct Hi as [-> | ->]; unfold pick; cbn [Z.eqb fst snd]; [rewrite Z.add_0_r|]; reflexivity.
Qed.

Lemma zeros_in_incrs d : In (repeat 0%Z d) (incrs d).
Proof.
  induction d as [|d IH]; [left; reflexivity|]. cbn [incrs repeat]. apply in_or_app. left.
  apply in_map. exact IH.
Qed.

Lemma add_zeros b : map2 Z.add b (repeat 0%Z (length b)) = b.
Proof.
  induction b as [|k b IH]; [reflexivity|]. cbn [length repeat map2]. now rewrite IH, Z.add_0_r.
Qed.

Lemma afill_corners f t x : Inv f (a_h t) (a_base t) (a_store t) ->
  let b := afind_base x (a_h t) (a_base t) in
  forall inc, In inc (incrs (length (a_h t))) ->
  exists e, lookup (a_store (afill f t x)) (map2 Z.add b inc) = Some e /\
    e_pt e = vertex_coord (a_h t) (a_base t) (map2 Z.add b inc) /\
    e_val e == f (vert (LRA (a_h t) (a_base t) b) inc).
Proof.
  intros HI b inc Hin. unfold afill. cbn [a_store].
  destruct (fill_loop_spec f _ _ b (incrs (length (a_h t))) _ HI) as (I1 & _ & I3).
  destruct (I3 inc Hin) as [e He]. exists e. split; [exact He|].
  destruct (I1 _ _ He) as (_ & Hpt & ->). split; [exact Hpt|].
  apply incrs_spec in Hin as [_ Hbi]. now rewrite Qred_correct, vertex_coord_vert.
Qed.

(* one adaptive query from any state satisfying the invariant: the base vertex is stored, so
   the right weights are found, and the loop returns the vertex sum over the stored corners *)
Lemma aquery_vsum f t x axis :
  Inv f (a_h t) (a_base t) (a_store t) -> acells x (a_h t) (a_base t) ->
  match axis with None => True | Some ax => (ax < length x)%nat end ->
  let b := afind_base x (a_h t) (a_base t) in
  let rws := aweights x (a_h t) (a_base t) in
  exists s, s == vsum (gw axis (map mkw rws)) (LRA (a_h t) (a_base t) b) f /\
    match axis with
    | None => fst (ainterpolate f t x) = inr s
    | Some ax => forall ha, nth_error (a_h t) ax = Some ha ->
                 fst (agradient f t x ax) = inr (s / ha)
    end.
Proof.
  intros HI Hac Hax b rws.
  destruct (aweights_spec _ _ _ Hac) as (Lb & Lr_ & Lx & Hok & _). fold b rws in Lb, Lr_, Hok.
  pose proof (afill_corners f t x HI) as Hc. cbn zeta in Hc. fold b in Hc.
  destruct (Hc _ (zeros_in_incrs _)) as (e0 & He0 & Hpt0 & _). rewrite <- Lb, add_zeros in He0, Hpt0.
  assert (Hrw : aright_weights (afill f t x) x b = ok rws).
  { unfold aright_weights. now rewrite He0, Hpt0. }
  destruct (ainterp_loop_sum (a_store (afill f t x)) rws b axis
              (fun inc => f (vert (LRA (a_h t) (a_base t) b) inc))
              (incrs (length (a_h t)))) with (acc := 0) as (r & Hr & Hrr).
  { intros inc Hin. destruct (Hc inc Hin) as (e & He & _ & Hv). now exists e. }
  exists r. split.
  - rewrite Hrr, Qplus_0_l, <- Lr_. apply qweights_vsum. destruct axis; [lia|exact I].
  - destruct axis as [ax|]; [intros ha Eh|]; unfold agradient, ainterpolate; cbn [fst];
      change (a_h (afill f t x)) with (a_h t); change (a_base (afill f t x)) with (a_base t);
      fold b; rewrite Hrw; cbn [bind ok]; rewrite Hok, Hr; [cbn [bind]; now rewrite Eh|reflexivity].
Qed.

Lemma afill_inv f t x : Inv f (a_h t) (a_base t) (a_store t) ->
  Inv f (a_h t) (a_base t) (a_store (afill f t x)).
Proof. intros HI. unfold afill. cbn [a_store]. apply fill_loop_spec. exact HI. Qed.

Lemma arun_state f qs : forall t, Inv f (a_h t) (a_base t) (a_store t) ->
  exists ts, snd (arun f t qs) = {| a_h := a_h t; a_base := a_base t; a_store := ts |} /\
             Inv f (a_h t) (a_base t) ts.
Proof.
  induction qs as [|[x [ax|]] qs IH]; intros t HI; [exists (a_store t); now destruct t| |];
    cbn [arun]; unfold agradient, ainterpolate;
    destruct (IH (afill f t x) (afill_inv f t x HI)) as (ts & Hts & HI');
    destruct (arun f (afill f t x) qs) as [vs t'']; exists ts; exact (conj Hts HI').
Qed.

Lemma Inv_empty f h base : Inv f h base [].
Proof. intros k e. discriminate. Qed.

Definition respects (f : list Q -> Q) : Prop := forall l l', Forall2 Qeq l l' -> f l == f l'.

Lemma Forall2_Qeq_refl l : Forall2 Qeq l l.
Proof. induction l; constructor; [reflexivity|assumption]. Qed.

Lemma sep_affine_respects f : sep_affine f -> respects f.
Proof.
  intros Hf l l' H.
  assert (G : forall pre, f (pre ++ l) == f (pre ++ l')).
  { induction H as [|x y l l' Hxy _ IH]; intros pre; [reflexivity|].
    rewrite (Hf pre l y y 0 x) by (rewrite Hxy; ring).
    change (pre ++ y :: l) with (pre ++ [y] ++ l). change (pre ++ y :: l') with (pre ++ [y] ++ l').
    rewrite !app_assoc, IH. ring. }
  exact (G []).
Qed.

(* two sets of interpolation data of one axis that give the same vertex sum: same weights
   and vertices, or (edge) the point is the left vertex of one cell (weights 1,0) and the
   right vertex of the other (weights 0,1) *)
Definition ax1 (edge : bool) (w p w' p' : Q * Q) : Prop :=
  if edge then fst w == 1 /\ snd w == 0 /\ fst w' == 0 /\ snd w' == 1 /\ fst p == snd p'
  else fst w == fst w' /\ snd w == snd w' /\ fst p == fst p' /\ snd p == snd p'.

Inductive axeq : list bool -> list (Q * Q) -> list (Q * Q) -> list (Q * Q) -> list (Q * Q) -> Prop :=
| axeq_nil : axeq [] [] [] [] []
| axeq_cons e w p w' p' fl ws lr ws' lr' :
    ax1 e w p w' p' -> axeq fl ws lr ws' lr' ->
    axeq (e :: fl) (w :: ws) (p :: lr) (w' :: ws') (p' :: lr').

Lemma vsum_axeq f : respects f -> forall fl ws lr ws' lr', axeq fl ws lr ws' lr' ->
  forall pre pre', Forall2 Qeq pre pre' ->
  vsum ws lr (fun v => f (pre ++ v)) == vsum ws' lr' (fun v => f (pre' ++ v)).
Proof.
  intros Hf fl ws lr ws' lr' H.
  assert (S : forall pre pre' a a', Forall2 Qeq pre pre' -> a == a' ->
                Forall2 Qeq (pre ++ [a]) (pre' ++ [a'])) by (intros; apply Forall2_app; auto).
  induction H as [|e w p w' p' fl ws lr ws' lr' H1 _ IH]; intros pre pre' Hp.
  - rewrite !vsum_nil. apply Hf, Forall2_app; [assumption|constructor].
  - rewrite !vsum_cons_app. destruct e; cbn [ax1] in H1.
    + destruct H1 as (E1 & E2 & E3 & E4 & H5). rewrite E1, E2, E3, E4, (IH _ _ (S _ _ _ _ Hp H5)). ring.
    + destruct H1 as (E1 & E2 & H3 & H4).
      now rewrite E1, E2, (IH _ _ (S _ _ _ _ Hp H3)), (IH _ _ (S _ _ _ _ Hp H4)).
Qed.

Lemma axeq_set fl ws lr ws' lr' : axeq fl ws lr ws' lr' ->
  forall ax v, nth ax fl false = false ->
  axeq fl (set_nth ax v ws) lr (set_nth ax v ws') lr'.
Proof.
  induction 1 as [|e w p w' p' fl ws lr ws' lr' H1 H IH]; intros [|ax] v Hfl;
    cbn [set_nth nth] in *; try constructor; auto.
  subst e. destruct H1 as (_ & _ & H3 & H4). repeat split; (reflexivity || assumption).
Qed.

Lemma box_acells los his npt xs : box los his npt xs -> acells xs (map3 hstep los his npt) los.
Proof.
  induction 1 as [|lo hi n x los his npt xs Hlh Hn Hl Hu _ IH]; cbn [map3]; constructor; [|exact IH].
  apply hstep_pos; assumption.
Qed.

(* one axis of the box: the adaptive table takes the cell of floor((x-lo)/h), the standard
   table clamps it to n-2; they differ only for x = hi, where x is a vertex of both *)
Lemma axis_std_adaptive lo hi n x : lo < hi -> (2 <= n)%Z -> lo <= x -> x <= hi ->
  let h := hstep lo hi n in
  let k := Qfloor ((x - lo) / h) in
  let b := base1 lo hi n x in
  exists e, (x < hi -> e = false) /\
    ax1 e (mkw (Qred ((x - (lo + h * inject_Z k)) / h))) (lo + h * inject_Z k, lo + h * inject_Z (k + 1))
          (mkw (Qred ((x - fst (Lr lo hi n b)) / h))) (Lr lo hi n b).
Proof.
  intros Hlh Hn Hl Hu h k b. subst b. unfold base1. fold h k.
  destruct (hstep_pos lo hi n Hlh Hn) as [Hh Hnh]. fold h in Hh, Hnh.
  destruct (floor_cell lo h x Hh) as [HL HR]. cbn zeta in HL, HR. fold k in HL, HR.
  unfold Lr, mkw. fold h.
  destruct (Z_le_gt_dec k (n - 2)) as [Hle|Hgt].
  - exists false. rewrite Z.min_l by lia. split; [reflexivity|].
    assert (E : Qred ((x - (lo + h * inject_Z k)) / h) == Qred ((x - (lo + inject_Z k * h)) / h))
      by (rewrite !Qred_correct; field; lra).
    cbn [ax1 fst snd]. rewrite E. repeat split; (reflexivity || ring).
  - exists true. rewrite Z.min_r by lia.
    assert (Hk : inject_Z k == inject_Z (n - 2) + 1).
    { apply Qle_antisym; [apply (Qmult_le_l _ _ h Hh); lra|]. change 1 with (inject_Z 1).
      rewrite <- inject_Z_plus, <- Zle_Qle. lia. }
    assert (Hx : x == hi) by (rewrite Hk in HL; lra). split; [lra|].
    (* x is the left vertex of the adaptive cell and the right vertex of the last cell *)
    assert (E0 : Qred ((x - (lo + h * inject_Z k)) / h) == 0).
    { rewrite Qred_correct. setoid_replace (x - (lo + h * inject_Z k)) with 0 by (rewrite Hk; lra).
      field; lra. }
    assert (E1 : Qred ((x - (lo + inject_Z (n - 2) * h)) / h) == 1).
    { rewrite Qred_correct. setoid_replace (x - (lo + inject_Z (n - 2) * h)) with h by lra.
      field; lra. }
    cbn [ax1 fst snd]. rewrite E0, E1, Hk, inject_Z_succ. repeat split; ring.
Qed.

Lemma std_adaptive_axeq los his npt xs : box los his npt xs ->
  let hs := map3 hstep los his npt in
  exists fl,
    axeq fl (map mkw (aweights xs hs los)) (LRA hs los (afind_base xs hs los))
         (map mkw (sweights los his npt xs)) (LRs los his npt (sbase los his npt xs)) /\
    (forall ax x hi, nth_error xs ax = Some x -> nth_error his ax = Some hi -> x < hi ->
                     nth ax fl false = false).
Proof.
  unfold aweights, afind_base, vertex_coord, LRA.
  induction 1 as [|lo hi n x los his npt xs Hlh Hn Hl Hu _ (fl & Hax & Hfl)]; cbn zeta in *.
  - exists []. split; [constructor|]. intros [|ax]; discriminate.
  - destruct (axis_std_adaptive lo hi n x Hlh Hn Hl Hu) as (e & He & H1).
    exists (e :: fl). split; [cbn [map3 map LRs sbase sweights]; now constructor|].
    intros [|ax] x0 hi0 Hx0 Hhi0 Hlt; cbn [nth nth_error] in Hx0, Hhi0 |- *; [|eauto].
    injection Hx0 as <-. injection Hhi0 as <-. auto.
Qed.

(* interpolate of the adaptive table = interpolate of the standard table, for
   every f, every point of the closed box, after every history of adaptive queries *)
Lemma adaptive_interp_agrees f los his npt xs qs : respects f -> box los his npt xs ->
  exists r r', interpolate (mk_table los his npt f) xs = inr r /\
    fst (ainterpolate f (snd (arun f (mk_atable los his npt) qs)) xs) = inr r' /\ r == r'.
Proof.
  intros Hf Hbox.
  destruct (arun_state f qs (mk_atable los his npt) (Inv_empty f _ _)) as (ts & -> & HI).
  destruct (interpolate_vsum f _ _ _ _ Hbox) as (r & Hr & Hrr).
  destruct (std_adaptive_axeq _ _ _ _ Hbox) as (fl & Hax & _).
  destruct (aquery_vsum f (Build_atable _ _ ts) xs None HI (box_acells _ _ _ _ Hbox) I)
    as (s & Hs & Hq).
  exists r, s. split; [exact Hr|]. split; [exact Hq|]. rewrite Hrr, Hs. symmetry.
  exact (vsum_axeq f Hf _ _ _ _ _ Hax [] [] (Forall2_nil _)).
Qed.

(* the gradients agree for every f when the point is not on the upper face of
   the differentiated axis *)
Lemma adaptive_grad_agrees f los his npt xs qs ax x hi : respects f -> box los his npt xs ->
  nth_error xs ax = Some x -> nth_error his ax = Some hi -> x < hi ->
  exists g g', gradient (mk_table los his npt f) xs ax = inr g /\
    fst (agradient f (snd (arun f (mk_atable los his npt) qs)) xs ax) = inr g' /\ g == g'.
Proof.
  intros Hf Hbox Hx Hhi Hlt.
  destruct (arun_state f qs (mk_atable los his npt) (Inv_empty f _ _)) as (ts & -> & HI).
  assert (Ha : (ax < length xs)%nat) by (apply nth_error_Some; congruence).
  destruct (gradient_vsum f _ _ _ _ ax Hbox Ha) as (s & ha & Eh & Hg & Hs).
  destruct (std_adaptive_axeq _ _ _ _ Hbox) as (fl & Hax & Hfl).
  destruct (aquery_vsum f (Build_atable _ _ ts) xs (Some ax) HI (box_acells _ _ _ _ Hbox) Ha)
    as (sA & HsA & Hq).
  exists (s / ha), (sA / ha). split; [exact Hg|]. split; [exact (Hq ha Eh)|].
  apply Qdiv_comp; [|reflexivity]. rewrite Hs, HsA. symmetry.
  exact (vsum_axeq f Hf _ _ _ _ _ (axeq_set _ _ _ _ _ Hax ax (-(1), 1) (Hfl ax x hi Hx Hhi Hlt))
           [] [] (Forall2_nil _)).
Qed.

(* for f affine in each variable the adaptive gradient is the exact partial
   derivative everywhere in the closed box (hence equal to the standard one) *)
Lemma adaptive_grad_exact f los his npt xs qs ax : sep_affine f -> box los his npt xs ->
  (ax < length xs)%nat ->
  exists g', fst (agradient f (snd (arun f (mk_atable los his npt) qs)) xs ax) = inr g' /\
    forall a c, ~ a == c -> g' == (f (set_nth ax c xs) - f (set_nth ax a xs)) / (c - a).
Proof.
  intros Hf Hbox Ha.
  destruct (arun_state f qs (mk_atable los his npt) (Inv_empty f _ _)) as (ts & -> & HI).
  pose proof (box_acells _ _ _ _ Hbox) as Hac.
  destruct (aquery_vsum f (Build_atable _ _ ts) xs (Some ax) HI Hac Ha) as (s & Hs & Hq).
  destruct (aweights_spec _ _ _ Hac) as (_ & _ & Lx & _ & Hia & Hw). cbn [a_h a_base] in *.
  destruct (nth_error (map3 hstep los his npt) ax) as [ha|] eqn:Eh;
    [|apply nth_error_None in Eh; lia].
  exists (s / ha). split; [exact (Hq ha Eh)|].
  exact (vsum_grad_exact f _ _ _ _ _ _ _ Hf Hia Hw Ha Eh Hs).
Qed.

Lemma qsum_affine_sep post a b t x : x == (1 - t) * a + t * b ->
  forall pre cs,
  qsum (map2 Qmult cs (pre ++ x :: post)) ==
  (1 - t) * qsum (map2 Qmult cs (pre ++ a :: post)) + t * qsum (map2 Qmult cs (pre ++ b :: post)).
Proof.
  intros Hx. induction pre as [|p pre IH]; intros [|c cs]; cbn [app map2 qsum].
  - ring.
  - rewrite Hx. ring.
  - ring.
  - rewrite IH. ring.
Qed.

Lemma affine_sep c0 cs : sep_affine (affine c0 cs).
Proof.
  intros pre post a b t x Hx. unfold affine. rewrite (qsum_affine_sep post a b t x Hx). ring.
Qed.

Lemma affine_diff c0 cs : forall ax xs, length cs = length xs -> (ax < length xs)%nat ->
  affine c0 cs (set_nth ax 1 xs) - affine c0 cs (set_nth ax 0 xs) == nth ax cs 0.
Proof.
  unfold affine. induction cs as [|c cs IH]; intros ax [|x xs] Hl Ha; cbn in Hl, Ha; try lia.
  destruct ax as [|ax]; cbn [set_nth map2 qsum nth].
  - ring.
  - rewrite <- (IH ax xs) by lia. ring.
Qed.

Lemma mlin_sep d : forall cs, sep_affine (mlin d cs).
Proof.
  induction d as [|d IH]; intros cs pre post a b t x Hx.
  - cbn [mlin]. ring.
  - destruct pre as [|p pre]; cbn [app mlin].
    + rewrite Hx. ring.
    + rewrite (IH _ pre post a b t x Hx), (IH _ pre post a b t x Hx). ring.
Qed.

Lemma gradient_affine c0 cs los his npt xs ax : box los his npt xs ->
  length cs = length xs -> (ax < length xs)%nat ->
  exists g, gradient (mk_table los his npt (affine c0 cs)) xs ax = inr g /\ g == nth ax cs 0.
Proof.
  intros Hbox Hl Ha.
  destruct (gradient_exact (affine c0 cs) _ _ _ _ ax (affine_sep c0 cs) Hbox Ha) as [g [Hg Hq]].
  exists g. split; [exact Hg|]. rewrite (Hq 0 1) by discriminate.
  rewrite (affine_diff c0 cs ax xs Hl Ha). field.
Qed.

(* error branch: a point outside the box on some axis raises ValueError *)
Inductive outside : list Q -> list Q -> list Z -> list Q -> Prop :=
| out_here lo hi n x los his npt xs : x < lo \/ hi < x -> outside (lo :: los) (hi :: his) (n :: npt) (x :: xs)
| out_there lo hi n x los his npt xs : outside los his npt xs ->
    outside (lo :: los) (hi :: his) (n :: npt) (x :: xs).

Lemma find_base_outside los his npt xs : outside los his npt xs ->
  find_base xs (map3 hstep los his npt) los his npt = inl ValueErr.
Proof.
  induction 1 as [lo hi n x los his npt xs Hout|lo hi n x los his npt xs _ IH]; cbn [map3 find_base].
  - unfold base_axis. destruct Hout as [H|H]; rewrite (Qltb_true _ _ H), ?orb_true_r; reflexivity.
  - unfold base_axis. destruct (Qltb x lo || Qltb hi x); [reflexivity|]. cbn [bind ok]. rewrite IH. reflexivity.
Qed.

Lemma outside_value_error f los his npt xs ax : outside los his npt xs ->
  interpolate (mk_table los his npt f) xs = inl ValueErr /\
  gradient (mk_table los his npt f) xs ax = inl ValueErr.
Proof.
  intros H. unfold interpolate, gradient, mk_table. cbn [t_h t_low t_high t_npt].
  rewrite (find_base_outside _ _ _ _ H). split; reflexivity.
Qed.

Lemma mapM_ok {A B} (g : A -> res B) (P : A -> B -> Prop) l :
  (forall a, In a l -> exists b, g a = inr b /\ P a b) ->
  exists bs, mapM g l = inr bs /\ Forall2 P l bs.
Proof.
  induction l as [|a l IH]; intros H; [now exists []|].
  destruct (H a (or_introl eq_refl)) as (b & Hb & HP).
  destruct (IH (fun a' Hin => H a' (or_intror Hin))) as (bs & Hbs & HF).
  exists (b :: bs). split; [|now constructor]. cbn [mapM]. rewrite Hb. cbn [bind]. now rewrite Hbs.
Qed.

Lemma interpolate_batch_exact f los his npt pts : sep_affine f ->
  (forall x, In x pts -> box los his npt x) ->
  exists rs, interpolate_batch (mk_table los his npt f) pts = inr rs /\
             Forall2 (fun x r => r == f x) pts rs.
Proof.
  intros Hf Hb. unfold interpolate_batch. cbn [mk_table t_h t_low t_high t_npt].
  destruct (mapM_ok (fun x => find_base x (map3 hstep los his npt) los his npt)
              (fun _ _ => True) pts) as [bs [-> _]].
  { intros x (_ & Hfb & _)%Hb%box_query. eauto. }
  apply mapM_ok. intros x Hin. apply (interpolate_exact f _ _ _ _ Hf (Hb x Hin)).
Qed.
