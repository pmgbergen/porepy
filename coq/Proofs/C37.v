(* C37 — block location in compressed storage (searchsorted boundaries), the repair
   (eliminate_zeros keeps the matrix and restores the premise). *)
From Coq Require Import List ZArith Bool Arith Lia.
Import ListNotations.
From PP Require Import Lib.ListFacts Lib.Csr Proofs.C35_csr Model.C37.

Lemma firstn_seg {E} a b (l : list E) : a <= b -> firstn b l = firstn a l ++ seg a b l.
Proof.
  intros H. unfold seg. rewrite <- skipn_firstn_comm, <- (firstn_skipn a (firstn b l)) at 1.
  rewrite firstn_firstn, Nat.min_l by exact H. reflexivity.
Qed.

Lemma firstn_succ_nth {E} (l : list E) d : forall k, k < length l ->
  firstn (S k) l = firstn k l ++ [nth k l d].
Proof.
  induction l as [|x l IH]; intros [|k] H; simpl in H; try lia; [reflexivity|].
  cbn [firstn nth app]. f_equal. apply IH. lia.
Qed.

Lemma nth_firstn {E} (l : list E) d : forall b i, i < b -> nth i (firstn b l) d = nth i l d.
Proof.
  induction l as [|x l IH]; intros [|b] [|i] H; try lia; try reflexivity.
  cbn [firstn nth]. apply IH. lia.
Qed.

Lemma nth_skipn {E} (l : list E) d : forall b i, nth i (skipn b l) d = nth (b + i) l d.
Proof.
  induction l as [|x l IH]; intros [|b] i; try reflexivity; [destruct i; reflexivity|].
  cbn [skipn plus nth]. apply IH.
Qed.

Lemma nth_length_last {E} (l : list E) : forall a d, nth (length l) (a :: l) d = last (a :: l) d.
Proof. induction l as [|b l IH]; intros a d; [reflexivity|]. exact (IH b d). Qed.

Lemma In_combine_seq {E} (l : list E) i d :
  i < length l -> In (i, nth i l d) (combine (seq 0 (length l)) l).
Proof.
  intros H. replace (i, nth i l d) with (nth i (combine (seq 0 (length l)) l) (0, d)).
  - apply nth_In. rewrite combine_length, seq_length. lia.
  - rewrite combine_nth, seq_nth by (exact H || apply seq_length). reflexivity.
Qed.

Lemma combine_map_r {X Y Z} (f : Y -> Z) (l : list X) : forall l',
  combine l (map f l') = map (fun p => (fst p, f (snd p))) (combine l l').
Proof. induction l as [|x l IH]; intros [|y l']; cbn; try reflexivity. f_equal. apply IH. Qed.

Lemma combine_fst_snd {X Y} (l : list (X * Y)) : combine (map fst l) (map snd l) = l.
Proof. induction l as [|[x y] l IH]; simpl; [reflexivity|]. f_equal. exact IH. Qed.

Lemma bsearch_spec : forall fuel lo hi a key p,
  (forall i, i < p -> nth i a 0 < key) ->
  (forall i, p <= i -> i < length a -> key <= nth i a 0) ->
  lo <= p -> p <= hi -> hi <= length a -> hi - lo < fuel ->
  bsearch fuel lo hi a key = p.
Proof.
  induction fuel as [|f IH]; intros lo hi a key p Hlt Hge H1 H2 H3 H4; [lia|].
  cbn [bsearch]. destruct (lo <? hi) eqn:E; [apply Nat.ltb_lt in E | apply Nat.ltb_ge in E; lia].
  assert (HH : (hi - lo) / 2 < hi - lo) by (apply Nat.div_lt; lia).
  set (mid := lo + (hi - lo) / 2) in *.
  destruct (nth mid a 0 <? key) eqn:C; [apply Nat.ltb_lt in C | apply Nat.ltb_ge in C];
    apply IH; auto; try lia; destruct (le_lt_dec p mid) as [L|L]; try lia.
  - specialize (Hge mid L). lia.
  - specialize (Hlt mid L). lia.
Qed.

Lemma searchsorted_partition : forall l1 l2 key,
  Forall (fun x => x < key) l1 -> Forall (fun x => key <= x) l2 ->
  searchsorted (l1 ++ l2) key = length l1.
Proof.
  intros l1 l2 key F1 F2. rewrite Forall_forall in F1, F2. unfold searchsorted.
  apply bsearch_spec; rewrite ?app_length; try lia.
  - intros i Hi. rewrite app_nth1 by exact Hi. apply F1, nth_In, Hi.
  - intros i Hi Hl. rewrite app_nth2 by exact Hi. apply F2, nth_In. lia.
Qed.

Lemma indptr_ends : forall A, wfP A ->
  nth 0 (indptr A) 0 = 0 /\ nth (nmaj A) (indptr A) 0 = length (entries A).
Proof.
  intros A W. rewrite (entries_length A W), <- (wf_last A W).
  pose proof (wf_len A W) as L. pose proof (wf_hd A W) as H.
  destruct (indptr A) as [|a l]; [discriminate|]. injection L as <-.
  split; [exact H | apply nth_length_last].
Qed.

Lemma indptr_mono : forall A i j, wfP A -> i <= j -> j <= nmaj A ->
  nth i (indptr A) 0 <= nth j (indptr A) 0.
Proof.
  intros A i j W H Hj. apply (mono_le _ (wf_mono A W)); [exact H | rewrite (wf_len A W); lia].
Qed.

Lemma concat_firstn_rows : forall A k, wfP A -> k <= nmaj A ->
  concat (firstn k (rows A)) = firstn (nth k (indptr A) 0) (entries A).
Proof.
  intros A k W. induction k as [|k IH]; intros H.
  - rewrite (proj1 (indptr_ends A W)). reflexivity.
  - rewrite (firstn_succ_nth _ []), concat_app, IH by (rewrite ?(rows_length A W); lia).
    unfold rows. rewrite rows_of_nth by (rewrite (wf_len A W); lia).
    cbn [concat]. rewrite app_nil_r. symmetry. apply firstn_seg, indptr_mono; auto.
Qed.

Lemma block_monotone_spec : forall A sz,
  block_monotone A sz = true <->
  (forall b, In b (idx_blocks sz) -> forall i r, In (i, r) (combine (seq 0 (nmaj A)) (rows A)) ->
     forall e, In e r -> (i <? b) = (fst e <? b)).
Proof.
  intros A sz. unfold block_monotone, line_respects. rewrite forallb_forall.
  split; intros H b Hb; specialize (H b Hb).
  - intros i r Hir e He. rewrite forallb_forall in H. specialize (H _ Hir).
    rewrite forallb_forall in H. apply eqb_prop, (H e He).
  - apply forallb_forall. intros [i r] Hir. apply forallb_forall. intros e He.
    cbn [fst snd]. rewrite (H i r Hir e He). apply eqb_reflx.
Qed.

(* np.searchsorted finds the index pointer of line b when the entries of the lines before b
   have minor indices below b and those of the other lines do not *)
Lemma boundary_search : forall A b, wf A = true -> b <= nmaj A ->
  (forall i r, In (i, r) (combine (seq 0 (nmaj A)) (rows A)) ->
     forall e, In e r -> (i <? b) = (fst e <? b)) ->
  searchsorted (indices A) b = nth b (indptr A) 0.
Proof.
  intros A b WF Hb H. apply wf_wfP in WF.
  assert (Hrow : forall i e, i < nmaj A -> In e (nth i (rows A) []) -> (i <? b) = (fst e <? b)).
  { intros i e Hi. apply (H i). rewrite <- (rows_length A WF) in *. apply In_combine_seq, Hi. }
  rewrite <- (map_fst_combine (indices A) (data A)) by (symmetry; apply (wf_data A WF)).
  fold (entries A). rewrite (wf_entries A WF), <- (firstn_skipn b (rows A)), concat_app, map_app.
  pose proof (rows_length A WF) as L.
  rewrite searchsorted_partition.
  - rewrite map_length, concat_firstn_rows, firstn_length, Nat.min_l; auto.
    rewrite <- (proj2 (indptr_ends A WF)). apply indptr_mono; auto.
  - apply Forall_map, Forall_concat, Forall_nth. intros i d Hi. rewrite firstn_length in Hi.
    rewrite nth_firstn, (nth_indep _ d []) by lia. apply Forall_forall. intros e He.
    apply Nat.ltb_lt. rewrite <- (Hrow i e) by (assumption || lia). apply Nat.ltb_lt. lia.
  - apply Forall_map, Forall_concat, Forall_nth. intros i d Hi. rewrite skipn_length in Hi.
    rewrite nth_skipn, (nth_indep _ d []) by lia. apply Forall_forall. intros e He.
    apply Nat.ltb_ge. rewrite <- (Hrow (b + i) e) by (assumption || lia). apply Nat.ltb_ge. lia.
Qed.

(* hence the slice of the entry list taken for block k is exactly the concatenation of the
   lines b_k .. b_{k+1}-1 *)
Theorem block_slice : forall A b0 b1, wf A = true -> b0 <= b1 -> b1 <= nmaj A ->
  seg (nth b0 (indptr A) 0) (nth b1 (indptr A) 0) (entries A)
  = concat (seg b0 b1 (rows A)).
Proof.
  intros A b0 b1 WF H1 H2. apply wf_wfP in WF.
  pose proof (concat_firstn_rows A b1 WF H2) as E.
  rewrite (firstn_seg b0 b1 (rows A)), concat_app, concat_firstn_rows in E by (auto; lia).
  rewrite (firstn_seg (nth b0 (indptr A) 0) (nth b1 (indptr A) 0)) in E by (apply indptr_mono; auto).
  symmetry. exact (app_inv_head _ _ _ E).
Qed.

Lemma rows_eliminate : forall A, rows (eliminate_zeros A) = map (filter nonzero_entry) (rows A).
Proof.
  intros A. unfold rows at 1, entries, eliminate_zeros. cbn [indptr indices data].
  rewrite combine_fst_snd.
  apply (rows_of_concat (map (filter nonzero_entry) (rows A)) [] 0). reflexivity.
Qed.

Lemma nonzero_entry_spec : forall e, nonzero_entry e = true <-> snd e <> 0%Z.
Proof. intros e. unfold nonzero_entry. destruct (Z.eqb_spec (snd e) 0); cbn; intuition congruence. Qed.

Lemma entry_sum_cons : forall j e r,
  entry_sum j (e :: r) = if Nat.eqb (fst e) j then (snd e + entry_sum j r)%Z else entry_sum j r.
Proof. reflexivity. Qed.

Lemma entry_sum_filter : forall j r, entry_sum j (filter nonzero_entry r) = entry_sum j r.
Proof.
  induction r as [|e r IH]; [reflexivity|]. cbn [filter]. destruct (nonzero_entry e) eqn:Hz.
  - rewrite !entry_sum_cons, IH. reflexivity.
  - unfold nonzero_entry in Hz. apply negb_false_iff, Z.eqb_eq in Hz.
    rewrite entry_sum_cons, IH, Hz. destruct (Nat.eqb (fst e) j); reflexivity.
Qed.

Theorem eliminate_zeros_nonzero : forall A,
  Forall (Forall (fun e => snd e <> 0%Z)) (rows (eliminate_zeros A)).
Proof.
  intros A. rewrite rows_eliminate. apply Forall_map, Forall_forall. intros r _.
  apply Forall_forall. intros e He. apply filter_In in He. apply nonzero_entry_spec, He.
Qed.
