(* C03 — the stacking of equations: a row of the assembled residual or Jacobian is the
   local row of the equation it belongs to. *)
From Coq Require Import Reals List Arith Lra Lia.
From Coquelicot Require Import Coquelicot.
From PP Require Import Model.C01 Model.C01R Model.C03 Proofs.C01 Proofs.C01_fun Proofs.C01_comp.
Import ListNotations.
Open Scope R_scope.

Lemma stack_get_locate {T A} (g : expr T -> nat -> A) (eqs : system (T:=T)) (d : A) :
  forall r, stack_get (map (fun ne => (fst ne, g (snd ne))) eqs) r d
            = match locate eqs r with Some (e, i) => g e i | None => d end.
Proof.
  induction eqs as [|[n e] rest IH]; intros r; cbn [map stack_get locate fst snd].
  - reflexivity.
  - destruct (Nat.ltb r n); [reflexivity | apply IH].
Qed.

Lemma residual_locate (eqs : system (T:=R)) (x : env (T:=R)) (r : nat) :
  residual ROps eqs x r
  = match locate eqs r with Some (e, i) => eval_plain ROps e x i | None => 0 end.
Proof. exact (stack_get_locate (fun e => eval_plain ROps e x) eqs 0 r). Qed.

Lemma assembled_locate (eqs : system (T:=R)) (x v : env (T:=R)) (r : nat) :
  assembled ROps eqs x v r
  = match locate eqs r with Some (e, i) => eval_ad ROps e x v i | None => (0, 0) end.
Proof. exact (stack_get_locate (fun e => eval_ad ROps e x v) eqs (0, 0) r). Qed.

Lemma locate_total {T} (eqs : system (T:=T)) : forall r,
  (r < fold_right (fun ne acc => fst ne + acc) 0 eqs)%nat -> exists e i, locate eqs r = Some (e, i).
Proof.
  induction eqs as [|[n e0] rest IH]; intros r Hr; cbn [locate fold_right fst] in *.
  - lia.
  - destruct (Nat.ltb_spec r n); [eauto | apply IH; lia].
Qed.
