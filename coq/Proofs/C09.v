(* C09 — the model of Model/C09.v instantiated with exact real arithmetic.  One call of
   compute_time_step from any state (Section Call); the invariant [Inv] of the loop-head
   states of the time loop, what one event does to it, and the shape [Run] of every run with
   the facts read off it (Section Run); the constructor; the whole simulation. *)
From Coq Require Import List ZArith Bool Arith Lia Reals Lra Sorted.
Import ListNotations.
From PP Require Import Model.C09 Proofs.C09_loop.

Local Open Scope R_scope.

Definition Rleb (x y : R) : bool := if Rle_dec x y then true else false.
Definition Rltb (x y : R) : bool := if Rlt_dec x y then true else false.
Definition Reqb (x y : R) : bool := if Req_EM_T x y then true else false.

Definition ROps : numops R := {|
  n_zero := 0; n_one := 1; n_milli := 1 / 1000; n_tenth := 1 / 10;
  n_add := Rplus; n_sub := Rminus; n_mul := Rmult;
  n_leb := Rleb; n_ltb := Rltb; n_eqb := Reqb; n_abs := Rabs |}.

Lemma Rleb_true x y : Rleb x y = true <-> x <= y.
Proof. unfold Rleb; destruct (Rle_dec x y); split; intros; auto; discriminate. Qed.
Lemma Rleb_false x y : Rleb x y = false <-> y < x.
Proof. unfold Rleb; destruct (Rle_dec x y); split; intros; auto; try discriminate; lra. Qed.
Lemma Rltb_true x y : Rltb x y = true <-> x < y.
Proof. unfold Rltb; destruct (Rlt_dec x y); split; intros; auto; discriminate. Qed.
Lemma Rltb_false x y : Rltb x y = false <-> y <= x.
Proof. unfold Rltb; destruct (Rlt_dec x y); split; intros; auto; try discriminate; lra. Qed.
Lemma Reqb_true x y : Reqb x y = true <-> x = y.
Proof. unfold Reqb; destruct (Req_EM_T x y); split; intros; auto; discriminate. Qed.

Lemma Rabs_le_iff x a : Rabs x <= a <-> - a <= x <= a.
Proof. unfold Rabs. destruct (Rcase_abs x); lra. Qed.

Notation cfgR := (cfg R).
Notation stateR := (state R).
Notation iscloseR := (isclose R ROps).
Notation finalR := (final_time_reached R ROps).
Notation computeR := (compute_time_step R ROps).
Notation driveR := (drive R ROps).

Ltac rops := cbn [n_zero n_one n_milli n_tenth n_add n_sub n_mul n_leb n_ltb n_eqb n_abs ROps].

Lemma sget_nat (sched : list R) (j : nat) :
  (j < length sched)%nat -> sget R sched (Z.of_nat j) = Some (nth j sched 0).
Proof.
  intros H. unfold sget. destruct (Z.ltb_spec (Z.of_nat j) 0); [lia|].
  rewrite Nat2Z.id. apply nth_error_nth', H.
Qed.

Section Call.
  Variable c : cfgR.
  Variable sched : list R.

  Notation clamp y := (correct_max R ROps c (correct_min R ROps c y)).

  Lemma clamp_frame (y : stateR) :
    time (clamp y) = time y /\ tidx (clamp y) = tidx y /\ idx (clamp y) = idx y /\
    recomp (clamp y) = recomp y.
  Proof.
    unfold correct_max, correct_min, set_dt.
    destruct (n_ltb R ROps (dt y) (dt_min c)); cbn [dt]; destruct (n_ltb R ROps (dt_max c) _);
      repeat split.
  Qed.

  Lemma clamp_dt (y : stateR) : dt_min c <= dt_max c -> dt_min c <= dt (clamp y) <= dt_max c.
  Proof.
    intros H. unfold correct_max, correct_min, set_dt; rops.
    destruct (Rltb (dt y) (dt_min c)) eqn:E1; cbn [dt];
      [|apply Rltb_false in E1]; destruct (Rltb (dt_max c) _) eqn:E2; cbn [dt];
      (apply Rltb_true in E2 || apply Rltb_false in E2); lra.
  Qed.

  Lemma correct_schedule_frame (y y' : stateR) e :
    correct_schedule R ROps c sched y = (y', e) ->
    time y' = time y /\ tidx y' = tidx y /\ recomp y' = recomp y /\
    (e = None \/ e = Some E_index).
  Proof.
    unfold correct_schedule. destruct (sget R sched (idx y)) as [st0|].
    2:{ intros [= <- <-]. auto. }
    cbn [time dt tidx idx recomp about].
    destruct (_ && _); [destruct (sget R sched _) as [st1|]|];
      try destruct (n_ltb R ROps _ _); try destruct (iscloseR c (time y) _);
      intros [= <- <-]; cbn; auto.
  Qed.

  (* what compute_time_step does after the adaptation: clamp, then aim at the schedule *)
  Definition finish (y : stateR) : stateR * out R :=
    let (s2, e2) := correct_schedule R ROps c sched (clamp y) in
    match e2 with Some e => (s2, OErr e) | None => (s2, ODt (dt s2)) end.

  Lemma finish_frame (y x' : stateR) o :
    finish y = (x', o) ->
    time x' = time y /\ tidx x' = tidx y /\ recomp x' = recomp y /\
    (o = ODt (dt x') \/ o = OErr E_index).
  Proof.
    unfold finish. destruct (clamp_frame y) as (C1 & C2 & _ & C3).
    destruct (correct_schedule R ROps c sched (clamp y)) as [s2 e2] eqn:E.
    destruct (correct_schedule_frame _ _ _ E) as (F1 & F2 & F3 & [-> | ->]);
      intros [= <- <-]; repeat split; auto; congruence.
  Qed.

  Lemma compute_final (x : stateR) k :
    finalR c sched x = true -> computeR c sched x (Some k) false = (x, ONone).
  Proof. intros Hf. unfold compute_time_step. cbn [negb andb]. rewrite Hf. reflexivity. Qed.

  Hypothesis Hconst : constant c = false.

  Lemma compute_converged (x : stateR) k :
    finalR c sched x = false ->
    exists d, computeR c sched x (Some k) false
              = finish {| time := time x; dt := d; tidx := tidx x; idx := idx x; recomp := 0;
                          about := about x |}.
  Proof.
    intros Hf. unfold compute_time_step. cbn [negb andb]. rewrite Hf, Hconst.
    unfold adapt_iterations, set_dt. cbn [time dt tidx idx recomp about].
    destruct (k <=? iter_low c)%Z; [|destruct (iter_upp c <=? k)%Z]; eexists; reflexivity.
  Qed.

  Lemma compute_failed_raises (x : stateR) :
    ((recomp_max c <= recomp x)%Z ->
       computeR c sched x None true = (x, OErr E_recomp_exhausted)) /\
    ((recomp x < recomp_max c)%Z -> dt x = dt_min c ->
       computeR c sched x None true = (x, OErr E_dt_at_min)).
  Proof.
    unfold compute_time_step. cbn [negb andb]. rewrite Hconst. unfold adapt_recomputation.
    split.
    - intros H. destruct (Z.ltb_spec (recomp x) (recomp_max c)); [lia|reflexivity].
    - intros H Hd. destruct (Z.ltb_spec (recomp x) (recomp_max c)); [|lia].
      rops. rewrite (proj2 (Reqb_true _ _) Hd). reflexivity.
  Qed.

  Lemma compute_failed (x : stateR) :
    (recomp x < recomp_max c)%Z -> dt x <> dt_min c ->
    computeR c sched x None true
    = finish {| time := time x - dt x; dt := dt x * recomp_factor c; tidx := tidx x - 1;
                idx := if about x then (idx x - 1)%Z else idx x; recomp := recomp x + 1;
                about := about x |}.
  Proof.
    intros Hlt Hne. unfold compute_time_step. cbn [negb andb]. rewrite Hconst.
    unfold adapt_recomputation. destruct (Z.ltb_spec (recomp x) (recomp_max c)); [|lia].
    rops. destruct (Reqb (dt x) (dt_min c)) eqn:E; [apply Reqb_true in E; contradiction|].
    reflexivity.
  Qed.
End Call.

(* induction on a run ([Run] below); names for what the constructors carry *)
Ltac by_run :=
  induction 1 as [x j HI Hf|x j HI|x j k HI Hf1|x j k x2 j' tr st HI Ht Hrc Hadv HR IH
                 |x j e HI He|x j x2 j' tr st HI Ht Hlt Hrc Hadv HR IH].

Section Run.
  Variable c : cfgR.
  Variable sched : list R.

  Definition s (j : nat) : R := nth j sched 0.
  Definition n : nat := (length sched - 1)%nat.           (* index of the final time *)
  Definition tol (b : R) : R := atol c + rtol c * Rabs b.

  (* validity: what __init__ enforces for constant_dt=False (used part), plus the explicit
     extra guards 0 < dt_min and non-negative tolerances *)
  Hypothesis Hconst : constant c = false.
  Hypothesis Hmin : 0 < dt_min c.
  Hypothesis Hminmax : dt_min c <= dt_max c.
  Hypothesis Hrtol : 0 <= rtol c.
  Hypothesis Hatol : 0 <= atol c.
  Hypothesis Hlen : (2 <= length sched)%nat.
  Hypothesis Hnn : 0 <= s 0.
  (* consecutive scheduled times are further apart than the isclose tolerance *)
  Hypothesis Hsep : forall j, (S j <= n)%nat -> s j + tol (s (S j)) < s (S j).

  Lemma n_pos : (1 <= n)%nat. Proof using Hlen. unfold n; lia. Qed.
  Lemma final_is_sn : time_final R ROps sched = s n.
  Proof. apply last_nth. Qed.

  Lemma tol_nonneg b : 0 <= tol b.
  Proof using Hrtol Hatol.
    unfold tol. pose proof (Rmult_le_pos _ _ Hrtol (Rabs_pos b)). lra.
  Qed.

  Lemma tol_mono a b : 0 <= a -> a <= b -> tol a <= tol b.
  Proof using Hrtol.
    intros Ha Hab. unfold tol. rewrite !Rabs_pos_eq by lra.
    pose proof (Rmult_le_compat_l _ _ _ Hrtol Hab). lra.
  Qed.

  Lemma s_step j : (S j <= n)%nat -> s j < s (S j).
  Proof. intros H. pose proof (Hsep j H). pose proof (tol_nonneg (s (S j))). lra. Qed.

  Lemma s_incr_le :
    (forall j, (S j <= n)%nat -> s j < s (S j)) ->
    forall j k, (j <= k)%nat -> (k <= n)%nat -> s j <= s k.
  Proof using.
    intros Hinc j k Hjk. induction Hjk as [|k Hjk IH]; intros Hk; [lra|].
    pose proof (Hinc k Hk). pose proof (IH (Nat.lt_le_incl _ _ Hk)). lra.
  Qed.

  Lemma s_mono_le j k : (j <= k)%nat -> (k <= n)%nat -> s j <= s k.
  Proof using Hrtol Hatol Hlen Hsep. apply s_incr_le, s_step. Qed.

  Lemma s_mono j k : (j < k)%nat -> (k <= n)%nat -> s j < s k.
  Proof using Hrtol Hatol Hlen Hsep.
    intros Hjk Hk. destruct k as [|k]; [lia|].
    pose proof (s_step k Hk). assert (s j <= s k) by (apply s_mono_le; lia). lra.
  Qed.

  Lemma s_nonneg j : (j <= n)%nat -> 0 <= s j.
  Proof. intros H. pose proof (s_mono_le 0 j ltac:(lia) H). lra. Qed.

  Lemma isclose_iff a b : iscloseR c a b = true <-> b - tol b <= a <= b + tol b.
  Proof.
    unfold isclose; rops. fold (tol b).
    rewrite orb_true_iff, Rleb_true, Reqb_true, Rabs_le_iff. pose proof (tol_nonneg b). lra.
  Qed.

  Lemma isclose_refl a : iscloseR c a a = true.
  Proof. apply isclose_iff. pose proof (tol_nonneg a). lra. Qed.

  Lemma close_before_next t j :
    (S j <= n)%nat -> iscloseR c t (s j) = true -> t < s (S j).
  Proof.
    intros Hj H. apply isclose_iff in H. pose proof (Hsep j Hj).
    pose proof (tol_mono (s j) (s (S j)) (s_nonneg j ltac:(lia)) (Rlt_le _ _ (s_step j Hj))).
    lra.
  Qed.

  Lemma not_close_later t j k :
    (j < k)%nat -> (k <= n)%nat -> t <= s j -> iscloseR c t (s k) = false.
  Proof.
    intros Hjk Hk Ht. apply not_true_is_false. intros E. apply isclose_iff in E.
    destruct k as [|k]; [lia|]. pose proof (Hsep k Hk).
    pose proof (s_mono_le j k ltac:(lia) ltac:(lia)). lra.
  Qed.

  Lemma sget_s j : (j <= n)%nat -> sget R sched (Z.of_nat j) = Some (s j).
  Proof. intros H. apply sget_nat. unfold n in H. lia. Qed.

  Lemma final_iff x :
    finalR c sched x = true <-> (s n < time x \/ iscloseR c (time x) (s n) = true).
  Proof.
    unfold final_time_reached. rewrite final_is_sn; rops.
    rewrite orb_true_iff, Rltb_true. tauto.
  Qed.

  Lemma final_false x :
    finalR c sched x = false -> time x <= s n /\ iscloseR c (time x) (s n) = false.
  Proof.
    unfold final_time_reached. rewrite final_is_sn; rops.
    rewrite orb_false_iff, Rltb_false. tauto.
  Qed.

  Lemma stop_means_last x j :
    (1 <= j <= n)%nat -> time x <= s j -> finalR c sched x = true ->
    j = n /\ iscloseR c (time x) (s n) = true.
  Proof.
    intros Hj Ht Hf. apply final_iff in Hf. destruct Hf as [Hgt|Hcl].
    - pose proof (s_mono_le j n ltac:(lia) ltac:(lia)). lra.
    - destruct (Nat.eq_dec j n) as [->|Hne]; [split; [reflexivity|exact Hcl]|].
      rewrite (not_close_later (time x) j n) in Hcl by (try lia; assumption). discriminate.
  Qed.

  (* [j] is the index of the scheduled time the pending step is aimed at *)
  Definition Inv (x : stateR) (j : nat) : Prop :=
    (1 <= j <= n)%nat /\
    idx x = (if about x then Z.of_nat j + 1 else Z.of_nat j)%Z /\
    0 < dt x /\
    time x + dt x <= s j /\
    (about x = true -> time x + dt x = s j) /\
    dt x <= dt_max c /\
    (about x = true \/ dt_min c <= dt x).

  Definition advance (j j' : nat) (t : R) : Prop :=
    j' = j \/ (j' = S j /\ (S j <= n)%nat /\ iscloseR c t (s j) = true).

  Lemma finish_Inv (y0 : stateR) (j : nat) :
    (1 <= j <= n)%nat -> idx y0 = Z.of_nat j -> time y0 <= s j ->
    (j = n -> iscloseR c (time y0) (s n) = false) ->
    exists y' j',
      finish c sched y0 = (y', ODt (dt y')) /\ Inv y' j' /\ advance j j' (time y0).
  Proof.
    intros Hj Hidx Hty Hlast. unfold finish.
    destruct (clamp_frame c y0) as (Ct & _ & Ci & _). pose proof (clamp_dt c y0 Hminmax) as Cdt.
    set (y := correct_max R ROps c (correct_min R ROps c y0)) in *. rewrite <- Ct in *.
    unfold correct_schedule. rewrite Ci, Hidx, (sget_s j) by lia.
    cbn [time dt tidx idx recomp about].
    replace (Z.of_nat (length sched) - 1)%Z with (Z.of_nat n) by (unfold n; lia).
    set (skip := (Z.of_nat j <? Z.of_nat n)%Z && iscloseR c (time y) (s j)).
    (* the scheduled time aimed at: the clock is before it and not within tolerance of it *)
    assert (Haim : exists j',
               (if skip then Z.of_nat j + 1 else Z.of_nat j)%Z = Z.of_nat j' /\
               (if skip then sget R sched (Z.of_nat j') else Some (s j)) = Some (s j') /\
               (1 <= j' <= n)%nat /\ time y < s j' /\ iscloseR c (time y) (s j') = false /\
               advance j j' (time y)).
    { destruct skip eqn:Eskip; unfold skip in Eskip.
      - apply andb_true_iff in Eskip. destruct Eskip as [Ejn Ecl]. apply Z.ltb_lt in Ejn.
        exists (S j). split; [lia|]. split; [apply sget_s; lia|]. split; [lia|].
        split; [apply close_before_next; [lia|exact Ecl]|].
        split; [apply (not_close_later _ j); (lia || exact Hty)|].
        right. repeat split; [lia|exact Ecl].
      - assert (Hnc : iscloseR c (time y) (s j) = false).
        { apply andb_false_iff in Eskip. destruct Eskip as [E|E]; [|exact E].
          apply Z.ltb_ge in E. assert (j = n) by lia. subst j. apply Hlast; reflexivity. }
        assert (time y < s j).
        { destruct (Req_dec (time y) (s j)) as [Heq|Hne]; [|lra].
          rewrite Heq, isclose_refl in Hnc. discriminate. }
        exists j. repeat split; auto; lia || (left; reflexivity). }
    destruct Haim as (j' & -> & -> & Hj' & Hlt & Hnc & Hres). rops. rewrite Hnc.
    destruct (Rltb (s j') (time y + dt y)) eqn:Eover;
      [apply Rltb_true in Eover|apply Rltb_false in Eover];
      eexists _, j'; (split; [reflexivity|]); (split; [|exact Hres]); unfold Inv;
      cbn [time dt idx about]; repeat split; try lia; try lra; try discriminate; auto.
  Qed.

  Definition stepped (x : stateR) : stateR := increase_time_index R (increase_time R ROps x).

  Lemma converged_step x j k :
    Inv x j -> finalR c sched (stepped x) = false ->
    exists x2 j',
      computeR c sched (stepped x) (Some k) false = (x2, ODt (dt x2)) /\
      time x2 = time x + dt x /\ recomp x2 = 0%Z /\ Inv x2 j' /\ advance j j' (time x2).
  Proof.
    intros (Hj & Hidx & Hdt & Hle & Hab & Hmax & Hlow) Hfin.
    destruct (final_false _ Hfin) as [Hfle Hncl].
    destruct (compute_converged c sched Hconst (stepped x) k Hfin) as (d & ->).
    set (y0 := Build_state R _ _ _ _ _ _). cbn [stepped increase_time_index increase_time] in y0.
    change (time (stepped x)) with (time x + dt x) in *.
    (* the scheduled time the new step is aimed at *)
    assert (Hjt : exists jt, (1 <= jt <= n)%nat /\ idx y0 = Z.of_nat jt /\ time y0 <= s jt /\
              forall j', advance jt j' (time y0) -> advance j j' (time y0)).
    { destruct (about x) eqn:Eab.
      - (* the pending step was aimed exactly at s j: the clock is s j now, aim at s (j+1) *)
        specialize (Hab eq_refl). assert (Hy0 : time y0 = s j) by exact Hab.
        assert (Hjn : (S j <= n)%nat).
        { destruct (Nat.eq_dec j n) as [->|]; [|lia].
          cbn [time] in Hncl. rewrite Hab, isclose_refl in Hncl. discriminate. }
        exists (S j). split; [lia|]. split; [change (idx y0) with (idx x); lia|].
        split; [rewrite Hy0; apply Rlt_le, s_step, Hjn|].
        intros j' [->|(_ & Hn2 & Hcl)].
        + right. rewrite Hy0. auto using isclose_refl.
        + rewrite Hy0, (not_close_later (s j) j (S j)) in Hcl by (try lia; lra). discriminate.
      - exists j. split; [lia|]. split; [exact Hidx|]. split; [exact Hle|].
        intros j' H; exact H. }
    destruct Hjt as (jt & Hjt & Hi & Ht & Hadv).
    destruct (finish_Inv y0 jt Hjt Hi Ht (fun _ => Hncl)) as (x2 & j' & E & HI2 & Hj').
    destruct (finish_frame c sched _ _ _ E) as (F1 & _ & F3 & _).
    exists x2, j'. rewrite F1. split; [exact E|]. split; [reflexivity|].
    split; [exact F3|]. split; [exact HI2|exact (Hadv j' Hj')].
  Qed.

  Lemma failed_step x j :
    Inv x j -> finalR c sched x = false ->
    (exists e, computeR c sched (stepped x) None true = (stepped x, OErr e) /\
               ((e = E_recomp_exhausted /\ (recomp_max c <= recomp x)%Z) \/
                (e = E_dt_at_min /\ (recomp x < recomp_max c)%Z /\ dt x = dt_min c)))
    \/
    (exists x2 j',
      computeR c sched (stepped x) None true = (x2, ODt (dt x2)) /\
      (recomp x < recomp_max c)%Z /\ dt x <> dt_min c /\
      time x2 = time x /\ tidx x2 = tidx x /\ recomp x2 = (recomp x + 1)%Z /\
      Inv x2 j' /\ advance j j' (time x2)).
  Proof using Hconst Hmin Hminmax Hrtol Hatol Hlen Hnn Hsep.
    intros (Hj & Hidx & Hdt & Hle & Hab & Hmax & Hlow) Hfin.
    destruct (final_false _ Hfin) as [_ Hncl].
    destruct (compute_failed_raises c sched Hconst (stepped x)) as [Hex Hmn].
    change (recomp (stepped x)) with (recomp x) in *. change (dt (stepped x)) with (dt x) in *.
    destruct (Z_lt_le_dec (recomp x) (recomp_max c)) as [Hlt|Hge].
    2:{ left. exists E_recomp_exhausted. auto. }
    destruct (Req_dec (dt x) (dt_min c)) as [Heq|Hne].
    { left. exists E_dt_at_min. auto. }
    right. rewrite (compute_failed c sched Hconst (stepped x) Hlt Hne).
    set (y0 := Build_state R _ _ _ _ _ _). cbn [stepped increase_time_index increase_time] in y0.
    (* the clock is back at the accepted time, the cursor at the scheduled time aimed at *)
    assert (Ht : time y0 = time x) by (cbn; rops; lra).
    destruct (finish_Inv y0 j Hj) as (x2 & j' & E & HI2 & Hj').
    { change (idx y0) with (if about x then (idx x - 1)%Z else idx x). rewrite Hidx.
      destruct (about x); lia. }
    { rewrite Ht. lra. }
    { intros _. rewrite Ht. exact Hncl. }
    destruct (finish_frame c sched _ _ _ E) as (F1 & F2 & F3 & _).
    change (tidx y0) with (tidx x + 1 - 1)%Z in F2. change (recomp y0) with (recomp x + 1)%Z in F3.
    exists x2, j'. rewrite F1. split; [exact E|]. split; [exact Hlt|]. split; [exact Hne|].
    split; [exact Ht|]. split; [lia|]. split; [exact F3|]. split; [exact HI2|exact Hj'].
  Qed.

  Notation trace := (list (event * stateR * out R)).

  Definition raise_ok (e : err) : Prop := e = E_recomp_exhausted \/ e = E_dt_at_min.

  (* [Run x j tr st]: from a loop-head state x aimed at s j, the loop produces the trace tr
     and ends with st.  Every constructor corresponds to one path through [drive]. *)
  Inductive Run : stateR -> nat -> trace -> stop -> Prop :=
  | R_finished x j :
      Inv x j -> finalR c sched x = true -> Run x j [] Finished
  | R_out x j :
      Inv x j -> Run x j [] OutOfEvents
  | R_conv_last x j k :
      Inv x j -> finalR c sched (stepped x) = true ->
      Run x j [(Converged k, stepped x, ONone)] Finished
  | R_conv x j k x2 j' tr st :
      Inv x j -> time x2 = time x + dt x -> recomp x2 = 0%Z -> advance j j' (time x2) ->
      Run x2 j' tr st ->
      Run x j ((Converged k, x2, ODt (dt x2)) :: tr) st
  | R_fail_err x j e :
      Inv x j -> raise_ok e -> Run x j [(Failed, stepped x, OErr e)] (Raised e)
  | R_fail x j x2 j' tr st :
      Inv x j -> time x2 = time x ->
      (recomp x < recomp_max c)%Z -> recomp x2 = (recomp x + 1)%Z -> advance j j' (time x2) ->
      Run x2 j' tr st ->
      Run x j ((Failed, x2, ODt (dt x2)) :: tr) st.

  Lemma drive_conv_last x k r :
    finalR c sched x = false -> finalR c sched (stepped x) = true ->
    driveR c sched x (Converged k :: r) = ([(Converged k, stepped x, ONone)], Finished).
  Proof.
    intros Hf Hf1. rewrite (drive_cons R ROps c sched x _ r (stepped x) ONone Hf).
    - rewrite drive_final by exact Hf1. reflexivity.
    - fold (stepped x). unfold cstep. rewrite Hconst. apply compute_final, Hf1.
  Qed.

  Lemma drive_Run evs : forall x j,
    Inv x j -> Run x j (fst (driveR c sched x evs)) (snd (driveR c sched x evs)).
  Proof.
    induction evs as [|ev r IH]; intros x j HI;
      destruct (finalR c sched x) eqn:Hf;
      try (rewrite drive_final by exact Hf; apply R_finished; assumption).
    { rewrite drive_nil by exact Hf. apply R_out, HI. }
    destruct ev as [k|].
    - destruct (finalR c sched (stepped x)) eqn:Hf1.
      + rewrite drive_conv_last by assumption. apply R_conv_last; assumption.
      + destruct (converged_step x j k HI Hf1) as (x2 & j' & E & Et & Erc & HI2 & Hadv).
        rewrite (drive_cons R ROps c sched x _ r x2 _ Hf)
          by (unfold cstep; rewrite Hconst; exact E).
        specialize (IH x2 j' HI2). destruct (driveR c sched x2 r) as [tr st].
        eapply R_conv; eassumption.
    - destruct (failed_step x j HI Hf)
        as [(e & E & He)|(x2 & j' & E & Hlt & _ & Et & _ & Erc & HI2 & Hadv)];
        rewrite (drive_cons R ROps c sched x _ r _ _ Hf) by (unfold cstep; rewrite Hconst; exact E).
      + apply R_fail_err; [exact HI|]. destruct He as [[-> _]|[-> _]]; [left|right]; reflexivity.
      + specialize (IH x2 j' HI2). destruct (driveR c sched x2 r) as [tr st].
        eapply R_fail; eassumption.
  Qed.

  Definition dt_ok (x : stateR) : Prop :=
    dt_min c <= dt x <= dt_max c \/ (about x = true /\ 0 < dt x <= dt_max c).

  Lemma Inv_dt_ok x j : Inv x j -> dt_ok x.
  Proof. intros (_ & _ & Hdt & _ & _ & Hmax & [Hab|Hlow]); [right|left]; auto. Qed.

  Lemma Run_Inv x j tr st : Run x j tr st -> Inv x j.
  Proof. destruct 1; assumption. Qed.

  (* conclusion (1) of C09_main: accepted times strictly increase *)
  Lemma Run_sorted x j tr st :
    Run x j tr st -> Sorted Rlt (time x :: accepted R tr).
  Proof.
    by_run; cbn [accepted]; try (repeat constructor; fail); destruct HI as (_ & _ & Hdt & _).
    - repeat constructor. change (time (stepped x)) with (time x + dt x). lra.
    - constructor; [exact IH|]. constructor. lra.
    - rewrite <- Ht. exact IH.
  Qed.

  (* (2) no accepted time exceeds the final time *)
  Lemma Run_below_final x j tr st :
    Run x j tr st -> Forall (fun t => t <= s n) (accepted R tr).
  Proof.
    by_run; cbn [accepted]; try (constructor; fail); try exact IH;
      destruct HI as (Hj & _ & _ & Hle & _);
      pose proof (s_mono_le j n ltac:(lia) ltac:(lia)); constructor; try assumption.
    - change (time (stepped x)) with (time x + dt x). lra.
    - constructor.
    - lra.
  Qed.

  (* (3) when the loop finishes, every scheduled time from the current target on is
     within tolerance of the current or a later accepted time *)
  Definition hit_from (j : nat) (ts : list R) : Prop :=
    forall i, (j <= i <= n)%nat -> exists t, In t ts /\ iscloseR c t (s i) = true.

  Lemma hit_advance j j' t ts : advance j j' t -> hit_from j' (t :: ts) -> hit_from j (t :: ts).
  Proof.
    intros [->|(-> & _ & Hcl)] H; [exact H|]. intros i Hi.
    destruct (Nat.eq_dec i j) as [->|Hne]; [|apply H; lia].
    exists t. split; [left; reflexivity|exact Hcl].
  Qed.

  Lemma hit_last x j :
    (1 <= j <= n)%nat -> time x <= s j -> finalR c sched x = true -> hit_from j [time x].
  Proof.
    intros Hj Ht Hf i Hi. destruct (stop_means_last x j Hj Ht Hf) as [-> Hcl].
    replace i with n by lia. exists (time x). split; [left; reflexivity|exact Hcl].
  Qed.

  Lemma Run_hits x j tr st :
    Run x j tr st -> st = Finished -> hit_from j (time x :: accepted R tr).
  Proof.
    by_run; intros Hst; try discriminate; cbn [accepted].
    - destruct HI as (Hj & _ & Hdt & Hle & _). apply hit_last; [exact Hj|lra|exact Hf].
    - destruct HI as (Hj & _ & Hdt & Hle & _). intros i Hi.
      destruct (hit_last (stepped x) j Hj Hle Hf1 i Hi) as (t & [<-|[]] & Hcl).
      exists (time (stepped x)). split; [right; left; reflexivity|exact Hcl].
    - intros i Hi. destruct (hit_advance j j' _ _ Hadv (IH Hst) i Hi) as (t & Hin & Hcl).
      exists t. split; [right; exact Hin|exact Hcl].
    - rewrite <- Ht. exact (hit_advance j j' _ _ Hadv (IH Hst)).
  Qed.

  (* (4) every time step announced by compute_time_step is within bounds or shortened *)
  Lemma Run_dt_ok x j tr st :
    Run x j tr st ->
    forall ev x' o, In (ev, x', o) tr -> (forall e, o <> OErr e) -> dt_ok x'.
  Proof.
    by_run; intros ev x' o Hin Hno; cbn [In] in Hin;
      repeat (destruct Hin as [[= <- <- <-]|Hin]); try contradiction;
      try (eapply IH; eassumption).
    - exact (Inv_dt_ok x j HI).
    - exact (Inv_dt_ok x2 j' (Run_Inv _ _ _ _ HR)).
    - destruct (Hno e eq_refl).
    - exact (Inv_dt_ok x2 j' (Run_Inv _ _ _ _ HR)).
  Qed.

  (* (5) a failed step puts the clock back to the last accepted time, or raises (and then
     it is the last entry of the trace) *)
  Lemma Run_rewind x j tr st :
    Run x j tr st ->
    forall pre x' o post, tr = pre ++ (Failed, x', o) :: post ->
      time x' = last (accepted R pre) (time x) \/
      (exists e, o = OErr e /\ raise_ok e /\ post = [] /\ st = Raised e).
  Proof.
    by_run; intros [|p pre] x' o post Heq; try discriminate Heq;
      try (destruct pre; discriminate Heq); cbn [app] in Heq.
    - injection Heq as <- ->. destruct (IH _ _ _ _ eq_refl) as [H1|H1]; [left|right; exact H1].
      cbn [accepted]. rewrite last_cons. exact H1.
    - injection Heq as <- <- <-. right. exists e. auto.
    - injection Heq as <- <- <-. left. exact Ht.
    - injection Heq as <- ->. rewrite <- Ht. apply (IH _ _ _ _ eq_refl).
  Qed.

  (* (6) nothing raises except an exhausted / pointless recomputation *)
  Lemma Run_errors x j tr st :
    Run x j tr st ->
    (forall ev x' e, In (ev, x', OErr e) tr -> ev = Failed /\ raise_ok e) /\
    (forall e, st = Raised e -> raise_ok e).
  Proof.
    by_run; (split; [intros ev x' e' Hin; cbn [In] in Hin|intros e' Hst]);
      try discriminate Hst; try contradiction.
    - destruct Hin as [[=]|[]].
    - destruct Hin as [[=]|Hin]. apply (proj1 IH _ _ _ Hin).
    - apply (proj2 IH _ Hst).
    - destruct Hin as [[= <- <- <-]|[]]. auto.
    - injection Hst as <-. exact He.
    - destruct Hin as [[=]|Hin]. apply (proj1 IH _ _ _ Hin).
    - apply (proj2 IH _ Hst).
  Qed.

  Lemma Run_end x j tr st :
    Run x j tr st -> st = Finished ->
    let xe := last (map (fun p => snd (fst p)) tr) x in
    time xe <= s n /\ iscloseR c (time xe) (s n) = true.
  Proof.
    by_run; intros Hst; try discriminate; cbn [map fst snd]; rewrite ?last_cons; auto;
      destruct HI as (Hj & _ & Hdt & Hle & _).
    - destruct (stop_means_last x j Hj ltac:(lra) Hf) as [-> Hcl]. cbn [last].
      split; [lra|exact Hcl].
    - destruct (stop_means_last (stepped x) j Hj Hle Hf1) as [-> Hcl]. cbn [last].
      split; [exact Hle|exact Hcl].
  Qed.
End Run.

Lemma no_negative_hd (sched : list R) :
  existsb (fun t => Rltb t 0) sched = false -> 0 <= nth 0 sched 0.
Proof.
  destruct sched as [|t0 r]; cbn [existsb nth]; [lra|]. intros E.
  apply orb_false_iff in E. apply Rltb_false, E.
Qed.

(* a chain of tests [if b then inr e else ...] that ends in [inl c] has passed the first test *)
Lemma passed (A : Type) (b : bool) (e : err) (X : A + err) c (P : Prop) :
  (b = false -> X = inl c -> P) -> (if b then inr e else X) = inl c -> P.
Proof. destruct b; [discriminate|auto]. Qed.

Lemma construct_ok (a : args R) (sched : list R) (c : cfgR) :
  construct R ROps a sched = inl c -> a_constant a = false ->
  constant c = false /\ dt_init c = a_dt_init a /\ rtol c = a_rtol a /\ atol c = a_atol a /\
  (2 <= length sched)%nat /\ 0 <= nth 0 sched 0 /\ 0 < dt_init c /\
  dt_min c <= dt_init c /\ dt_init c <= dt_max c /\
  iter_low c = a_iter_low a /\ iter_upp c = a_iter_upp a /\ iter_max c = a_iter_max a /\
  under c = a_under a /\ over c = a_over a /\ recomp_factor c = a_recomp_factor a /\
  recomp_max c = a_recomp_max a /\
  (0 <= iter_low c <= iter_upp c)%Z /\ (iter_upp c <= iter_max c)%Z /\
  under c < 1 /\ 1 < over c /\ dt_min c * over c <= dt_max c /\
  dt_min c <= dt_max c * under c /\ recomp_factor c < 1 /\ (0 < recomp_max c)%Z.
Proof.
  unfold construct. intros H Hc. rewrite Hc in H. cbv zeta in H. revert H. rops.
  repeat (apply passed; intros ?). intros [= <-].
  cbn [constant dt_init rtol atol dt_min dt_max iter_low iter_upp iter_max under over
       recomp_factor recomp_max].
  rewrite Nat.ltb_ge, ?Rleb_false, ?Rltb_false, ?Z.leb_gt, ?Z.ltb_ge in *.
  repeat split; auto using no_negative_hd; try lia; try lra.
Qed.

Definition well_separated (rtol atol : R) (sched : list R) : Prop :=
  forall j, (S j < length sched)%nat ->
    nth j sched 0 + (atol + rtol * Rabs (nth (S j) sched 0)) < nth (S j) sched 0.

(* An accepted non-constant configuration with the explicit guards satisfies the hypotheses
   of Section Run, and the initial state is aimed at the first scheduled time after t0. *)
Lemma simulate_setup (a : args R) (sched : list R) (evs : list event) c tr st :
  simulate R ROps a sched evs = inl (c, (tr, st)) ->
  a_constant a = false ->
  0 < dt_min c -> 0 <= a_rtol a -> 0 <= a_atol a ->
  well_separated (a_rtol a) (a_atol a) sched ->
  a_dt_init a <= nth 1 sched 0 - nth 0 sched 0 ->
  construct R ROps a sched = inl c /\
  (constant c = false /\ dt_min c <= dt_max c /\ 0 <= rtol c /\ 0 <= atol c /\
   (2 <= length sched)%nat /\ 0 <= s sched 0 /\
   forall j, (S j <= n sched)%nat -> s sched j + tol c (s sched (S j)) < s sched (S j)) /\
  time (init_state R ROps c sched) = nth 0 sched 0 /\
  Inv c sched (init_state R ROps c sched) 1 /\
  driveR c sched (init_state R ROps c sched) evs = (tr, st).
Proof.
  intros Hsim Hc Hmin Hrt Hat Hsep Hinit. unfold simulate in Hsim.
  destruct (construct R ROps a sched) as [c'|e] eqn:Ec; [|discriminate].
  injection Hsim as -> Hd.
  destruct (construct_ok a sched c Ec Hc)
    as (Kc & Kdt & Krt & Kat & Klen & Knn & Kpos & Klo & Khi & _).
  assert (Hhd : hd 0 sched = nth 0 sched 0) by (destruct sched; reflexivity).
  split; [reflexivity|]. split; [|split; [exact Hhd|split; [|exact Hd]]].
  - split; [exact Kc|]. split; [lra|]. split; [rewrite Krt; exact Hrt|].
    split; [rewrite Kat; exact Hat|]. split; [exact Klen|]. split; [exact Knn|].
    intros j Hj. unfold s, tol. rewrite Krt, Kat. apply Hsep. unfold n in Hj. lia.
  - unfold Inv, init_state; cbn [time dt idx about]; rops. rewrite Hhd. unfold s, n.
    rewrite Kdt in *. repeat split; try lia; try lra; try discriminate.
Qed.

(* The run of an accepted configuration is a [Run] from the initial state (Run_dt_ok,
   Run_rewind, Run_errors then give conclusions (4)-(6) of the main theorem); conclusions
   (1)-(3) in terms of the schedule list; where a finished run ends. *)
Theorem run_facts (a : args R) (sched : list R) (evs : list event) c tr st :
  simulate R ROps a sched evs = inl (c, (tr, st)) ->
  a_constant a = false ->
  0 < dt_min c -> 0 <= a_rtol a -> 0 <= a_atol a ->
  well_separated (a_rtol a) (a_atol a) sched ->
  a_dt_init a <= nth 1 sched 0 - nth 0 sched 0 ->
  let x0 := init_state R ROps c sched in
  let sn := last sched 0 in
  Run c sched x0 1 tr st /\ time x0 = nth 0 sched 0 /\
  Sorted Rlt (time x0 :: accepted R tr) /\
  Forall (fun t => t <= sn) (time x0 :: accepted R tr) /\
  (st = Finished -> forall sj, In sj sched ->
     exists t, In t (time x0 :: accepted R tr) /\ iscloseR c t sj = true) /\
  (st = Finished ->
     let xe := last (map (fun p => snd (fst p)) tr) x0 in
     time xe <= sn /\ iscloseR c (time xe) sn = true).
Proof.
  intros Hsim Hc Hmin Hrt Hat Hsep Hinit x0 sn.
  destruct (simulate_setup a sched evs c tr st Hsim Hc Hmin Hrt Hat Hsep Hinit)
    as (_ & (Kc & Hminmax & Hrtol & Hatol & Klen & Hnn & Hsep') & Ht0 & HI & Hd).
  pose proof (drive_Run c sched Kc Hmin Hminmax Hrtol Hatol Klen Hnn Hsep' evs x0 1 HI) as HR.
  fold x0 in Hd. rewrite Hd in HR. cbn [fst snd] in HR.
  assert (Hlast : sn = s sched (n sched)) by apply last_nth.
  split; [exact HR|]. split; [exact Ht0|]. split; [eapply Run_sorted; eassumption|]. rewrite Hlast.
  split; [|split].
  - constructor; [|eapply Run_below_final; eassumption]. fold x0 in Ht0. rewrite Ht0.
    apply (s_mono_le c sched Hrtol Hatol Klen Hsep' 0 (n sched)); lia.
  - intros Hst sj Hin. destruct (In_nth sched sj 0 Hin) as (i & Hi & <-).
    destruct i as [|i].
    + exists (time x0). split; [left; reflexivity|]. fold x0 in Ht0. rewrite Ht0.
      apply (isclose_refl c Hrtol Hatol).
    + apply (Run_hits c sched Hrtol Hatol Klen Hsep' x0 1 tr st HR Hst (S i)). unfold n. lia.
  - intros Hst. exact (Run_end c sched Hrtol Hatol Klen Hsep' x0 1 tr st HR Hst).
Qed.

(* deciding comparisons of concrete reals (for the non-vacuity examples) *)
Ltac rdec :=
  repeat match goal with
  | |- context[Rltb ?x ?y] =>
      first [rewrite (proj2 (Rltb_true x y)) by lra | rewrite (proj2 (Rltb_false x y)) by lra]
  | |- context[Rleb ?x ?y] =>
      first [rewrite (proj2 (Rleb_true x y)) by lra | rewrite (proj2 (Rleb_false x y)) by lra]
  end.

(* The regression input of the repaired defect (schedule [0; 1; 3/2], dt_init = dt_max = 1)
   is accepted by the constructor and meets the guards of the main theorem. *)
Lemma regression_input_ok :
  let a := Build_args R 1 false (Some (1 / 10, 1)) 15 4 7 (7 / 10) (13 / 10) (1 / 2) 10
                      (1 / 10000000000) 0 in
  let sched := [0; 1; 3 / 2] in
  (exists c, construct R ROps a sched = inl c /\ dt_min c = 1 / 10) /\
  a_constant a = false /\ 0 <= a_rtol a /\ 0 <= a_atol a /\
  well_separated (a_rtol a) (a_atol a) sched /\
  a_dt_init a <= nth 1 sched 0 - nth 0 sched 0.
Proof.
  cbv zeta. split.
  - eexists. unfold construct, resolve_min_max, strictly_increasing.
    cbn [length Nat.ltb Nat.leb existsb last negb orb andb fst snd a_dt_init a_constant
         a_dt_min_max a_iter_max a_iter_low a_iter_upp a_under a_over a_recomp_factor
         a_recomp_max a_rtol a_atol].
    rops. rdec. cbn [negb orb andb Z.leb Z.ltb Z.compare Pos.compare Pos.compare_cont].
    split; reflexivity.
  - cbn [a_constant a_rtol a_atol a_dt_init nth]. repeat split; try lra.
    intros j Hj. cbn [length] in Hj.
    destruct j as [|[|j]]; cbn [nth]; [| |lia]; rewrite Rabs_pos_eq by lra; lra.
Qed.
