(* C01 — composition: linear maps (sparse left product, slicing), l2_norm blocks, and
   the induction over expression trees. *)
From Coq Require Import Reals ZArith List Lra Lia FunctionalExtensionality Arith.
From Coquelicot Require Import Coquelicot.
From PP Require Import Model.C01 Model.C01R Proofs.C01 Proofs.C01_fun.
Import ListNotations.
Open Scope R_scope.

Lemma lin_fst (row : list (nat * R)) (f : nat -> dual (T:=R)) :
  fst (lin_dual ROps row f) = lin_plain ROps row (fun j => fst (f j)).
Proof.
  unfold lin_dual, lin_plain. induction row as [|[j a] row IH]; cbn [fold_right fst snd].
  - reflexivity.
  - now rewrite IH.
Qed.

Lemma lin_plain_ext (row : list (nat * R)) (f g : nat -> R) :
  (forall j, f j = g j) -> lin_plain ROps row f = lin_plain ROps row g.
Proof.
  intros H. unfold lin_plain. induction row as [|[j a] row IH]; cbn [fold_right fst snd].
  - reflexivity.
  - now rewrite IH, H.
Qed.

(* the derivative part of a row does not look at the value parts of the operand *)
Lemma rule_lin (row : list (nat * R)) (U : nat -> R -> R) (f : nat -> dual (T:=R)) (t : R) :
  (forall j, In j (map fst row) -> is_derive (U j) t (snd (f j))) ->
  is_derive (fun s => lin_plain ROps row (fun j => U j s)) t (snd (lin_dual ROps row f)).
Proof.
  unfold lin_dual, lin_plain.
  induction row as [|[j a] row IH]; intros H; cbn [fold_right fst snd map] in *.
  - apply @is_derive_const.
  - apply @is_derive_plus.
    + apply is_derive_scal, H. now left.
    + apply IH. intros k Hk. apply H. now right.
Qed.

Lemma l2_tol_pos : 0 < l2_tol ROps.
Proof. unfold l2_tol; simpl. lra. Qed.

Lemma rule_sumsq (js : list nat) (U : nat -> R -> R) (dU : nat -> R) (t : R) :
  (forall j, In j js -> is_derive (U j) t (dU j)) ->
  is_derive (fun s => sumsq ROps (map (fun j => U j s) js)) t
            (2 * fold_right (fun j acc => U j t * dU j + acc) 0 js).
Proof.
  unfold sumsq. induction js as [|j js IH]; intros H; simpl.
  - eapply is_derive_eq. apply @is_derive_const. unfold zero; simpl. ring.
  - eapply is_derive_eq.
    + apply @is_derive_plus.
      * apply (rule_mul_ad (U j) (U j) t (dU j) (dU j)); apply H; now left.
      * apply IH. intros k Hk. apply H. now right.
    + unf. unfold plus; simpl. ring.
Qed.

Lemma l2_fac_sum (js : list nat) (U : nat -> R -> R) (dU : nat -> R) (t nrm : R) :
  nrm <> 0 ->
  fold_right (fun (a : dual (T:=R)) acc => fst a / nrm * snd a + acc) 0
             (map (fun j => (U j t, dU j)) js)
  = fold_right (fun j acc => U j t * dU j + acc) 0 js / nrm.
Proof.
  intros Hn. induction js as [|j js IH]; simpl.
  - field. exact Hn.
  - rewrite IH. field. exact Hn.
Qed.

Lemma rule_l2 (js : list nat) (U : nat -> R -> R) (f : nat -> dual (T:=R)) (t : R) :
  (forall j, In j js -> fst (f j) = U j t /\ is_derive (U j) t (snd (f j))) ->
  l2_tol ROps < l2_val ROps (map (fun j => U j t) js) ->
  is_derive (fun s => l2_val ROps (map (fun j => U j s) js)) t
            (snd (l2_dual ROps (map f js))).
Proof.
  intros H Htol.
  rewrite (map_ext_in f (fun j => (U j t, snd (f j)))).
  2: { intros j Hj. rewrite <- (proj1 (H j Hj)). apply surjective_pairing. }
  unfold l2_dual. rewrite map_map. cbn [fst snd oltb oadd omul odiv o0 ROps].
  rewrite ltbR_true by exact Htol.
  pose proof l2_tol_pos as Hpos.
  set (nrm := l2_val ROps (map (fun j => U j t) js)) in *.
  assert (Hss : 0 < sumsq ROps (map (fun j => U j t) js)).
  { apply Rnot_le_lt. intros Hle. unfold nrm, l2_val in Htol. cbn [oprim ROps primR] in Htol.
    rewrite sqrt_neg_0 in Htol by exact Hle. lra. }
  rewrite l2_fac_sum by lra.
  eapply is_derive_eq.
  - apply (is_derive_sqrt (fun s => sumsq ROps (map (fun j => U j s) js))).
    + apply rule_sumsq. intros j Hj. now apply H.
    + exact Hss.
  - change (sqrt (sumsq ROps (map (fun j => U j t) js))) with nrm. cbv beta. field. lra.
Qed.

Definition psmooth (a : R) (p : pexp R) : Prop :=
  match p with
  | PZ n => a <> 0 \/ (1 <= n)%Z
  | PR _ => 0 < a
  end.

(* entry i of the tree e is evaluated inside the smooth domain of every rule used *)
Fixpoint smooth (e : expr R) (x : env (T:=R)) (i : nat) : Prop :=
  match e with
  | Var _ => True
  | Neg e | AddK e _ | RAddK e _ | SubK e _ | RSubK e _ | MulK e _ | RMulK e _ =>
      smooth e x i
  | Add e1 e2 | Sub e1 e2 | Mul e1 e2 => smooth e1 x i /\ smooth e2 x i
  | Div e1 e2 => smooth e1 x i /\ smooth e2 x i /\ eval_plain ROps e2 x i <> 0
  | RDiv e1 e2 => smooth e1 x i /\ smooth e2 x i /\ eval_plain ROps e1 x i <> 0
  | Pow e1 e2 => smooth e1 x i /\ smooth e2 x i /\ 0 < eval_plain ROps e1 x i
  | RPow e1 e2 => smooth e1 x i /\ smooth e2 x i /\ 0 < eval_plain ROps e2 x i
  | DivK e c => smooth e x i /\ cget ROps c i <> 0
  | RDivK e _ => smooth e x i /\ eval_plain ROps e x i <> 0
  | PowK e p => smooth e x i /\ psmooth (eval_plain ROps e x i) (pget p i)
  | RPowK e c => smooth e x i /\ 0 < cget ROps c i
  | MatMul A e => forall j, In j (map fst (nth i A [])) -> smooth e x j
  | Slice idx e => smooth e x (nth i idx 0%nat)
  | Fun f e => smooth e x i /\ fsmooth f (eval_plain ROps e x i)
  | L2 dim e =>
      if Nat.eqb dim 1 then smooth e x i /\ eval_plain ROps e x i <> 0
      else (forall j, In j (map (fun k => Nat.add (Nat.mul i dim) k) (seq 0 dim)) ->
                      smooth e x j)
           /\ l2_tol ROps < l2_val ROps (block dim i (eval_plain ROps e x))
  | Max e1 e2 =>
      smooth e1 x i /\ smooth e2 x i /\ eval_plain ROps e1 x i <> eval_plain ROps e2 x i
  | MaxKR e c => smooth e x i /\ eval_plain ROps e x i <> cget ROps c i
  | MaxKL c e => smooth e x i /\ cget ROps c i <> eval_plain ROps e x i
  end.

Lemma fst_d_max (a b : dual (T:=R)) :
  fst (d_max ROps a b) = max_plain ROps (fst a) (fst b).
Proof. unfold d_max, max_plain. now destruct (oltb ROps (fst a) (fst b)). Qed.

Theorem value_thm (e : expr R) : forall (x v : env (T:=R)) (i : nat),
  fst (eval_ad ROps e x v i) = eval_plain ROps e x i.
Proof.
  induction e; intros x v i; cbn [eval_ad eval_plain].
  (* the arithmetic constructors: by the induction hypotheses, an identity of the field R *)
  1-19: try rewrite <- (IHe x v i); try rewrite <- (IHe1 x v i), <- (IHe2 x v i);
    try destruct c; try destruct (pget p i); cbn [cget]; unf;
    (reflexivity || (rewrite ?pz_m1; unfold Rdiv; ring)).
  - (* MatMul *) rewrite lin_fst. apply lin_plain_ext, IHe.
  - (* Slice *) apply IHe.
  - (* Fun *) cbn [d_fun fst]. now rewrite IHe.
  - (* L2 *) destruct (Nat.eqb dim 1).
    + cbn [d_fun fst]. now rewrite IHe.
    + unfold l2_dual, block. cbn [fst]. rewrite map_map. f_equal.
      apply map_ext. intros k. apply IHe.
  - (* Max *) now rewrite fst_d_max, IHe1, IHe2.
  - (* MaxKR *) now rewrite fst_d_max, IHe.
  - (* MaxKL *) now rewrite fst_d_max, IHe.
Qed.

Lemma ad_pair (e : expr R) (x v : env (T:=R)) (i : nat) :
  eval_ad ROps e x v i = (eval_plain ROps e x i, snd (eval_ad ROps e x v i)).
Proof. rewrite <- (value_thm e x v i). apply surjective_pairing. Qed.

Lemma shift0 (x v : env (T:=R)) : shift x v 0 = x.
Proof. extensionality k; extensionality i. unfold shift. ring. Qed.

(* Each case applies the rule of its constructor to the operands' derivatives given by the
   induction hypotheses. *)
Theorem jacobian_at (e : expr R) : forall (x v : env (T:=R)) (i : nat) (t0 : R),
  smooth e (shift x v t0) i ->
  is_derive (fun t => eval_plain ROps e (shift x v t) i) t0
            (snd (eval_ad ROps e (shift x v t0) v i)).
Proof.
  induction e; intros x v i t0 Hs; cbn [eval_ad eval_plain smooth] in *;
    try rewrite (ad_pair e); try rewrite (ad_pair e1), (ad_pair e2).
  - (* Var *) cbn [snd]. unfold shift. auto_derive. exact I. ring.
  - (* Neg *) apply rule_neg; auto.
  - (* Add *) destruct Hs. apply rule_add_ad; auto.
  - (* Sub *) destruct Hs. apply rule_sub_ad; auto.
  - (* Mul *) destruct Hs. apply rule_mul_ad; auto.
  - (* Div *) destruct Hs as (H1 & H2 & H3). apply rule_div_ad; auto.
  - (* Pow *) destruct Hs as (H1 & H2 & H3). apply rule_pow_ad; auto.
  - (* RDiv *) destruct Hs as (H1 & H2 & H3). apply rule_div_ad; auto.
  - (* RPow *) destruct Hs as (H1 & H2 & H3). apply rule_pow_ad; auto.
  - (* AddK *) apply rule_add_k; auto.
  - (* RAddK *) apply rule_radd_k; auto.
  - (* SubK *) apply rule_sub_k; auto.
  - (* RSubK *) apply rule_rsub_k; auto.
  - (* MulK *) destruct c; [apply rule_mul_s | apply rule_mul_a]; auto.
  - (* RMulK *) destruct c; [apply rule_rmul_s | apply rule_rmul_a]; auto.
  - (* DivK *) destruct Hs. destruct c; [apply rule_div_s | apply rule_div_a]; auto.
  - (* RDivK *) destruct Hs. destruct c; [apply rule_rdiv_s | apply rule_rdiv_a]; auto.
  - (* PowK *) destruct Hs as [H1 H2].
    destruct (pget p i); [apply rule_powz_k | apply rule_powr_k]; auto.
  - (* RPowK *) destruct Hs. apply rule_rpow_k; auto.
  - (* MatMul *) apply (rule_lin _ (fun j s => eval_plain ROps e (shift x v s) j)). auto.
  - (* Slice *) apply IHe, Hs.
  - (* Fun *) destruct Hs. apply rule_fun; auto.
  - (* L2 *) destruct (Nat.eqb dim 1); destruct Hs as [H1 H2].
    + apply (rule_fun Fabs); auto.
    + apply (rule_l2 (seq 0 dim) (fun k s => eval_plain ROps e (shift x v s) (i * dim + k))
                     (fun k => eval_ad ROps e (shift x v t0) v (i * dim + k))); [|exact H2].
      intros k Hk. split; [apply value_thm | apply IHe, H1, in_map, Hk].
  - (* Max *) destruct Hs as (H1 & H2 & H3). apply rule_max; auto.
  - (* MaxKR *) destruct Hs. apply rule_max with (w := fun _ => cget ROps c i); auto.
    apply @is_derive_const.
  - (* MaxKL *) destruct Hs. apply rule_max with (u := fun _ => cget ROps c i); auto.
    apply @is_derive_const.
Qed.

Theorem jacobian_thm (e : expr R) : forall (x v : env (T:=R)) (i : nat),
  smooth e x i ->
  is_derive (fun t => eval_plain ROps e (shift x v t) i) 0 (snd (eval_ad ROps e x v i)).
Proof.
  intros x v i Hs. pose proof (jacobian_at e x v i 0) as H.
  rewrite shift0 in H. exact (H Hs).
Qed.
