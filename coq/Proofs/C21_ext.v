(* C21 — signs_and_cells_of_boundary_faces: the double argsort for any sorting permutation
   (PP.Model.C21_ext.signs_cells_perm; PP.Model.C21.signs_cells is the instance with the stable
   argsort), numpy's index handling, and Grid.set_periodic_map. *)
From Coq Require Import List ZArith Bool Arith Lia Permutation Sorted.
Import ListNotations.
From PP Require Import Lib.ListFacts Model.C21 Model.C21_ext Proofs.C21.
Open Scope Z_scope.

Lemma in_combine_seq {A} (l : list A) d k i :
  In (k, i) (combine l (seq 0 (length l))) <-> (i < length l)%nat /\ nth i l d = k.
Proof.
  split.
  - intro H. apply (In_nth _ _ (d, 0%nat)) in H. destruct H as (n & Hn & E).
    rewrite combine_length, seq_length, Nat.min_id in Hn.
    rewrite combine_nth, seq_nth in E by (rewrite ?seq_length; auto).
    injection E as <- <-. auto.
  - intros [Hi <-].
    replace (nth i l d, i) with (nth i (combine l (seq 0 (length l))) (d, 0%nat)).
    + apply nth_In. rewrite combine_length, seq_length, Nat.min_id. exact Hi.
    + rewrite combine_nth, seq_nth by (rewrite ?seq_length; auto). reflexivity.
Qed.

Lemma list_sum_map_add {A} (g h : A -> nat) l :
  list_sum (map (fun x => (g x + h x)%nat) l) = (list_sum (map g l) + list_sum (map h l))%nat.
Proof.
  unfold list_sum. induction l as [|a l IH]; cbn [map fold_right]; [reflexivity|rewrite IH; lia].
Qed.

Lemma list_sum_eq_length {A} (g : A -> nat) l : (forall x, In x l -> (1 <= g x)%nat) ->
  (length l <= list_sum (map g l))%nat /\
  (list_sum (map g l) = length l <-> forall x, In x l -> g x = 1%nat).
Proof.
  induction l as [|a l IH]; intro H; cbn [map length list_sum fold_right].
  - split; [lia|]. split; [intros _ x []|reflexivity].
  - fold (list_sum (map g l)). pose proof (H a (or_introl eq_refl)) as Ha.
    destruct IH as [Hle Heq]; [intros x Hx; apply H; right; exact Hx|].
    split; [lia|]. split.
    + intros E x [<-|Hx]; [lia|]. apply Heq; [lia|exact Hx].
    + intro H1. rewrite (H1 a (or_introl eq_refl)), (proj2 Heq); [reflexivity|].
      intros x Hx. apply H1. right. exact Hx.
Qed.

Lemma sorted_perm_eq l1 : forall l2, StronglySorted Z.le l1 -> StronglySorted Z.le l2 ->
  Permutation l1 l2 -> l1 = l2.
Proof.
  induction l1 as [|a l1 IH]; intros l2 H1 H2 HP.
  - apply Permutation_nil in HP. auto.
  - destruct l2 as [|b l2]; [apply Permutation_sym, Permutation_nil in HP; discriminate|].
    inversion H1 as [|? ? S1 F1]; subst. inversion H2 as [|? ? S2 F2]; subst.
    rewrite Forall_forall in F1, F2.
    assert (a = b) as ->.
    { destruct (Permutation_in a HP (or_introl eq_refl)) as [->|Ia]; [reflexivity|].
      destruct (Permutation_in b (Permutation_sym HP) (or_introl eq_refl)) as [->|Ib];
        [reflexivity|].
      specialize (F1 _ Ib). specialize (F2 _ Ia). lia. }
    f_equal. apply IH; auto. apply (Permutation_cons_inv HP).
Qed.

Lemma seqZ_sorted n : forall s, StronglySorted Z.le (map Z.of_nat (seq s n)).
Proof.
  induction n as [|n IH]; intro s; cbn; constructor; auto.
  apply Forall_forall. intros z Hz. apply in_map_iff in Hz. destruct Hz as (k & <- & Hk).
  apply in_seq in Hk. lia.
Qed.

Lemma ins_perm x l : Permutation (x :: l) (ins x l).
Proof.
  induction l as [|y r IH]; cbn; [reflexivity|].
  destruct (fst x <=? fst y); [reflexivity|]. rewrite perm_swap, IH. reflexivity.
Qed.

Lemma sortk_perm l : Permutation l (sortk l).
Proof. induction l as [|x l IH]; cbn; [constructor|]. rewrite <- ins_perm, <- IH. reflexivity. Qed.

Lemma ins_sorted x l :
  StronglySorted Z.le (map fst l) -> StronglySorted Z.le (map fst (ins x l)).
Proof.
  induction l as [|y r IH]; cbn; intro H; [repeat constructor|].
  inversion H as [|? ? Hr Hy]; subst.
  destruct (Z.leb_spec (fst x) (fst y)) as [L|L]; cbn [map]; constructor; auto.
  - constructor; [exact L|]. eapply Forall_impl; [|exact Hy]. intros; lia.
  - rewrite <- ins_perm. constructor; [lia|exact Hy].
Qed.

Lemma sortk_sorted l : StronglySorted Z.le (map fst (sortk l)).
Proof. induction l; cbn; [constructor|apply ins_sorted; assumption]. Qed.

Lemma argsort_length l : length (argsort l) = length l.
Proof.
  unfold argsort. rewrite map_length, <- (Permutation_length (sortk_perm _)).
  rewrite combine_length, seq_length. apply Nat.min_id.
Qed.

Lemma argsort_perm l : Permutation (argsort l) (seq 0 (length l)).
Proof.
  unfold argsort. rewrite <- sortk_perm, map_snd_combine by (rewrite seq_length; reflexivity).
  reflexivity.
Qed.

(* argsort of a permutation of 0..n-1 is its inverse *)
Lemma argsort_inv (p : list Z) j :
  Permutation p (map Z.of_nat (seq 0 (length p))) -> (j < length p)%nat ->
  (nth j (argsort p) 0 < length p)%nat /\ nth (nth j (argsort p) 0%nat) p 0 = Z.of_nat j.
Proof.
  intros HP Hj. unfold argsort. set (c := combine p (seq 0 (length p))).
  pose proof (sortk_perm c) as Ps.
  assert (map fst (sortk c) = map Z.of_nat (seq 0 (length p))) as Hkeys.
  { apply sorted_perm_eq; [apply sortk_sorted|apply seqZ_sorted|].
    rewrite <- Ps. unfold c. rewrite map_fst_combine by (rewrite seq_length; reflexivity).
    exact HP. }
  assert (length (sortk c) = length p) as Ls.
  { rewrite <- (Permutation_length Ps). unfold c. rewrite combine_length, seq_length.
    apply Nat.min_id. }
  (* the j-th pair of the sorted list has key j and comes from [c] *)
  assert (fst (nth j (sortk c) (0, 0%nat)) = Z.of_nat j) as Hfst.
  { rewrite <- (nth_map_lt fst _ j (0, 0%nat) 0) by lia. rewrite Hkeys, nth_map_seq by exact Hj.
    reflexivity. }
  assert (In (nth j (sortk c) (0, 0%nat)) c) as Hin.
  { apply (Permutation_in _ (Permutation_sym Ps)), nth_In. lia. }
  rewrite (nth_map_lt snd _ j (0, 0%nat) 0%nat) by lia.
  destruct (nth j (sortk c) (0, 0%nat)) as [k i]. cbn [fst snd] in *. subst k.
  apply (in_combine_seq p 0) in Hin. exact Hin.
Qed.

Lemma positions_in f sf k : In k (positions f sf) <-> (k < length sf)%nat /\ nth k sf 0 = f.
Proof.
  unfold positions. rewrite in_map_iff. split.
  - intros ([z i] & <- & Hin). apply filter_In in Hin. destruct Hin as [Hin Hz].
    apply Z.eqb_eq in Hz. cbn in Hz. subst z. apply (in_combine_seq sf 0), Hin.
  - intros [Hk Hn]. exists (f, k). split; [reflexivity|]. apply filter_In. split.
    + apply (in_combine_seq sf 0). auto.
    + apply Z.eqb_refl.
Qed.

Lemma slice_in cf sf x : In x (slice_rows cf sf) <->
  exists k, (k < length sf)%nat /\ e_r x = Z.of_nat k /\ In (nth k sf 0, e_c x, e_v x) cf.
Proof.
  unfold slice_rows. rewrite in_flat_map. split.
  - intros (e & He & Hx). apply in_map_iff in Hx. destruct Hx as (k & <- & Hk).
    apply positions_in in Hk. destruct Hk as [Hk Hn]. exists k.
    split; [exact Hk|]. split; [reflexivity|]. cbn [e_c e_v fst snd].
    rewrite Hn, <- ent_eta. exact He.
  - intros (k & Hk & Hr & Hin). exists (nth k sf 0, e_c x, e_v x). split; [exact Hin|].
    apply in_map_iff. exists k. split; [|apply positions_in; auto].
    cbn [e_r e_c e_v fst snd]. rewrite <- Hr. symmetry. apply ent_eta.
Qed.

Lemma positions_length r sf :
  length (positions r sf) = list_sum (map (fun f => if f =? r then 1%nat else 0%nat) sf).
Proof.
  unfold positions. rewrite map_length. generalize 0%nat at 1.
  induction sf as [|y sf IH]; intro s; cbn [length seq combine filter map fst]; [reflexivity|].
  destruct (y =? r); cbn [length]; rewrite IH; reflexivity.
Qed.

Lemma cnt_cons e cf f : cnt (e :: cf) f = ((if (e_r e =? f)%Z then 1 else 0) + cnt cf f)%nat.
Proof. unfold cnt. cbn [filter]. destruct (e_r e =? f); reflexivity. Qed.

Lemma slice_length cf sf : length (slice_rows cf sf) = list_sum (map (cnt cf) sf).
Proof.
  induction cf as [|e cf IH].
  - cbn. induction sf; cbn; auto.
  - change (slice_rows (e :: cf) sf) with
      (map (fun k => (Z.of_nat k, e_c e, e_v e)) (positions (e_r e) sf) ++ slice_rows cf sf).
    unfold ent in *. rewrite app_length, map_length, IH, positions_length, <- list_sum_map_add.
    f_equal. apply map_ext. intro f. rewrite cnt_cons, (Z.eqb_sym f). reflexivity.
Qed.

Lemma take_length x p : length (take x p) = length p.
Proof. apply map_length. Qed.

Lemma take_nth x p k : (k < length p)%nat -> nth k (take x p) 0 = nth (nth k p 0%nat) x 0.
Proof. apply (nth_map_lt (fun i => nth i x 0)). Qed.

Lemma take_perm x p : Permutation p (seq 0 (length x)) -> Permutation (take x p) x.
Proof. intro H. unfold take. rewrite H, map_nth_seq. reflexivity. Qed.

Lemma slice_rows_one cf sf : (forall f, In f sf -> cnt cf f = 1%nat) ->
  length (slice_rows cf sf) = length sf /\
  Permutation (map e_r (slice_rows cf sf)) (map Z.of_nat (seq 0 (length sf))).
Proof.
  intro H1. assert (length (slice_rows cf sf) = length sf) as Hlen.
  { rewrite slice_length. apply list_sum_eq_length; [|exact H1].
    intros f Hf. rewrite (H1 f Hf). lia. }
  split; [exact Hlen|]. symmetry. apply NoDup_Permutation_bis; [apply seqZ_NoDup| |].
  - rewrite !map_length, seq_length, Hlen. lia.
  - intros z Hz. apply in_map_iff in Hz. destruct Hz as (k & <- & Hk). apply in_seq in Hk.
    destruct (cnt_pos cf (nth k sf 0)) as (e & He & Hr); [rewrite H1; [lia|apply nth_In; lia]|].
    apply in_map_iff. exists (Z.of_nat k, e_c e, e_v e). split; [reflexivity|].
    apply slice_in. exists k. split; [lia|]. split; [reflexivity|].
    cbn [e_c e_v fst snd]. rewrite <- Hr, <- ent_eta. exact He.
Qed.

(* the argsort of the slice's rows inverts them: it sends position k to the entry of face sf[k] *)
Lemma slice_sorted_nth cf sf k :
  (forall f, In f sf -> cnt cf f = 1%nat) -> (k < length sf)%nat ->
  let en := slice_rows cf sf in
  let i := nth k (argsort (map e_r en)) 0%nat in
  (i < length en)%nat /\ In (nth k sf 0, e_c (nth i en (0, 0, 0)), e_v (nth i en (0, 0, 0))) cf.
Proof.
  intros H1 Hk en i. destruct (slice_rows_one cf sf H1) as [Hlen Prow]. fold en in Hlen, Prow.
  destruct (argsort_inv (map e_r en) k) as [Hi Hrow].
  - rewrite map_length, Hlen. exact Prow.
  - rewrite map_length, Hlen. exact Hk.
  - fold i in Hi, Hrow. rewrite map_length in Hi. split; [exact Hi|].
    rewrite (nth_map_lt e_r en i (0, 0, 0) 0) in Hrow by exact Hi.
    destruct (proj1 (slice_in cf sf _) (nth_In en (0, 0, 0) Hi)) as (k' & _ & Hr' & Hin).
    replace k' with k in Hin by lia. exact Hin.
Qed.

Section SignsCells.
  Variables (cf : list ent) (faces : list Z) (IA : list nat).
  Hypothesis HIA : Permutation IA (seq 0 (length faces)).

  Let n := length faces.
  Let IC := argsort (map Z.of_nat IA).
  Let sf := take faces IA.

  Lemma sc_IA_len : length IA = n.
  Proof. rewrite (Permutation_length HIA). apply seq_length. Qed.

  Lemma sc_sf_perm : Permutation sf faces.
  Proof. apply take_perm, HIA. Qed.

  (* IC is the inverse of IA: position IC[j] of the sorted faces holds faces[j] *)
  Lemma sc_IC j : (j < n)%nat ->
    (nth j IC 0 < n)%nat /\ nth (nth j IC 0%nat) sf 0 = nth j faces 0.
  Proof.
    intro Hj. destruct (argsort_inv (map Z.of_nat IA) j) as [Hlt Hinv].
    - rewrite map_length, sc_IA_len. apply Permutation_map, HIA.
    - rewrite map_length, sc_IA_len. exact Hj.
    - fold IC in Hlt, Hinv. rewrite map_length, sc_IA_len in Hlt. split; [exact Hlt|].
      unfold sf. rewrite take_nth by (rewrite sc_IA_len; exact Hlt). f_equal.
      apply Nat2Z.inj. rewrite <- Hinv. symmetry. change 0 with (Z.of_nat 0). apply map_nth.
  Qed.

  (* the size test fails as soon as some listed face has more than one stored entry *)
  Lemma sc_err :
    (forall f, In f faces -> (1 <= cnt cf f)%nat) ->
    (exists f, In f faces /\ (2 <= cnt cf f)%nat) ->
    signs_cells_perm cf faces IA = Err ValueErr.
  Proof.
    intros Hall (f & Hf & H2). unfold signs_cells_perm. fold sf.
    destruct (Nat.eqb_spec (length (slice_rows cf sf)) (length faces)) as [E|_]; [|reflexivity].
    rewrite slice_length, sc_sf_perm in E.
    rewrite (proj1 (proj2 (list_sum_eq_length (cnt cf) faces Hall)) E f Hf) in H2. lia.
  Qed.

  Lemma sc_ok :
    (forall f, In f faces -> cnt cf f = 1%nat) ->
    exists sgn ci, signs_cells_perm cf faces IA = Ok (sgn, ci) /\ length sgn = n /\ length ci = n /\
      forall j, (j < n)%nat -> In (nth j faces 0, nth j ci 0, nth j sgn 0) cf.
  Proof.
    intro H1.
    assert (forall f, In f sf -> cnt cf f = 1%nat) as H1'
        by (intros f Hf; apply H1, (Permutation_in _ sc_sf_perm), Hf).
    assert (length sf = n) as Lsf by apply (Permutation_length sc_sf_perm).
    assert (length IC = n) as LC by (unfold IC; rewrite argsort_length, map_length; apply sc_IA_len).
    destruct (slice_rows_one cf sf H1') as [Hlen _].
    unfold signs_cells_perm. fold IC. fold sf. fold n. rewrite Hlen, Lsf, Nat.eqb_refl. cbn [negb].
    do 2 eexists. split; [reflexivity|]. rewrite !take_length. do 2 (split; [exact LC|]).
    intros j Hj. destruct (sc_IC j Hj) as [Hk Hsf]. rewrite <- Lsf in Hk.
    destruct (slice_sorted_nth cf sf _ H1' Hk) as [Hi Hin]. rewrite Hsf in Hin.
    rewrite !(take_nth _ IC j), !take_nth by (rewrite ?argsort_length, ?map_length; lia).
    rewrite (nth_map_lt e_v _ _ (0, 0, 0) 0), (nth_map_lt e_c _ _ (0, 0, 0) 0) by exact Hi.
    exact Hin.
  Qed.
End SignsCells.

(* for well-formed incidences: one stored entry = one adjacent cell, and the entry found is the
   only one of its face *)
Lemma signs_cells_perm_spec nf nc cf faces IA : wf nf nc cf ->
  Permutation IA (seq 0 (length faces)) ->
  (forall f, In f faces -> 0 <= f < Z.of_nat nf) ->
  ((forall f, In f faces -> one_adjacent cf f) ->
     exists sgn ci, signs_cells_perm cf faces IA = Ok (sgn, ci) /\
       length sgn = length faces /\ length ci = length faces /\
       forall j c v, (j < length faces)%nat -> In (nth j faces 0, c, v) cf ->
                     nth j ci 0 = c /\ nth j sgn 0 = v) /\
  ((exists f, In f faces /\ ~ one_adjacent cf f) -> signs_cells_perm cf faces IA = Err ValueErr).
Proof.
  intros Hwf HIA Hrange. pose proof (wf_keys nf nc cf Hwf) as Hk. split.
  - intro Hb.
    assert (forall f, In f faces -> cnt cf f = 1%nat) as H1.
    { intros f Hf. apply (cnt_one_iff cf f Hk), Hb, Hf. }
    destruct (sc_ok cf faces IA HIA H1) as (sgn & ci & E & L1 & L2 & Hin).
    exists sgn, ci. do 3 (split; [assumption|]). intros j c v Hj Hc.
    pose proof (cnt_one_unique cf _ _ _ (H1 _ (nth_In _ _ Hj)) (Hin j Hj) Hc eq_refl eq_refl) as E2.
    injection E2. auto.
  - intros (f & Hf & Hno). apply (sc_err cf faces IA HIA).
    + intros g Hg. destruct (wf_cnt _ _ _ g Hwf (Hrange g Hg)); lia.
    + exists f. split; auto. destruct (wf_cnt _ _ _ f Hwf (Hrange f Hf)) as [E|E]; [|lia].
      destruct Hno. apply (cnt_one_iff cf f Hk), E.
Qed.

Lemma in_range_iff nf f : in_range nf f = true <-> - Z.of_nat nf <= f < Z.of_nat nf.
Proof. unfold in_range. rewrite andb_true_iff, Z.leb_le, Z.ltb_lt. reflexivity. Qed.

Lemma wrap_range nf f : - Z.of_nat nf <= f < Z.of_nat nf -> 0 <= wrap nf f < Z.of_nat nf.
Proof. intro H. unfold wrap. destruct (Z.ltb_spec f 0); lia. Qed.

Lemma signs_cells_idx_out nf cf faces :
  (exists f, In f faces /\ ~ (- Z.of_nat nf <= f < Z.of_nat nf)) ->
  signs_cells_idx nf cf faces = Err2 IndexErr2.
Proof.
  intros (f & Hf & Hout). unfold signs_cells_idx.
  destruct (forallb (in_range nf) faces) eqn:E; [|reflexivity].
  destruct Hout. rewrite forallb_forall in E. apply in_range_iff, E, Hf.
Qed.

Lemma signs_cells_idx_in nf cf faces :
  (forall f, In f faces -> - Z.of_nat nf <= f < Z.of_nat nf) ->
  signs_cells_idx nf cf faces
  = match signs_cells_perm cf (map (wrap nf) faces) (argsort faces) with
    | Ok r => Ok2 r
    | Err _ => Err2 ValueErr2
    end.
Proof.
  intro Hin. unfold signs_cells_idx.
  rewrite (proj2 (forallb_forall _ _)) by (intros f Hf; apply in_range_iff, Hin, Hf). reflexivity.
Qed.

Definition pm_valid (nf : nat) (pm : list (list Z)) : Prop :=
  length pm = 2%nat /\ concat pm <> [] /\ forall i, In i (concat pm) -> 0 <= i < Z.of_nat nf.

Lemma fold_max_lt l n : forall a, fold_left Z.max l a < n <-> Forall (fun x => x < n) (a :: l).
Proof.
  induction l as [|b l IH]; intro a; cbn [fold_left].
  - rewrite Forall_cons_iff, Forall_nil_iff. tauto.
  - rewrite IH, !Forall_cons_iff, Z.max_lub_lt_iff. tauto.
Qed.

Lemma fold_min_ge l n : forall a, n <= fold_left Z.min l a <-> Forall (fun x => n <= x) (a :: l).
Proof.
  induction l as [|b l IH]; intro a; cbn [fold_left].
  - rewrite Forall_cons_iff, Forall_nil_iff. tauto.
  - rewrite IH, !Forall_cons_iff, Z.min_glb_iff. tauto.
Qed.

Lemma updb_length l : forall i x, length (updb l i x) = length l.
Proof. induction l; intros [|i] x; cbn; auto. Qed.

Lemma nth_updb_same l : forall i x d, (i < length l)%nat -> nth i (updb l i x) d = x.
Proof. induction l; intros [|i] x d H; cbn in *; try lia; auto. apply IHl. lia. Qed.

Lemma nth_updb_other l : forall i j x d, i <> j -> nth j (updb l i x) d = nth j l d.
Proof. induction l; intros [|i] [|j] x d H; cbn; auto; congruence. Qed.

Lemma clear_length flat : forall tag,
  length (fold_left (fun t i => updb t (Z.to_nat i) false) flat tag) = length tag.
Proof. induction flat as [|i flat IH]; intro tag; cbn; [|rewrite IH, updb_length]; reflexivity. Qed.

Lemma clear_nth flat : forall tag f, (f < length tag)%nat -> (forall i, In i flat -> 0 <= i) ->
  nth f (fold_left (fun t i => updb t (Z.to_nat i) false) flat tag) false
  = nth f tag false && negb (existsb (Z.eqb (Z.of_nat f)) flat).
Proof.
  induction flat as [|i flat IH]; intros tag f Hf Hpos; cbn [fold_left existsb].
  - rewrite andb_true_r. reflexivity.
  - assert (0 <= i) as Hi by (apply Hpos; left; reflexivity).
    rewrite IH by (rewrite ?updb_length; auto; intros; apply Hpos; right; assumption).
    destruct (Z.eqb_spec (Z.of_nat f) i) as [E|E]; cbn [orb negb].
    + replace (Z.to_nat i) with f by lia. rewrite nth_updb_same, andb_false_r by exact Hf.
      reflexivity.
    + rewrite nth_updb_other by lia. reflexivity.
Qed.

(* the three tests of the code accept exactly the valid maps *)
Lemma set_periodic_cases tag nf pm :
  (pm_valid nf pm /\
   set_periodic tag nf pm
   = (Ok2 (fold_left (fun t i => updb t (Z.to_nat i) false) (concat pm) tag), true)) \/
  (~ pm_valid nf pm /\ set_periodic tag nf pm = (Err2 ValueErr2, false)).
Proof.
  unfold set_periodic, pm_valid.
  destruct (Nat.eqb_spec (length pm) 2) as [H2|H2]; cbn [negb]; [|right; tauto].
  destruct (concat pm) as [|a l] eqn:EF; [right; tauto|]. unfold maxZ, minZ.
  destruct (Z.leb_spec (Z.of_nat nf) (fold_left Z.max l a)) as [Hmax|Hmax].
  { right. split; [|reflexivity]. intros (_ & _ & Hr).
    apply Z.le_ngt in Hmax. apply Hmax, fold_max_lt, Forall_forall. intros i Hi. apply Hr, Hi. }
  destruct (Z.ltb_spec (fold_left Z.min l a) 0) as [Hmin|Hmin].
  { right. split; [|reflexivity]. intros (_ & _ & Hr).
    apply Z.lt_nge in Hmin. apply Hmin, fold_min_ge, Forall_forall. intros i Hi. apply Hr, Hi. }
  left. split; [|reflexivity]. split; [exact H2|]. split; [discriminate|].
  apply fold_max_lt in Hmax. apply fold_min_ge in Hmin. rewrite Forall_forall in Hmax, Hmin.
  intros i Hi. split; [apply Hmin|apply Hmax]; exact Hi.
Qed.

