(* C25 — proofs.  Part A: the face split on the incidence model.  Part B: soundness of
   the boolean conformity certificate with respect to its Prop-level reading. *)
From Coq Require Import List QArith Qabs Bool Arith ZArith Lia.
Import ListNotations.
From PP Require Import Lib.ListFacts Model.C29 Proofs.C29 Model.C25.
Open Scope Q_scope.

Definition tface (t : nat * nat * Z) : nat := fst (fst t).
Definition tcell (t : nat * nat * Z) : nat := snd (fst t).
Definition tsign (t : nat * nat * Z) : Z := snd t.

Lemma pos_nth : forall d f k, pos f d = Some k -> nth_error d k = Some f /\ (k < length d)%nat.
Proof.
  induction d as [|x r IH]; intros f k H; cbn [pos] in H; [discriminate|].
  destruct (f =? x)%nat eqn:E.
  - inversion H; subst. apply Nat.eqb_eq in E. subst. cbn. split; [reflexivity|lia].
  - destruct (pos f r) as [k'|] eqn:P; cbn in H; [|discriminate]. inversion H; subst.
    destruct (IH f k' P) as [H1 H2]. cbn. split; [exact H1|lia].
Qed.

Lemma pos_in : forall d f, In f d -> exists k, pos f d = Some k.
Proof.
  induction d as [|x r IH]; intros f H; [destruct H|]. cbn [pos].
  destruct (f =? x)%nat eqn:E; [exists 0%nat; reflexivity|].
  destruct H as [->|H]; [rewrite Nat.eqb_refl in E; discriminate|].
  destruct (IH f H) as [k P]. exists (S k). rewrite P. reflexivity.
Qed.

Lemma pos_none : forall d f, pos f d = None -> ~ In f d.
Proof.
  intros d f P H. destruct (pos_in d f H) as [k K]. congruence.
Qed.

Lemma nth_copy : forall (geom : list fgeom) d k f, nth_error d k = Some f ->
  nth (length geom + k) (geom ++ map (fun f0 => nth f0 geom gdef) d) gdef = nth f geom gdef.
Proof.
  intros geom d k f H.
  rewrite app_nth2_plus, (nth_map_lt _ d k 0%nat) by (apply nth_error_Some; congruence).
  rewrite (nth_error_nth d k 0%nat H). reflexivity.
Qed.

(* the new cell_faces of the Split branch *)
Definition relabel (nf0 : nat) (d : list nat) (left : nat -> bool) (cf : list (nat * nat * Z)) :=
  map (fun t => match pos (fst (fst t)) d with
                | Some k => if left (snd (fst t)) then ((nf0 + k)%nat, snd (fst t), snd t) else t
                | None => t
                end) cf.

Lemma ucc_split : forall g nf0 d left g2,
  update_cell_connectivity g nf0 d left = inr (g2, Split) ->
  g_cf g2 = relabel nf0 d left (g_cf g) /\ g_geom g2 = g_geom g /\ g_nf g2 = g_nf g /\
  g_tF g2 = g_tF g /\ g_tT g2 = g_tT g /\ g_tB g2 = g_tB g.
Proof.
  intros g nf0 d left g2 H. unfold update_cell_connectivity in H.
  destruct (_ || _); [inversion H|].
  destruct (negb _); [discriminate|]. destruct (negb _); [discriminate|].
  inversion H; subst. cbn. repeat split; reflexivity.
Qed.

(* A1: duplicate_faces appends exact copies of the geometry of the duplicated faces *)
Lemma dup_geometry : forall g fc g1 d k f,
  duplicate_faces g fc = (g1, d) -> length (g_geom g) = g_nf g ->
  nth_error d k = Some f ->
  nth (g_nf g + k) (g_geom g1) gdef = nth f (g_geom g) gdef /\
  (forall f', (f' < g_nf g)%nat -> nth f' (g_geom g1) gdef = nth f' (g_geom g) gdef) /\
  g_nf g1 = (g_nf g + length d)%nat /\ g_cf g1 = g_cf g.
Proof.
  intros g fc g1 d k f H L Hk. unfold duplicate_faces in H.
  destruct (filter (fun f0 => negb (has_tag g f0)) (usort (map snd fc))) as [|x r] eqn:E.
  - injection H as <- <-. destruct k; discriminate.
  - injection H as <- <-. cbn [g_geom g_nf g_cf]. split; [|split; [|split; reflexivity]].
    + rewrite <- L. exact (nth_copy (g_geom g) (x :: r) k f Hk).
    + intros f' Lf. rewrite app_nth1 by lia. reflexivity.
Qed.

(* A2: what the split does to the face-cell incidences *)
Lemma relabel_forward : forall nf0 d left cf f c s,
  In (f, c, s) cf ->
  (forall k, pos f d = Some k -> left c = true -> In ((nf0 + k)%nat, c, s) (relabel nf0 d left cf)) /\
  (pos f d = None \/ left c = false -> In (f, c, s) (relabel nf0 d left cf)).
Proof.
  intros nf0 d left cf f c s H. unfold relabel. split.
  - intros k P Lc. apply in_map_iff. exists (f, c, s). cbn [fst snd]. rewrite P, Lc. tauto.
  - intros Hc. apply in_map_iff. exists (f, c, s). cbn [fst snd]. split; [|exact H].
    destruct (pos f d) as [k|]; [|reflexivity]. destruct Hc as [Hc|Hc]; [discriminate|].
    rewrite Hc. reflexivity.
Qed.

Lemma relabel_backward : forall nf0 d left cf f' c s,
  (forall t, In t cf -> (tface t < nf0)%nat) ->
  In (f', c, s) (relabel nf0 d left cf) ->
  ((f' < nf0)%nat /\ In (f', c, s) cf /\ (In f' d -> left c = false)) \/
  (exists k f, f' = (nf0 + k)%nat /\ nth_error d k = Some f /\ In (f, c, s) cf /\ left c = true).
Proof.
  intros nf0 d left cf f' c s WF H. unfold relabel in H. apply in_map_iff in H.
  destruct H as [[[f0 c0] s0] [E Hin]]. cbn [fst snd] in E.
  pose proof (WF _ Hin) as Lf. unfold tface in Lf. cbn [fst] in Lf.
  destruct (pos f0 d) as [k|] eqn:P.
  - destruct (left c0) eqn:Lc; inversion E; subst.
    + right. exists k, f0. destruct (pos_nth _ _ _ P). tauto.
    + left. split; [exact Lf|]. split; [exact Hin|]. intros _. exact Lc.
  - inversion E; subst. left. split; [exact Lf|]. split; [exact Hin|].
    intro Hd. exfalso. apply (pos_none _ _ P Hd).
Qed.

(* the two faces of a duplicated pair keep neighbours on opposite sides, with the signs
   the undivided face had; on a well-formed grid (two neighbours of a face carry opposite
   signs) their outward normals sign * n are therefore opposite (same n by A1) *)
Lemma split_pair_opposite : forall nf0 d left cf k f c s c' s',
  (forall t, In t cf -> (tface t < nf0)%nat) ->
  (forall f c s c' s', In (f, c, s) cf -> In (f, c', s') cf -> c <> c' -> (s + s' = 0)%Z) ->
  nth_error d k = Some f -> NoDup d -> In f d ->
  In (f, c, s) (relabel nf0 d left cf) ->
  In ((nf0 + k)%nat, c', s') (relabel nf0 d left cf) ->
  left c = false /\ left c' = true /\ In (f, c, s) cf /\ In (f, c', s') cf /\ (s + s' = 0)%Z.
Proof.
  intros nf0 d left cf k f c s c' s' WF SG Hk ND Hf H1 H2.
  apply relabel_backward in H1; [|exact WF]. apply relabel_backward in H2; [|exact WF].
  destruct H1 as [[L1 [I1 N1]]|[k1 [f1 [E1 _]]]].
  2:{ exfalso. assert (f < nf0)%nat; [|lia].
      destruct H2 as [[L2 _]|[k2 [f2 [E2 [K2 [I2 _]]]]]]; [lia|].
      assert (k2 = k) by lia. subst. rewrite Hk in K2. inversion K2; subst.
      apply (WF _ I2). }
  destruct H2 as [[L2 _]|[k2 [f2 [E2 [K2 [I2 Lc2]]]]]]; [lia|].
  assert (k2 = k) by lia. subst k2. rewrite Hk in K2. inversion K2; subst f2.
  specialize (N1 Hf). split; [exact N1|]. split; [exact Lc2|]. split; [exact I1|]. split; [exact I2|].
  apply (SG f c s c' s' I1 I2). intro E. subst. congruence.
Qed.

Lemma filter_map_comm : forall {A} (p : A -> bool) (phi : A -> A) l,
  (forall x, p (phi x) = p x) -> filter p (map phi l) = map phi (filter p l).
Proof.
  intros A p phi l H. induction l as [|x r IH]; [reflexivity|]. cbn [map filter].
  rewrite H. destruct (p x); cbn [map]; rewrite IH; reflexivity.
Qed.

(* A3: every cell keeps its faces' geometry and signs (hence its volume and centre) *)
Lemma relabel_cells : forall nf0 d left geom0 cf c,
  length geom0 = nf0 ->
  (forall t, In t cf -> (tface t < nf0)%nat) ->
  let geom1 := geom0 ++ map (fun f => nth f geom0 gdef) d in
  map (fun t => (nth (tface t) geom1 gdef, tsign t))
      (filter (fun t => (tcell t =? c)%nat) (relabel nf0 d left cf)) =
  map (fun t => (nth (tface t) geom0 gdef, tsign t))
      (filter (fun t => (tcell t =? c)%nat) cf).
Proof.
  intros nf0 d left geom0 cf c L WF geom1. unfold relabel.
  rewrite filter_map_comm.
  2:{ intros [[f0 c0] s0]. unfold tcell. cbn [fst snd].
      destruct (pos f0 d); [destruct (left c0)|]; reflexivity. }
  rewrite map_map. apply map_ext_in. intros [[f0 c0] s0] Ht. apply filter_In in Ht.
  destruct Ht as [Ht _]. pose proof (WF _ Ht) as Lt. unfold tface in Lt. cbn [fst] in Lt.
  assert (Old : nth f0 geom1 gdef = nth f0 geom0 gdef)
    by (unfold geom1; rewrite app_nth1 by lia; reflexivity).
  unfold tface, tsign. cbn [fst snd].
  destruct (pos f0 d) as [k|] eqn:P; [destruct (left c0)|]; cbn [fst snd];
    [|rewrite Old; reflexivity..].
  (* the copy nf0 + k of face f0 = d[k] *)
  f_equal. unfold geom1. rewrite <- L. apply nth_copy, (pos_nth _ _ _ P).
Qed.

(* A4: the face-cell map couples every lower cell of a duplicated face to the face and
   to its copy, and to nothing else new *)
Lemma extend_fmap_spec : forall nf0 d fc c f',
  In (c, f') (extend_fmap nf0 d fc) <->
  In (c, f') fc \/ exists k f, f' = (nf0 + k)%nat /\ nth_error d k = Some f /\ In (c, f) fc.
Proof.
  intros nf0 d fc c f'. unfold extend_fmap. rewrite in_app_iff, in_flat_map. split.
  - intros [H|[[k f] [Hk H]]]; [left; exact H|right].
    apply in_map_iff in H. destruct H as [[c0 f0] [E H]]. apply filter_In in H.
    cbn [fst snd] in *. destruct H as [H Ef]. apply Nat.eqb_eq in Ef. subst f0.
    inversion E; subst. exists k, f. split; [reflexivity|]. split; [|exact H].
    apply (proj1 (in_indexed d k f)). exact Hk.
  - intros [H|[k [f [-> [Hk H]]]]]; [left; exact H|right].
    exists (k, f). split; [apply (proj2 (in_indexed d k f)); exact Hk|].
    apply in_map_iff. exists (c, f). cbn [fst snd]. split; [reflexivity|].
    apply filter_In. split; [exact H|]. cbn [snd]. apply Nat.eqb_refl.
Qed.

Definition QNear (x y : Q) : Prop := Qabs (x - y) <= ctol * (1 + Qabs y).

Inductive VNear : vec -> vec -> Prop :=
| VN_nil : VNear [] []
| VN_cons : forall x y a b, QNear x y -> VNear a b -> VNear (x :: a) (y :: b).

Definition VZero (a : vec) : Prop := Forall (fun x => Qabs x <= ctol) a.

Lemma qnear_sound : forall x y, qnear x y = true -> QNear x y.
Proof. intros x y H. apply Qle_bool_iff. exact H. Qed.

Lemma vnear_sound : forall a b, vnear a b = true -> VNear a b.
Proof.
  induction a as [|x a IH]; intros [|y b] H; cbn in H; try discriminate; [constructor|].
  apply andb_true_iff in H. destruct H as [H1 H2].
  constructor; [apply qnear_sound; exact H1|apply IH; exact H2].
Qed.

Lemma vzero_sound : forall a, vzero a = true -> VZero a.
Proof.
  induction a as [|x a IH]; intro H; [constructor|]. cbn in H.
  apply andb_true_iff in H. destruct H as [H1 H2].
  constructor; [apply Qle_bool_iff; exact H1|apply IH; exact H2].
Qed.

Definition LCellConf (sides : nat) (c : lcell) : Prop :=
  length (lc_faces c) = sides /\
  (forall f, In f (lc_faces c) ->
     VNear (hf_centre f) (lc_centre c) /\ QNear (hf_area f) (lc_vol c) /\
     hf_ncells f = 1%nat /\ hf_tag f = true) /\
  (sides = 2%nat -> exists f1 f2, lc_faces c = [f1; f2] /\ hf_id f1 <> hf_id f2 /\
                                  VZero (vadd (hf_nout f1) (hf_nout f2))).

Lemma lcell_sound : forall sides c, (sides = 1 \/ sides = 2)%nat ->
  lcell_ok sides c = true -> LCellConf sides c.
Proof.
  intros sides c Hs H. unfold lcell_ok in H.
  rewrite !andb_true_iff, forallb_forall, Nat.eqb_eq in H. destruct H as [[H1 H2] H3].
  split; [exact H1|]. split.
  - intros f Hf. specialize (H2 f Hf). rewrite !andb_true_iff, Nat.eqb_eq in H2.
    destruct H2 as [[[V A] N] T]. auto using vnear_sound, qnear_sound.
  - intro E. rewrite E in H1. destruct (lc_faces c) as [|f1 [|f2 [|f3 r]]]; try discriminate.
    apply andb_true_iff in H3. destruct H3 as [Z N]. exists f1, f2. split; [reflexivity|].
    split; [|apply vzero_sound; exact Z].
    intro E'. apply Nat.eqb_eq in E'. rewrite E' in N. discriminate.
Qed.

Definition MCellConf (cells : list lcell) (m : mcell) : Prop :=
  exists c f lc hf, mc_low m = [(c, 1)] /\ mc_face m = [(f, 1)] /\
    nth_error cells c = Some lc /\ In hf (lc_faces lc) /\ hf_id hf = f /\
    VNear (mc_centre m) (lc_centre lc) /\ QNear (mc_vol m) (lc_vol lc).

Definition MCellConf' (cells : list lcell) (m : mcell) : Prop :=
  exists c wc f wf lc hf, mc_low m = [(c, wc)] /\ wc == 1 /\ mc_face m = [(f, wf)] /\ wf == 1 /\
    nth_error cells c = Some lc /\ In hf (lc_faces lc) /\ hf_id hf = f /\
    VNear (mc_centre m) (lc_centre lc) /\ QNear (mc_vol m) (lc_vol lc).

Lemma mcell_sound : forall cells m, mcell_ok cells m = true -> MCellConf' cells m.
Proof.
  intros cells m H. unfold mcell_ok in H.
  destruct (mc_low m) as [|[c wc] [|? ?]] eqn:EL; try discriminate.
  destruct (mc_face m) as [|[f wf] [|? ?]] eqn:EF; try discriminate.
  destruct (nth_error cells c) as [lc|] eqn:EC; [|rewrite andb_false_r in H; discriminate].
  rewrite !andb_true_iff, !Qeq_bool_iff, existsb_exists in H.
  destruct H as [[W1 W2] [[(hf & Hin & Hid) Vc] Vv]]. apply Nat.eqb_eq in Hid.
  exists c, wc, f, wf, lc, hf. auto 10 using vnear_sound, qnear_sound.
Qed.

Definition IfaceConf (it : iface) : Prop :=
  (if_sides it = 1 \/ if_sides it = 2)%nat /\
  (forall c, In c (if_cells it) -> LCellConf (if_sides it) c) /\
  (forall m, In m (if_mortar it) -> MCellConf' (if_cells it) m) /\
  length (if_mortar it) = (if_sides it * length (if_cells it))%nat /\
  (forall p, In p (if_pts it) -> on_fracture (if_frac it) p = true).

Definition TagsConf (tagged coupled : list nat) : Prop := forall f, In f tagged <-> In f coupled.

Definition Conforming (d : mdgdata) : Prop :=
  (forall it, In it (md_ifaces d) -> IfaceConf it) /\
  (forall h, In h (md_hosts d) -> TagsConf (fst h) (snd h)) /\
  QNear (qsum (md_vols d)) (md_domain d).

Lemma tags_sound : forall a b, tags_ok a b = true -> TagsConf a b.
Proof.
  assert (M : forall f l, existsb (Nat.eqb f) l = true -> In f l).
  { intros f l H. apply existsb_exists in H. destruct H as [x [Hx E]].
    apply Nat.eqb_eq in E. subst. exact Hx. }
  intros a b H f. unfold tags_ok in H. rewrite andb_true_iff, !forallb_forall in H.
  destruct H as [H1 H2]. split; intro Hf; apply M; auto.
Qed.

Lemma iface_sound : forall it, iface_ok it = true -> IfaceConf it.
Proof.
  intros it H. unfold iface_ok in H. rewrite !andb_true_iff, !forallb_forall in H.
  destruct H as [[[[H1 H2] H3] H4] H5].
  assert (S : (if_sides it = 1 \/ if_sides it = 2)%nat).
  { apply orb_true_iff in H1. rewrite !Nat.eqb_eq in H1. exact H1. }
  split; [exact S|]. split; [|split; [|split]].
  - intros c Hc. apply lcell_sound; [exact S|apply H2; exact Hc].
  - intros m Hm. apply mcell_sound, H3, Hm.
  - unfold sides_ok in H4. rewrite !andb_true_iff, Nat.eqb_eq in H4. apply H4.
  - exact H5.
Qed.

Lemma conform_sound : forall d, conform d = true -> Conforming d.
Proof.
  intros d H. unfold conform in H. rewrite !andb_true_iff, !forallb_forall in H.
  destruct H as [[H1 H2] H3]. split; [|split].
  - intros it Hit. apply iface_sound, H1, Hit.
  - intros h Hh. apply tags_sound, (H2 h Hh).
  - apply qnear_sound, H3.
Qed.

Definition RequestConf (r : request) : Prop :=
  (forall m, In m (rq_meas r) -> QNear (qsum (fst m)) (snd m)) /\
  Forall2 (fun a b => QNear (fst a) (fst b) /\ QNear (snd a) (snd b)) (rq_span r) (rq_box r) /\
  rq_ngrids r = rq_nfracs r.

Lemma span_sound : forall a b, span_ok a b = true ->
  Forall2 (fun a b => QNear (fst a) (fst b) /\ QNear (snd a) (snd b)) a b.
Proof.
  induction a as [|x a IH]; intros [|y b] H; cbn in H; try discriminate; [constructor|].
  apply andb_true_iff in H. destruct H as [H H3]. apply andb_true_iff in H. destruct H as [H1 H2].
  constructor; [split; apply qnear_sound; assumption|apply IH; exact H3].
Qed.

Lemma request_sound : forall r, request_ok r = true -> RequestConf r.
Proof.
  intros r H. unfold request_ok in H. rewrite !andb_true_iff, forallb_forall, Nat.eqb_eq in H.
  destruct H as [[M Sp] N]. split; [|split; [apply span_sound; exact Sp|exact N]].
  intros m Hm. apply qnear_sound, M, Hm.
Qed.

Definition ExtentsConf (ext : list (list (Q * Q) * list (Q * Q))) : Prop :=
  forall e, In e ext ->
    Forall2 (fun a b => QNear (fst a) (fst b) /\ QNear (snd a) (snd b)) (fst e) (snd e).

Lemma extents_sound : forall ext, extents_ok ext = true -> ExtentsConf ext.
Proof.
  intros ext H e He. unfold extents_ok in H. rewrite forallb_forall in H. apply span_sound, H, He.
Qed.

Lemma qsum_r_eq : forall l, qsum_r l == qsum l.
Proof.
  induction l as [|x r IH]; [reflexivity|]. cbn [qsum_r qsum fold_right].
  fold (qsum_r r). fold (qsum r). rewrite Qred_correct, IH. reflexivity.
Qed.

Lemma qnear_eq : forall x x' y, x == x' -> qnear x y = qnear x' y.
Proof.
  intros x x' y E. unfold qnear. apply eq_true_iff_eq. rewrite !Qle_bool_iff, E. reflexivity.
Qed.

Lemma conform_f_eq : forall d, conform_f d = conform d.
Proof. intro d. unfold conform_f, conform. rewrite (qnear_eq _ _ _ (qsum_r_eq (md_vols d))). reflexivity. Qed.

Lemma request_ok_f_eq : forall r, request_ok_f r = request_ok r.
Proof.
  intro r. unfold request_ok_f, request_ok. f_equal. f_equal.
  induction (rq_meas r) as [|m l IH]; [reflexivity|]. cbn [forallb].
  rewrite IH, (qnear_eq _ _ _ (qsum_r_eq (fst m))). reflexivity.
Qed.

Lemma conform_req3_eq : forall d r ext, conform_req3 d r ext = conform_req2 d r ext.
Proof.
  intros d r ext. unfold conform_req3, conform_req2, conform_req.
  rewrite conform_f_eq, request_ok_f_eq. reflexivity.
Qed.

Definition IncidenceConf (inc : list (list nat * list nat)) : Prop :=
  forall p, In p inc -> TagsConf (fst p) (snd p).

Lemma incidence_sound : forall inc, incidence_ok inc = true -> IncidenceConf inc.
Proof.
  intros inc H p Hp. unfold incidence_ok in H. rewrite forallb_forall in H. apply tags_sound, H, Hp.
Qed.
