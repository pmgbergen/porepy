(* Facts about lists, sortedness and permutations that neither the standard library of Coq 8.16
   nor PP.Lib.ListFacts (exported from here) provides; shared by the proofs of C05, C06 and C07. *)
From Coq Require Import List Arith Lia Sorted Permutation.
Import ListNotations.
From PP Require Export Lib.ListFacts.

Section StronglySorted.
  Context {A : Type}.
  Implicit Types (R : A -> A -> Prop) (l : list A).

  Lemma SS_app R l1 l2 :
    StronglySorted R l1 -> StronglySorted R l2 ->
    (forall a b, In a l1 -> In b l2 -> R a b) -> StronglySorted R (l1 ++ l2).
  Proof.
    induction 1 as [|x l1 Hs IH Hf]; cbn; intros H2 H; auto.
    constructor; auto. apply Forall_app. split; auto. apply Forall_forall. auto.
  Qed.

  Lemma SS_app_inv R l1 l2 :
    StronglySorted R (l1 ++ l2) ->
    StronglySorted R l1 /\ StronglySorted R l2 /\ (forall a b, In a l1 -> In b l2 -> R a b).
  Proof.
    induction l1 as [|x l1 IH]; cbn; intro H.
    - repeat split; [constructor|exact H|intros a b []].
    - inversion H as [|? ? Hs Hf]; subst. apply Forall_app in Hf. destruct Hf as [Hf1 Hf2].
      destruct (IH Hs) as (H1 & H2 & H3). repeat split; auto; [constructor; auto|].
      rewrite Forall_forall in Hf2. intros a b [<-|Ha]; auto.
  Qed.

  Lemma SS_filter R p l : StronglySorted R l -> StronglySorted R (filter p l).
  Proof.
    induction 1 as [|a l Hs IH Hf]; cbn; [constructor|].
    destruct (p a); auto. constructor; auto. apply (incl_Forall (incl_filter p l) Hf).
  Qed.

  Lemma SS_weaken R R' l :
    StronglySorted R l -> (forall a b, In a l -> In b l -> R a b -> R' a b) ->
    StronglySorted R' l.
  Proof.
    induction 1 as [|a l Hs IH Hf]; intro H; constructor.
    - apply IH. intros x y Hx Hy. apply H; now right.
    - rewrite Forall_forall in *. intros x Hx. apply H; cbn; auto.
  Qed.

  Lemma SS_irrefl_NoDup R l : StronglySorted R l -> (forall a, ~ R a a) -> NoDup l.
  Proof.
    induction 1 as [|a l Hs IH Hf]; intro Hi; constructor; auto.
    rewrite Forall_forall in Hf. intro Hin. apply (Hi a). auto.
  Qed.
End StronglySorted.

Lemma SS_map {A B} (f : A -> B) (R : B -> B -> Prop) l :
  StronglySorted R (map f l) <-> StronglySorted (fun a b => R (f a) (f b)) l.
Proof.
  induction l as [|a l IH]; cbn; split; intro H; try constructor;
    inversion H as [|? ? Hs Hf]; subst.
  - now apply IH.
  - exact (proj1 (Forall_map f (R (f a)) l) Hf).
  - now apply IH.
  - exact (proj2 (Forall_map f (R (f a)) l) Hf).
Qed.

Lemma SS_seq a n : StronglySorted lt (seq a n).
Proof.
  revert a. induction n as [|n IH]; intro a; cbn; constructor; auto.
  apply Forall_forall. intros x Hx. apply in_seq in Hx. lia.
Qed.

Lemma SS_lt_le l : StronglySorted lt l -> StronglySorted le l.
Proof. intro H. apply (SS_weaken lt le l H). intros. lia. Qed.

Lemma sorted_perm_unique : forall l1 l2,
  StronglySorted le l1 -> StronglySorted le l2 -> Permutation l1 l2 -> l1 = l2.
Proof.
  induction l1 as [|a l1 IH]; intros [|b l2] H1 H2 HP;
    [reflexivity|now apply Permutation_nil in HP
    |now apply Permutation_sym, Permutation_nil in HP|].
  inversion H1 as [|? ? Hs1 Hf1]; subst. inversion H2 as [|? ? Hs2 Hf2]; subst.
  rewrite Forall_forall in Hf1, Hf2.
  assert (a = b).
  { destruct (Permutation_in _ (Permutation_sym HP) (or_introl eq_refl)) as [|Hb]; auto.
    destruct (Permutation_in _ HP (or_introl eq_refl)) as [|Ha]; auto.
    specialize (Hf1 b Hb). specialize (Hf2 a Ha). lia. }
  subst b. f_equal. apply IH; auto. now apply Permutation_cons_inv in HP.
Qed.

Lemma concat_filter_incl {A B} (f : A -> list B) p l :
  incl (concat (map f (filter p l))) (concat (map f l)).
Proof.
  intros x Hx. apply in_concat in Hx. destruct Hx as (b & Hb & Hx). apply in_map_iff in Hb.
  destruct Hb as (c & <- & Hc). apply filter_In in Hc. apply in_concat. exists (f c).
  split; [apply in_map; tauto|exact Hx].
Qed.

Lemma SS_concat_filter {A B} (R : B -> B -> Prop) (f : A -> list B) p : forall l,
  StronglySorted R (concat (map f l)) -> StronglySorted R (concat (map f (filter p l))).
Proof.
  induction l as [|a r IH]; cbn; intro H; auto.
  apply SS_app_inv in H. destruct H as (H1 & H2 & H3).
  destruct (p a); cbn; auto. apply SS_app; auto.
  intros x y Hx Hy. apply H3; auto. now apply (concat_filter_incl f p r).
Qed.

Lemma NoDup_map_inj {A B} (f : A -> B) l a b :
  NoDup (map f l) -> In a l -> In b l -> f a = f b -> a = b.
Proof.
  induction l as [|x l IH]; cbn; intros Hnd Ha Hb E; [contradiction|].
  inversion Hnd as [|? ? Hn Hnd']; subst.
  destruct Ha as [->|Ha], Hb as [->|Hb]; auto; exfalso; apply Hn;
    [rewrite E|rewrite <- E]; now apply in_map.
Qed.

Lemma NoDup_map_of_inj {A B} (f : A -> B) l :
  NoDup l -> (forall a b, In a l -> In b l -> f a = f b -> a = b) -> NoDup (map f l).
Proof.
  induction 1 as [|x l Hn Hnd IH]; intro Hi; cbn; constructor.
  - intro Hin. apply in_map_iff in Hin. destruct Hin as (y & E & Hy).
    assert (y = x) by (apply Hi; cbn; auto). now subst.
  - apply IH. intros a b Ha Hb. apply Hi; now right.
Qed.

Lemma NoDup_map_filter {A B} (f : A -> B) p l : NoDup (map f l) -> NoDup (map f (filter p l)).
Proof.
  induction l as [|a l IH]; cbn; intro H; auto. inversion H as [|? ? Hn Hnd]; subst.
  destruct (p a); cbn; auto. constructor; auto.
  intro Hin. apply Hn. apply in_map_iff in Hin. destruct Hin as (y & <- & Hy).
  apply filter_In in Hy. apply in_map. tauto.
Qed.

Lemma NoDup_map_factor {A B C} (f : A -> B) (h : B -> C) l :
  NoDup (map (fun x => h (f x)) l) -> NoDup (map f l).
Proof. rewrite <- (map_map f h). apply NoDup_map_inv. Qed.

Lemma NoDup_app' {A} (l1 l2 : list A) :
  NoDup l1 -> NoDup l2 -> (forall x, In x l1 -> In x l2 -> False) -> NoDup (l1 ++ l2).
Proof.
  induction 1 as [|a l1 Hn Hnd IH]; cbn; intros H2 H; auto. constructor.
  - rewrite in_app_iff. intros [Hin|Hin]; [auto|apply (H a); auto].
  - apply IH; auto. intros x Hx. apply H. auto.
Qed.

Lemma filter_nil {A} (p : A -> bool) l : (forall x, In x l -> p x = false) -> filter p l = [].
Proof.
  induction l as [|a l IH]; cbn; intro H; auto. rewrite (H a) by auto. auto.
Qed.

Lemma filter_key_unique {A} (f : A -> nat) l x :
  NoDup (map f l) -> In x l -> filter (fun y => Nat.eqb (f y) (f x)) l = [x].
Proof.
  induction l as [|w r IH]; cbn; intros Hnd Hin; [contradiction|].
  inversion Hnd as [|? ? Hn Hnd']; subst. destruct Hin as [->|Hin].
  - rewrite Nat.eqb_refl. f_equal. apply filter_nil. intros y Hy. apply Nat.eqb_neq.
    intro E. apply Hn. rewrite <- E. now apply in_map.
  - destruct (Nat.eqb_spec (f w) (f x)) as [E|]; auto.
    exfalso. apply Hn. rewrite E. now apply in_map.
Qed.

Lemma flat_map_nil {A B} (l : list A) : flat_map (fun _ => @nil B) l = [].
Proof. induction l; auto. Qed.

Lemma flat_map_filter {A B} (p : A -> bool) (h : A -> B) l :
  flat_map (fun x => if p x then [h x] else []) l = map h (filter p l).
Proof. induction l as [|a l IH]; cbn; auto. destruct (p a); cbn; now rewrite IH. Qed.

Lemma filter_map_comm {A B} (f : A -> B) p l :
  filter p (map f l) = map f (filter (fun x => p (f x)) l).
Proof. induction l as [|a l IH]; cbn; auto. destruct (p (f a)); cbn; now rewrite IH. Qed.

Lemma existsb_negb {A} (p : A -> bool) l : existsb (fun x => negb (p x)) l = negb (forallb p l).
Proof. induction l as [|x r IH]; cbn; auto. rewrite IH. now destruct (p x). Qed.

Lemma length_concat {A} (ls : list (list A)) :
  length (concat ls) = list_sum (map (@length A) ls).
Proof. induction ls as [|l r IH]; cbn; auto. now rewrite app_length, IH. Qed.

Lemma Permutation_concat_map {A B} (f : A -> list B) l1 l2 :
  Permutation l1 l2 -> Permutation (concat (map f l1)) (concat (map f l2)).
Proof.
  induction 1; cbn; auto.
  - now apply Permutation_app_head.
  - rewrite !app_assoc. apply Permutation_app_tail, Permutation_app_comm.
  - eapply perm_trans; eauto.
Qed.

Lemma combine_app {A B} (l1 l2 : list A) (m1 m2 : list B) :
  length l1 = length m1 -> combine (l1 ++ l2) (m1 ++ m2) = combine l1 m1 ++ combine l2 m2.
Proof.
  revert m1. induction l1 as [|a l1 IH]; intros [|b m1] H; cbn in *; try discriminate; auto.
  f_equal. apply IH. lia.
Qed.

Lemma map_eq_nth {A B} (f : A -> B) : forall l l',
  length l' = length l ->
  (forall k v, nth_error l k = Some v -> nth_error l' k = Some (f v)) -> map f l = l'.
Proof.
  induction l as [|a l IH]; intros [|b l'] Hl H; try discriminate; auto.
  cbn. f_equal.
  - specialize (H 0 a eq_refl). now injection H.
  - apply IH; [now injection Hl|]. intros k v Hk. apply (H (S k) v Hk).
Qed.

Lemma firstn_add {A} : forall p q (y : list A),
  firstn (p + q) y = firstn p y ++ firstn q (skipn p y).
Proof.
  induction p as [|p IH]; intros q [|a y]; cbn; auto.
  - now rewrite firstn_nil.
  - now rewrite IH.
Qed.

Lemma skipn_add {A} : forall p q (y : list A), skipn q (skipn p y) = skipn (p + q) y.
Proof. induction p as [|p IH]; intros q [|a y]; cbn; auto using skipn_nil. Qed.

Lemma last_seq a n : last (seq a (S n)) 0 = a + n.
Proof.
  rewrite seq_S, last_last. reflexivity.
Qed.

Lemma map_nth_map {A B} (f : A -> B) d l :
  map (fun i => nth i (map f l) d) (seq 0 (length l)) = map f l.
Proof. rewrite <- (map_length f l). apply map_nth_seq. Qed.
