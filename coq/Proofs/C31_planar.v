(* C31 — points_are_planar with the normal computed by compute_normal: exactly coplanar
   point sets are accepted (or rejected by compute_normal's own errors). *)
From Coq Require Import List QArith Qabs Bool ZArith Arith Lia Lqa.
Import ListNotations.
From PP Require Import Model.C28 Model.C31 Proofs.C28.
Open Scope Q_scope.

Definition nonzero3 (m : v3) : Prop :=
  ~ (fst (fst m) == 0 /\ snd (fst m) == 0 /\ snd m == 0).

Lemma dot3_self_pos : forall m, nonzero3 m -> 0 < dot3 m m.
Proof.
  intros [[x y] z]. unfold nonzero3, dot3. cbn [fst snd]. intro H.
  destruct (Qeq_dec x 0), (Qeq_dec y 0), (Qeq_dec z 0); nra.
Qed.

(* three vectors orthogonal to a non-zero vector have zero triple product: by Cramer's rule
   det(a,b,c) m = (m.a) b x c + (m.b) c x a + (m.c) a x b, taken along m *)
Lemma det_perp : forall m a b c, nonzero3 m ->
  dot3 m a == 0 -> dot3 m b == 0 -> dot3 m c == 0 -> dot3 (crs3 a b) c == 0.
Proof.
  intros m a b c Hm Ha Hb Hc. pose proof (dot3_self_pos m Hm) as P.
  assert (E : dot3 (crs3 a b) c * dot3 m m
              == dot3 m a * dot3 (crs3 b c) m + dot3 m b * dot3 (crs3 c a) m
                 + dot3 m c * dot3 (crs3 a b) m).
  { destruct m as [[m0 m1] m2], a as [[a0 a1] a2], b as [[b0 b1] b2], c as [[c0 c1] c2].
    unfold dot3, crs3. ring. }
  rewrite Ha, Hb, Hc in E. nra.
Qed.

Definition nlen {A} (l : list A) : Q := inject_Z (Z.of_nat (length l)).

Lemma nlen_cons : forall {A} (x : A) l, nlen (x :: l) == nlen l + 1.
Proof.
  intros A x l. unfold nlen. cbn [length]. rewrite Nat2Z.inj_succ. unfold Z.succ.
  rewrite inject_Z_plus. reflexivity.
Qed.

Lemma nlen_pos : forall {A} (l : list A), l <> [] -> 0 < nlen l.
Proof.
  intros A [|x l] H; [contradiction|]. unfold nlen. cbn [length].
  change 0 with (inject_Z 0). rewrite <- Zlt_Qlt. lia.
Qed.

Lemma dot_sum3 : forall m k pts,
  (forall p, In p pts -> dot3 m p == k) -> dot3 m (sum3 pts) == nlen pts * k.
Proof.
  intros [[m0 m1] m2] k pts. induction pts as [|[[x y] z] r IH]; intro H.
  - unfold nlen. cbn. ring.
  - assert (Hp := H (x, y, z) (or_introl eq_refl)).
    specialize (IH (fun p Hin => H p (or_intror Hin))). rewrite nlen_cons.
    cbn [sum3 fold_right]. fold (sum3 r). destruct (sum3 r) as [[sx sy] sz].
    unfold dot3 in *. lra.
Qed.

Lemma dot_mean3 : forall m k pts, pts <> [] ->
  (forall p, In p pts -> dot3 m p == k) -> dot3 m (mean3 pts) == k.
Proof.
  intros m k pts Hne H. pose proof (dot_sum3 m k pts H) as S. pose proof (nlen_pos pts Hne) as P.
  unfold mean3. destruct (sum3 pts) as [[sx sy] sz]. fold (nlen pts).
  destruct m as [[m0 m1] m2]. unfold dot3 in *.
  assert (E : m0 * (sx / nlen pts) + m1 * (sy / nlen pts) + m2 * (sz / nlen pts)
              == (m0 * sx + m1 * sy + m2 * sz) / nlen pts) by (field; lra).
  rewrite E, S. field. lra.
Qed.

Lemma dot_sub3 : forall m a b, dot3 m (sub3 a b) == dot3 m a - dot3 m b.
Proof. intros [[m0 m1] m2] [[a0 a1] a2] [[b0 b1] b2]. unfold dot3, sub3. ring. Qed.

Lemma dot3_comm : forall a b, dot3 a b == dot3 b a.
Proof. intros [[a0 a1] a2] [[b0 b1] b2]. unfold dot3. ring. Qed.

Lemma sumsq_zero : forall (g : v3 -> Q) pts,
  (forall p, In p pts -> g p == 0) ->
  fold_right (fun p acc => g p * g p + acc) 0 pts == 0.
Proof.
  intros g pts. induction pts as [|p r IH]; intro H; cbn [fold_right]; [reflexivity|].
  rewrite (H p (or_introl eq_refl)), (IH (fun q Hq => H q (or_intror Hq))). ring.
Qed.

Lemma dot3_sq_nonneg : forall n, 0 <= dot3 n n.
Proof. intros [[a b] c]. unfold dot3. nra. Qed.

(* what compute_normal returns: ValueError exactly for fewer than three points; a normal is
   zero or the cross product of two centred points (the first possibly replaced by zero) *)
Lemma compute_normal_cases : forall tol pts,
  let v := map (fun p => sub3 p (mean3 pts)) pts in
  match compute_normal tol pts with
  | NValueErr => (length pts <= 2)%nat
  | NRuntimeErr => (2 < length pts)%nat
  | NOk n => (2 < length pts)%nat /\
             (n = (0, 0, 0) \/
              exists a b, (In a v \/ a = (0, 0, 0)) /\ In b v /\ n = crs3 a b)
  end.
Proof.
  intros tol pts v. unfold compute_normal.
  destruct (Nat.leb_spec (length pts) 2) as [L | L]; [exact L|]. cbv zeta. fold v.
  set (v1 := nth _ v (0, 0, 0)). set (crosses := map (fun w => crs3 v1 w) v).
  set (normal := nth _ crosses (0, 0, 0)).
  assert (HN : normal = (0, 0, 0) \/
               exists a b, (In a v \/ a = (0, 0, 0)) /\ In b v /\ normal = crs3 a b).
  { destruct (nth_in_or_default (argmax_list (map (fun w => dot3 w w) crosses)) crosses (0, 0, 0))
      as [Hc | Hc]; [right|left; exact Hc].
    apply in_map_iff in Hc. destruct Hc as (w & Ew & Hw). exists v1, w.
    split; [|split; [exact Hw|symmetry; exact Ew]].
    destruct (nth_in_or_default (argmax_list (map (fun w => dot3 w w) v)) v (0, 0, 0));
      [left|right]; assumption. }
  clearbody normal. destruct normal as [[n0 n1] n2].
  destruct (_ && _ && _); [exact L|split; assumption].
Qed.

(* points in a common plane m.p = k (m <> 0): whatever normal compute_normal picks, the
   planarity test accepts *)
Lemma planar_auto_accepts : forall tn tol pts m k,
  nonzero3 m -> (forall p, In p pts -> dot3 m p == k) ->
  match points_are_planar_auto tn tol pts with POk b => b = true | _ => True end.
Proof.
  intros tn tol pts m k Hm Hp. unfold points_are_planar_auto.
  pose proof (compute_normal_cases tn pts) as C.
  destruct (compute_normal tn pts) as [n| |]; [|exact I ..]. destruct C as [L HN].
  assert (Hne : pts <> []) by (intro E; subst pts; cbn in L; lia).
  set (c := mean3 pts) in *.
  assert (Hv : forall w, In w (map (fun p => sub3 p c) pts) \/ w = (0, 0, 0) -> dot3 m w == 0).
  { intros w [Hin | ->].
    - apply in_map_iff in Hin. destruct Hin as [p [<- Hin]].
      rewrite dot_sub3, (Hp p Hin). unfold c. rewrite (dot_mean3 m k pts Hne Hp). ring.
    - destruct m as [[m0 m1] m2]. unfold dot3. ring. }
  assert (HNp : forall p, In p pts -> dot3 n (sub3 p c) == 0).
  { intros p Hin.
    assert (Hpc : dot3 m (sub3 p c) == 0)
      by (apply Hv; left; apply (in_map (fun p => sub3 p c)); exact Hin).
    destruct HN as [-> | (a & b & Ha & Hb & ->)].
    - destruct (sub3 p c) as [[x y] z]. unfold dot3. ring.
    - exact (det_perp m a b (sub3 p c) Hm (Hv a Ha) (Hv b (or_introl Hb)) Hpc). }
  unfold points_are_planar. cbv zeta. fold c. apply Qle_bool_iff.
  rewrite (sumsq_zero (fun p => dot3 n (sub3 p c)) pts HNp).
  pose proof (dot3_sq_nonneg n). nra.
Qed.

Lemma planar_auto_too_few : forall tn tol pts,
  (length pts <= 2)%nat <-> points_are_planar_auto tn tol pts = PValueErr.
Proof.
  intros tn tol pts. unfold points_are_planar_auto.
  pose proof (compute_normal_cases tn pts) as C.
  destruct (compute_normal tn pts); split; intro H;
    (discriminate || reflexivity || (cbv zeta in C; lia)).
Qed.
