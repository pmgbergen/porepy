(* C37 — the slicer model of invert_permuted_block_diag_matrix, entry by entry:
   to_block_form A rp cp has entries A[rp_i][cp_j]; from_block_form Bi rp cp has entries
   Bi[k][i] at (cp_k, rp_i); hence it inverts A whenever Bi inverts the block form, for
   ALL permutations rp, cp (no inverse index list needed). *)
From Coq Require Import List Arith Bool Lia Ring Permutation.
Import ListNotations.
From PP Require Import Lib.ListFacts Lib.Dense Proofs.C37_dense Model.C37.
From PP Require Model.C36 Proofs.C36.

Definition is_perm (n : nat) (p : list nat) : Prop :=
  length p = n /\ NoDup p /\ Forall (fun x => x < n) p.

Lemma is_perm_Permutation : forall n p, is_perm n p -> Permutation p (seq 0 n).
Proof.
  intros n p [L [ND F]]. apply NoDup_Permutation_bis; [exact ND|rewrite seq_length; lia|].
  intros x Hx. apply in_seq. rewrite Forall_forall in F. specialize (F x Hx). lia.
Qed.

Lemma is_perm_surj : forall n p a, is_perm n p -> a < n -> exists i, i < n /\ nth i p 0 = a.
Proof.
  intros n p a HP Ha. pose proof (is_perm_Permutation n p HP) as P.
  assert (Hin : In a p) by (apply (Permutation_in a (Permutation_sym P)); apply in_seq; lia).
  destruct (In_nth p a 0 Hin) as [i [Hi E]]. destruct HP as [L _]. exists i. split; [lia|exact E].
Qed.

Lemma is_perm_inj : forall n p i j, is_perm n p -> i < n -> j < n -> nth i p 0 = nth j p 0 -> i = j.
Proof.
  intros n p i j [L [ND _]] Hi Hj E. rewrite NoDup_nth in ND. apply ND; [lia|lia|exact E].
Qed.

Lemma is_perm_lt : forall n p i, is_perm n p -> i < n -> nth i p 0 < n.
Proof.
  intros n p i [L [_ F]] Hi. rewrite Forall_forall in F. apply F. apply nth_In. lia.
Qed.

Lemma is_permb_sound : forall n p, is_permb n p = true -> is_perm n p.
Proof.
  intros n p H. apply andb_true_iff in H. destruct H as [L S].
  apply Nat.eqb_eq in L. rewrite forallb_forall in S.
  assert (P : Permutation (seq 0 n) p).
  { apply NoDup_Permutation_bis; [apply seq_NoDup | rewrite seq_length; lia |].
    intros x Hx. specialize (S x Hx). apply existsb_exists in S.
    destruct S as [y [Hy E]]. apply Nat.eqb_eq in E. subst. exact Hy. }
  repeat split; [exact L | exact (Permutation_NoDup P (seq_NoDup n 0)) |].
  apply (Permutation_Forall P), Forall_forall. intros x Hx. apply in_seq in Hx. lia.
Qed.

Lemma upd_C36 {E} (l : list E) : forall p v, upd l p v = Model.C36.upd l p v.
Proof. induction l as [|x l IH]; intros [|p] v; cbn; try reflexivity. f_equal. apply IH. Qed.

Section Slicer.
  Variable T : Type.
  Variables (zero one : T) (add mul sub : T -> T -> T) (opp : T -> T).
  Hypothesis Rth : ring_theory zero one add mul sub opp eq.
  Add Ring Tring2 : Rth.

  Notation mget := (mget zero).
  Notation mm n := (mat_mul zero add mul n).
  Notation I n := (identity zero one n).
  Notation width := (width T).
  Notation sumT := (sum_list zero add).
  Notation tr n := (transpose zero n).

  Definition nn (n : nat) (X : list (list T)) : Prop := length X = n /\ width n X.

  Lemma nn_row : forall n X i, nn n X -> i < n -> length (nth i X []) = n.
  Proof. intros n X i [L W] Hi. apply (width_In T n X), nth_In; [exact W|lia]. Qed.

  Lemma mget_transpose : forall n M i j, i < n -> mget (tr n M) i j = mget M j i.
  Proof.
    intros n M i j Hi. unfold Dense.mget, Dense.transpose. rewrite nth_map_seq by exact Hi.
    rewrite <- (map_nth (fun r => nth i r zero) M [] j). destruct i; reflexivity.
  Qed.

  Lemma transpose_length : forall n M, length (tr n M) = n.
  Proof. intros n M. unfold Dense.transpose. rewrite map_length. apply seq_length. Qed.

  Lemma transpose_width : forall n M, length M = n -> width n (tr n M).
  Proof. intros n M <-. apply width_map. intros j _. apply map_length. Qed.

  Lemma mget_select : forall A p w i j, i < length p -> nth i p 0 < length A ->
    mget (select_rows zero A p w) i j = mget A (nth i p 0) j.
  Proof.
    intros A p w i j Hi Hp. unfold Dense.mget, select_rows.
    rewrite (nth_map_lt _ p i 0 []) by exact Hi.
    rewrite (nth_indep A (zeros zero w) []) by exact Hp. reflexivity.
  Qed.

  Lemma select_rows_shape : forall A p w, width w A -> shaped T (length p) w (select_rows zero A p w).
  Proof.
    intros A p w W. split; [apply map_length|].
    apply width_map. intros i _. apply width_nth, W.
  Qed.

  (* the range-indexed slicer application is the scatter of the ArraySlicer model *)
  Lemma scatter_rows_scatter : forall A p n w,
    scatter_rows zero A p n w = Model.C36.scatter (repeat (zeros zero w) n) p A.
  Proof.
    intros A p n w. unfold scatter_rows. generalize (repeat (zeros zero w) n). revert A.
    induction p as [|x p IH]; intros [|a A] base; try reflexivity.
    cbn [combine fold_left fst snd Model.C36.scatter]. rewrite upd_C36. apply IH.
  Qed.

  Lemma scatter_rows_shape : forall A p n, width n A -> nn n (scatter_rows zero A p n n).
  Proof.
    intros A p n W. rewrite scatter_rows_scatter. split.
    - rewrite Proofs.C36.scatter_length. apply repeat_length.
    - apply Proofs.C36.scatter_Forall; [|exact W]. apply Forall_forall. intros r Hr. apply repeat_spec in Hr. subst.
      apply repeat_length.
  Qed.

  Lemma mget_scatter : forall A p n i j, is_perm n p -> length A = n -> i < n ->
    mget (scatter_rows zero A p n n) (nth i p 0) j = mget A i j.
  Proof.
    intros A p n i j [L [ND F]] LA Hi. unfold Dense.mget. rewrite scatter_rows_scatter.
    rewrite Proofs.C36.scatter_nodup; [reflexivity | exact ND | lia | lia |].
    rewrite repeat_length. rewrite Forall_forall in F. apply F, nth_In. lia.
  Qed.

  Lemma mget_block_form : forall n A rp cp i j, is_perm n rp -> is_perm n cp -> length A = n ->
    i < n -> j < n -> mget (to_block_form zero n A rp cp) i j = mget A (nth i rp 0) (nth j cp 0).
  Proof.
    intros n A rp cp i j HR HC LA Hi Hj. unfold to_block_form.
    pose proof (is_perm_lt n rp i HR Hi) as Hri. pose proof (is_perm_lt n cp j HC Hj) as Hcj.
    destruct HR as [LR _]. destruct HC as [LC _].
    rewrite mget_select; [|lia|rewrite transpose_length; exact Hri].
    rewrite mget_transpose by exact Hri.
    rewrite mget_select; [|lia|rewrite transpose_length; exact Hcj].
    apply mget_transpose. exact Hcj.
  Qed.

  Lemma to_block_form_shape : forall n A rp cp, length rp = n -> length cp = n ->
    nn n (to_block_form zero n A rp cp).
  Proof.
    intros n A rp cp <- LC. apply select_rows_shape, transpose_width. rewrite <- LC. apply map_length.
  Qed.

  Lemma mget_from_block_form : forall n Bi rp cp k i, is_perm n rp -> is_perm n cp -> nn n Bi ->
    k < n -> i < n ->
    mget (from_block_form zero n Bi rp cp) (nth k cp 0) (nth i rp 0) = mget Bi k i.
  Proof.
    intros n Bi rp cp k i HR HC [LB WB] Hk Hi. unfold from_block_form.
    rewrite mget_scatter; [|exact HC|apply transpose_length|exact Hk].
    rewrite mget_transpose by exact Hk.
    rewrite mget_scatter; [|exact HR|apply transpose_length|exact Hi].
    apply mget_transpose. exact Hi.
  Qed.

  Lemma from_block_form_shape : forall n Bi rp cp, nn n Bi -> nn n (from_block_form zero n Bi rp cp).
  Proof.
    intros n Bi rp cp [LB _]. apply scatter_rows_shape, transpose_width.
    exact (proj1 (scatter_rows_shape _ rp n (transpose_width n Bi LB))).
  Qed.

  Lemma nth_vadd : forall u v j, j < length u -> j < length v ->
    nth j (vadd add u v) zero = add (nth j u zero) (nth j v zero).
  Proof.
    induction u as [|x u IH]; intros [|y v] j H1 H2; simpl in *; try lia.
    destruct j; [reflexivity|]. apply IH; lia.
  Qed.

  Lemma nth_vscale : forall a r j, j < length r -> nth j (vscale mul a r) zero = mul a (nth j r zero).
  Proof.
    intros a r j H. unfold Dense.vscale. apply (nth_map_lt (mul a) r j zero zero). exact H.
  Qed.

  Lemma nth_vecmat : forall p M r j, width p M -> length r = length M -> j < p ->
    nth j (vecmat zero add mul p r M) zero
    = sumT (map (fun k => mul (nth k r zero) (mget M k j)) (seq 0 (length M))).
  Proof.
    intros p. induction M as [|row M IH]; intros [|a r] j W L Hj; simpl in L; try lia.
    - apply nth_repeat.
    - destruct (width_cons T _ _ _ W) as [Hr WM].
      cbn [Dense.vecmat length seq map Dense.sum_list fold_right].
      rewrite nth_vadd, nth_vscale, IH by (rewrite ?vscale_length, ?vecmat_length; auto; lia).
      f_equal. rewrite <- seq_shift, map_map. reflexivity.
  Qed.

  Lemma mget_mm : forall n A B i j, nn n A -> nn n B -> i < n -> j < n ->
    mget (mm n A B) i j = sumT (map (fun k => mul (mget A i k) (mget B k j)) (seq 0 n)).
  Proof.
    intros n A B i j SA [LB WB] Hi Hj. unfold Dense.mget at 1. unfold Dense.mat_mul.
    rewrite (nth_map_lt _ A i [] []) by (destruct SA; lia).
    rewrite nth_vecmat, LB by (rewrite ?(nn_row n A i SA Hi); auto). reflexivity.
  Qed.

  Lemma mget_identity : forall n i j, i < n -> j < n ->
    mget (I n) i j = if Nat.eqb i j then one else zero.
  Proof.
    intros n i j Hi Hj. unfold Dense.mget, Dense.identity.
    rewrite nth_map_seq by exact Hi. unfold Dense.unit_row. rewrite nth_map_seq by exact Hj. reflexivity.
  Qed.

  Lemma sum_perm : forall l l' : list T, Permutation l l' -> sumT l = sumT l'.
  Proof.
    intros l l' P. induction P; cbn [Dense.sum_list fold_right] in *.
    - reflexivity.
    - f_equal. exact IHP.
    - ring.
    - etransitivity; eassumption.
  Qed.

  Lemma sum_reindex : forall n p (f : nat -> T), is_perm n p ->
    sumT (map (fun k => f (nth k p 0)) (seq 0 n)) = sumT (map f (seq 0 n)).
  Proof.
    intros n p f HP. pose proof (is_perm_Permutation n p HP) as P. destruct HP as [L _].
    rewrite <- (map_map (fun k => nth k p 0) f). rewrite <- L at 1. rewrite map_nth_seq.
    apply sum_perm. apply Permutation_map. exact P.
  Qed.

  Lemma mat_ext : forall n X Y, nn n X -> nn n Y ->
    (forall i j, i < n -> j < n -> mget X i j = mget Y i j) -> X = Y.
  Proof.
    intros n X Y SX SY H. apply nth_ext with (d := []) (d' := []); [destruct SX, SY; congruence|].
    intros i Hi. rewrite (proj1 SX) in Hi.
    apply nth_ext with (d := zero) (d' := zero); rewrite (nn_row n X i), ?(nn_row n Y i) by assumption;
      [reflexivity|].
    intros j Hj. apply H; assumption.
  Qed.

  Lemma mm_reindex : forall n U V U' V' p q,
    nn n U -> nn n V -> nn n U' -> nn n V' -> is_perm n p -> is_perm n q ->
    (forall i k, i < n -> k < n -> mget U (nth i p 0) (nth k q 0) = mget U' i k) ->
    (forall k i, k < n -> i < n -> mget V (nth k q 0) (nth i p 0) = mget V' k i) ->
    mm n U' V' = I n -> mm n U V = I n.
  Proof.
    intros n U V U' V' p q SU SV SU' SV' HP HQ HU HV E. apply (mat_ext n).
    - apply (shaped_mat_mul T zero add mul n n n); [apply SU|apply SV].
    - apply shaped_identity.
    - intros a b Ha Hb.
      destruct (is_perm_surj n p a HP Ha) as [i [Hi <-]], (is_perm_surj n p b HP Hb) as [i' [Hi' <-]].
      rewrite mget_mm, <- (sum_reindex n q _ HQ) by assumption.
      rewrite (map_ext_in _ (fun k => mul (mget U' i k) (mget V' k i'))).
      2:{ intros k Hk. apply in_seq in Hk. rewrite HU, HV by lia. reflexivity. }
      rewrite <- mget_mm, E, !mget_identity by (assumption || apply (is_perm_lt n p); assumption).
      destruct (Nat.eqb_spec i i') as [->|Hne]; [rewrite Nat.eqb_refl; reflexivity|].
      destruct (Nat.eqb_spec (nth i p 0) (nth i' p 0)) as [Heq|]; [|reflexivity].
      destruct (Hne (is_perm_inj n p i i' HP Hi Hi' Heq)).
  Qed.

  (* invert_permuted_block_diag_matrix at dense level: for all permutations rp, cp, if Bi is
     a two-sided inverse of the block form A[rp,:][:,cp], the mapped-back matrix is a
     two-sided inverse of A *)
  Theorem permuted_inverse : forall n A Bi rp cp,
    nn n A -> nn n Bi -> is_perm n rp -> is_perm n cp ->
    mm n (to_block_form zero n A rp cp) Bi = I n ->
    mm n Bi (to_block_form zero n A rp cp) = I n ->
    mm n A (from_block_form zero n Bi rp cp) = I n /\
    mm n (from_block_form zero n Bi rp cp) A = I n.
  Proof.
    intros n A Bi rp cp SA SB HR HC E1 E2.
    pose proof (to_block_form_shape n A rp cp (proj1 HR) (proj1 HC)) as SF.
    pose proof (from_block_form_shape n Bi rp cp SB) as SX.
    assert (HA : forall i k, i < n -> k < n ->
               mget A (nth i rp 0) (nth k cp 0) = mget (to_block_form zero n A rp cp) i k).
    { intros i k Hi Hk. symmetry. apply mget_block_form; auto. apply SA. }
    assert (HX : forall k i, k < n -> i < n ->
               mget (from_block_form zero n Bi rp cp) (nth k cp 0) (nth i rp 0) = mget Bi k i).
    { intros k i Hk Hi. apply mget_from_block_form; assumption. }
    split.
    - exact (mm_reindex n _ _ _ _ rp cp SA SX SF SB HR HC HA HX E1).
    - exact (mm_reindex n _ _ _ _ cp rp SX SA SB SF HC HR HX HA E2).
  Qed.
End Slicer.
