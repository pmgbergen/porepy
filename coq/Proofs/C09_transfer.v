(* C09 — instance-independence of the polymorphic model.  For two instances of the operations
   record and a map h between their carriers that commutes with every operation and preserves
   every comparison ([morph], a "homomorphism of instances"), every function of the model
   commutes with h.  Instantiated in Proofs/C09_QR.v with the exact rational instance
   (executable, Model/C09_ext.v) and the real instance (the one the theorems are about). *)
From Coq Require Import List ZArith Bool Arith Lia.
Import ListNotations.
From PP Require Import Model.C09 Model.C09_ext Proofs.C09_loop.

Section Morph.
  Variables (A B : Type) (OA : numops A) (OB : numops B) (h : A -> B).

  Record morph : Prop := {
    m_zero : h (n_zero A OA) = n_zero B OB;
    m_one : h (n_one A OA) = n_one B OB;
    m_milli : h (n_milli A OA) = n_milli B OB;
    m_tenth : h (n_tenth A OA) = n_tenth B OB;
    m_add : forall x y, h (n_add A OA x y) = n_add B OB (h x) (h y);
    m_sub : forall x y, h (n_sub A OA x y) = n_sub B OB (h x) (h y);
    m_mul : forall x y, h (n_mul A OA x y) = n_mul B OB (h x) (h y);
    m_abs : forall x, h (n_abs A OA x) = n_abs B OB (h x);
    m_leb : forall x y, n_leb B OB (h x) (h y) = n_leb A OA x y;
    m_ltb : forall x y, n_ltb B OB (h x) (h y) = n_ltb A OA x y;
    m_eqb : forall x y, n_eqb B OB (h x) (h y) = n_eqb A OA x y }.

  Hypothesis M : morph.

  Definition hargs (a : args A) : args B :=
    Build_args B (h (a_dt_init a)) (a_constant a)
      (option_map (fun p => (h (fst p), h (snd p))) (a_dt_min_max a))
      (a_iter_max a) (a_iter_low a) (a_iter_upp a) (h (a_under a)) (h (a_over a))
      (h (a_recomp_factor a)) (a_recomp_max a) (h (a_rtol a)) (h (a_atol a)).

  Definition hcfg (c : cfg A) : cfg B :=
    Build_cfg B (h (dt_init c)) (constant c) (h (dt_min c)) (h (dt_max c)) (iter_max c)
      (iter_low c) (iter_upp c) (h (under c)) (h (over c)) (h (recomp_factor c))
      (recomp_max c) (h (rtol c)) (h (atol c)).

  Definition hstate (s : state A) : state B :=
    Build_state B (h (time s)) (h (dt s)) (tidx s) (idx s) (recomp s) (about s).

  Definition hout (o : out A) : out B :=
    match o with
    | ONone => ONone | ODt x => ODt (h x) | OBool b => OBool b | OUnit => OUnit
    | OErr e => OErr e
    end.

  Definition hso (p : state A * out A) : state B * out B := (hstate (fst p), hout (snd p)).
  Definition hentry (p : event * state A * out A) : event * state B * out B :=
    (fst (fst p), hstate (snd (fst p)), hout (snd p)).

  Lemma h_last l d : last (map h l) (h d) = h (last l d).
  Proof. induction l as [|a [|b l] IH]; [reflexivity|reflexivity|exact IH]. Qed.

  Lemma h_hd l d : hd (h d) (map h l) = h (hd d l).
  Proof. destruct l; reflexivity. Qed.

  Lemma h_sget l i : sget B (map h l) i = option_map h (sget A l i).
  Proof.
    unfold sget. rewrite map_length.
    destruct (i <? 0)%Z; [destruct (i + Z.of_nat (length l) <? 0)%Z; [reflexivity|]|];
      apply nth_error_map.
  Qed.

  Lemma h_strictly_increasing l :
    strictly_increasing B OB (map h l) = strictly_increasing A OA l.
  Proof.
    induction l as [|a [|b l] IH]; [reflexivity|reflexivity|].
    change (n_ltb B OB (h a) (h b) && strictly_increasing B OB (map h (b :: l))
            = n_ltb A OA a b && strictly_increasing A OA (b :: l)).
    rewrite IH, (m_ltb M). reflexivity.
  Qed.

  Lemma h_existsb_neg l :
    existsb (fun t => n_ltb B OB t (n_zero B OB)) (map h l)
    = existsb (fun t => n_ltb A OA t (n_zero A OA)) l.
  Proof.
    induction l as [|a l IH]; [reflexivity|]. cbn [map existsb].
    rewrite IH, <- (m_zero M), (m_ltb M). reflexivity.
  Qed.

  Lemma h_pymin a b : pymin B OB (h a) (h b) = h (pymin A OA a b).
  Proof. unfold pymin. rewrite (m_ltb M). destruct (n_ltb A OA b a); reflexivity. Qed.

  Lemma h_resolve a final :
    resolve_min_max B OB (hargs a) (h final)
    = (h (fst (resolve_min_max A OA a final)), h (snd (resolve_min_max A OA a final))).
  Proof.
    unfold resolve_min_max, hargs; cbn [a_dt_min_max a_dt_init].
    destruct (a_dt_min_max a) as [[x y]|]; cbn [option_map fst snd]; [reflexivity|].
    rewrite <- (m_milli M), <- (m_tenth M), <- !(m_mul M), h_pymin. reflexivity.
  Qed.

  Lemma h_construct a sched :
    construct B OB (hargs a) (map h sched)
    = match construct A OA a sched with inl c => inl (hcfg c) | inr e => inr e end.
  Proof.
    unfold construct. rewrite map_length, h_existsb_neg, h_strictly_increasing.
    rewrite <- (m_zero M), <- (m_one M), h_last, h_resolve.
    cbn [hargs a_dt_init a_constant a_iter_max a_iter_low a_iter_upp a_under a_over
         a_recomp_factor a_recomp_max a_rtol a_atol fst snd].
    rewrite <- !(m_mul M), !(m_leb M), !(m_ltb M).
    repeat match goal with
           | |- (if ?b then _ else _) = match (if ?b then _ else _) with _ => _ end =>
               destruct b; [reflexivity|]
           end.
    reflexivity.
  Qed.

  Lemma h_init_state c sched :
    init_state B OB (hcfg c) (map h sched) = hstate (init_state A OA c sched).
  Proof.
    unfold init_state, hstate; cbn [time dt tidx idx recomp about hcfg dt_init].
    rewrite <- (m_zero M), h_hd. reflexivity.
  Qed.

  Lemma h_isclose c a b : isclose B OB (hcfg c) (h a) (h b) = isclose A OA c a b.
  Proof.
    unfold isclose; cbn [hcfg rtol atol].
    rewrite <- (m_sub M), <- !(m_abs M), <- (m_mul M), <- (m_add M), (m_leb M), (m_eqb M).
    reflexivity.
  Qed.

  Lemma h_final c sched s :
    final_time_reached B OB (hcfg c) (map h sched) (hstate s)
    = final_time_reached A OA c sched s.
  Proof.
    unfold final_time_reached, time_final; cbn [hstate time].
    rewrite <- (m_zero M), h_last, (m_ltb M), h_isclose. reflexivity.
  Qed.

  Lemma h_adapt_iterations c s it :
    adapt_iterations B OB (hcfg c) (hstate s) it
    = (hstate (fst (adapt_iterations A OA c s it)), snd (adapt_iterations A OA c s it)).
  Proof.
    unfold adapt_iterations. destruct it as [k|]; [|reflexivity].
    cbn [hcfg iter_low iter_upp over under hstate time dt tidx idx recomp about].
    destruct (k <=? iter_low c)%Z; [|destruct (iter_upp c <=? k)%Z];
      unfold set_dt, hstate; cbn [fst snd time dt tidx idx recomp about];
      rewrite ?(m_mul M); reflexivity.
  Qed.

  Lemma h_adapt_recomputation c s :
    adapt_recomputation B OB (hcfg c) (hstate s)
    = (hstate (fst (adapt_recomputation A OA c s)), snd (adapt_recomputation A OA c s)).
  Proof.
    unfold adapt_recomputation.
    cbn [hcfg recomp_max dt_min recomp_factor hstate time dt tidx idx recomp about].
    destruct (recomp s <? recomp_max c)%Z; [|reflexivity].
    rewrite (m_eqb M). destruct (n_eqb A OA (dt s) (dt_min c)); [reflexivity|].
    unfold hstate; cbn [fst snd time dt tidx idx recomp about].
    rewrite (m_sub M), (m_mul M). reflexivity.
  Qed.

  Lemma h_correct_min c s :
    correct_min B OB (hcfg c) (hstate s) = hstate (correct_min A OA c s).
  Proof.
    unfold correct_min; cbn [hcfg dt_min hstate dt]. rewrite (m_ltb M).
    destruct (n_ltb A OA (dt s) (dt_min c)); reflexivity.
  Qed.

  Lemma h_correct_max c s :
    correct_max B OB (hcfg c) (hstate s) = hstate (correct_max A OA c s).
  Proof.
    unfold correct_max; cbn [hcfg dt_max hstate dt]. rewrite (m_ltb M).
    destruct (n_ltb A OA (dt_max c) (dt s)); reflexivity.
  Qed.

  Lemma h_correct_schedule c sched s :
    correct_schedule B OB (hcfg c) (map h sched) (hstate s)
    = (hstate (fst (correct_schedule A OA c sched s)),
       snd (correct_schedule A OA c sched s)).
  Proof.
    unfold correct_schedule. cbn [hstate time dt tidx idx recomp about].
    rewrite h_sget, map_length. destruct (sget A sched (idx s)) as [st0|]; [|reflexivity].
    cbn [option_map]. rewrite h_isclose.
    (* after the choice of the scheduled time aimed at, both paths run the same code *)
    destruct ((idx s <? Z.of_nat (length sched) - 1)%Z && isclose A OA c (time s) st0);
      [rewrite h_sget; destruct (sget A sched (idx s + 1)) as [st1|]; [|reflexivity]|];
      cbn [option_map]; rewrite <- (m_add M), (m_ltb M), h_isclose;
      (destruct (n_ltb A OA _ (n_add A OA (time s) (dt s))); [|reflexivity]);
      (destruct (isclose A OA c (time s) _); [reflexivity|]);
      unfold hstate; cbn [fst snd time dt tidx idx recomp about]; rewrite (m_sub M);
      reflexivity.
  Qed.

  Lemma h_compute c sched s it re :
    compute_time_step B OB (hcfg c) (map h sched) (hstate s) it re
    = hso (compute_time_step A OA c sched s it re).
  Proof.
    unfold compute_time_step. rewrite h_final.
    destruct (negb re && final_time_reached A OA c sched s); [reflexivity|].
    change (constant (hcfg c)) with (constant c).
    destruct (constant c); [reflexivity|].
    (* both adaptations commute with h; from there on the two paths run the same code *)
    destruct re;
      [rewrite h_adapt_recomputation; destruct (adapt_recomputation A OA c s) as [s1 e]
      |rewrite h_adapt_iterations; destruct (adapt_iterations A OA c s it) as [s1 e]];
      cbn [fst snd]; (destruct e; [reflexivity|]);
      rewrite h_correct_min, h_correct_max, h_correct_schedule;
      destruct (correct_schedule A OA c sched _) as [s2 e2]; cbn [fst snd];
      destruct e2; reflexivity.
  Qed.

  Lemma h_increase_time s : increase_time B OB (hstate s) = hstate (increase_time A OA s).
  Proof.
    unfold increase_time, hstate; cbn [time dt tidx idx recomp about].
    rewrite (m_add M). reflexivity.
  Qed.

  Lemma h_stepped s :
    increase_time_index B (increase_time B OB (hstate s))
    = hstate (increase_time_index A (increase_time A OA s)).
  Proof. rewrite h_increase_time. reflexivity. Qed.

  Lemma h_do_call c sched s k :
    do_call B OB (hcfg c) (map h sched) (hstate s) k = hso (do_call A OA c sched s k).
  Proof.
    destruct k; cbn [do_call].
    - rewrite h_increase_time. reflexivity.
    - reflexivity.
    - rewrite h_final. reflexivity.
    - apply h_compute.
  Qed.

  Lemma h_run_calls c sched ks : forall s,
    run_calls B OB (hcfg c) (map h sched) (hstate s) ks
    = map hso (run_calls A OA c sched s ks).
  Proof.
    induction ks as [|k r IH]; intros s; [reflexivity|].
    cbn [run_calls]. rewrite h_do_call.
    destruct (do_call A OA c sched s k) as [s' o]. cbn [hso fst snd map].
    rewrite IH. reflexivity.
  Qed.

  Lemma h_cstep c sched s1 ev :
    cstep B OB (hcfg c) (map h sched) (hstate s1) ev = hso (cstep A OA c sched s1 ev).
  Proof.
    unfold cstep. change (constant (hcfg c)) with (constant c).
    destruct ev, (constant c); try reflexivity; apply h_compute.
  Qed.

  Lemma h_drive c sched evs : forall s,
    drive B OB (hcfg c) (map h sched) (hstate s) evs
    = (map hentry (fst (drive A OA c sched s evs)), snd (drive A OA c sched s evs)).
  Proof.
    induction evs as [|ev r IH]; intros s; pose proof (h_final c sched s) as HfB;
      destruct (final_time_reached A OA c sched s) eqn:Hf;
      try (rewrite !drive_final by assumption; reflexivity).
    { rewrite !drive_nil by assumption. reflexivity. }
    destruct (cstep A OA c sched (increase_time_index A (increase_time A OA s)) ev)
      as [s2 o] eqn:E.
    rewrite (drive_cons A OA c sched s ev r s2 o Hf E).
    rewrite (drive_cons B OB (hcfg c) (map h sched) (hstate s) ev r (hstate s2) (hout o) HfB)
      by (rewrite h_stepped, h_cstep, E; reflexivity).
    destruct o; cbn [hout]; try reflexivity;
      rewrite IH; destruct (drive A OA c sched s2 r); reflexivity.
  Qed.

  Lemma h_accepted tr : accepted B (map hentry tr) = map h (accepted A tr).
  Proof.
    induction tr as [|[[ev s] o] tr IH]; [reflexivity|].
    cbn [map hentry fst snd accepted]. destruct ev; [|exact IH].
    destruct o; cbn [hout hstate time map]; rewrite IH; reflexivity.
  Qed.

  Theorem h_simulate a sched evs :
    simulate B OB (hargs a) (map h sched) evs
    = match simulate A OA a sched evs with
      | inr e => inr e
      | inl (c, (tr, st)) => inl (hcfg c, (map hentry tr, st))
      end.
  Proof.
    unfold simulate. rewrite h_construct.
    destruct (construct A OA a sched) as [c|e]; [|reflexivity].
    rewrite h_init_state, h_drive.
    destruct (drive A OA c sched (init_state A OA c sched) evs) as [tr st]. reflexivity.
  Qed.
End Morph.

Section MorphExt.
  Variables (A B : Type) (OA : numops A) (OB : numops B) (XA : numext A) (XB : numext B)
            (h : A -> B).
  Hypothesis M : morph A B OA OB h.

  Record morph_ext : Prop := {
    m_div : forall x y, h (x_div A XA x y) = x_div B XB (h x) (h y);
    m_ceil : forall x, x_ceil B XB (h x) = x_ceil A XA x;
    m_ofZ : forall z, h (x_ofZ A XA z) = x_ofZ B XB z }.

  Hypothesis MX : morph_ext.

  Lemma h_arange_item start step i :
    arange_item B OB XB (h start) (h step) i = h (arange_item A OA XA start step i).
  Proof.
    destruct i as [|[|i]]; cbn [arange_item]; [reflexivity|symmetry; apply (m_add _ _ _ _ _ M)|].
    rewrite (m_add _ _ _ _ _ M), (m_mul _ _ _ _ _ M), (m_ofZ MX), (m_sub _ _ _ _ _ M),
      (m_add _ _ _ _ _ M). reflexivity.
  Qed.

  Lemma h_arange start stop step :
    arange B OB XB (h start) (h stop) (h step) = map h (arange A OA XA start stop step).
  Proof.
    unfold arange, arange_len.
    rewrite <- (m_sub _ _ _ _ _ M), <- (m_div MX), (m_ceil MX), map_map.
    apply map_ext. intros i. apply h_arange_item.
  Qed.

  Lemma length_filter_map (f : A -> bool) (g : B -> bool) l :
    (forall x, g (h x) = f x) -> length (filter g (map h l)) = length (filter f l).
  Proof.
    intros E. induction l as [|a l IH]; [reflexivity|]. cbn [map filter]. rewrite E.
    destruct (f a); cbn [length]; rewrite IH; reflexivity.
  Qed.

  Lemma h_searchsorted l t :
    searchsorted_left B OB (map h l) (h t) = searchsorted_left A OA l t.
  Proof. apply length_filter_map. intros x. apply (m_ltb _ _ _ _ _ M). Qed.

  Lemma map_removelast (l : list A) : removelast (map h l) = map h (removelast l).
  Proof.
    induction l as [|a [|b l] IH]; [reflexivity|reflexivity|].
    change (h a :: removelast (map h (b :: l)) = h a :: map h (removelast (b :: l))).
    rewrite IH. reflexivity.
  Qed.

  Lemma h_matches c sched t :
    matches B OB (hcfg A B h c) (map h sched) (h t) = matches A OA c sched t.
  Proof.
    unfold matches.
    replace (tl (map h sched)) with (map h (tl sched)) by (destruct sched; reflexivity).
    rewrite map_removelast, h_searchsorted, <- (m_zero _ _ _ _ _ M), !map_nth,
      !(h_isclose _ _ _ _ _ M). reflexivity.
  Qed.

  Lemma h_compatible c sched :
    compatible B OB XB (hcfg A B h c) (map h sched) = compatible A OA XA c sched.
  Proof.
    unfold compatible, sim_times. rewrite map_length.
    change (dt_init (hcfg A B h c)) with (h (dt_init c)).
    rewrite <- (m_zero _ _ _ _ _ M), h_hd, h_last, <- (m_add _ _ _ _ _ M), h_arange.
    rewrite (length_filter_map (matches A OA c sched)) by apply h_matches. reflexivity.
  Qed.

  Lemma h_construct_full a sched :
    construct_full B OB XB (hargs A B h a) (map h sched)
    = match construct_full A OA XA a sched with
      | inl c => inl (hcfg A B h c) | inr e => inr e end.
  Proof.
    unfold construct_full. rewrite (h_construct _ _ _ _ _ M).
    destruct (construct A OA a sched) as [c|e]; [|reflexivity].
    change (constant (hcfg A B h c)) with (constant c).
    destruct (constant c); [|reflexivity].
    rewrite h_compatible. destruct (compatible A OA XA c sched); reflexivity.
  Qed.

  Theorem h_simulate_full a sched evs :
    simulate_full B OB XB (hargs A B h a) (map h sched) evs
    = match simulate_full A OA XA a sched evs with
      | inr e => inr e
      | inl (c, (tr, st)) => inl (hcfg A B h c, (map (hentry A B h) tr, st))
      end.
  Proof.
    unfold simulate_full. rewrite h_construct_full.
    destruct (construct_full A OA XA a sched) as [c|e]; [|reflexivity].
    rewrite (h_init_state _ _ _ _ _ M), (h_drive _ _ _ _ _ M).
    destruct (drive A OA c sched (init_state A OA c sched) evs) as [tr st]. reflexivity.
  Qed.
End MorphExt.
