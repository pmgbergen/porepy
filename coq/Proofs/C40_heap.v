(* C40 — copies and restrictions hold only freshly allocated arrays.  An object whose arrays
   all exist before allocation number s shares nothing with an object whose arrays are all
   allocated from s on; so a write to an array of the one is not seen through the other. *)
From Coq Require Import List Arith Bool Lia.
Import ListNotations.
From PP Require Import Model.C40_heap.

Definition older (s : nat) (o : obj) : Prop := Forall (fun i => i < s) (ids o).
Definition newer (s : nat) (o : obj) : Prop := Forall (fun i => s <= i) (ids o).
Definition disjoint (a b : obj) : Prop := forall i, In i (ids a) -> ~ In i (ids b).

Lemma separate : forall s a b, older s a -> newer s b -> disjoint a b /\ disjoint b a.
Proof.
  unfold older, newer. intros s a b Ha Hb. rewrite Forall_forall in Ha, Hb.
  split; intros i Hi Hj; [specialize (Ha i Hi); specialize (Hb i Hj)
                         |specialize (Ha i Hj); specialize (Hb i Hi)]; lia.
Qed.

Definition write {V} (hp : nat -> V) (i : nat) (v : V) : nat -> V :=
  fun j => if Nat.eqb i j then v else hp j.

Lemma write_other : forall {V} (hp : nat -> V) i v j, i <> j -> write hp i v j = hp j.
Proof. intros V hp i v j H. unfold write. apply Nat.eqb_neq in H. now rewrite H. Qed.

Lemma independent : forall s t o, older s t -> newer s o ->
  disjoint t o /\ disjoint o t /\
  forall {V} (hp : nat -> V) v,
    (forall i j, In i (ids o) -> In j (ids t) -> write hp i v j = hp j) /\
    (forall i j, In i (ids t) -> In j (ids o) -> write hp i v j = hp j).
Proof.
  intros s t o Ht Ho. destruct (separate s t o Ht Ho) as [D D'].
  repeat split; trivial; intros i j Hi Hj; apply write_other; intros ->;
    [exact (D j Hj Hi) | exact (D j Hi Hj)].
Qed.

(* k new field arrays a .. a+k-1 and a values array allocated after them *)
Lemma block_newer : forall s a k v, s <= a -> a + k <= v ->
  let o := {| o_values := v; o_fields := seq a k |} in newer s o /\ NoDup (ids o).
Proof.
  intros s a k v Ha Hv o. subst o. split.
  - constructor; [cbn; lia|]. apply Forall_forall. intros i Hi%in_seq. lia.
  - constructor; [cbn|apply seq_NoDup]. intros Hi%in_seq. lia.
Qed.

Lemma copy4h_newer : forall s t,
  newer s (fst (copy4h s t)) /\ NoDup (ids (fst (copy4h s t))).
Proof. intros s t. apply block_newer; lia. Qed.

Lemma restrict4h_newer : forall s t,
  newer s (fst (restrict4h s t)) /\ NoDup (ids (fst (restrict4h s t))).
Proof.
  intros s t. unfold restrict4h, copy4h. cbn [fst o_fields]. rewrite seq_length.
  apply block_newer; lia.
Qed.

Lemma second_order_newer : forall s t,
  newer s (fst (copy2h s t)) /\ newer s (fst (restrict2h s t)).
Proof. intros s t. split; repeat constructor; cbn; lia. Qed.

Lemma rotateh_values : forall s t, older s t -> ~ In (o_values (fst (rotateh s t))) (ids t).
Proof.
  unfold older. intros s t Ht H. rewrite Forall_forall in Ht. specialize (Ht _ H). cbn in Ht. lia.
Qed.
