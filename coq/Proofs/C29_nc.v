(* C29 — proofs, part 2: the candidate pairs, and completeness of the two coarse filters
   (bounding boxes, side test): a rejected pair has no common point, up to a common end. *)
From Coq Require Import List QArith Qabs Bool Arith ZArith Lia Lqa Permutation Sorted.
Import ListNotations.
From PP Require Import Model.C28 Proofs.C28 Model.C29 Proofs.C29.
Open Scope Q_scope.

Lemma coord_bounds : forall a b t x : Q, 0 <= t -> t <= 1 -> x == a + t * (b - a) ->
  qmin a b <= x /\ x <= qmax a b.
Proof.
  intros a b t x T0 T1 H.
  destruct (qmin_cases a b) as [[L ->]|[L ->]];
    destruct (qmax_cases a b) as [[L' ->]|[L' ->]]; rewrite H; split; nra.
Qed.

Lemma widen_bounds : forall tol lo hi, 0 < tol ->
  fst (widen tol lo hi) <= lo /\ hi <= snd (widen tol lo hi).
Proof.
  intros tol lo hi T. unfold widen. destruct (qltb (hi - lo) tol); cbn [fst snd]; split; lra.
Qed.

Lemma axis_box : forall tol a b t x, 0 < tol -> 0 <= t -> t <= 1 -> x == a + t * (b - a) ->
  fst (widen tol (qmin a b) (qmax a b)) <= x /\ x <= snd (widen tol (qmin a b) (qmax a b)).
Proof.
  intros tol a b t x T T0 T1 H. pose proof (coord_bounds a b t x T0 T1 H).
  pose proof (widen_bounds tol (qmin a b) (qmax a b) T). lra.
Qed.

Lemma common_overlap : forall tol g g' p, 0 < tol ->
  common p (sS g) (sE g) (sS g') (sE g') -> overlap (bbox tol g) (bbox tol g') = true.
Proof.
  intros tol g g' p T [(t & T0 & T1 & Hx & Hy) (u & U0 & U1 & Hx' & Hy')].
  pose proof (axis_box tol _ _ t _ T T0 T1 Hx). pose proof (axis_box tol _ _ t _ T T0 T1 Hy).
  pose proof (axis_box tol _ _ u _ T U0 U1 Hx'). pose proof (axis_box tol _ _ u _ T U0 U1 Hy').
  unfold overlap, bbox. cbn [fst snd].
  repeat (apply andb_true_iff; split); apply Qle_bool_iff; lra.
Qed.

Definition gs_of (tol : Q) (isegs : list (nat * seg)) (ig : nat * seg) : bool :=
  qltb (tol * tol) (sumsq (map (fun jg => sub2 (sS (snd jg)) (sS (snd ig))) (others tol isegs ig))).
Definition ge_of (tol : Q) (isegs : list (nat * seg)) (ig : nat * seg) : bool :=
  qltb (tol * tol) (sumsq (map (fun jg => sub2 (sE (snd jg)) (sS (snd ig))) (others tol isegs ig))).

Lemma cand_iff : forall tol segs ig jg,
  In (ig, jg) (cand_pairs tol segs) <->
  In ig (indexed segs) /\ In jg (indexed segs) /\ (fst ig < fst jg)%nat /\
  overlap (bbox tol (snd ig)) (bbox tol (snd jg)) = true /\
  relevant tol (snd ig) (gs_of tol (indexed segs) ig) (ge_of tol (indexed segs) ig) (snd jg) = true.
Proof.
  intros tol segs ig jg. unfold cand_pairs. rewrite in_flat_map. split.
  - intros [ig' [Hi H]]. unfold cands_of in H. apply in_map_iff in H.
    destruct H as [jg' [E H]]. inversion E; subst ig' jg'. apply filter_In in H.
    destruct H as [H R]. unfold others in H. apply filter_In in H. destruct H as [Hj H].
    apply andb_true_iff in H. destruct H as [L O]. apply Nat.ltb_lt in L.
    repeat split; assumption.
  - intros [Hi [Hj [L [O R]]]]. exists ig. split; [exact Hi|]. unfold cands_of.
    apply in_map_iff. exists jg. split; [reflexivity|]. apply filter_In. split; [|exact R].
    unfold others. apply filter_In. split; [exact Hj|]. apply andb_true_iff.
    split; [apply Nat.ltb_lt; exact L|exact O].
Qed.

Lemma cand_indexed : forall tol segs i gi j gj,
  In ((i, gi), (j, gj)) (cand_pairs tol segs) ->
  In (i, gi) (indexed segs) /\ In (j, gj) (indexed segs).
Proof. intros tol segs i gi j gj H. apply cand_iff in H. tauto. Qed.

Lemma in_others : forall tol isegs ig jg, In jg isegs -> (fst ig < fst jg)%nat ->
  overlap (bbox tol (snd ig)) (bbox tol (snd jg)) = true -> In jg (others tol isegs ig).
Proof.
  intros tol isegs ig jg Hj L O. unfold others. apply filter_In. split; [exact Hj|].
  apply andb_true_iff. split; [apply Nat.ltb_lt; exact L|exact O].
Qed.

Lemma nfac_pos : forall tol v, 0 < tol -> 0 < nfac tol v.
Proof.
  intros tol v T. unfold nfac. destruct (qltb (nrm2 v) (tol * tol)) eqn:E; [lra|].
  apply qltb_false in E. assert (0 < tol * tol) by (apply Qmult_lt_0_compat; assumption). lra.
Qed.

Lemma msign_zero : forall tol u v, 0 < tol -> cross2 u v == 0 -> msign tol u v = Eq.
Proof.
  intros tol u v T Z. unfold msign.
  rewrite (proj2 (qltb_true _ _)); [reflexivity|]. rewrite Z, Qmult_0_l.
  repeat apply Qmult_lt_0_compat; auto using nfac_pos.
Qed.

Lemma msign_lt : forall tol u v, msign tol u v = Lt -> cross2 u v < 0.
Proof.
  intros tol u v H. unfold msign in H. destruct (qltb _ _); [discriminate|].
  apply Qlt_alt. exact H.
Qed.

Lemma msign_gt : forall tol u v, msign tol u v = Gt -> 0 < cross2 u v.
Proof.
  intros tol u v H. unfold msign in H. destruct (qltb _ _); [discriminate|].
  apply Qgt_alt in H. exact H.
Qed.

Definition mvec (gi : seg) : pt2 := sub2 (sE gi) (sS gi).
(* signed areas of the other's end points with respect to the main's line *)
Definition c1_of (gi gj : seg) : Q := cross2 (mvec gi) (sub2 (sS gj) (sS gi)).
Definition c2_of (gi gj : seg) : Q := cross2 (mvec gi) (sub2 (sE gj) (sS gi)).

Lemma cross_lin : forall gi gj a b, a + b == 1 ->
  cross2 (mvec gi) (sub2 (lin2 a (sS gj) b (sE gj)) (sS gi)) == a * c1_of gi gj + b * c2_of gi gj.
Proof.
  intros gi gj a b H. assert (E : b == 1 - a) by lra.
  unfold c1_of, c2_of, cross2, mvec, sub2, lin2. cbn [fst snd]. rewrite E. ring.
Qed.

(* the two cross products the side filter looks at, as combinations of c1, c2 *)
Lemma ws_cross : forall gi gj (gs : bool),
  cross2 (mvec gi) (if gs then sub2 (sS gj) (sS gi)
                    else sub2 (lin2 (1 # 2) (sS gj) (1 # 2) (sE gj)) (sS gi))
  == if gs then c1_of gi gj else (1 # 2) * c1_of gi gj + (1 # 2) * c2_of gi gj.
Proof.
  intros gi gj [|]; [reflexivity|]. apply cross_lin. reflexivity.
Qed.

Lemma we_cross : forall gi gj (ge : bool),
  cross2 (mvec gi) (if ge then sub2 (sE gj) (sS gi)
                    else sub2 (lin2 (3 # 10) (sS gj) (7 # 10) (sE gj)) (sS gi))
  == if ge then c2_of gi gj else (3 # 10) * c1_of gi gj + (7 # 10) * c2_of gi gj.
Proof.
  intros gi gj [|]; [reflexivity|]. apply cross_lin. reflexivity.
Qed.

Lemma collinear_relevant : forall tol gi gs ge gj, 0 < tol ->
  c1_of gi gj == 0 -> c2_of gi gj == 0 -> relevant tol gi gs ge gj = true.
Proof.
  intros tol gi gs ge gj T Z1 Z2. unfold relevant. fold (mvec gi).
  rewrite (msign_zero tol (mvec gi)); [reflexivity|exact T|].
  rewrite ws_cross. destruct gs; [exact Z1|rewrite Z1, Z2; ring].
Qed.

Lemma relevant_false : forall tol gi gs ge gj, relevant tol gi gs ge gj = false ->
  let a := if gs then c1_of gi gj else (1 # 2) * c1_of gi gj + (1 # 2) * c2_of gi gj in
  let b := if ge then c2_of gi gj else (3 # 10) * c1_of gi gj + (7 # 10) * c2_of gi gj in
  (a < 0 /\ b < 0) \/ (0 < a /\ 0 < b).
Proof.
  intros tol gi gs ge gj H a b. unfold relevant in H. fold (mvec gi) in H.
  apply negb_false_iff in H.
  pose proof (ws_cross gi gj gs) as Ea. pose proof (we_cross gi gj ge) as Eb.
  fold a in Ea. fold b in Eb.
  destruct (msign tol (mvec gi) _) eqn:M1 in H; destruct (msign tol (mvec gi) _) eqn:M2 in H;
    cbn in H; try discriminate.
  - left. apply msign_lt in M1, M2. rewrite Ea in M1. rewrite Eb in M2. tauto.
  - right. apply msign_gt in M1, M2. rewrite Ea in M1. rewrite Eb in M2. tauto.
Qed.

Lemma cross_on_other : forall gi gj p u, at_par (sS gj) (sE gj) p u ->
  cross2 (mvec gi) (sub2 p (sS gi)) == (1 - u) * c1_of gi gj + u * c2_of gi gj.
Proof.
  intros gi gj p u [Hx Hy]. unfold c1_of, c2_of, cross2, mvec, sub2. cbn [fst snd].
  rewrite Hx, Hy. ring.
Qed.

Lemma cross_on_main : forall gi p t, at_par (sS gi) (sE gi) p t ->
  cross2 (mvec gi) (sub2 p (sS gi)) == 0.
Proof.
  intros gi p t [Hx Hy]. unfold cross2, mvec, sub2. cbn [fst snd]. rewrite Hx, Hy. ring.
Qed.

Lemma peq_c1_zero : forall gi gj, peq (sS gj) (sS gi) -> c1_of gi gj == 0.
Proof.
  intros gi gj H. apply (cross_on_main gi _ 0), (at_par_point _ _ _ _ _ (peq_sym _ _ H)), at_par_0.
Qed.

Lemma peq_c2_zero : forall gi gj, peq (sE gj) (sS gi) -> c2_of gi gj == 0.
Proof.
  intros gi gj H. apply (cross_on_main gi _ 0), (at_par_point _ _ _ _ _ (peq_sym _ _ H)), at_par_0.
Qed.

(* completeness of the side filter: a rejected pair has no common point, except a common
   end point in the two branches taken when all others start (end) at the main's start *)
Lemma side_filter_complete : forall tol gi gj (gs ge : bool) p,
  (gs = false -> peq (sS gj) (sS gi)) -> (ge = false -> peq (sE gj) (sS gi)) ->
  ~ peq (sS gj) (sE gj) ->
  relevant tol gi gs ge gj = false ->
  common p (sS gi) (sE gi) (sS gj) (sE gj) ->
  peq p (sS gi) /\ (peq p (sS gj) \/ peq p (sE gj)).
Proof.
  intros tol gi gj gs ge p Hs He Nj R [[t [_ [_ [Ptx Pty]]]] [u [U0 [U1 [Pux Puy]]]]].
  pose proof (cross_on_other gi gj p u (conj Pux Puy)) as E1.
  rewrite (cross_on_main gi p t (conj Ptx Pty)) in E1.
  pose proof (relevant_false tol gi gs ge gj R) as S. cbv zeta in S.
  destruct gs; destruct ge.
  - exfalso. destruct S as [[A B]|[A B]]; nra.
  - pose proof (peq_c2_zero gi gj (He eq_refl)) as Z2.
    assert (Eu : u == 1) by (destruct S as [[A B]|[A B]]; nra).
    pose proof (at_par_peq _ _ _ _ _ _ (conj Pux Puy) (at_par_1 _ _) Eu) as Pe.
    split; [eapply peq_trans; [exact Pe|apply He; reflexivity]|right; exact Pe].
  - pose proof (peq_c1_zero gi gj (Hs eq_refl)) as Z1.
    assert (Eu : u == 0) by (destruct S as [[A B]|[A B]]; nra).
    pose proof (at_par_peq _ _ _ _ _ _ (conj Pux Puy) (at_par_0 _ _) Eu) as Ps.
    split; [eapply peq_trans; [exact Ps|apply Hs; reflexivity]|left; exact Ps].
  - exfalso. apply Nj. eapply peq_trans; [apply Hs; reflexivity|apply peq_sym; apply He; reflexivity].
Qed.
