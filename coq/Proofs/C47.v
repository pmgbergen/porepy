(* C47 — proofs: the txt table writer and reader, step by step (csv: Proofs/C47_csv.v). *)
From Coq Require Import List ZArith Bool Arith Lia.
Import ListNotations.
From PP Require Import Lib.ListFacts Model.C47.

Lemma combine_map_map {A B C} (f : A -> B) (g : A -> C) l :
  combine (map f l) (map g l) = map (fun x => (f x, g x)) l.
Proof. induction l as [|x l IH]; [reflexivity|]. cbn [map combine]. rewrite IH. reflexivity. Qed.

Lemma str_eqb_spec (a b : str) : str_eqb a b = true <-> a = b.
Proof.
  unfold str_eqb. revert b.
  induction a as [|x a IH]; intros [|y b]; cbn [length combine forallb fst snd Nat.eqb andb];
    try (split; congruence).
  rewrite (andb_comm (Z.eqb x y)), andb_assoc, andb_true_iff, IH, Z.eqb_eq.
  split; [intros [-> ->]|intros [= -> ->]]; auto.
Qed.

Lemma str_eqb_refl a : str_eqb a a = true.
Proof. apply str_eqb_spec. reflexivity. Qed.

Lemma str_eqb_neq a b : a <> b -> str_eqb a b = false.
Proof. intro H. apply not_true_is_false. rewrite str_eqb_spec. exact H. Qed.

Definition nows (t : str) : Prop := Forall (fun c => is_ws c = false) t.
Definition tok_ok (t : str) : Prop := t <> [] /\ nows t.

Lemma is_ws_SP : is_ws SP = true. Proof. reflexivity. Qed.
Lemma is_ws_NL : is_ws NL = true. Proof. reflexivity. Qed.

Lemma fold_nows t st :
  nows t -> fold_right split_step st t = (t ++ fst st, snd st).
Proof.
  intro H. induction H as [|c t Hc Ht IH]; cbn [fold_right app].
  - destruct st; reflexivity.
  - rewrite IH. unfold split_step at 1. rewrite Hc. reflexivity.
Qed.

Lemma split_tok t rest :
  tok_ok t ->
  split_fin (fold_right split_step ([], []) (t ++ [SP] ++ rest))
  = t :: split_fin (fold_right split_step ([], []) rest).
Proof.
  intros [Hne Hn]. rewrite fold_right_app. cbn [app fold_right].
  rewrite fold_nows by assumption.
  destruct (fold_right split_step ([], []) rest) as [cur tk].
  unfold split_step. rewrite is_ws_SP. cbn [fst snd split_fin]. rewrite app_nil_r.
  destruct t; [contradiction|reflexivity].
Qed.

Lemma split_flat toks rest :
  Forall tok_ok toks ->
  split_fin (fold_right split_step ([], []) (flat_sp toks ++ rest))
  = toks ++ split_fin (fold_right split_step ([], []) rest).
Proof.
  intro H. induction H as [|t toks Ht Hts IH]; [reflexivity|].
  unfold flat_sp in *. cbn [flat_map]. rewrite <- !app_assoc, (split_tok t _ Ht), IH.
  reflexivity.
Qed.

Lemma split_ws_flat toks : Forall tok_ok toks -> split_ws (flat_sp toks) = toks.
Proof.
  intro H. unfold split_ws. rewrite <- (app_nil_r (flat_sp toks)).
  rewrite split_flat by assumption. apply app_nil_r.
Qed.

Lemma split_ws_flat_nl toks :
  Forall tok_ok toks -> split_ws (flat_sp toks ++ [NL]) = toks.
Proof.
  intro H. unfold split_ws. rewrite split_flat by assumption. apply app_nil_r.
Qed.

Lemma take_while_all p s : Forall (fun c => p c = true) s -> take_while p s = s.
Proof. intro H. induction H as [|c s Hc Hs IH]; cbn; [|rewrite Hc, IH]; reflexivity. Qed.

Lemma rstrip_snoc p s c : rstrip p (s ++ [c]) = if p c then rstrip p s else s ++ [c].
Proof.
  unfold rstrip. rewrite rev_app_distr. cbn [rev app lstrip].
  destruct (p c); [reflexivity|]. cbn [rev]. rewrite rev_involutive. reflexivity.
Qed.

Lemma flat_sp_last toks : toks <> [] -> exists X, flat_sp toks = X ++ [SP].
Proof.
  intros Hne. destruct (exists_last Hne) as (toks' & t & ->). unfold flat_sp.
  rewrite flat_map_app. cbn [flat_map]. rewrite app_nil_r, app_assoc. eauto.
Qed.

Section Txt.
  Variable V : Type.
  Variable F : Type.
  Variable print : F -> V -> str.
  Variable parse : str -> option V.
  Variable v0 : V.

  Notation txtdata := (txtdata V F).

  (* one written value: a single non-empty blank-free token without '#' that parses
     back to the value (the value is exactly representable in its format) *)
  Definition value_ok (f : F) (v : V) : Prop :=
    tok_ok (print f v) /\ Forall (fun c => c <> HASH) (print f v)
    /\ parse (print f v) = Some v.

  Definition names_ok (names : list str) : Prop :=
    Forall tok_ok names /\ NoDup names /\
    match names with (c :: _) :: _ => c <> HASH | _ => False end.

  Definition table_ok (l : list txtdata) (n : nat) : Prop :=
    names_ok (map header l) /\
    Forall (fun d => length (array d) = n /\ Forall (value_ok (format d)) (array d)) l.

  Lemma export_ok l n :
    l <> [] -> Forall (fun d => length (array d) = n) l ->
    export_data_to_txt V F print v0 l
    = Ok (header_line V F l :: map (data_line V F print v0 l) (seq 0 n)).
  Proof.
    intros Hne Hl. unfold export_data_to_txt. destruct l as [|d0 l']; [contradiction|].
    rewrite Forall_forall in Hl. rewrite (Hl d0 (in_eq _ _)).
    replace (forallb _ (d0 :: l')) with true; [reflexivity|].
    symmetry. apply forallb_forall. intros d Hd. rewrite (Hl d Hd). apply Nat.eqb_refl.
  Qed.

  Lemma read_header_ok l :
    names_ok (map header l) ->
    split_ws (rstrip (Z.eqb NL) (lstrip (fun c => Z.eqb c HASH || Z.eqb c SP) (header_line V F l)))
    = map header l.
  Proof using Type.
    intros (Hok & _ & Hfirst). unfold header_line.
    destruct (map header l) as [|[|c t] names'] eqn:En; try contradiction. rewrite <- En in *.
    assert (Hc : is_ws c = false).
    { rewrite En in Hok. apply Forall_cons_iff in Hok as [[_ Hn] _].
      apply Forall_cons_iff in Hn. apply Hn. }
    (* "# " goes, the first name stops the strip; from the right only the newline goes *)
    destruct (flat_sp_last (map header l)) as [X HX]; [rewrite En; discriminate|].
    replace (lstrip _ _) with ((X ++ [SP]) ++ [NL]).
    - rewrite !rstrip_snoc. cbn [Z.eqb NL SP Pos.eqb]. rewrite <- HX. apply split_ws_flat, Hok.
    - rewrite <- HX, En. unfold flat_sp. cbn [app flat_map lstrip Z.eqb HASH SP Pos.eqb orb].
      replace (Z.eqb c HASH) with false by (symmetry; apply Z.eqb_neq, Hfirst).
      replace (Z.eqb c SP) with false; [reflexivity|].
      symmetry. apply Z.eqb_neq. intros ->. discriminate Hc.
  Qed.

  Lemma parse_all_map {A} (pr : A -> str) (g : A -> V) l :
    (forall x, In x l -> parse (pr x) = Some (g x)) ->
    parse_all V parse (map pr l) = Some (map g l).
  Proof.
    induction l as [|x l IH]; intros H; [reflexivity|]. cbn [map parse_all].
    rewrite (H x (in_eq _ _)), IH; [reflexivity|]. intros y Hy. apply H. now right.
  Qed.

  Lemma parse_rows_map {A} (row : A -> list str) (vals : A -> list V) l :
    (forall x, In x l -> parse_all V parse (row x) = Some (vals x)) ->
    parse_rows V parse (map row l) = Some (map vals l).
  Proof.
    induction l as [|x l IH]; intros H; [reflexivity|]. cbn [map parse_rows].
    rewrite (H x (in_eq _ _)), IH; [reflexivity|]. intros y Hy. apply H. now right.
  Qed.

  Lemma value_ok_nth (l : list txtdata) n i d :
    i < n ->
    Forall (fun d => length (array d) = n /\ Forall (value_ok (format d)) (array d)) l ->
    In d l -> value_ok (format d) (nth i (array d) v0).
  Proof.
    intros Hi H Hd. rewrite Forall_forall in H. destruct (H d Hd) as [Hlen Hv].
    rewrite Forall_forall in Hv. apply Hv, nth_In. lia.
  Qed.

  Lemma line_tokens (l : list txtdata) n i :
    i < n ->
    Forall (fun d => length (array d) = n /\ Forall (value_ok (format d)) (array d)) l ->
    split_ws (take_while (fun c => negb (Z.eqb c HASH)) (data_line V F print v0 l i))
    = map (fun d => print (format d) (nth i (array d) v0)) l.
  Proof.
    intros Hi H. pose proof (fun d => value_ok_nth l n i d Hi H) as Hv.
    unfold data_line. rewrite take_while_all.
    - apply split_ws_flat_nl, Forall_map, Forall_forall. intros d Hd. apply (Hv d Hd).
    - apply Forall_app. split; [|repeat constructor].
      apply Forall_flat_map, Forall_map, Forall_forall. intros d Hd.
      destruct (Hv d Hd) as (_ & Hh & _). apply Forall_app. split; [|repeat constructor].
      eapply Forall_impl; [|exact Hh]. intros c Hc. apply negb_true_iff, Z.eqb_neq, Hc.
  Qed.

  (* np.loadtxt on lines that tokenise to the rows [rows], all of width w *)
  Lemma loadtxt_rows lines rows tab w :
    filter (@nonempty str)
      (map (fun ln => split_ws (take_while (fun c => negb (Z.eqb c HASH)) ln)) lines) = rows ->
    rows <> [] -> Forall (fun r => length r = w) rows ->
    parse_rows V parse rows = Some tab ->
    loadtxt_unpack V parse v0 lines
    = Ok (map (fun j => map (fun r => nth j r v0) tab) (seq 0 w)).
  Proof.
    intros <- Hne Hw Hp. unfold loadtxt_unpack. cbv zeta.
    destruct (filter _ _) as [|r0 rows]; [contradiction|]. rewrite Hp, Forall_forall in *.
    rewrite (Hw r0 (in_eq _ _)). replace (forallb _ (r0 :: rows)) with true; [reflexivity|].
    symmetry. apply forallb_forall. intros r Hr. rewrite (Hw r Hr). apply Nat.eqb_refl.
  Qed.

  Lemma columns_back {A} (col : A -> list V) n : forall l,
    Forall (fun x => length (col x) = n) l ->
    map (fun j => map (fun r => nth j r v0)
                      (map (fun i => map (fun x => nth i (col x) v0) l) (seq 0 n)))
        (seq 0 (length l))
    = map col l.
  Proof.
    induction l as [|x l IH]; intro H; [reflexivity|]. apply Forall_cons_iff in H as [Hx Hl].
    cbn [length seq map]. rewrite <- seq_shift, !map_map. cbn [nth]. f_equal.
    - rewrite <- Hx. apply map_nth_seq.
    - rewrite <- (IH Hl). apply map_ext. intro j. rewrite !map_map. reflexivity.
  Qed.

  Lemma dset_fresh (d : list (str * list V)) k v :
    ~ In k (map fst d) -> dset V d k v = d ++ [(k, v)].
  Proof using Type.
    induction d as [|[k' v'] d IH]; intro Hn; [reflexivity|]. cbn [map fst In] in Hn.
    cbn [dset app]. rewrite str_eqb_neq by (intros ->; apply Hn; now left).
    rewrite IH by (intros H; apply Hn; now right). reflexivity.
  Qed.

  Lemma dict_fold (kvs acc : list (str * list V)) :
    NoDup (map fst (acc ++ kvs)) ->
    fold_left (fun d nv => dset V d (fst nv) (snd nv)) kvs acc = acc ++ kvs.
  Proof using Type.
    revert acc. induction kvs as [|[k v] kvs IH]; intros acc Hnd; [symmetry; apply app_nil_r|].
    cbn [fold_left fst snd]. rewrite dset_fresh.
    - rewrite IH; rewrite <- app_assoc; [reflexivity|exact Hnd].
    - rewrite map_app in Hnd. apply NoDup_remove_2 in Hnd. intro Hi. apply Hnd, in_or_app. now left.
  Qed.

  Lemma table_ok_length l n : table_ok l n -> Forall (fun d => length (array d) = n) l.
  Proof. intros [_ H]. eapply Forall_impl; [|exact H]. intros d [Hd _]. exact Hd. Qed.

  (* reading the lines the writer makes of a table *)
  Lemma read_table (l : list txtdata) n :
    l <> [] -> 1 <= n -> table_ok l n ->
    read_data_from_txt V parse v0 (header_line V F l :: map (data_line V F print v0 l) (seq 0 n))
    = Ok (map (fun d => (header d, array d)) l).
  Proof.
    intros Hne Hn Hok. pose proof (table_ok_length l n Hok) as Hlen. destruct Hok as [Hnames Hcols].
    unfold read_data_from_txt. rewrite read_header_ok by exact Hnames.
    set (row := fun i => map (fun d => print (format d) (nth i (array d) v0)) l).
    rewrite (loadtxt_rows _ (map row (seq 0 n))
               (map (fun i => map (fun d => nth i (array d) v0) l) (seq 0 n)) (length l)).
    - rewrite (columns_back array n l Hlen), combine_map_map, dict_fold; cbn [app];
        [reflexivity|]. rewrite map_map. apply Hnames.
    - rewrite map_map, filter_all.
      + apply map_ext_in. intros i Hi. apply in_seq in Hi.
        apply (line_tokens l n); [lia|exact Hcols].
      + intros r Hr. apply in_map_iff in Hr as (i & <- & Hi). apply in_seq in Hi.
        rewrite (line_tokens l n) by (lia || exact Hcols). destruct l; [contradiction|reflexivity].
    - destruct n; [lia|discriminate].
    - apply Forall_map, Forall_forall. intros i _. unfold row. apply map_length.
    - apply parse_rows_map. intros i Hi. apply in_seq in Hi. apply parse_all_map. intros d Hd.
      apply (value_ok_nth l n i d); [lia|exact Hcols|exact Hd].
  Qed.
End Txt.
