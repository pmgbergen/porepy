(* C14 — graph lemmas on the incidence model: the family of subproblems built by
   _fvutils.subproblems satisfies the structural hypotheses of the gluing theorem for EVERY
   consistent grid and partition vector, and the stencils returned by
   cell_ind_for_partial_update contain the whole interaction region of every node of every
   active face. *)
From Coq Require Import List Arith Bool Lia.
Import ListNotations.
From PP Require Import Lib.ListFacts Model.C14.

Lemma max_ge : forall l x, In x l -> x <= fold_right Nat.max 0 l.
Proof.
  intros l. apply Forall_forall, (list_max_le l), le_n.
Qed.

Lemma memb_In : forall x l, memb x l = true <-> In x l.
Proof.
  intros x l. unfold memb. rewrite existsb_exists. split.
  - intros [y [Hy E]]. apply Nat.eqb_eq in E. subst. exact Hy.
  - intros H. exists x. split; [exact H|apply Nat.eqb_refl].
Qed.

Lemma memb_cons : forall x y l, memb x (y :: l) = Nat.eqb x y || memb x l.
Proof. reflexivity. Qed.

Lemma meets_spec : forall a b, meets a b = true <-> exists x, In x a /\ In x b.
Proof. intros a b. unfold meets. rewrite existsb_exists. setoid_rewrite memb_In. reflexivity. Qed.

Lemma subset_spec : forall a b, subset a b = true <-> (forall x, In x a -> In x b).
Proof. intros a b. unfold subset. rewrite forallb_forall. setoid_rewrite memb_In. reflexivity. Qed.

Lemma nodupb_spec : forall l, nodupb l = true <-> NoDup l.
Proof.
  induction l as [|x l IH]; cbn [nodupb]; [split; [constructor|reflexivity]|].
  rewrite andb_true_iff, negb_true_iff, IH, <- not_true_iff_false, memb_In. split.
  - intros [Hx Hl]. constructor; assumption.
  - intros H. inversion H. auto.
Qed.

Lemma union_sorted_spec : forall n a b x, In x (union_sorted n a b) <-> x < n /\ (In x a \/ In x b).
Proof.
  intros n a b x. unfold union_sorted. rewrite filter_In, in_seq, orb_true_iff, !memb_In. intuition lia.
Qed.

Lemma uniq_sorted_spec : forall n l x, In x (uniq_sorted n l) <-> x < n /\ In x l.
Proof. intros n l x. unfold uniq_sorted. rewrite filter_In, in_seq, memb_In. intuition lia. Qed.

Lemma where_spec : forall {E} (p : E -> bool) (l : list E) i,
  In i (where_ p l) <-> exists x, nth_error l i = Some x /\ p x = true.
Proof.
  intros E p l i. unfold where_. rewrite in_map_iff.
  assert (Hlen : length (seq 0 (length l)) = length l) by apply seq_length.
  split.
  - intros [[j x] [<- H]]. apply filter_In in H. destruct H as [H Hp]. cbn [fst snd] in *.
    exists x. split; [|exact Hp].
    (* position k of the combined list holds (k, k-th entry of l) *)
    destruct (In_nth _ _ (0, x) H) as [k [Hk Ek]].
    rewrite combine_length, Hlen, Nat.min_id in Hk.
    rewrite (combine_nth _ _ _ _ _ Hlen), seq_nth in Ek by exact Hk.
    injection Ek as <- Ex. rewrite <- Ex. apply nth_error_nth'. exact Hk.
  - intros [x [H Hp]]. exists (i, x). split; [reflexivity|]. apply filter_In. split; [|exact Hp].
    assert (Hi : i < length l) by (apply nth_error_Some; congruence).
    replace (i, x) with (nth i (combine (seq 0 (length l)) l) (0, x)).
    + apply nth_In. rewrite combine_length, Hlen, Nat.min_id. exact Hi.
    + rewrite (combine_nth _ _ _ _ _ Hlen), seq_nth, (nth_error_nth _ _ x H) by exact Hi. reflexivity.
Qed.

(* on the incidence lists: entry i is read with nth and the default [] *)
Lemma where_nth_spec : forall (p : list nat -> bool) (l : list (list nat)) i,
  In i (where_ p l) <-> i < length l /\ p (nth i l []) = true.
Proof.
  intros p l i. rewrite where_spec. split.
  - intros [x [H1 H2]]. split; [apply nth_error_Some; congruence|].
    rewrite (nth_error_nth _ _ _ H1). exact H2.
  - intros [L H]. exists (nth i l []). split; [apply nth_error_nth'; exact L|exact H].
Qed.

Lemma filter_rows_spec : forall (L : list (list nat)) cs n v,
  In v (filter (fun v => existsb (fun c => memb v (nth c L [])) cs) (seq 0 n))
  <-> v < n /\ exists c, In c cs /\ In v (nth c L []).
Proof.
  intros L cs n v. rewrite filter_In, in_seq, existsb_exists. setoid_rewrite memb_In.
  intuition lia.
Qed.

Record grid_ok (g : grid) : Prop := {
  gk_cells : length (cell_faces g) = length (cell_nodes g);
  gk_face_in_cell : forall c f, c < length (cell_nodes g) -> In f (nth c (cell_faces g) []) ->
     f < length (face_nodes g) /\ forall v, In v (nth f (face_nodes g) []) -> In v (nth c (cell_nodes g) []);
  gk_face_has_cell : forall f, f < length (face_nodes g) ->
     exists c, c < length (cell_nodes g) /\ In f (nth c (cell_faces g) []);
  gk_face_nonempty : forall f, f < length (face_nodes g) -> nth f (face_nodes g) [] <> [];
  gk_nodes : forall c v, c < length (cell_nodes g) -> In v (nth c (cell_nodes g) []) -> v < num_nodes g }.

Lemma grid_okb_sound : forall g, grid_okb g = true -> grid_ok g.
Proof.
  intros g H. apply andb_prop in H as [[[H1 H2]%andb_prop H3]%andb_prop H4]. constructor.
  - apply Nat.eqb_eq. exact H1.
  - intros c f Hc Hf.
    pose proof (proj1 (forallb_forall _ _) (proj1 (forallb_seq _ _) H2 c Hc) f Hf) as H.
    apply andb_true_iff in H. split; [apply Nat.ltb_lt|apply subset_spec]; apply H.
  - intros f Hf. pose proof (proj1 (forallb_seq _ _) H3 f Hf) as H. apply andb_true_iff in H.
    destruct (proj1 (existsb_exists _ _) (proj1 H)) as [c [Hc M]]. apply in_seq in Hc.
    exists c. split; [lia|apply memb_In; exact M].
  - intros f Hf E. pose proof (proj1 (forallb_seq _ _) H3 f Hf) as H. cbv beta in H.
    rewrite E, andb_false_r in H. discriminate.
  - intros c v Hc Hv. apply Nat.ltb_lt.
    exact (proj1 (forallb_forall _ _) (proj1 (forallb_seq _ _) H4 c Hc) v Hv).
Qed.

Lemma cells_touching_spec : forall g N c,
  In c (cells_touching g N) <-> c < length (cell_nodes g) /\ exists v, In v (nth c (cell_nodes g) []) /\ In v N.
Proof. intros g N c. unfold cells_touching. rewrite where_nth_spec, meets_spec. reflexivity. Qed.

Lemma faces_inside_spec : forall g N f,
  In f (faces_inside g N) <-> f < length (face_nodes g) /\ forall v, In v (nth f (face_nodes g) []) -> In v N.
Proof. intros g N f. unfold faces_inside. rewrite where_nth_spec, subset_spec. reflexivity. Qed.

Lemma faces_touching_spec : forall g N f,
  In f (faces_touching g N) <-> f < length (face_nodes g) /\ exists v, In v (nth f (face_nodes g) []) /\ In v N.
Proof. intros g N f. unfold faces_touching. rewrite where_nth_spec, meets_spec. reflexivity. Qed.

Lemma nodes_of_cells_spec : forall g cells v,
  In v (nodes_of_cells g cells) <-> v < num_nodes g /\ exists c, In c cells /\ In v (nth c (cell_nodes g) []).
Proof. intros g cells v. apply filter_rows_spec. Qed.

Lemma nodes_of_faces_spec : forall g faces v,
  In v (nodes_of_faces g faces) <-> v < num_nodes g /\ exists f, In f faces /\ In v (nth f (face_nodes g) []).
Proof. intros g faces v. apply filter_rows_spec. Qed.

Lemma faces_of_cells_spec : forall g cells f,
  In f (faces_of_cells g cells) <-> f < length (face_nodes g) /\ exists c, In c cells /\ In f (nth c (cell_faces g) []).
Proof. intros g cells f. apply filter_rows_spec. Qed.

(* a cell stencil built from a node set that contains the nodes of the active faces contains
   every cell around every node of an active face *)
Lemma cells_around_active : forall g af V f v c, grid_ok g ->
  (forall w, In w (nodes_of_faces g af) -> In w V) ->
  In f af -> In v (nth f (face_nodes g) []) ->
  c < length (cell_nodes g) -> In v (nth c (cell_nodes g) []) ->
  In c (cells_touching g V).
Proof.
  intros g af V f v c GK HV Hf Hv Hc Hvc.
  apply cells_touching_spec. split; [exact Hc|]. exists v. split; [exact Hvc|].
  apply HV, nodes_of_faces_spec. split; [exact (gk_nodes g GK c v Hc Hvc)|].
  exists f. split; assumption.
Qed.

Lemma cifpu_nodes_faces : forall g N f,
  In f (snd (cell_ind_for_partial_update g None None (Some N))) <->
  f < length (face_nodes g) /\ In f (faces_inside g N).
Proof.
  intros g N f. unfold cell_ind_for_partial_update. cbn [fst snd stencil_nodes].
  rewrite !union_sorted_spec. cbn [In]. intuition.
Qed.

Lemma cifpu_nodes_cells : forall g N c,
  In c (fst (cell_ind_for_partial_update g None None (Some N))) <->
  c < length (cell_nodes g) /\ In c (cells_touching g N).
Proof.
  intros g N c. unfold cell_ind_for_partial_update. cbn [fst snd stencil_nodes app].
  apply uniq_sorted_spec.
Qed.

(* the faces a node set is responsible for are faces of the cells it touches *)
Lemma responsible_in_subgrid : forall g N f, grid_ok g ->
  In f (snd (cell_ind_for_partial_update g None None (Some N))) ->
  In f (faces_of_cells g (fst (cell_ind_for_partial_update g None None (Some N)))).
Proof.
  intros g N f GK Hf. apply cifpu_nodes_faces in Hf. destruct Hf as [Lf Hf].
  apply faces_inside_spec in Hf. destruct Hf as [_ Sub].
  destruct (gk_face_has_cell g GK f Lf) as [c [Lc Hc]].
  assert (Hv : exists v, In v (nth f (face_nodes g) [])).
  { destruct (nth f (face_nodes g) []) as [|v vs] eqn:Ev; [destruct (gk_face_nonempty g GK f Lf Ev)|].
    exists v. left. reflexivity. }
  destruct Hv as [v Hv].
  apply faces_of_cells_spec. split; [exact Lf|]. exists c. split; [|exact Hc].
  apply cifpu_nodes_cells. split; [exact Lc|]. apply cells_touching_spec. split; [exact Lc|].
  exists v. split; [apply (gk_face_in_cell g GK c f Lc Hc), Hv|apply Sub, Hv].
Qed.

(* a face is in the responsibility set of the part of each of its cells *)
Lemma face_of_part : forall g part c f, grid_ok g ->
  c < length (cell_nodes g) -> length part = length (cell_nodes g) ->
  In f (nth c (cell_faces g) []) ->
  In f (snd (cell_ind_for_partial_update g None None
               (Some (nodes_of_cells g (where_ (Nat.eqb (nth c part 0)) part))))).
Proof.
  intros g part c f GK Lc LP Hc. destruct (gk_face_in_cell g GK c f Lc Hc) as [Lf Hfc].
  apply cifpu_nodes_faces. split; [exact Lf|]. apply faces_inside_spec. split; [exact Lf|].
  intros v Hv. apply Hfc in Hv.
  apply nodes_of_cells_spec. split; [exact (gk_nodes g GK c v Lc Hv)|].
  exists c. split; [|exact Hv]. apply where_spec. exists (nth c part 0).
  split; [apply nth_error_nth'; lia|apply Nat.eqb_refl].
Qed.

(* For every consistent grid, every number of parts and every partition vector, the
   family built by subproblems satisfies the certificate [family_ok]: injective
   local-to-global face maps, responsibility sets without repetition and inside the
   subgrid, and every face in the responsibility set of some subproblem. *)
Theorem subproblems_family_ok : forall g k part, grid_ok g ->
  length part = length (cell_nodes g) ->
  family_ok (length (face_nodes g)) (subproblems g k part) = true.
Proof.
  intros g k part GK LP. unfold family_ok, subproblems.
  destruct (k =? 1).
  - (* one subproblem, responsible for every face *)
    cbn [forallb faces_in_subgrid l2g_faces]. rewrite !andb_true_r.
    rewrite (proj2 (nodupb_spec _) (seq_NoDup _ 0)). apply andb_true_iff. split.
    + apply subset_spec. auto.
    + apply forallb_forall. intros f Hf. cbn [existsb faces_in_subgrid]. rewrite orb_false_r.
      apply memb_In. exact Hf.
  - apply andb_true_iff. split; apply forallb_forall.
    + intros s Hs. apply in_map_iff in Hs. destruct Hs as [p [<- _]].
      cbn [faces_in_subgrid l2g_faces].
      apply andb_true_intro. split; [apply andb_true_intro; split|].
      * apply nodupb_spec, NoDup_filter, seq_NoDup.
      * apply nodupb_spec, NoDup_filter, seq_NoDup.
      * apply subset_spec. intros f. apply responsible_in_subgrid, GK.
    + intros f Hf. apply in_seq in Hf.
      destruct (gk_face_has_cell g GK f ltac:(lia)) as [c [Lc Hc]].
      assert (Hp : In (nth c part 0) part) by (apply nth_In; lia).
      apply existsb_exists. eexists. split.
      * apply in_map_iff. exists (nth c part 0). split; [reflexivity|].
        apply uniq_sorted_spec. split; [apply Nat.lt_succ_r, max_ge|]; exact Hp.
      * cbn [faces_in_subgrid]. apply memb_In, face_of_part; assumption.
Qed.
