(* C24 — any history of well-formed / rejected calls reaches a container that satisfies the
   invariant; what the query methods return on such a container. *)
From Coq Require Import List Arith Bool Lia.
Import ListNotations.
From PP Require Import Model.C24 Model.C24_spec Proofs.C24_base Proofs.C24_sort Proofs.C24_inv
  Proofs.C24_step.

Definition final (ops : list op) : st := fst (run empty ops).
Definition present (ops : list op) : spec := srun sempty ops.

Lemma run_inv ops : forall g sp,
  Inv g sp -> hist_ok sp ops = true ->
  Inv (fst (run g ops)) (srun sp ops) /\ snd (run g ops) = souts sp ops.
Proof.
  induction ops as [|o r IH]; intros g sp HI Hh; cbn [run srun souts hist_ok] in *.
  - split; auto.
  - destruct (okb sp o) eqn:Eok.
    + destruct (step_ok g sp o HI Eok) as (g' & -> & HI').
      destruct (IH g' (sstep sp o) HI' Hh) as [H1 H2].
      destruct (run g' r) as [g'' xs]. cbn [fst snd] in *. split; auto. congruence.
    + destruct (rejb sp o) as [e|] eqn:Er; [|discriminate].
      rewrite (step_rej g sp o e HI Er).
      destruct (IH g sp HI Hh) as [H1 H2].
      destruct (run g r) as [g'' xs]. cbn [fst snd] in *. split; auto. congruence.
Qed.

Lemma run_empty ops :
  hist_ok sempty ops = true ->
  Inv (final ops) (present ops) /\ snd (run empty ops) = souts sempty ops.
Proof. apply run_inv, Inv_empty. Qed.

Lemma reach_inv ops : hist_ok sempty ops = true -> Inv (final ops) (present ops).
Proof. apply run_empty. Qed.

Lemma next_call g sp o :
  Inv g sp ->
  (okb sp o = true -> snd (step g o) = Done) /\
  (forall e, okb sp o = false -> rejb sp o = Some e -> step g o = (g, Raised e)).
Proof.
  intros HI. split.
  - intros Hok. destruct (step_ok g sp o HI Hok) as (g' & -> & _). reflexivity.
  - intros e _. apply step_rej, HI.
Qed.

Lemma dim_filter_nodup d l : NoDup l -> NoDup (dim_filter d l).
Proof. destruct d; cbn; auto. apply NoDup_filter. Qed.

Lemma dim_filter_incl d l : incl (dim_filter d l) l.
Proof. destruct d; cbn; [apply incl_filter | apply incl_refl]. Qed.

Lemma obs_subdomains g sp d :
  Inv g sp -> lists (subdomains g d) (dim_filter d (pS sp)).
Proof.
  intros HI. unfold subdomains. rewrite (inv_sds _ _ HI). apply argsort_ok.
  - apply dim_filter_nodup, HI.
  - intros x Hx. exists x. split; [apply (dim_filter_incl d), Hx | lia].
Qed.

Lemma obs_interfaces g sp d :
  Inv g sp -> lists (interfaces g d) (dim_filter d (map fst (pI sp))).
Proof.
  intros HI. unfold interfaces. rewrite <- (inv_intfs _ _ HI).
  apply (argsort_intfs g sp); auto using incl_refl, dim_filter_incl.
  apply dim_filter_nodup, (Inv_nd_intfs g sp HI).
Qed.

Lemma back_one g sp i a b c d :
  Inv g sp -> lookup i (pI sp) = Some (a, b) -> unord (c, d) (a, b) ->
  pair_to_intf g c d = Ok i.
Proof.
  intros HI Hl Hu.
  assert (Hk : NoDup (map fst (i2s g))).
  { rewrite (inv_keys _ _ HI). apply (Inv_nd_intfs g sp HI). }
  destruct (inv_wf _ _ HI i a b Hl) as (_ & _ & _ & _ & Huniq).
  (* any interface stored with one of the two orders is i *)
  assert (Hany : forall j q, In (j, q) (i2s g) -> unord q (c, d) -> j = i).
  { intros j q Hin Hu'. apply In_lookup in Hin; auto.
    pose proof (inv_rel _ _ HI j) as Hr. rewrite Hin in Hr.
    destruct (lookup j (pI sp)) as [[e' f']|] eqn:E; [|contradiction]. cbn in Hr.
    symmetry. apply (Huniq j e' f' E).
    apply unord_sym. eauto using unord_trans. }
  pose proof (inv_rel _ _ HI i) as Hri. rewrite Hl in Hri.
  destruct (lookup i (i2s g)) as [q|] eqn:Ei; [|contradiction]. cbn in Hri.
  apply lookup_In in Ei.
  assert (Hq : unord q (c, d)) by eauto using unord_trans, unord_sym.
  unfold pair_to_intf.
  pose proof (rev_lookup_spec (c, d) (i2s g)) as R1.
  pose proof (rev_lookup_spec (d, c) (i2s g)) as R2.
  destruct (rev_lookup (c, d) (i2s g)) as [j|].
  - f_equal. apply (Hany j _ R1), unord_refl.
  - destruct (rev_lookup (d, c) (i2s g)) as [j|].
    + f_equal. apply (Hany j _ R2). right; auto.
    + destruct (unord_eq _ _ _ Hq) as [->| ->]; [destruct (R1 i Ei) | destruct (R2 i Ei)].
Qed.

Lemma obs_pair g sp i a b :
  Inv g sp -> In (i, (a, b)) (pI sp) ->
  In a (pS sp) /\ In b (pS sp) /\
  exists hi lo, intf_pair g i = Ok (hi, lo) /\ (a <> b -> glt hi lo) /\
                ((hi = a /\ lo = b) \/ (hi = b /\ lo = a)) /\
                pair_to_intf g a b = Ok i /\ pair_to_intf g b a = Ok i.
Proof.
  intros HI Hin. apply In_lookup in Hin; [|apply HI].
  destruct (inv_wf _ _ HI i a b Hin) as (Ha & Hb & _). split; auto. split; auto.
  assert (Hi : In i (intfs g)).
  { rewrite (inv_intfs _ _ HI). apply lookup_keys. congruence. }
  destruct (stored_pair g sp i HI Hi) as (a0 & b0 & a' & b' & Hl & Hl' & Hu & Ha' & Hb' & _).
  rewrite Hin in Hl. injection Hl as <- <-.
  destruct (sort_tuple_ok (sds g) a' b' Ha' Hb') as (x & y & Hst & Hlt & Hor).
  exists x, y. unfold intf_pair. rewrite Hl', Hst. split; auto.
  split; [intros Hab; apply Hlt; intros ->; destruct Hu as [[]|[]]; cbn in *; congruence|].
  split; [exact (unord_trans (x, y) (a', b') (a, b) Hor (unord_sym _ _ Hu))|].
  split; eapply back_one; eauto; [apply unord_refl | right; cbn; auto].
Qed.

Lemma obs_sd_intfs g sp s :
  Inv g sp ->
  lists (sd_to_intfs g s) (map fst (filter (fun e => touches s (snd e)) (pI sp))).
Proof.
  intros HI. unfold sd_to_intfs.
  rewrite collect_spec by (rewrite (inv_keys _ _ HI); auto).
  rewrite (tch_filter g sp s (fun b => b) HI).
  apply (argsort_intfs g sp); auto using incl_refl, incl_filter.
  apply NoDup_filter, (Inv_nd_intfs g sp HI).
Qed.

Lemma obs_boundary g sp :
  Inv g sp ->
  (forall s, In s (pS sp) -> 0 < fst s ->
     exists bg, sd_to_bg g s = Some bg /\ fst bg = fst s - 1 /\ In bg (bgs g)) /\
  (forall s, ~ In s (pS sp) \/ fst s = 0 -> sd_to_bg g s = None) /\
  (forall s s' bg, sd_to_bg g s = Some bg -> sd_to_bg g s' = Some bg -> s = s') /\
  NoDup (bgs g) /\
  (forall bg, In bg (bgs g) -> exists s, In s (pS sp) /\ sd_to_bg g s = Some bg).
Proof.
  intros HI. pose proof (Inv_Bnd _ _ HI) as HB. rewrite (inv_sds _ _ HI) in HB.
  destruct (inv_bi _ _ HI) as (B1 & B2 & B3 & B4 & B5). unfold sd_to_bg.
  repeat split; auto.
  - intros s Hs Hpos. destruct (Bnd_lookup _ _ _ _ s HB Hs Hpos) as (bg & Hbg & Hin). eauto.
  - intros s Hs. apply lookup_None. rewrite (proj2 HB). intros [? ?]. destruct Hs; [tauto | lia].
  - intros s s' bg H1 H2. apply lookup_In in H1, H2. rewrite B2 in B3.
    injection (nodup_map_inj snd _ _ _ B3 H1 H2 eq_refl). auto.
  - intros bg Hbg. rewrite B2 in Hbg. apply in_map_iff in Hbg. destruct Hbg as ([s v] & <- & Hin).
    exists s. split; [|apply In_lookup; auto].
    apply (in_map fst), (proj2 HB) in Hin. apply Hin.
Qed.

Lemma obs_remove g sp s :
  Inv g sp -> In s (pS sp) ->
  snd (step g (RemoveSd s)) = Done /\ removed_exactly g (fst (step g (RemoveSd s))) s.
Proof.
  intros HI Hs. apply mem_In in Hs.
  destruct (step_remove g sp s HI Hs) as (g' & -> & _ & R). split; auto.
Qed.
