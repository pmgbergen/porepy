(* C32 — proofs over the real instance RO of the model.  Vector identities about variables
   first; then: rotation_matrix is in SO(3) and fixes its axis (isometry, rotation_matrix_SO3),
   project_plane maps the normal to e_z (aligns, plane_matrix_normal_spec, compute_normal_spec),
   the tangential-normal bases (tn3_spec, tn2_spec, compute_tangent_spec, normals_1d_spec). *)
From Coq Require Import Reals Lra List Bool Arith.
Import ListNotations.
From PP Require Import Model.C32.
Open Scope R_scope.

Lemma nth_Forall {A} (P : A -> Prop) (l : list A) (d : A) (i : nat) :
  P d -> Forall P l -> P (nth i l d).
Proof.
  intros Hd Hl. destruct (nth_in_or_default i l d) as [Hin | ->]; [|exact Hd].
  rewrite Forall_forall in Hl. exact (Hl _ Hin).
Qed.

Lemma INR_length_neq0 {A} (l : list A) : l <> [] -> INR (length l) <> 0.
Proof. intros H. apply not_0_INR. destruct l; [congruence | discriminate]. Qed.

Definition Rleb (x y : R) : bool := if Rle_dec x y then true else false.
Definition Rltb (x y : R) : bool := if Rlt_dec x y then true else false.

Definition RO : numops R := {|
  n_zero := 0; n_one := 1;
  n_add := Rplus; n_sub := Rminus; n_mul := Rmult; n_div := Rdiv; n_opp := Ropp;
  n_leb := Rleb; n_ltb := Rltb;
  n_sqrt := sqrt;
  n_atol := / 100000000;
  n_ofnat := INR |}.

Lemma Rleb_spec x y : reflect (x <= y) (Rleb x y).
Proof. unfold Rleb. destruct (Rle_dec x y); constructor; assumption. Qed.
Lemma Rltb_spec x y : reflect (x < y) (Rltb x y).
Proof. unfold Rltb. destruct (Rlt_dec x y); constructor; assumption. Qed.

Notation V := (v3 R).
Notation M := (m3 R).
Notation dotR := (dot R RO).
Notation crossR := (cross R RO).
Notation mvR := (mv R RO).
Notation mmR := (mm R RO).
Notation mTR := (mT R).
Notation detR := (det R RO).
Notation identR := (ident R RO).
Notation vaddR := (vadd R RO).
Notation vsubR := (vsub R RO).
Notation vscaleR := (vscale R RO).
Notation vdivR := (vdiv R RO).
Notation normR := (norm R RO).
Notation normalizeR := (normalize R RO).
Notation normsqR := (normsq R RO).
Notation allclose0R := (allclose0 R RO).
Notation atolR := (n_atol R RO).
Notation zeroR := (zero3 R RO).
Notation vsumR := (vsum R RO).
Notation meanR := (mean R RO).

(* the matrix W of rotation_matrix: skew k v = k x v *)
Definition skew (k : V) : M := ((0, - vz k, vy k), (vz k, 0, - vx k), (- vy k, vx k, 0)).

Ltac rsimp :=
  cbv [plane_matrix_normal line_matrix_tangent rod_unit skew normalize norm normsq
       madd mscale mm mv mT det ident col0 col1 col2 row0 row1 row2
       vadd vsub vscale vdiv cross dot zero3 vx vy vz
       n_zero n_one n_add n_sub n_mul n_div n_opp n_sqrt n_atol n_leb n_ltb n_ofnat RO
       fst snd] in *.

Lemma v3_ext {A} (a b c a' b' c' : A) : a = a' -> b = b' -> c = c' -> (a, b, c) = (a', b', c').
Proof. intros; subst; reflexivity. Qed.

(* closes an identity between polynomials in the coordinates of the (destructed) vectors
   and matrices of the goal, componentwise.  lra normalises both sides as polynomials (products
   of variables and inverses are its atoms); ring does the same but reifies in Ltac, which on
   nine-variable goals is several times slower *)
Ltac coords := rsimp; unfold Rdiv; repeat apply v3_ext; lra.

Lemma dot_comm : forall a b : V, dotR a b = dotR b a.
Proof. intros [[]] [[]]. coords. Qed.
Lemma dot_vadd : forall m a b : V, dotR m (vaddR a b) = dotR m a + dotR m b.
Proof. intros [[]] [[]] [[]]. coords. Qed.
Lemma dot_vsub : forall m a b : V, dotR m (vsubR a b) = dotR m a - dotR m b.
Proof. intros [[]] [[]] [[]]. coords. Qed.
Lemma dot_vscale : forall (m : V) s (a : V), dotR m (vscaleR s a) = s * dotR m a.
Proof. intros [[]] s [[]]. coords. Qed.
Lemma dot_vdiv : forall (m a : V) s, dotR m (vdivR a s) = dotR m a / s.
Proof. intros [[]] [[]] s. coords. Qed.
Lemma dot_zero3 : forall x : V, dotR x zeroR = 0.
Proof. intros [[]]. coords. Qed.
Lemma dot_self_nonneg : forall a : V, 0 <= dotR a a.
Proof. intros [[]]. rsimp. nra. Qed.
Lemma dot_self_zero : forall a : V, dotR a a = 0 -> a = zeroR.
Proof. intros [[x y] z]. rsimp. intros H. apply v3_ext; nra. Qed.

Lemma cross_vadd_l : forall a b t : V, crossR (vaddR a b) t = vaddR (crossR a t) (crossR b t).
Proof. intros [[]] [[]] [[]]. coords. Qed.
Lemma cross_vsub_l : forall a b t : V, crossR (vsubR a b) t = vsubR (crossR a t) (crossR b t).
Proof. intros [[]] [[]] [[]]. coords. Qed.
Lemma cross_vdiv_l : forall (a t : V) s, crossR (vdivR a s) t = vdivR (crossR a t) s.
Proof. intros [[]] [[]] s. coords. Qed.
Lemma cross_zero3_l : forall t : V, crossR zeroR t = zeroR.
Proof. intros [[]]. coords. Qed.
Lemma cross_self : forall a : V, crossR a a = zeroR.
Proof. intros [[]]. coords. Qed.
Lemma cross_zero3_r : forall t : V, crossR t zeroR = zeroR.
Proof. intros [[]]. coords. Qed.
Lemma vsub_self : forall a : V, vsubR a a = zeroR.
Proof. intros [[]]. coords. Qed.
Lemma vsub_vsub : forall p w : V, vsubR p (vsubR p w) = w.
Proof. intros [[]] [[]]. coords. Qed.
Lemma vadd_vsub_vsub : forall c p w : V, vaddR c (vsubR (vsubR p c) w) = vsubR p w.
Proof. intros [[]] [[]] [[]]. coords. Qed.
Lemma vdiv_zero3 s : vdivR zeroR s = zeroR.
Proof. coords. Qed.

Lemma dot_cross_l : forall a b : V, dotR a (crossR a b) = 0.
Proof. intros [[]] [[]]. coords. Qed.
Lemma dot_cross_r : forall a b : V, dotR b (crossR a b) = 0.
Proof. intros [[]] [[]]. coords. Qed.

Lemma lagrange : forall u r : V,
  dotR (crossR u r) (crossR u r) = dotR u u * dotR r r - dotR u r * dotR u r.
Proof. intros [[]] [[]]. coords. Qed.

Lemma cross_cross_l : forall a b c : V,
  crossR (crossR a b) c = vsubR (vscaleR (dotR a c) b) (vscaleR (dotR b c) a).
Proof. intros [[]] [[]] [[]]. coords. Qed.
Lemma cross_cross_r : forall a b c : V,
  crossR a (crossR b c) = vsubR (vscaleR (dotR a c) b) (vscaleR (dotR a b) c).
Proof. intros [[]] [[]] [[]]. coords. Qed.

Lemma vcomb_1_0 : forall a b : V, vsubR (vscaleR 1 a) (vscaleR 0 b) = a.
Proof. intros [[]] [[]]. coords. Qed.

Lemma cross_vscale_l : forall s (a b : V), crossR (vscaleR s a) b = vscaleR s (crossR a b).
Proof. intros s [[]] [[]]. coords. Qed.
Lemma cross_anti : forall a b : V, crossR a b = vscaleR (-1) (crossR b a).
Proof. intros [[]] [[]]. coords. Qed.
Lemma vscale_zero3 s : vscaleR s zeroR = zeroR.
Proof. coords. Qed.
Lemma vsub_zero : forall a b : V, vsubR a b = zeroR -> a = b.
Proof. intros [[]] [[]]. rsimp. intros H. injection H as H0 H1 H2. apply v3_ext; lra. Qed.
Lemma vscale_eq_zero : forall s (a : V), s <> 0 -> vscaleR s a = zeroR -> a = zeroR.
Proof. intros s [[]] Hs. rsimp. intros H. injection H as H0 H1 H2. apply v3_ext; nra. Qed.

Lemma parallel_scale (y t : V) :
  crossR y t = zeroR -> vscaleR (dotR t t) y = vscaleR (dotR t y) t.
Proof.
  intros H. pose proof (cross_cross_r t y t) as E. rewrite H, cross_zero3_r in E.
  symmetry in E. exact (vsub_zero _ _ E).
Qed.

Lemma parallel_unit (x g t : V) :
  0 < dotR t t -> crossR x t = zeroR -> crossR g t = zeroR -> dotR g g = 1 ->
  x = vscaleR (dotR x g) g.
Proof.
  intros Ht Hx Hg Hgg.
  assert (Hxg : crossR x g = zeroR).
  { apply (vscale_eq_zero (dotR t t)); [lra|].
    rewrite <- cross_vscale_l, (parallel_scale x t Hx), cross_vscale_l, cross_anti, Hg,
      !vscale_zero3. reflexivity. }
  pose proof (parallel_scale x g Hxg) as E. rewrite Hgg in E.
  rewrite (dot_comm x g), <- E. destruct x as [[]]. coords.
Qed.

Lemma four_vectors : forall m a b x : V,
  dotR m m * dotR (crossR a b) x
  = dotR m a * dotR m (crossR b x) + dotR m b * dotR m (crossR x a)
    + dotR m x * dotR m (crossR a b).
Proof. intros [[]] [[]] [[]] [[]]. coords. Qed.

Lemma cross_perp (m a b x : V) :
  dotR m a = 0 -> dotR m b = 0 -> dotR m x = 0 -> 0 < dotR m m -> dotR (crossR a b) x = 0.
Proof.
  intros Ha Hb Hx Hm. pose proof (four_vectors m a b x) as H. rewrite Ha, Hb, Hx in H. nra.
Qed.

Lemma gs_norm : forall raw n : V,
  let w := vsubR raw (vscaleR (dotR raw n) n) in
  dotR w w = dotR raw raw - dotR raw n * dotR raw n * (2 - dotR n n).
Proof. intros [[]] [[]]. coords. Qed.

Lemma mv_sub : forall (A : M) (a b : V), vsubR (mvR A a) (mvR A b) = mvR A (vsubR a b).
Proof. intros [[[[]] [[]]] [[]]] [[]] [[]]. coords. Qed.
Lemma mv_vscale : forall (A : M) s (x : V), mvR A (vscaleR s x) = vscaleR s (mvR A x).
Proof. intros [[[[]] [[]]] [[]]] s [[]]. coords. Qed.
Lemma mv_mm : forall (A B : M) (w : V), mvR A (mvR B w) = mvR (mmR A B) w.
Proof. intros [[[[]] [[]]] [[]]] [[[[]] [[]]] [[]]] [[]]. coords. Qed.
Lemma mv_ident : forall w : V, mvR identR w = w.
Proof. intros [[]]. coords. Qed.
Lemma dot_mv : forall (A : M) (a b : V), dotR (mvR A a) b = dotR a (mvR (mTR A) b).
Proof. intros [[[[]] [[]]] [[]]] [[]] [[]]. coords. Qed.

Lemma ident_SO3 : mmR (mTR identR) identR = identR /\ detR identR = 1.
Proof. split; coords. Qed.

Lemma orth_dot (A : M) (a b : V) :
  mmR (mTR A) A = identR -> dotR (mvR A a) (mvR A b) = dotR a b.
Proof. intros H. rewrite dot_mv, mv_mm, H, mv_ident. reflexivity. Qed.

Lemma isometry (A : M) (x y : V) :
  mmR (mTR A) A = identR ->
  normsqR (vsubR (mvR A x) (mvR A y)) = normsqR (vsubR x y).
Proof. intros H. unfold normsq. rewrite mv_sub. apply orth_dot; auto. Qed.

Lemma atol_pos : 0 < atolR.
Proof. cbn. lra. Qed.

Lemma nabs_Rabs x : nabs R RO x = Rabs x.
Proof.
  unfold nabs; cbn [n_ltb n_zero n_opp RO]. unfold Rabs.
  destruct (Rltb_spec x 0), (Rcase_abs x); lra.
Qed.

Lemma nabs_le_sq x a : 0 < a -> nabs R RO x <= a <-> x * x <= a * a.
Proof. intros Ha. rewrite nabs_Rabs. unfold Rabs. destruct (Rcase_abs x); split; nra. Qed.

Lemma allclose0_sq (v : V) :
  allclose0R v = true <->
  vx v * vx v <= atolR * atolR /\ vy v * vy v <= atolR * atolR /\ vz v * vz v <= atolR * atolR.
Proof.
  pose proof atol_pos as Ha. unfold allclose0. cbn [n_leb RO]. rewrite !andb_true_iff.
  rewrite <- !(reflect_iff _ _ (Rleb_spec _ _)), !nabs_le_sq by exact Ha. tauto.
Qed.

Lemma allclose0_false_pos (v : V) : allclose0R v = false -> 0 < dotR v v.
Proof.
  intros H. pose proof atol_pos as Ha. pose proof (proj2 (allclose0_sq v)) as Hs.
  rewrite H in Hs. destruct v as [[]]. rsimp. nra.
Qed.

Lemma unit_not_allclose0 (t : V) : dotR t t = 1 -> allclose0R t = false.
Proof.
  intros Ht. destruct (allclose0R t) eqn:E; [|reflexivity].
  apply allclose0_sq in E. destruct t as [[a b] c]. rsimp. lra.
Qed.

Lemma allclose0_true_small (v : V) : allclose0R v = true -> dotR v v <= 3 * (atolR * atolR).
Proof. intros H. apply allclose0_sq in H. destruct v as [[]]. rsimp. lra. Qed.

(* the test of compute_normal: some squared component exceeds a2 *)
Lemma not_small_pos (v : V) a2 :
  0 <= a2 -> Rleb (vx v * vx v) a2 && Rleb (vy v * vy v) a2 && Rleb (vz v * vz v) a2 = false ->
  0 < dotR v v.
Proof.
  destruct v as [[x y] z]. rsimp. intros Ha.
  destruct (Rleb_spec (x * x) a2), (Rleb_spec (y * y) a2), (Rleb_spec (z * z) a2);
    try discriminate; intros _; nra.
Qed.

Lemma sqrt_facts x : 0 < x -> 0 < sqrt x /\ sqrt x * sqrt x = x.
Proof. intros H. split; [apply sqrt_lt_R0; auto | apply sqrt_sqrt; lra]. Qed.

Lemma vdiv_unit (v : V) s : s <> 0 -> s * s = dotR v v -> dotR (vdivR v s) (vdivR v s) = 1.
Proof. intros Hs E. rewrite dot_vdiv, dot_comm, dot_vdiv, <- E. field. exact Hs. Qed.

Lemma normalize_unit (v : V) : 0 < dotR v v -> dotR (normalizeR v) (normalizeR v) = 1.
Proof.
  intros H. destruct (sqrt_facts _ H). apply (vdiv_unit v (sqrt (dotR v v))); [lra | assumption].
Qed.

Lemma normalize_of_unit (v : V) : dotR v v = 1 -> normalizeR v = v.
Proof.
  intros H. unfold normalize, norm. rewrite H. destruct v as [[]]. rsimp. rewrite sqrt_1.
  apply v3_ext; field.
Qed.

(* for ANY k, sn, cs (no unit axis, no sn^2 + cs^2 = 1): a polynomial identity about
   R = I + sn W + (1-cs) W^2, W = skew k *)
Lemma rod_unit_gram (sn cs : R) : forall k : V,
  let Rm := rod_unit R RO sn cs k in
  mmR (mTR Rm) Rm
  = madd R RO identR (mscale R RO (2 * (1 - cs) - sn * sn - (1 - cs) * (1 - cs) * dotR k k)
                                  (mmR (skew k) (skew k))).
Proof. intros [[]]. coords. Qed.

Lemma rod_unit_det (sn cs : R) : forall k : V,
  detR (rod_unit R RO sn cs k)
  = (1 - (1 - cs) * dotR k k) * (1 - (1 - cs) * dotR k k) + sn * sn * dotR k k.
Proof. intros [[]]. coords. Qed.

Lemma rod_unit_mv (sn cs : R) : forall k v : V,
  mvR (rod_unit R RO sn cs k) v
  = vaddR (vaddR v (vscaleR sn (crossR k v))) (vscaleR (1 - cs) (crossR k (crossR k v))).
Proof. intros [[]] [[]]. coords. Qed.

Lemma rod_unit_SO3 (sn cs : R) (k : V) :
  dotR k k = 1 -> sn * sn + cs * cs = 1 ->
  let Rm := rod_unit R RO sn cs k in
  mmR (mTR Rm) Rm = identR /\ detR Rm = 1.
Proof.
  intros Hk Hs Rm. subst Rm. rewrite rod_unit_gram, rod_unit_det, Hk.
  replace (2 * (1 - cs) - sn * sn - (1 - cs) * (1 - cs) * 1) with 0 by lra.
  split; [destruct (mmR (skew k) (skew k)) as [[[[]] [[]]] [[]]]; coords | lra].
Qed.

Lemma rod_unit_fixes (sn cs : R) (k v : V) :
  crossR k v = zeroR -> mvR (rod_unit R RO sn cs k) v = v.
Proof. intros H. rewrite rod_unit_mv, H, cross_zero3_r. destruct v as [[]]. coords. Qed.

Lemma rod_unit_perp (sn cs : R) (k v : V) :
  dotR k k = 1 -> dotR k v = 0 ->
  mvR (rod_unit R RO sn cs k) v = vaddR (vscaleR cs v) (vscaleR sn (crossR k v)).
Proof.
  intros Hk Hv. rewrite rod_unit_mv, (cross_cross_r k k v), Hk, Hv.
  destruct k as [[]], v as [[]]. coords.
Qed.

Lemma rotation_matrix_SO3 (sn cs : R) (vect : V) :
  sn * sn + cs * cs = 1 ->
  let Rm := rotation_matrix R RO sn cs vect in
  mmR (mTR Rm) Rm = identR /\ detR Rm = 1.
Proof.
  intros Hs. unfold rotation_matrix. destruct (allclose0R vect) eqn:E.
  - apply ident_SO3.
  - apply rod_unit_SO3; auto.
    apply (normalize_unit vect). apply allclose0_false_pos; auto.
Qed.

Lemma rotation_matrix_fixes_axis (sn cs : R) (vect : V) :
  mvR (rotation_matrix R RO sn cs vect) vect = vect.
Proof.
  unfold rotation_matrix. destruct (allclose0R vect); [apply mv_ident|].
  apply rod_unit_fixes. rewrite cross_vdiv_l, cross_self. apply vdiv_zero3.
Qed.

Lemma trig_of_arccos d : -1 <= d <= 1 -> cos (acos d) = d /\ sin (acos d) = sqrt (1 - d * d).
Proof.
  intros H. split; [apply cos_acos; auto|].
  rewrite sin_acos by auto. unfold Rsqr. reflexivity.
Qed.

(* the axis (u x r)/s is a unit vector orthogonal to u; u turns by the angle with cosine d *)
Lemma rod_maps (s d : R) (u r : V) :
  dotR u u = 1 -> dotR r r = 1 -> d = dotR u r -> 0 < s -> s * s = 1 - d * d ->
  mvR (rod_unit R RO s d (vdivR (crossR u r) s)) u = r.
Proof.
  intros Hu Hr Hd Hs Hss. set (k := vdivR (crossR u r) s).
  assert (Hk : dotR k k = 1).
  { apply vdiv_unit; [lra|]. rewrite lagrange, Hu, Hr, <- Hd. lra. }
  assert (Hku : dotR k u = 0).
  { rewrite dot_comm. unfold k. rewrite dot_vdiv, dot_cross_l. field. lra. }
  rewrite (rod_unit_perp s d k u Hk Hku). unfold k.
  rewrite cross_vdiv_l, cross_cross_l, Hu, (dot_comm r u), <- Hd.
  destruct u as [[]], r as [[]]. rsimp. apply v3_ext; field; lra.
Qed.

Lemma band_dist (u r : V) :
  dotR u u = 1 -> dotR r r = 1 ->
  normsqR (vsubR u (vscaleR (dotR u r) r)) = dotR (crossR u r) (crossR u r).
Proof. intros Hu Hr. unfold normsq. rewrite gs_norm, lagrange, Hu, Hr. ring. Qed.

Definition in_band (u r : V) : bool := allclose0R (crossR u r).

(* what project_matrix u r = Ok Rm says about Rm *)
Definition aligns (Rm : M) (u r : V) : Prop :=
  mmR (mTR Rm) Rm = identR /\ detR Rm = 1 /\
  (in_band u r = false -> mvR Rm u = r) /\
  (in_band u r = true ->
     Rm = identR /\
     normsqR (vsubR u (vscaleR (dotR u r) r)) <= 3 * (atolR * atolR)).

Lemma project_matrix_spec (u r : V) :
  dotR u u = 1 -> dotR r r = 1 -> exists Rm, project_matrix R RO u r = Ok Rm /\ aligns Rm u r.
Proof.
  intros Hu Hr. unfold project_matrix, aligns, in_band.
  set (d := dotR u r). set (vect := crossR u r).
  pose proof (lagrange u r) as HL. fold vect in HL. rewrite Hu, Hr in HL. fold d in HL.
  pose proof (dot_self_nonneg vect) as Hvv.
  cbn [n_ltb n_one n_mul n_sub n_sqrt RO].
  destruct (Rltb_spec 1 (d * d)); [lra|].
  eexists. split; [reflexivity|].
  assert (Hsq : sqrt (1 - d * d) * sqrt (1 - d * d) = 1 - d * d) by (apply sqrt_sqrt; lra).
  split; [|split]; try (apply rotation_matrix_SO3; lra).
  unfold rotation_matrix. split; intros E; rewrite E.
  - apply allclose0_false_pos in E.
    unfold norm. cbn [n_sqrt RO]. replace (dotR vect vect) with (1 - d * d) by lra.
    apply rod_maps; auto. apply sqrt_lt_R0. lra.
  - split; [reflexivity|]. unfold d. rewrite band_dist by assumption.
    apply allclose0_true_small, E.
Qed.

Lemma plane_matrix_normal_spec (normal r : V) :
  0 < dotR normal normal -> dotR r r = 1 ->
  let u := normalizeR normal in
  exists Rm, plane_matrix_normal R RO normal r = Ok Rm /\ aligns Rm u r.
Proof. intros Hn Hr. apply project_matrix_spec; auto. apply normalize_unit; auto. Qed.

Lemma dot_vsum (m : V) d l :
  Forall (fun p => dotR m p = d) l -> dotR m (vsumR l) = INR (length l) * d.
Proof.
  induction 1 as [|p l Hp Hl IH].
  - cbn [vsum fold_right length INR]. rewrite dot_zero3. ring.
  - cbn [vsum fold_right]. fold (vsumR l). rewrite dot_vadd, IH, Hp.
    change (length (p :: l)) with (S (length l)). rewrite S_INR. ring.
Qed.

Lemma mean_on_plane (m : V) d l :
  l <> [] -> Forall (fun p => dotR m p = d) l -> dotR m (meanR l) = d.
Proof.
  intros Hne Hall. unfold mean. cbn [n_ofnat RO].
  rewrite dot_vdiv, (dot_vsum m d) by auto. field. apply INR_length_neq0, Hne.
Qed.

Lemma centered_perp (m c : V) d pts :
  Forall (fun p => dotR m p = d) pts -> dotR m c = d ->
  Forall (fun v => dotR m v = 0) (map (fun p => vsubR p c) pts).
Proof.
  intros Hall Hc. apply Forall_map. eapply Forall_impl; [|exact Hall].
  cbv beta. intros p Hp. rewrite dot_vsub, Hp, Hc. ring.
Qed.

Lemma compute_normal_spec (pts : list V) (tol : R) (m : V) (d : R) (n : V) :
  0 < dotR m m -> Forall (fun p => dotR m p = d) pts ->
  compute_normal R RO pts tol = Ok n ->
  dotR n n = 1 /\
  (forall x, dotR m x = 0 -> dotR n x = 0) /\
  (forall p q, In p pts -> In q pts -> dotR n (vsubR p q) = 0).
Proof.
  intros Hm Hall. unfold compute_normal.
  destruct (Nat.leb (length pts) 2) eqn:EL; [discriminate|].
  assert (Hne : pts <> []) by (intros ->; discriminate).
  pose proof (centered_perp m _ d pts Hall (mean_on_plane m d pts Hne Hall)) as Hv.
  cbv zeta. set (v := map (fun p => vsubR p (meanR pts)) pts) in *.
  set (nrm2 := map normsqR v).
  assert (Hnrm : forall i, 0 <= nth i nrm2 (n_zero R RO)).
  { intros i. apply nth_Forall; [apply Rle_refl|]. apply Forall_map, Forall_forall.
    intros w _. apply dot_self_nonneg. }
  set (i1 := argmax R RO nrm2). set (v1 := nth i1 v zeroR).
  set (crs := map (fun w => crossR v1 w) v).
  set (ci := argmax R RO (map normsqR crs)). set (normal := nth ci crs zeroR).
  assert (Hperp : forall x, dotR m x = 0 -> dotR normal x = 0).
  { apply nth_Forall; [intros x _; rewrite dot_comm; apply dot_zero3|].
    apply Forall_map. eapply Forall_impl; [|exact Hv]. cbv beta. intros w Hw x Hx.
    apply (cross_perp m); auto. apply nth_Forall; [apply dot_zero3 | exact Hv]. }
  set (a2 := n_mul R RO (n_mul R RO tol tol) _).
  assert (Ha2 : 0 <= a2).
  { subst a2. cbn [n_mul RO]. pose proof (Hnrm i1). pose proof (Hnrm ci).
    apply Rmult_le_pos; [nra | apply Rmult_le_pos; assumption]. }
  cbn [n_leb n_mul RO]. destruct (_ && _ && _) eqn:EB; [discriminate|].
  intros H. injection H as <-.
  pose proof (not_small_pos normal a2 Ha2 EB) as Hpos.
  assert (Hx : forall x, dotR m x = 0 -> dotR (vdivR normal (normR normal)) x = 0).
  { intros x Hx. rewrite dot_comm, dot_vdiv, dot_comm, (Hperp x Hx). unfold Rdiv. ring. }
  split; [apply (normalize_unit normal Hpos) | split; [exact Hx|]].
  intros p q Hp Hq. apply Hx. rewrite dot_vsub. rewrite Forall_forall in Hall.
  rewrite (Hall p Hp), (Hall q Hq). ring.
Qed.

Lemma plane_matrix_pts_spec (pts : list V) (tol : R) (r m : V) (d : R) (Rm : M) :
  0 < dotR m m -> Forall (fun p => dotR m p = d) pts -> dotR r r = 1 ->
  plane_matrix_pts R RO pts tol r = Ok Rm ->
  exists n, compute_normal R RO pts tol = Ok n /\ aligns Rm n r /\
    (in_band n r = false ->
       forall p q, In p pts -> In q pts -> dotR r (mvR Rm (vsubR p q)) = 0).
Proof.
  intros Hm Hall Hr. unfold plane_matrix_pts.
  destruct (compute_normal R RO pts tol) as [n|e] eqn:EN; [|discriminate].
  destruct (points_are_planar R RO pts n tol); [|discriminate].
  intros H. destruct (compute_normal_spec pts tol m d n Hm Hall EN) as (Hu & _ & Hpq).
  destruct (project_matrix_spec n r Hu Hr) as (Rm' & E & HA).
  rewrite E in H. injection H as <-.
  exists n. split; [reflexivity|]. split; [exact HA|].
  destruct HA as (Ho & _ & Hout & _).
  intros Hb p q Hp Hq. rewrite <- (Hout Hb) at 1. rewrite orth_dot by exact Ho.
  apply Hpq; auto.
Qed.

Definition tn3_good (b : V * V * V) : Prop :=
  let '(t1, t2, n) := b in
  dotR t1 t1 = 1 /\ dotR t2 t2 = 1 /\ dotR n n = 1 /\
  dotR t1 t2 = 0 /\ dotR t1 n = 0 /\ dotR t2 n = 0 /\
  detR (t1, t2, n) = 1 /\
  inv3 R RO (mTR (t1, t2, n)) = Ok (t1, t2, n) /\
  mvR (t1, t2, n) n = (0, 0, 1).

Lemma inv3_mT : forall B : M,
  detR B = 1 ->
  inv3 R RO (mTR B)
  = Ok (crossR (row1 R B) (row2 R B), crossR (row2 R B) (row0 R B), crossR (row0 R B) (row1 R B)).
Proof.
  intros [[[[]] [[]]] [[]]] Hd. unfold inv3. cbv zeta.
  replace (detR (mTR _)) with 1 by (rewrite <- Hd; coords).
  rewrite nabs_Rabs, Rabs_R1. cbn [n_leb n_zero RO]. destruct (Rleb_spec 1 0); [lra|].
  f_equal. cbn [n_div n_one RO]. replace (1 / 1) with 1 by field. coords.
Qed.

Lemma tn3_core (t1 n : V) :
  dotR t1 t1 = 1 -> dotR n n = 1 -> dotR t1 n = 0 ->
  tn3_good (t1, crossR n t1, n).
Proof.
  intros H1 Hn H1n. unfold tn3_good.
  assert (Hn1 : dotR n t1 = 0) by (rewrite dot_comm; exact H1n).
  assert (H2 : crossR (crossR n t1) n = t1) by (rewrite cross_cross_l, Hn, H1n; apply vcomb_1_0).
  assert (H3 : crossR t1 (crossR n t1) = n) by (rewrite cross_cross_r, H1, H1n; apply vcomb_1_0).
  assert (H2n : dotR (crossR n t1) n = 0) by (rewrite dot_comm; apply dot_cross_l).
  assert (Hd : detR (t1, crossR n t1, n) = 1)
    by (unfold det; cbn [row0 row1 row2 fst snd]; rewrite H2; exact H1).
  repeat split; auto.
  - rewrite lagrange, Hn, H1, Hn1. ring.
  - apply dot_cross_r.
  - rewrite (inv3_mT _ Hd). cbn [row0 row1 row2 fst snd]. rewrite H2, H3. reflexivity.
  - unfold mv. cbn [row0 row1 row2 fst snd]. rewrite H1n, H2n, Hn. reflexivity.
Qed.

(* Gram-Schmidt step of tn3_basis: a seed raw that is not parallel to n is made orthogonal to
   n and normalised; with n x t1 (already a unit vector) this is a right-handed frame *)
Lemma gs_lemma (raw n : V) :
  dotR n n = 1 -> 0 < dotR raw raw - dotR raw n * dotR raw n ->
  let w := vsubR raw (vscaleR (dotR raw n) n) in
  let t1 := vdivR w (normR w) in
  exists t1' t2', (t1, vdivR (crossR n t1) (normR (crossR n t1)), n) = (t1', t2', n) /\
                  tn3_good (t1', t2', n).
Proof.
  intros Hn Hraw w t1. do 2 eexists. split; [reflexivity|].
  assert (Hw : 0 < dotR w w) by (unfold w; rewrite gs_norm, Hn; lra).
  assert (H1 : dotR t1 t1 = 1) by (apply (normalize_unit w); auto).
  assert (H1n : dotR t1 n = 0).
  { subst t1 w. rewrite dot_comm, dot_vdiv, dot_vsub, dot_vscale, Hn, (dot_comm n raw).
    unfold Rdiv. ring. }
  assert (Hc : dotR (crossR n t1) (crossR n t1) = 1).
  { rewrite lagrange, Hn, H1, (dot_comm n t1), H1n. ring. }
  change (vdivR (crossR n t1) (normR (crossR n t1))) with (normalizeR (crossR n t1)).
  rewrite (normalize_of_unit _ Hc). apply tn3_core; auto.
Qed.

(* the seed (0, 1, p) (and its permutations) when the two other components p, q of the unit
   normal are below atol *)
Lemma tiny_seed p q : p * p + q * q < atolR * atolR -> 0 < 1 + p * p - (p + p * q) * (p + p * q).
Proof.
  cbn. intros H. assert (0 <= p * p) by nra. assert (0 <= q * q) by nra.
  assert (0 <= 4 - (1 + q) * (1 + q)) by nra. nra.
Qed.

Lemma tn3_spec (nrm : V) :
  0 < dotR nrm nrm ->
  exists t1 t2, tn3_basis R RO nrm = (t1, t2, normalizeR nrm) /\
                tn3_good (t1, t2, normalizeR nrm).
Proof.
  intros Hpos. unfold tn3_basis.
  pose proof (normalize_unit nrm Hpos) as Hn.
  rewrite (normalize_of_unit _ Hn). set (n := normalizeR nrm) in *. cbv zeta.
  destruct (argmax3 R RO n) as [|[|k]]; cbn [n_ltb n_mul n_add RO];
    match goal with |- context [Rltb ?x ?y] => destruct (Rltb_spec x y) as [EB|EB] end;
    apply gs_lemma; auto; try apply tiny_seed in EB; destruct n as [[a b] c]; rsimp; lra.
Qed.

Notation dot2R := (dot2 R RO).
Notation normalize2R := (normalize2 R RO).

Ltac rsimp2 := unfold dot2, det2 in *; cbn [fst snd n_mul n_add n_sub RO] in *.

Lemma normalize2_unit (a : v2 R) : 0 < dot2R a a -> dot2R (normalize2R a) (normalize2R a) = 1.
Proof.
  intros H. destruct (sqrt_facts _ H) as [Hp Hs]. destruct a as [x y].
  unfold normalize2. rsimp2. cbn [n_div n_sqrt RO]. set (n := sqrt _) in *.
  field_simplify_eq; lra.
Qed.

Lemma normalize2_of_unit (a : v2 R) : dot2R a a = 1 -> normalize2R a = a.
Proof.
  intros H. destruct a as [x y]. unfold normalize2. rsimp2. cbn [n_div n_sqrt RO].
  rewrite H, sqrt_1. f_equal; field.
Qed.

Lemma lagrange2 : forall t n : v2 R,
  det2 R RO (t, n) * det2 R RO (t, n) = dot2R t t * dot2R n n - dot2R t n * dot2R t n.
Proof. intros [] []. rsimp2. ring. Qed.

Lemma cofactor2 : forall p x : v2 R,
  dot2R p p = 1 -> dot2R p x = 0 ->
  fst x = - det2 R RO (p, x) * snd p /\ snd x = det2 R RO (p, x) * fst p.
Proof.
  intros [p0 p1] [x0 x1]. rsimp2. intros Hp Hx. split.
  - transitivity (x0 * (p0 * p0 + p1 * p1) - p0 * (p0 * x0 + p1 * x1)); [rewrite Hp, Hx|]; ring.
  - transitivity (x1 * (p0 * p0 + p1 * p1) - p1 * (p0 * x0 + p1 * x1)); [rewrite Hp, Hx|]; ring.
Qed.

Lemma inv2_orth (t n : v2 R) :
  dot2R t t = 1 -> dot2R n n = 1 -> dot2R t n = 0 ->
  inv2 R RO ((fst t, fst n), (snd t, snd n)) = Ok (t, n).
Proof.
  intros Ht Hn Htn.
  assert (Hnt : dot2R n t = 0) by (rewrite <- Htn; destruct t, n; rsimp2; ring).
  pose proof (lagrange2 t n) as Hdd. rewrite Ht, Hn, Htn in Hdd.
  destruct (cofactor2 n t Hn Hnt) as [E1 E2], (cofactor2 t n Ht Htn) as [E3 E4].
  destruct t as [tx ty], n as [nx ny]. unfold inv2. rsimp2.
  cbn [n_div n_opp n_leb n_zero RO]. set (d := tx * ny - nx * ty).
  assert (Hd : d * d = 1) by (unfold d; lra).
  assert (Hinv : / d = d) by (apply Rmult_eq_reg_l with d; [rewrite Rinv_r|]; nra).
  rewrite nabs_Rabs. destruct (Rleb_spec (Rabs d) 0) as [H|_].
  { pose proof (Rabs_pos_lt d). nra. }
  unfold Rdiv. rewrite Hinv. unfold d. apply f_equal, f_equal2; apply f_equal2; lra.
Qed.

(* the tangent of tn2_basis is a unit vector orthogonal to the unit normal, turned as the sign
   convention of the code says *)
Lemma tn2_spec (nrm : v2 R) :
  0 < dot2R nrm nrm ->
  let n := normalize2R nrm in
  exists t, tn2_basis R RO nrm = (t, n) /\ dot2R n n = 1 /\ dot2R t t = 1 /\ dot2R t n = 0 /\
            (det2 R RO (t, n) = 1 <-> 0 < snd n \/ snd n = 0 /\ fst n < 0).
Proof.
  intros Hpos n. unfold tn2_basis. pose proof (normalize2_unit nrm Hpos) as Hn.
  rewrite (normalize2_of_unit _ Hn). fold n in Hn |- *. clearbody n. cbv zeta.
  eexists. split; [reflexivity|]. split; [exact Hn|].
  destruct n as [a b]. cbn [n_ltb n_zero n_opp n_one RO fst snd].
  destruct (Rltb_spec b 0); [|destruct (Rltb_spec 0 b)]; rsimp2;
    (split; [nra|]; split; [nra|]; split;
     [intros; (left; nra) || (right; split; nra) | intros [|[]]; nra]).
Qed.

Lemma cross_vsum (t w : V) l :
  Forall (fun p => crossR p t = w) l -> crossR (vsumR l) t = vscaleR (INR (length l)) w.
Proof.
  induction 1 as [|p l Hp Hl IH].
  - cbn [vsum fold_right length INR]. rewrite cross_zero3_l. destruct w as [[]]. coords.
  - cbn [vsum fold_right]. fold (vsumR l). rewrite cross_vadd_l, IH, Hp.
    change (length (p :: l)) with (S (length l)). rewrite S_INR. destruct w as [[]]. coords.
Qed.

Lemma mean_on_line (t w : V) l :
  l <> [] -> Forall (fun p => crossR p t = w) l -> crossR (meanR l) t = w.
Proof.
  intros Hne Hall. unfold mean. cbn [n_ofnat RO].
  rewrite cross_vdiv_l, (cross_vsum t w) by auto. pose proof (INR_length_neq0 l Hne).
  destruct w as [[]]. rsimp. apply v3_ext; field; auto.
Qed.

Lemma centered_parallel (t w c : V) pts :
  Forall (fun p => crossR p t = w) pts -> crossR c t = w ->
  Forall (fun v => crossR v t = zeroR) (map (fun p => vsubR p c) pts).
Proof.
  intros Hall Hc. apply Forall_map. eapply Forall_impl; [|exact Hall].
  cbv beta. intros p Hp. rewrite cross_vsub_l, Hp, Hc. apply vsub_self.
Qed.

Lemma compute_tangent_Ok (pts : list V) (tg : V) :
  compute_tangent R RO pts = Ok tg ->
  pts <> [] /\
  exists i, let g := nth i (map (fun p => vsubR p (meanR pts)) pts) zeroR in
            0 < dotR g g /\ tg = normalizeR g.
Proof.
  unfold compute_tangent. destruct pts as [|p0 pts0] eqn:Ep; [discriminate|]. rewrite <- Ep.
  cbv zeta. set (g := nth _ _ zeroR). destruct (allclose0R g) eqn:EB; [discriminate|].
  intros H. injection H as <-. split; [rewrite Ep; discriminate|].
  eexists. split; [apply allclose0_false_pos, EB | reflexivity].
Qed.

Lemma compute_tangent_unit (pts : list V) (tg : V) :
  compute_tangent R RO pts = Ok tg -> dotR tg tg = 1.
Proof.
  intros H. destruct (compute_tangent_Ok _ _ H) as (_ & i & Hp & ->). apply normalize_unit, Hp.
Qed.

Lemma compute_tangent_spec (pts : list V) (t w tg : V) :
  0 < dotR t t -> Forall (fun p => crossR p t = w) pts ->
  compute_tangent R RO pts = Ok tg ->
  dotR tg tg = 1 /\ crossR tg t = zeroR /\
  forall p q, In p pts -> In q pts -> vsubR p q = vscaleR (dotR (vsubR p q) tg) tg.
Proof.
  intros Ht Hall H. pose proof (compute_tangent_unit _ _ H) as Hu.
  destruct (compute_tangent_Ok _ _ H) as (Hne & i & _ & ->). set (g := nth i _ zeroR) in *.
  assert (Hg : crossR g t = zeroR).
  { apply nth_Forall; [apply cross_zero3_l|].
    exact (centered_parallel t w _ pts Hall (mean_on_line t w pts Hne Hall)). }
  assert (Hgt : crossR (normalizeR g) t = zeroR).
  { unfold normalize. rewrite cross_vdiv_l, Hg. apply vdiv_zero3. }
  split; [exact Hu|]. split; [exact Hgt|].
  intros p q Hpi Hqi. apply (parallel_unit _ _ t); auto.
  rewrite cross_vsub_l. rewrite Forall_forall in Hall.
  rewrite (Hall p Hpi), (Hall q Hqi). apply vsub_self.
Qed.

Lemma line_matrix_pts_spec (pts : list V) (r t w : V) (Rm : M) :
  0 < dotR t t -> Forall (fun p => crossR p t = w) pts -> dotR r r = 1 ->
  line_matrix_pts R RO pts r = Ok Rm ->
  exists tg, compute_tangent R RO pts = Ok tg /\ aligns Rm tg r /\
    (in_band tg r = false ->
       forall p q, In p pts -> In q pts ->
         mvR Rm (vsubR p q) = vscaleR (dotR (vsubR p q) tg) r).
Proof.
  intros Ht Hall Hr. unfold line_matrix_pts.
  destruct (compute_tangent R RO pts) as [tg|e] eqn:ET; [|discriminate].
  intros H. destruct (compute_tangent_spec pts t w tg Ht Hall ET) as (Hu & _ & Hpq).
  destruct (project_matrix_spec tg r Hu Hr) as (Rm' & E & HA).
  rewrite E in H. injection H as <-.
  exists tg. split; [reflexivity|]. split; [exact HA|].
  destruct HA as (_ & _ & Hout & _).
  intros Hb p q Hp Hq. rewrite (Hpq p q Hp Hq) at 1. rewrite mv_vscale, (Hout Hb). reflexivity.
Qed.

Lemma quarter_turn (k v : V) :
  dotR k k = 1 -> dotR k v = 0 -> mvR (rotation_matrix R RO 1 0 k) v = crossR k v.
Proof.
  intros Hk Hv. unfold rotation_matrix. rewrite (unit_not_allclose0 k Hk).
  change (vdivR k (normR k)) with (normalizeR k).
  rewrite (normalize_of_unit k Hk), (rod_unit_perp 1 0 k v Hk Hv).
  destruct (crossR k v) as [[]], v as [[]]. coords.
Qed.

Lemma normals_1d_spec (pts : list V) (n1 n2 : V) :
  compute_normals_1d R RO pts = Ok (n1, n2) ->
  exists tg, compute_tangent R RO pts = Ok tg /\
    dotR n1 n1 = 1 /\ dotR n2 n2 = 1 /\ dotR n1 n2 = 0 /\ dotR n1 tg = 0 /\ dotR n2 tg = 0.
Proof.
  unfold compute_normals_1d.
  destruct (compute_tangent R RO pts) as [tg|e] eqn:ET; [|discriminate].
  pose proof (compute_tangent_unit _ _ ET) as Hu.
  cbv zeta. cbn [n_leb n_zero n_one n_mul n_add n_sqrt n_opp RO].
  destruct (Rleb_spec (vx tg * vx tg + vy tg * vy tg) 0) as [|EB]; [discriminate|].
  intros H. injection H as <- <-. exists tg. split; [reflexivity|].
  set (h := sqrt _). set (n1 := vdivR _ h).
  destruct (sqrt_facts (vx tg * vx tg + vy tg * vy tg)) as [Hp Hs]; [lra|]. fold h in Hp, Hs.
  assert (H1 : dotR n1 n1 = 1) by (apply vdiv_unit; [lra|]; rewrite Hs; coords).
  assert (H1t : dotR tg n1 = 0)
    by (unfold n1; rewrite dot_vdiv; destruct tg as [[]]; rsimp; field; lra).
  rewrite (quarter_turn tg n1 Hu H1t).
  rewrite lagrange, Hu, H1, H1t, dot_cross_r, (dot_comm n1 tg), H1t, (dot_comm _ tg), dot_cross_l.
  repeat split; ring.
Qed.
