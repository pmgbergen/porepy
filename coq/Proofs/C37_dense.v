(* C37 — algebra of dense matrices (PP.Lib.Dense) over an arbitrary commutative ring. *)
From Coq Require Import List Arith Bool Lia Ring.
Import ListNotations.
From PP Require Import Lib.ListFacts Lib.Dense.

Section DenseAlg.
  Variable T : Type.
  Variables (zero one : T) (add mul sub : T -> T -> T) (opp : T -> T).
  Hypothesis Rth : ring_theory zero one add mul sub opp eq.
  Add Ring Tring : Rth.

  Notation zeros := (zeros zero).
  Notation vadd := (vadd add).
  Notation vscale := (vscale mul).
  Notation vecmat := (vecmat zero add mul).
  Notation mat_mul := (mat_mul zero add mul).
  Notation unit_row := (unit_row zero one).
  Notation identity := (identity zero one).
  Notation mget := (mget zero).
  Notation diag2 := (diag2 zero).
  Notation block_diag := (block_diag zero).
  Notation sum_list := (sum_list zero add).

  Definition width (p : nat) (M : list (list T)) : Prop := Forall (fun r => length r = p) M.
  Definition shaped (m p : nat) (M : list (list T)) : Prop := length M = m /\ width p M.

  Lemma width_cons : forall p row M, width p (row :: M) -> length row = p /\ width p M.
  Proof. intros p row M W. inversion W; auto. Qed.

  Lemma width_In p M r : width p M -> In r M -> length r = p.
  Proof. intros W. exact (proj1 (Forall_forall _ M) W r). Qed.

  Lemma width_map {X} p (f : X -> list T) l :
    (forall x, In x l -> length (f x) = p) -> width p (map f l).
  Proof. intros H. apply Forall_map, Forall_forall, H. Qed.

  Lemma zeros_length : forall n, length (zeros n) = n.
  Proof. intros n. apply repeat_length. Qed.

  Lemma zeros_app : forall m n, zeros (m + n) = zeros m ++ zeros n.
  Proof. intros. apply repeat_app. Qed.

  Lemma width_nth p M i : width p M -> length (nth i M (zeros p)) = p.
  Proof.
    intros W. destruct (nth_in_or_default i M (zeros p)) as [H| ->]; [|apply zeros_length].
    exact (width_In _ _ _ W H).
  Qed.

  Lemma vadd_length : forall u v, length u = length v -> length (vadd u v) = length u.
  Proof. induction u as [|x u IH]; intros [|y v] H; simpl in *; try lia. f_equal. apply IH. lia. Qed.

  Lemma vscale_length : forall a v, length (vscale a v) = length v.
  Proof. intros. apply map_length. Qed.

  Lemma vscale_app : forall a u v, vscale a (u ++ v) = vscale a u ++ vscale a v.
  Proof. intros. apply map_app. Qed.

  Lemma vadd_zeros_r : forall u n, length u = n -> vadd u (zeros n) = u.
  Proof. intros u n <-. induction u as [|x u IH]; simpl; [reflexivity|]. f_equal; [ring|exact IH]. Qed.

  Lemma vadd_zeros_l : forall u n, length u = n -> vadd (zeros n) u = u.
  Proof. intros u n <-. induction u as [|x u IH]; simpl; [reflexivity|]. f_equal; [ring|exact IH]. Qed.

  Lemma vadd_app : forall u1 v1 u2 v2, length u1 = length v1 ->
    vadd (u1 ++ u2) (v1 ++ v2) = vadd u1 v1 ++ vadd u2 v2.
  Proof.
    induction u1 as [|x u IH]; intros [|y v] u2 v2 H; simpl in *; try lia; [reflexivity|].
    f_equal. apply IH. lia.
  Qed.

  Lemma vadd_interchange : forall x y z w,
    vadd (vadd x y) (vadd z w) = vadd (vadd x z) (vadd y w).
  Proof.
    induction x as [|a x IH]; intros [|b y] [|c z] [|d w]; simpl; try reflexivity.
    f_equal; [ring|apply IH].
  Qed.

  Lemma vadd_assoc : forall x y z, vadd x (vadd y z) = vadd (vadd x y) z.
  Proof.
    induction x as [|a x IH]; intros [|b y] [|c z]; simpl; try reflexivity. f_equal; [ring|apply IH].
  Qed.

  Lemma vscale_add : forall a b r, vscale (add a b) r = vadd (vscale a r) (vscale b r).
  Proof. induction r as [|x r IH]; simpl; [reflexivity|]. f_equal; [ring|exact IH]. Qed.

  Lemma vscale_vadd : forall a u v, vscale a (vadd u v) = vadd (vscale a u) (vscale a v).
  Proof.
    induction u as [|x u IH]; intros [|y v]; simpl; try reflexivity. f_equal; [ring|apply IH].
  Qed.

  Lemma vscale_vscale : forall a b r, vscale a (vscale b r) = vscale (mul a b) r.
  Proof. induction r as [|x r IH]; simpl; [reflexivity|]. f_equal; [ring|exact IH]. Qed.

  Lemma vscale_zeros : forall a n, vscale a (zeros n) = zeros n.
  Proof. induction n; simpl; [reflexivity|]. f_equal; [ring|exact IHn]. Qed.

  Lemma vscale_zero : forall r, vscale zero r = zeros (length r).
  Proof. induction r as [|x r IH]; simpl; [reflexivity|]. f_equal; [ring|exact IH]. Qed.

  Lemma vscale_one : forall r, vscale one r = r.
  Proof. induction r as [|x r IH]; simpl; [reflexivity|]. f_equal; [ring|exact IH]. Qed.

  Lemma vecmat_nil_r : forall p r, vecmat p r [] = zeros p.
  Proof. destruct r; reflexivity. Qed.

  Lemma vecmat_length : forall p r M, width p M -> length (vecmat p r M) = p.
  Proof.
    induction r as [|a r IH]; intros [|row M] W; try apply zeros_length.
    destruct (width_cons _ _ _ W) as [Hr WM]. cbn [Dense.vecmat].
    rewrite vadd_length; rewrite vscale_length, ?IH; congruence.
  Qed.

  Lemma vecmat_zeros : forall p k M, width p M -> vecmat p (zeros k) M = zeros p.
  Proof.
    induction k as [|k IH]; intros [|row M] W; try reflexivity.
    destruct (width_cons _ _ _ W) as [Hr WM].
    change (zeros (S k)) with (zero :: zeros k). cbn [Dense.vecmat].
    rewrite (IH M WM), vscale_zero, Hr. apply vadd_zeros_r, zeros_length.
  Qed.

  Lemma vecmat_app : forall p r1 M1 r2 M2, length r1 = length M1 -> width p M1 -> width p M2 ->
    vecmat p (r1 ++ r2) (M1 ++ M2) = vadd (vecmat p r1 M1) (vecmat p r2 M2).
  Proof.
    induction r1 as [|a r1 IH]; intros [|row M1] r2 M2 HL W1 W2; simpl in HL; try lia.
    - symmetry. apply vadd_zeros_l, vecmat_length, W2.
    - cbn [app Dense.vecmat]. rewrite IH by (apply width_cons in W1; tauto || lia). apply vadd_assoc.
  Qed.

  Lemma vecmat_pad_r : forall p q r C, width p C ->
    vecmat (p + q) r (map (fun x => x ++ zeros q) C) = vecmat p r C ++ zeros q.
  Proof.
    induction r as [|a r IH]; intros [|row C] W; try apply zeros_app.
    destruct (width_cons _ _ _ W) as [Hr WC]. cbn [map Dense.vecmat].
    rewrite IH, vscale_app, vscale_zeros, vadd_app by (rewrite ?vscale_length, ?vecmat_length; congruence).
    rewrite (vadd_zeros_r (zeros q)) by apply zeros_length. reflexivity.
  Qed.

  Lemma vecmat_pad_l : forall p q r C, width p C ->
    vecmat (q + p) r (map (fun x => zeros q ++ x) C) = zeros q ++ vecmat p r C.
  Proof.
    induction r as [|a r IH]; intros [|row C] W; try apply zeros_app.
    destruct (width_cons _ _ _ W) as [Hr WC]. cbn [map Dense.vecmat].
    rewrite IH, vscale_app, vscale_zeros, vadd_app by (exact WC || reflexivity).
    rewrite (vadd_zeros_r (zeros q)) by apply zeros_length. reflexivity.
  Qed.

  Lemma vecmat_vadd : forall p u v B, length u = length v ->
    vecmat p (vadd u v) B = vadd (vecmat p u B) (vecmat p v B).
  Proof.
    induction u as [|a u IH]; intros [|b v] [|row B] H; simpl in H; try lia;
      try (symmetry; apply vadd_zeros_r, zeros_length).
    cbn [Dense.vadd Dense.vecmat]. rewrite IH, vscale_add by lia. apply vadd_interchange.
  Qed.

  Lemma vecmat_vscale : forall p a u B, vecmat p (vscale a u) B = vscale a (vecmat p u B).
  Proof.
    induction u as [|b u IH]; intros [|row B]; try (symmetry; apply vscale_zeros).
    change (vscale a (b :: u)) with (mul a b :: vscale a u). cbn [Dense.vecmat].
    rewrite IH, vscale_vadd, vscale_vscale. reflexivity.
  Qed.

  Lemma width_mat_mul : forall p A B, width p B -> width p (mat_mul p A B).
  Proof. intros p A B W. apply width_map. intros r _. apply vecmat_length, W. Qed.

  Lemma shaped_mat_mul : forall m q p A B, shaped m q A -> shaped q p B -> shaped m p (mat_mul p A B).
  Proof.
    intros m q p A B [LA _] [_ WB]. split; [unfold Dense.mat_mul; rewrite map_length; exact LA|].
    apply width_mat_mul, WB.
  Qed.

  Lemma vecmat_assoc : forall p q r A B, width q A -> width p B ->
    vecmat p (vecmat q r A) B = vecmat p r (mat_mul p A B).
  Proof.
    induction r as [|a r IH]; intros [|row A] B WA WB; try (apply vecmat_zeros, WB).
    destruct (width_cons _ _ _ WA) as [Hr WA']. cbn [Dense.vecmat Dense.mat_mul map].
    rewrite vecmat_vadd, vecmat_vscale, IH by (rewrite ?vscale_length, ?vecmat_length; congruence).
    reflexivity.
  Qed.

  Lemma mat_mul_assoc : forall p q A B C, width q B -> width p C ->
    mat_mul p (mat_mul q A B) C = mat_mul p A (mat_mul p B C).
  Proof.
    intros p q A B C WB WC. unfold Dense.mat_mul. rewrite map_map. apply map_ext.
    intros r. apply vecmat_assoc; assumption.
  Qed.

  Lemma unit_row_0 : forall n, unit_row (S n) 0 = one :: zeros n.
  Proof.
    intros n. unfold Dense.unit_row. cbn [seq map Nat.eqb]. f_equal.
    rewrite <- seq_shift, map_map. cbn [Nat.eqb]. rewrite map_const, seq_length. reflexivity.
  Qed.

  Lemma unit_row_S : forall n i, unit_row (S n) (S i) = zero :: unit_row n i.
  Proof.
    intros n i. unfold Dense.unit_row. cbn [seq map Nat.eqb]. f_equal.
    rewrite <- seq_shift, map_map. reflexivity.
  Qed.

  Lemma unit_row_length : forall n i, length (unit_row n i) = n.
  Proof. intros. unfold Dense.unit_row. rewrite map_length, seq_length. reflexivity. Qed.

  Lemma unit_row_lo : forall k m i, i < k -> unit_row (k + m) i = unit_row k i ++ zeros m.
  Proof.
    induction k as [|k IH]; intros m [|i] H; try lia; cbn [plus].
    - rewrite !unit_row_0, zeros_app. reflexivity.
    - rewrite !unit_row_S, IH by lia. reflexivity.
  Qed.

  Lemma unit_row_hi : forall k m i, unit_row (k + m) (k + i) = zeros k ++ unit_row m i.
  Proof.
    induction k as [|k IH]; intros m i; [reflexivity|]. cbn [plus]. rewrite unit_row_S, IH. reflexivity.
  Qed.

  Lemma identity_length : forall n, length (identity n) = n.
  Proof. intros. unfold Dense.identity. rewrite map_length, seq_length. reflexivity. Qed.

  Lemma width_identity : forall n, width n (identity n).
  Proof. intros n. apply width_map. intros i _. apply unit_row_length. Qed.

  Lemma shaped_identity : forall n, shaped n n (identity n).
  Proof. intros n. split; [apply identity_length|apply width_identity]. Qed.

  Lemma identity_diag2 : forall k m, identity (k + m) = diag2 k m (identity k) (identity m).
  Proof.
    intros k m. unfold Dense.identity, Dense.diag2. rewrite seq_app, map_app, !map_map. f_equal.
    - apply map_ext_in. intros i Hi. apply in_seq in Hi. apply unit_row_lo. lia.
    - rewrite (Nat.add_comm 0 k), <- map_add_seq, map_map. apply map_ext. intros i. apply unit_row_hi.
  Qed.

  Lemma vecmat_unit_row : forall p M n i, width p M -> length M = n -> i < n ->
    vecmat p (unit_row n i) M = nth i M (zeros p).
  Proof.
    intros p M. induction M as [|row M IH]; intros [|n] i W L H; simpl in L; try lia.
    destruct (width_cons _ _ _ W) as [Hr WM]. injection L as L. destruct i as [|i].
    - rewrite unit_row_0. cbn [Dense.vecmat nth].
      rewrite vscale_one, vecmat_zeros by exact WM. apply vadd_zeros_r, Hr.
    - rewrite unit_row_S. cbn [Dense.vecmat nth].
      rewrite vscale_zero, IH, Hr by (auto; lia). apply vadd_zeros_l, width_nth, WM.
  Qed.

  Lemma mat_mul_identity_l : forall p M, width p M -> mat_mul p (identity (length M)) M = M.
  Proof.
    intros p M W. unfold Dense.mat_mul, Dense.identity. rewrite map_map.
    transitivity (map (fun i => nth i M (zeros p)) (seq 0 (length M))); [|apply map_nth_seq].
    apply map_ext_in. intros i Hi. apply in_seq in Hi. apply vecmat_unit_row; auto; lia.
  Qed.

  Lemma width_pad_r : forall p q C, width p C -> width (p + q) (map (fun x => x ++ zeros q) C).
  Proof.
    intros p q C W. apply width_map. intros x Hx.
    rewrite app_length, zeros_length, (width_In _ _ _ W Hx). reflexivity.
  Qed.

  Lemma width_pad_l : forall p q C, width p C -> width (q + p) (map (fun x => zeros q ++ x) C).
  Proof.
    intros p q C W. apply width_map. intros x Hx.
    rewrite app_length, zeros_length, (width_In _ _ _ W Hx). reflexivity.
  Qed.

  Lemma vecmat_identity : forall r, vecmat (length r) r (identity (length r)) = r.
  Proof.
    induction r as [|a r IH]; [reflexivity|].
    (* split off the first coordinate: the identity of size 1 + n is diag2 of those of sizes 1 and n *)
    change (length (a :: r)) with (1 + length r). rewrite identity_diag2.
    change (a :: r) with ([a] ++ r). unfold Dense.diag2.
    rewrite vecmat_app;
      [| reflexivity | apply width_pad_r, width_identity | apply width_pad_l, width_identity].
    rewrite vecmat_pad_r, vecmat_pad_l, IH by apply width_identity.
    rewrite vadd_app, vadd_zeros_l by reflexivity. cbn. do 2 f_equal. ring.
  Qed.

  Lemma mat_mul_identity_r : forall p M, width p M -> mat_mul p M (identity p) = M.
  Proof.
    intros p M W. unfold Dense.mat_mul. rewrite <- (map_id M) at 2. apply map_ext_in.
    intros r Hr. rewrite <- (width_In _ _ _ W Hr). apply vecmat_identity.
  Qed.

  Lemma diag2_mul : forall k m p q A B C D,
    width k A -> width m B -> length C = k -> length D = m -> width p C -> width q D ->
    mat_mul (p + q) (diag2 k m A B) (diag2 p q C D)
    = diag2 p q (mat_mul p A C) (mat_mul q B D).
  Proof.
    intros k m p q A B C D WA WB LC LD WC WD.
    pose proof (width_pad_r p q C WC) as WC'. pose proof (width_pad_l q p D WD) as WD'.
    unfold Dense.diag2, Dense.mat_mul. rewrite map_app, !map_map. f_equal.
    - apply map_ext_in. intros r Hr.
      rewrite vecmat_app, vecmat_pad_r, vecmat_zeros by (assumption || rewrite map_length, (width_In _ _ _ WA Hr), LC; reflexivity).
      apply vadd_zeros_r. rewrite app_length, zeros_length, vecmat_length by exact WC. reflexivity.
    - apply map_ext_in. intros r Hr.
      rewrite vecmat_app, vecmat_pad_l, vecmat_zeros by (assumption || rewrite zeros_length, map_length, LC; reflexivity).
      apply vadd_zeros_l. rewrite app_length, zeros_length, vecmat_length by exact WD. reflexivity.
  Qed.

  Definition square (B : list (list T)) : Prop := width (length B) B.

  Fixpoint total (Bs : list (list (list T))) : nat :=
    match Bs with [] => 0 | B :: r => length B + total r end.

  Lemma block_diag_length : forall Bs, length (block_diag Bs) = total Bs.
  Proof.
    induction Bs as [|B Bs IH]; [reflexivity|].
    cbn [Dense.block_diag total]. unfold Dense.diag2. rewrite app_length, !map_length, IH. reflexivity.
  Qed.

  Lemma block_diag_width : forall Bs, Forall square Bs -> width (total Bs) (block_diag Bs).
  Proof.
    induction 1 as [|B Bs HB _ IH]; [constructor|]. cbn [Dense.block_diag total].
    rewrite block_diag_length. apply Forall_app. split; [apply width_pad_r, HB | apply width_pad_l, IH].
  Qed.

  Lemma total_map_ext {X} (f g : X -> list (list T)) l :
    Forall (fun x => length (f x) = length (g x)) l -> total (map f l) = total (map g l).
  Proof. induction 1 as [|x l Hx _ IH]; cbn [map total]; congruence. Qed.

  Lemma block_diag_inverse {X} (f g : X -> list (list T)) l :
    Forall (fun x => square (f x) /\ square (g x) /\ length (f x) = length (g x) /\
                     mat_mul (length (g x)) (f x) (g x) = identity (length (g x))) l ->
    mat_mul (total (map g l)) (block_diag (map f l)) (block_diag (map g l))
    = identity (total (map g l)).
  Proof.
    induction 1 as [|x l (Sf & Sg & L & E) Hl IH]; [reflexivity|].
    assert (HT : total (map f l) = total (map g l))
      by (apply total_map_ext; eapply Forall_impl; [|exact Hl]; cbn beta; tauto).
    assert (WF : Forall square (map f l))
      by (apply Forall_map; eapply Forall_impl; [|exact Hl]; cbn beta; tauto).
    assert (WG : Forall square (map g l))
      by (apply Forall_map; eapply Forall_impl; [|exact Hl]; cbn beta; tauto).
    cbn [map Dense.block_diag total]. rewrite !block_diag_length, HT.
    rewrite diag2_mul, E, IH, <- identity_diag2; auto using block_diag_length, block_diag_width.
    rewrite <- HT. apply block_diag_width, WF.
  Qed.

  Section Inv.
    Variable inv : list (list T) -> list (list T).

    Definition inv_ok (B : list (list T)) : Prop :=
      length (inv B) = length B /\ square (inv B) /\
      mat_mul (length B) B (inv B) = identity (length B) /\
      mat_mul (length B) (inv B) B = identity (length B).

    Theorem blocks_inverse : forall Bs, Forall square Bs -> Forall inv_ok Bs ->
      mat_mul (total Bs) (block_diag Bs) (block_diag (map inv Bs)) = identity (total Bs) /\
      mat_mul (total Bs) (block_diag (map inv Bs)) (block_diag Bs) = identity (total Bs).
    Proof.
      intros Bs SB HI. pose proof (Forall_and SB HI) as H.
      pose proof (block_diag_inverse (fun B => B) inv Bs) as R.
      pose proof (block_diag_inverse inv (fun B => B) Bs) as L.
      assert (HT : total (map inv Bs) = total (map (fun B => B) Bs)).
      { apply total_map_ext. eapply Forall_impl; [|exact HI]. intros B HB. apply HB. }
      rewrite HT in R. rewrite map_id in *. split; [apply R | apply L].
      - eapply Forall_impl; [|exact H]. intros B [SB' (Li & SI & E1 & E2)]. rewrite Li. auto.
      - eapply Forall_impl; [|exact H]. intros B [SB' (Li & SI & E1 & E2)]. auto.
    Qed.
  End Inv.
End DenseAlg.
