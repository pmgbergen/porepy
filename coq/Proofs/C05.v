(* C05 — proofs about the model PP.Model.C05 (EquationSystem dof layout).
   The layout invariant [Inv]: blocks are numbered after [order g (vars s)] (grid by grid,
   then by creation).  create/remove leave the weaker [Pre], from which
   _cluster_dofs_gridwise restores [Inv]; every well-formed operation keeps [Inv2]
   (= [Inv] + one variable per (name, grid)).  Under [Inv] block k is
   seq (offs (sizes s) k) (size k): partition, identify_dof, projection_to.  Under [Inv2] the
   loops of set/get_variable_values read back what they wrote. *)
From Coq Require Import List ZArith Bool Arith Lia Sorted Permutation.
Import ListNotations.
From PP Require Import Model.C05 Proofs.C05_lists.

Lemma dom_eqb_eq a b : dom_eqb a b = true <-> a = b.
Proof. destruct a, b; cbn; rewrite ?Nat.eqb_eq; split; congruence. Qed.

Lemma dom_eqb_refl a : dom_eqb a a = true.
Proof. now apply dom_eqb_eq. Qed.

Lemma dom_eqb_neq a b : dom_eqb a b = false <-> a <> b.
Proof. now rewrite <- dom_eqb_eq, not_true_iff_false. Qed.

Lemma memb_In x l : memb x l = true <-> In x l.
Proof.
  unfold memb. rewrite existsb_exists. split.
  - intros (y & Hy & E). apply Nat.eqb_eq in E. now subst.
  - intro H. exists x. now rewrite Nat.eqb_refl.
Qed.

Lemma lookup_In d k v : lookup d k = Some v -> In (k, v) d.
Proof.
  induction d as [|[k' v'] r IH]; cbn; [discriminate|].
  destruct (Nat.eqb_spec k' k) as [->|]; [intros [= ->]|]; auto.
Qed.

Lemma lookup_pop d k k' : k' <> k -> lookup (dict_pop d k) k' = lookup d k'.
Proof.
  intro Hne. unfold dict_pop. induction d as [|[a v] r IH]; cbn; auto.
  destruct (Nat.eqb_spec a k) as [->|]; cbn; rewrite IH; auto.
  destruct (Nat.eqb_spec k k'); congruence.
Qed.

Lemma lookup_combine ids : forall a k id,
  NoDup ids -> nth_error ids k = Some id ->
  lookup (combine ids (seq a (length ids))) id = Some (a + k).
Proof.
  induction ids as [|x r IH]; intros a [|k] id Hnd Hk; try discriminate;
    inversion Hnd as [|? ? Hn Hnd']; subst; cbn in *.
  - injection Hk as ->. now rewrite Nat.eqb_refl, Nat.add_0_r.
  - destruct (Nat.eqb_spec x id) as [->|].
    + now apply nth_error_In in Hk.
    + now rewrite (IH (S a) k id), Nat.add_succ_r.
Qed.

(* the order prescribed by the property, as a function of the registered variables *)
Definition on_grid (d : dom) (vs : list var) : list var :=
  filter (fun v => dom_eqb (vdom v) d) vs.
Definition order (g : mdgrid) (vs : list var) : list var :=
  flat_map (fun d => on_grid d vs) (grid_order g).
Definition ndofv (g : mdgrid) (v : var) : nat := ndof g (vdom v) (vdof v).

Definition dom_ok (g : mdgrid) (d : dom) : Prop :=
  match d with Sd i => i < length (sds g) | Intf i => i < length (intfs g) end.

Definition rank (g : mdgrid) (d : dom) : nat :=
  match d with Sd i => i | Intf i => length (sds g) + i end.

(* subdomain order, then interface order, then creation order (ids increase with creation) *)
Definition lexlt (g : mdgrid) (a b : var) : Prop :=
  rank g (vdom a) < rank g (vdom b) \/ (rank g (vdom a) = rank g (vdom b) /\ vid a < vid b).

Lemma in_grid_order g d : In d (grid_order g) <-> dom_ok g d.
Proof.
  unfold grid_order. rewrite in_app_iff, !in_map_iff. setoid_rewrite in_seq.
  destruct d as [i|i]; cbn [dom_ok]; split.
  - intros [(x & [= ->] & H)|(x & [=] & _)]. lia.
  - intro H. left. exists i. split; [reflexivity|lia].
  - intros [(x & [=] & _)|(x & [= ->] & H)]. lia.
  - intro H. right. exists i. split; [reflexivity|lia].
Qed.

Lemma grid_order_sorted g : StronglySorted (fun d e => rank g d < rank g e) (grid_order g).
Proof.
  unfold grid_order. apply SS_app; try apply SS_map; cbn [rank].
  - apply SS_seq.
  - apply (SS_weaken lt); [apply SS_seq|]. intros. lia.
  - intros a b Ha Hb. apply in_map_iff in Ha, Hb.
    destruct Ha as (x & <- & Hx), Hb as (y & <- & Hy). apply in_seq in Hx. cbn. lia.
Qed.

Lemma grid_order_NoDup g : NoDup (grid_order g).
Proof. apply (SS_irrefl_NoDup _ _ (grid_order_sorted g)). intro. lia. Qed.

Lemma in_on_grid d vs v : In v (on_grid d vs) <-> In v vs /\ vdom v = d.
Proof. unfold on_grid. now rewrite filter_In, dom_eqb_eq. Qed.

Lemma in_order g vs v : In v (order g vs) <-> In v vs /\ dom_ok g (vdom v).
Proof.
  unfold order. rewrite in_flat_map. setoid_rewrite in_on_grid. setoid_rewrite in_grid_order.
  split; [intros (d & Hd & Hv & <-)|intros [Hv Hd]; exists (vdom v)]; auto.
Qed.

Lemma order_sorted g vs :
  StronglySorted lt (map vid vs) -> StronglySorted (lexlt g) (order g vs).
Proof.
  intro Hv. apply (proj1 (SS_map vid lt vs)) in Hv. unfold order.
  induction (grid_order_sorted g) as [|d r Hr IH Hall]; cbn [flat_map]; [constructor|].
  apply SS_app; auto.
  - apply (SS_weaken _ _ _ (SS_filter _ _ _ Hv)). intros a b Ha Hb Hab.
    apply in_on_grid in Ha, Hb. right. now rewrite (proj2 Ha), (proj2 Hb).
  - intros a b Ha Hb. apply in_on_grid in Ha. apply in_flat_map in Hb.
    destruct Hb as (e & He & Hb). apply in_on_grid in Hb. rewrite Forall_forall in Hall.
    left. rewrite (proj2 Ha), (proj2 Hb). auto.
Qed.

Lemma lexlt_irrefl g a : ~ lexlt g a a.
Proof. unfold lexlt. lia. Qed.

Lemma order_NoDup_map {B} (f : var -> B) g vs :
  StronglySorted lt (map vid vs) -> NoDup (map f vs) -> NoDup (map f (order g vs)).
Proof.
  intros Hs Hf. apply NoDup_map_of_inj.
  - apply (SS_irrefl_NoDup _ _ (order_sorted g vs Hs)), lexlt_irrefl.
  - intros a b Ha Hb. apply in_order in Ha, Hb. apply (NoDup_map_inj f vs); tauto.
Qed.

Lemma order_NoDup_ids g vs :
  StronglySorted lt (map vid vs) -> NoDup (map vid (order g vs)).
Proof. intro H. apply order_NoDup_map; auto using SS_lt_NoDup. Qed.

(* blocks numbered after a list [L] of variables: what _cluster_dofs_gridwise produces
   for L = order g (vars s), and what _append_dofs keeps up while variables are created;
   [clustered g s] below is [numbered g (order g (vars s)) (numbers s) (sizes s)] written out *)
Definition numbered (g : mdgrid) (L : list var) (nums : list (nat * nat)) (szs : list nat) :=
  nums = combine (map vid L) (seq 0 (length L)) /\ szs = map (ndofv g) L.

Definition clustered (g : mdgrid) (s : st) : Prop :=
  numbers s = combine (map vid (order g (vars s))) (seq 0 (length (order g (vars s)))) /\
  sizes s = map (ndofv g) (order g (vars s)).

Lemma numbered_nth g L nums szs k v :
  numbered g L nums szs -> NoDup (map vid L) -> nth_error L k = Some v ->
  lookup nums (vid v) = Some k /\ nth_error szs k = Some (ndofv g v).
Proof.
  intros [-> ->] Hnd Hk. split; [|now apply map_nth_error].
  rewrite <- (map_length vid). apply (lookup_combine _ 0); auto. now apply map_nth_error.
Qed.

Lemma numbered_app g L M nums szs :
  numbered g L nums szs ->
  numbered g (L ++ M) (nums ++ combine (map vid M) (seq (length nums) (length M)))
           (szs ++ map (ndofv g) M).
Proof.
  intros [-> ->]. split; [|now rewrite map_app].
  rewrite combine_length, map_length, seq_length, Nat.min_id, map_app, app_length, seq_app.
  apply eq_sym, combine_app. now rewrite map_length, seq_length.
Qed.

(* what _cluster_dofs_gridwise needs to go through *)
Definition consistent (g : mdgrid) (vs : list var) (nums : list (nat * nat)) (szs : list nat) :=
  forall v, In v vs ->
    exists k, lookup nums (vid v) = Some k /\ nth_error szs k = Some (ndofv g v).

Lemma numbered_consistent g L vs nums szs :
  numbered g L nums szs -> NoDup (map vid L) -> incl vs L -> consistent g vs nums szs.
Proof.
  intros HN Hnd Hi v Hv. destruct (In_nth_error _ _ (Hi v Hv)) as [k Hk].
  exists k. now apply (numbered_nth g L).
Qed.

Lemma cluster_grid_ok g d nums szs : forall vs cnt nn bs,
  consistent g vs nums szs ->
  cluster_grid d vs nums szs (cnt, nn, bs) =
  inl (cnt + length (on_grid d vs),
       nn ++ combine (map vid (on_grid d vs)) (seq cnt (length (on_grid d vs))),
       bs ++ map (ndofv g) (on_grid d vs)).
Proof.
  unfold on_grid. induction vs as [|v r IH]; intros cnt nn bs Hc; cbn [cluster_grid filter].
  - cbn. now rewrite Nat.add_0_r, !app_nil_r.
  - assert (Hr : consistent g r nums szs) by (intros w Hw; apply Hc; now right).
    destruct (dom_eqb (vdom v) d); [|now apply IH].
    destruct (Hc v (or_introl eq_refl)) as (k & -> & ->). rewrite IH by exact Hr.
    cbn [length map combine seq]. rewrite <- !app_assoc, Nat.add_succ_r. reflexivity.
Qed.

Lemma cluster_grids_ok g nums szs vs : forall ds cnt nn bs,
  consistent g vs nums szs ->
  let sel := flat_map (fun d => on_grid d vs) ds in
  cluster_grids ds vs nums szs (cnt, nn, bs) =
  inl (cnt + length sel, nn ++ combine (map vid sel) (seq cnt (length sel)),
       bs ++ map (ndofv g) sel).
Proof.
  induction ds as [|d r IH]; intros cnt nn bs Hc; cbn [cluster_grids flat_map].
  - cbn. now rewrite Nat.add_0_r, !app_nil_r.
  - rewrite (cluster_grid_ok g), IH by exact Hc. cbn zeta.
    rewrite !app_length, !map_app, seq_app, <- !app_assoc, Nat.add_assoc.
    now rewrite combine_app by now rewrite map_length, seq_length.
Qed.

(* the state _cluster_dofs_gridwise leaves *)
Definition reclustered (g : mdgrid) (s : st) : st :=
  {| vars := vars s;
     numbers := combine (map vid (order g (vars s))) (seq 0 (length (order g (vars s))));
     sizes := map (ndofv g) (order g (vars s));
     next_id := next_id s; store := store s |}.

Lemma cluster_eq g s :
  consistent g (vars s) (numbers s) (sizes s) -> cluster g s = inl (reclustered g s).
Proof. intro Hc. unfold cluster. now rewrite (cluster_grids_ok g) by exact Hc. Qed.

Record Inv (g : mdgrid) (s : st) : Prop := {
  inv_cl : clustered g s;
  inv_dom : Forall (fun v => dom_ok g (vdom v)) (vars s);
  inv_sorted : StronglySorted lt (map vid (vars s));
  inv_next : Forall (fun v => vid v < next_id s) (vars s)
}.

Lemma order_nil g : order g [] = [].
Proof. exact (flat_map_nil (grid_order g)). Qed.

Lemma Inv_init g : Inv g init.
Proof. constructor; cbn; try constructor; now rewrite order_nil. Qed.

Lemma in_order_Inv g s v : Inv g s -> In v (order g (vars s)) <-> In v (vars s).
Proof.
  intro HI. rewrite in_order. pose proof (inv_dom g s HI) as Hd.
  rewrite Forall_forall in Hd. split; [tauto|auto].
Qed.

Lemma order_nth g s k v :
  Inv g s -> nth_error (order g (vars s)) k = Some v ->
  lookup (numbers s) (vid v) = Some k /\ nth_error (sizes s) k = Some (ndofv g v).
Proof. intros HI. apply (numbered_nth g), order_NoDup_ids; apply HI. Qed.

Lemma Inv_consistent g s : Inv g s -> consistent g (vars s) (numbers s) (sizes s).
Proof.
  intro HI. apply (numbered_consistent g (order g (vars s))); try apply HI.
  - apply order_NoDup_ids, HI.
  - intros v. now apply in_order_Inv.
Qed.

(* what holds between the steps of create_variables and remove_variables, and makes
   _cluster_dofs_gridwise restore the invariant *)
Record Pre (g : mdgrid) (s : st) : Prop := {
  pre_cons : consistent g (vars s) (numbers s) (sizes s);
  pre_dom : Forall (fun v => dom_ok g (vdom v)) (vars s);
  pre_sorted : StronglySorted lt (map vid (vars s));
  pre_next : Forall (fun v => vid v < next_id s) (vars s)
}.

Lemma cluster_Pre g s : Pre g s -> cluster g s = inl (reclustered g s) /\ Inv g (reclustered g s).
Proof.
  intros []. split; [now apply cluster_eq|]. constructor; auto. now split.
Qed.

(* the Variable objects create_variables makes, one per grid *)
Fixpoint new_vars (id name : nat) (dof : nat * nat * nat) (grids : list dom) : list var :=
  match grids with
  | [] => []
  | d :: r => {| vid := id; vname := name; vdom := d; vdof := dof |} :: new_vars (S id) name dof r
  end.

Lemma new_vars_ids name dof : forall grids id,
  map vid (new_vars id name dof grids) = seq id (length grids).
Proof. induction grids; intro; cbn; now f_equal. Qed.

Lemma new_vars_doms name dof : forall grids id, map vdom (new_vars id name dof grids) = grids.
Proof. induction grids; intro; cbn; now f_equal. Qed.

Lemma new_vars_names name dof : forall grids id,
  Forall (fun v => vname v = name) (new_vars id name dof grids).
Proof. induction grids; intro; cbn; auto. Qed.

Lemma create_loop_eq g name dof : forall grids s,
  let news := new_vars (next_id s) name dof grids in
  create_loop g s name dof grids =
  {| vars := vars s ++ news;
     numbers := numbers s ++ combine (map vid news) (seq (length (numbers s)) (length news));
     sizes := sizes s ++ map (ndofv g) news;
     next_id := next_id s + length grids; store := store s |}.
Proof.
  induction grids as [|d r IH]; intro s; cbn [create_loop new_vars].
  - destruct s. cbn. now rewrite !app_nil_r, Nat.add_0_r.
  - rewrite IH. cbn. rewrite <- !app_assoc, app_length, Nat.add_1_r, Nat.add_succ_r. reflexivity.
Qed.

Lemma create_loop_Pre g s name dof grids :
  Inv g s -> Forall (dom_ok g) grids -> Pre g (create_loop g s name dof grids).
Proof.
  intros HI Hg. rewrite create_loop_eq. cbn zeta.
  set (news := new_vars (next_id s) name dof grids).
  assert (Hold : forall v, In v (vars s) -> vid v < next_id s)
    by (apply Forall_forall, HI).
  assert (Hnew : forall i, In i (map vid news) -> next_id s <= i < next_id s + length grids).
  { intro i. unfold news. rewrite new_vars_ids, in_seq. auto. }
  constructor; cbn [vars numbers sizes next_id].
  - apply (numbered_consistent g (order g (vars s) ++ news)).
    + apply numbered_app, HI.
    + rewrite map_app. apply NoDup_app'.
      * apply order_NoDup_ids, HI.
      * unfold news. rewrite new_vars_ids. apply seq_NoDup.
      * intros i Hi Hi'. apply in_map_iff in Hi. destruct Hi as (v & <- & Hv).
        apply (in_order_Inv g s v HI), Hold in Hv. apply Hnew in Hi'. lia.
    + intros v Hv. rewrite in_app_iff in *. now rewrite in_order_Inv.
  - apply Forall_app. split; [apply HI|]. apply Forall_map. unfold news.
    now rewrite new_vars_doms.
  - rewrite map_app. apply SS_app; [apply HI| |].
    + unfold news. rewrite new_vars_ids. apply SS_seq.
    + intros a b Ha Hb. apply in_map_iff in Ha. destruct Ha as (v & <- & Hv).
      apply Hold in Hv. apply Hnew in Hb. lia.
  - apply Forall_forall. intros v Hv. apply in_app_iff in Hv. destruct Hv as [Hv|Hv].
    + apply Hold in Hv. lia.
    + apply (in_map vid), Hnew in Hv. lia.
Qed.

(* well-formed operations: variables are created on grids of the md-grid *)
Definition grids_ok (n : nat) (o : option (list nat)) : Prop :=
  match o with None => True | Some l => Forall (fun i => i < n) l end.

Definition wf_op (g : mdgrid) (o : op) : Prop :=
  match o with
  | OpCreate _ _ _ sub intf => grids_ok (length (sds g)) sub /\ grids_ok (length (intfs g)) intf
  | _ => True
  end.

(* at most one registered variable per (name, grid): needed for the write/read round trip.
   create_variables rejects a name that is already defined on one of the grids, and a grid
   listed twice in one call. *)
Definition vkey (v : var) : nat * dom := (vname v, vdom v).
Definition Inv2 (g : mdgrid) (s : st) : Prop := Inv g s /\ NoDup (map vkey (vars s)).

Lemma with_store_Inv2 g s sto : Inv2 g s -> Inv2 g (with_store s sto).
Proof. intros [[] Hk]. split; [constructor|]; assumption. Qed.

Lemma nodup_doms_NoDup l : nodup_doms l = true -> NoDup l.
Proof.
  induction l as [|d r IH]; cbn; intro H; constructor; apply andb_true_iff in H; [|tauto].
  destruct H as [H _]. apply negb_true_iff in H. intro Hin.
  enough (existsb (dom_eqb d) r = true) by congruence.
  apply existsb_exists. exists d. auto using dom_eqb_refl.
Qed.

(* create_variables on a list of grids, after the argument checks *)
Definition create_on (g : mdgrid) (s : st) (name : nat) (dof : nat * nat * nat)
           (grids : list dom) : st * out :=
  if negb (nodup_doms grids) then (s, OErr ValueErr) else
  if existsb (fun v => Nat.eqb (vname v) name && existsb (dom_eqb (vdom v)) grids) (vars s)
  then (s, OErr KeyErr)
  else match cluster g (create_loop g s name dof grids) with
       | inr e => (create_loop g s name dof grids, OErr e)
       | inl s2 => (s2, OCreated (seq (next_id s) (length grids)))
       end.

Lemma create_unfold g s name dof badkey sub intf :
  create g s name dof badkey sub intf =
  if badkey then (s, OErr ValueErr) else
  let dof := match dof with None => (1, 0, 0) | Some d => d end in
  match sub, intf with
  | Some l, None => create_on g s name dof (map Sd l)
  | None, Some l => create_on g s name dof (map Intf l)
  | _, _ => (s, OErr ValueErr)
  end.
Proof. now destruct badkey, sub, intf. Qed.

Lemma create_on_Inv2 g s name dof grids :
  Forall (dom_ok g) grids -> Inv2 g s -> Inv2 g (fst (create_on g s name dof grids)).
Proof.
  intros Hg [HI Hk]. unfold create_on.
  destruct (nodup_doms grids) eqn:End; cbn [negb]; [|now split].
  destruct (existsb _ (vars s)) eqn:Ex; [now split|].
  destruct (cluster_Pre g _ (create_loop_Pre g s name dof grids HI Hg)) as [-> HI'].
  split; [exact HI'|]. cbn [fst reclustered vars]. rewrite create_loop_eq. cbn [vars].
  rewrite map_app. apply NoDup_app'; auto.
  - apply (NoDup_map_factor vkey snd). cbn. change (fun x => vdom x) with vdom.
    rewrite new_vars_doms. now apply nodup_doms_NoDup.
  - (* an old variable of that name on one of the grids is what the KeyError test finds *)
    intros x Hx Hx'. apply in_map_iff in Hx, Hx'.
    destruct Hx as (v & <- & Hv), Hx' as (v' & [= En Ed] & Hv').
    enough (existsb (fun v => Nat.eqb (vname v) name && existsb (dom_eqb (vdom v)) grids)
                    (vars s) = true) by congruence.
    apply existsb_exists. exists v. split; auto. apply andb_true_iff. split.
    + pose proof (new_vars_names name dof grids (next_id s)) as Hn.
      rewrite Forall_forall in Hn. apply Nat.eqb_eq. rewrite <- En. auto.
    + apply existsb_exists. exists (vdom v'). split; [|now apply dom_eqb_eq].
      rewrite <- (new_vars_doms name dof grids (next_id s)). now apply in_map.
Qed.

Lemma create_Inv2 g s name dof badkey sub intf :
  grids_ok (length (sds g)) sub -> grids_ok (length (intfs g)) intf ->
  Inv2 g s -> Inv2 g (fst (create g s name dof badkey sub intf)).
Proof.
  intros Hs Hi HI. rewrite create_unfold.
  destruct badkey, sub as [l|], intf as [l'|]; auto; apply create_on_Inv2; auto;
    apply Forall_map; assumption.
Qed.

Lemma remove1_Pre g s id : Inv g s -> Pre g (remove1 s id).
Proof.
  intro HI. constructor; cbn [remove1 vars numbers sizes next_id];
    try (apply (incl_Forall (incl_filter _ _)); apply HI).
  - intros w Hw. apply filter_In in Hw. destruct Hw as [Hw E].
    destruct (Inv_consistent g s HI w Hw) as (k & H1 & H2). exists k. split; auto.
    rewrite lookup_pop; auto. now apply negb_true_iff, Nat.eqb_neq in E.
  - apply SS_map, SS_filter, SS_map, HI.
Qed.

Lemma remove_loop_Inv2 g : forall ids s, Inv2 g s -> Inv2 g (fst (remove_loop g s ids)).
Proof.
  induction ids as [|id r IH]; intros s [HI Hk]; cbn [remove_loop]; [now split|].
  destruct (memb id (map vid (vars s))) eqn:Em; [|now split].
  apply memb_In, in_map_iff in Em. destruct Em as (v & <- & Hv).
  destruct (Inv_consistent g s HI v Hv) as (k & -> & _).
  destruct (cluster_Pre g _ (remove1_Pre g s (vid v) HI)) as [-> HI'].
  apply IH. split; [exact HI'|]. now apply NoDup_map_filter.
Qed.

Lemma step_Inv2 g s o : wf_op g o -> Inv2 g s -> Inv2 g (fst (step g s o)).
Proof.
  intros Hw HI. destruct o; cbn [step fst]; auto.
  - destruct Hw. now apply create_Inv2.
  - now apply remove_loop_Inv2.
  - unfold set_values.
    destruct (set_loop s (numbers s) (parse s r) values w additive 0 0 (store s))
      as [[sto de] [e|]]; now apply with_store_Inv2.
Qed.

Lemma run_cons g s o r :
  fst (run g s (o :: r)) = fst (run g (fst (step g s o)) r).
Proof. cbn [run]. destruct (step g s o) as [s' x]. cbn [fst]. now destruct (run g s' r). Qed.

Lemma run_Inv2 g : forall ops s, Forall (wf_op g) ops -> Inv2 g s -> Inv2 g (fst (run g s ops)).
Proof.
  induction ops as [|o r IH]; intros s Hw HI; [exact HI|].
  inversion Hw; subst. rewrite run_cons. now apply IH, step_Inv2.
Qed.

Theorem final_Inv2 g ops : Forall (wf_op g) ops -> Inv2 g (final g ops).
Proof. intro H. apply run_Inv2; auto. split; [apply Inv_init|constructor]. Qed.

Theorem final_Inv g ops : Forall (wf_op g) ops -> Inv g (final g ops).
Proof. intro H. now apply final_Inv2. Qed.

Definition sum (l : list nat) : nat := fold_right Nat.add 0 l.
Definition offs (l : list nat) (k : nat) : nat := sum (firstn k l).

(* dict iteration order of _variable_numbers = block order *)
Definition block_ids (s : st) : list nat := map fst (numbers s).
(* the index set of one Variable object *)
Definition block_of (s : st) (id : nat) : list nat :=
  match dofs_of s (Some [ById id]) with inl l => l | inr _ => [] end.

Lemma sum_cons x l : sum (x :: l) = x + sum l.
Proof. reflexivity. Qed.

Lemma offs_0 l : offs l 0 = 0.
Proof. reflexivity. Qed.

Lemma offs_cons x l k : offs (x :: l) (S k) = x + offs l k.
Proof. reflexivity. Qed.

Lemma offs_S l : forall k x, nth_error l k = Some x -> offs l (S k) = offs l k + x.
Proof.
  induction l as [|y r IH]; intros [|k] x H; try discriminate; cbn [nth_error] in H;
    rewrite !offs_cons, ?offs_0.
  - injection H as ->. lia.
  - rewrite (IH k x H). lia.
Qed.

Lemma offs_mono l : forall a b, a <= b -> offs l a <= offs l b.
Proof.
  induction l as [|x r IH]; intros [|a] [|b] H; rewrite ?offs_cons, ?offs_0; try lia.
  - unfold offs. now rewrite !firstn_nil.
  - specialize (IH a b). lia.
Qed.

Lemma offs_all l : offs l (length l) = sum l.
Proof. unfold offs. now rewrite firstn_all. Qed.

Lemma num_dofs_sum s : num_dofs s = sum (sizes s).
Proof. reflexivity. Qed.

Lemma find_block : forall l i, i < sum l ->
  exists k x, nth_error l k = Some x /\ offs l k <= i < offs l k + x.
Proof.
  induction l as [|x r IH]; intros i Hi; [cbn in Hi; lia|]. rewrite sum_cons in Hi.
  destruct (Nat.ltb_spec i x) as [Hlt|Hge].
  - exists 0, x. rewrite offs_0. split; [reflexivity|lia].
  - destruct (IH (i - x)) as (k & y & Hk & Hr); [lia|].
    exists (S k), y. rewrite offs_cons. split; [exact Hk|lia].
Qed.

Lemma nth_cumsum : forall l a k,
  k < length l -> nth_error (cumsum_from a l) k = Some (a + offs l (S k)).
Proof.
  unfold offs. induction l as [|x r IH]; intros a [|k] H; cbn in *; try lia.
  - now rewrite Nat.add_0_r.
  - rewrite IH by lia. cbn. now rewrite Nat.add_assoc.
Qed.

Lemma nth_gvd s k : k <= length (sizes s) -> nth_error (gvd s) k = Some (offs (sizes s) k).
Proof. intro H. destruct k; [reflexivity|]. now apply nth_cumsum. Qed.

Fixpoint blocks_from (a : nat) (l : list nat) : list (list nat) :=
  match l with [] => [] | x :: r => seq a x :: blocks_from (a + x) r end.

Lemma concat_blocks_from : forall l a, concat (blocks_from a l) = seq a (sum l).
Proof. induction l as [|x r IH]; intro a; cbn; auto. now rewrite IH, seq_app. Qed.

Lemma nth_blocks_from : forall l a k x,
  nth_error l k = Some x -> nth_error (blocks_from a l) k = Some (seq (a + offs l k) x).
Proof.
  unfold offs. induction l as [|y r IH]; intros a [|k] x H; try discriminate; cbn in *.
  - injection H as ->. now rewrite Nat.add_0_r.
  - rewrite (IH (a + y) k x H). now rewrite Nat.add_assoc.
Qed.

Lemma length_blocks_from : forall l a, length (blocks_from a l) = length l.
Proof. induction l; intro; cbn; auto. Qed.

Lemma block_ids_order g s : Inv g s -> block_ids s = map vid (order g (vars s)).
Proof.
  intros [[Hn _] _ _ _]. unfold block_ids. rewrite Hn.
  apply map_fst_combine. now rewrite map_length, seq_length.
Qed.

Lemma numbers_snd g s : Inv g s -> map snd (numbers s) = seq 0 (length (numbers s)).
Proof.
  intros [[Hn _] _ _ _]. rewrite Hn, combine_length, map_length, seq_length, Nat.min_id.
  apply map_snd_combine. now rewrite map_length, seq_length.
Qed.

Lemma sizes_length g s : Inv g s -> length (sizes s) = length (order g (vars s)).
Proof. intros [[_ Hs] _ _ _]. now rewrite Hs, map_length. Qed.

Lemma dofs_loop_one g s v k :
  Inv g s -> nth_error (order g (vars s)) k = Some v ->
  dofs_loop s [vid v] = inl (seq (offs (sizes s) k) (ndofv g v)).
Proof.
  intros HI Hk. destruct (order_nth g s k v HI Hk) as [Hl Hs].
  assert (Hlt : k < length (sizes s)) by (apply nth_error_Some; congruence).
  cbn [dofs_loop]. rewrite Hl, !nth_gvd, (offs_S _ _ _ Hs), app_nil_r by lia.
  unfold arange. now rewrite Nat.add_comm, Nat.add_sub.
Qed.

Lemma block_of_nth g s v k :
  Inv g s -> nth_error (order g (vars s)) k = Some v ->
  block_of s (vid v) = seq (offs (sizes s) k) (ndofv g v).
Proof.
  intros HI Hk. unfold block_of, dofs_of. cbn [parse flat_map parse1 app].
  now rewrite (dofs_loop_one g s v k).
Qed.

Lemma blocks_eq g s :
  Inv g s -> map (block_of s) (block_ids s) = blocks_from 0 (sizes s).
Proof.
  intro HI. rewrite (block_ids_order g s HI), map_map. apply map_eq_nth.
  - now rewrite length_blocks_from, (sizes_length g).
  - intros k v Hk. rewrite (block_of_nth g s v k HI Hk).
    apply (nth_blocks_from _ 0), (order_nth g s k v HI Hk).
Qed.

(* blocks are contiguous, pairwise disjoint and cover 0..num_dofs-1 in block order *)
Lemma partition_cover g s :
  Inv g s -> concat (map (block_of s) (block_ids s)) = seq 0 (num_dofs s).
Proof. intro HI. now rewrite (blocks_eq g s HI), concat_blocks_from. Qed.

Lemma find_var_In s v : NoDup (map vid (vars s)) -> In v (vars s) -> find_var s (vid v) = Some v.
Proof.
  unfold find_var. induction (vars s) as [|w r IH]; cbn; intros Hnd Hin; [contradiction|].
  inversion Hnd as [|? ? Hn Hnd']; subst. destruct Hin as [->|Hin].
  - now rewrite Nat.eqb_refl.
  - destruct (Nat.eqb_spec (vid w) (vid v)) as [E|]; auto.
    exfalso. apply Hn. rewrite E. now apply in_map.
Qed.

Lemma layout g s :
  Inv g s ->
  let ord := order g (vars s) in
  block_ids s = map vid ord /\
  map snd (numbers s) = seq 0 (length (numbers s)) /\
  (forall v, In v ord <-> In v (vars s)) /\
  NoDup (block_ids s) /\
  StronglySorted (lexlt g) ord /\
  concat (map (block_of s) (block_ids s)) = seq 0 (num_dofs s) /\
  (forall v, In v (vars s) -> find_var s (vid v) = Some v /\
                              length (block_of s (vid v)) = ndofv g v).
Proof.
  intro HI. pose proof (inv_sorted g s HI) as Hs. cbn zeta.
  split; [now apply block_ids_order|].
  split; [now apply (numbers_snd g)|].
  split; [intro v; now apply in_order_Inv|].
  split; [rewrite (block_ids_order g s HI); now apply order_NoDup_ids|].
  split; [now apply order_sorted|].
  split; [now apply (partition_cover g)|].
  intros v Hv. split; [apply find_var_In; auto using SS_lt_NoDup|].
  apply (in_order_Inv g s v HI), In_nth_error in Hv. destruct Hv as [k Hk].
  rewrite (block_of_nth g s v k HI Hk). apply seq_length.
Qed.

Lemma argmax_first : forall l j,
  nth_error l j = Some true -> (forall j', j' < j -> nth_error l j' = Some false) ->
  argmax_true l = j.
Proof.
  induction l as [|b r IH]; intros [|j] Hj Hlt; try discriminate; cbn in Hj.
  - now injection Hj as ->.
  - pose proof (Hlt 0 (Nat.lt_0_succ j)) as [= ->]. cbn [argmax_true].
    replace (existsb (fun b => b) r) with true
      by (symmetry; apply existsb_exists; exists true; eauto using nth_error_In).
    f_equal. apply IH; auto. intros j' Hj'. apply (Hlt (S j')). lia.
Qed.

Lemma Zeqb_nat p q : (Z.of_nat p =? Z.of_nat q)%Z = Nat.eqb p q.
Proof.
  destruct (Nat.eqb_spec p q) as [->|]; [apply Z.eqb_refl|apply Z.eqb_neq; lia].
Qed.

(* np.argmax(global_variable_dofs > i): the first cumulated size above an index of block k
   is the (k+1)-st *)
Lemma argmax_gvd s i k x :
  nth_error (sizes s) k = Some x -> offs (sizes s) k <= i < offs (sizes s) k + x ->
  argmax_true (map (fun y => (Z.of_nat i <? Z.of_nat y)%Z) (gvd s)) = S k.
Proof.
  intros Hk Hr. assert (Hlt : k < length (sizes s)) by (apply nth_error_Some; congruence).
  apply argmax_first.
  - rewrite (map_nth_error _ _ _ (nth_gvd s (S k) Hlt)), (offs_S _ _ _ Hk).
    f_equal. apply Z.ltb_lt. lia.
  - intros j Hj. rewrite (map_nth_error _ _ _ (nth_gvd s j ltac:(lia))).
    f_equal. apply Z.ltb_ge. pose proof (offs_mono (sizes s) j k). lia.
Qed.

Lemma identify_ok g s i :
  Inv g s -> i < num_dofs s ->
  exists v, In v (vars s) /\ identify_dof s (Z.of_nat i) = OVarId (vid v) /\
            In i (block_of s (vid v)).
Proof.
  intros HI Hi. destruct (find_block (sizes s) i Hi) as (k & x & Hk & Hr).
  pose proof Hk as Hx. rewrite (proj2 (inv_cl g s HI)), nth_error_map in Hx.
  destruct (nth_error (order g (vars s)) k) as [v|] eqn:Hv; [injection Hx as <-|discriminate].
  destruct (order_nth g s k v HI Hv) as [Hl _].
  assert (Hin : In v (vars s)) by (eapply in_order_Inv, nth_error_In; eauto).
  exists v. split; auto. split.
  - unfold identify_dof.
    replace ((0 <=? Z.of_nat i)%Z && (Z.of_nat i <? Z.of_nat (num_dofs s))%Z) with true
      by (symmetry; apply andb_true_iff; split; [apply Z.leb_le|apply Z.ltb_lt]; lia).
    rewrite (argmax_gvd s i k _ Hk Hr).
    replace (Z.of_nat (S k) - 1)%Z with (Z.of_nat k) by lia.
    (* block numbers and ids are keys: the two filters find (vid v, k) and v *)
    rewrite (filter_ext _ (fun kv : nat * nat => Nat.eqb (snd kv) (snd (vid v, k))))
      by (intros kv; apply Zeqb_nat).
    rewrite (filter_key_unique snd _ (vid v, k));
      [|rewrite (numbers_snd g s HI); apply seq_NoDup|apply lookup_In, Hl].
    rewrite (filter_key_unique vid); auto. apply SS_lt_NoDup, HI.
  - rewrite (block_of_nth g s v k HI Hv). apply in_seq. lia.
Qed.

Lemma identify_out_of_range s z :
  (z < 0 \/ Z.of_nat (num_dofs s) <= z)%Z -> identify_dof s z = OErr KeyErr.
Proof.
  intro H. unfold identify_dof.
  replace ((0 <=? z)%Z && (z <? Z.of_nat (num_dofs s))%Z) with false; auto.
  symmetry. apply andb_false_iff. rewrite Z.leb_gt, Z.ltb_ge. lia.
Qed.

Lemma owner_unique g s v v' i :
  Inv g s -> In v (vars s) -> In v' (vars s) ->
  In i (block_of s (vid v)) -> In i (block_of s (vid v')) -> v = v'.
Proof.
  intros HI Hv Hv'. apply (in_order_Inv g s _ HI), In_nth_error in Hv, Hv'.
  destruct Hv as [k Hk], Hv' as [k' Hk'].
  rewrite (block_of_nth g s v k HI Hk), (block_of_nth g s v' k' HI Hk'), !in_seq.
  pose proof (offs_S _ _ _ (proj2 (order_nth g s k v HI Hk))).
  pose proof (offs_S _ _ _ (proj2 (order_nth g s k' v' HI Hk'))).
  intros Hi Hi'. destruct (Nat.lt_trichotomy k k') as [Hlt|[->|Hgt]]; [|congruence|].
  - pose proof (offs_mono (sizes s) (S k) k'). lia.
  - pose proof (offs_mono (sizes s) (S k') k). lia.
Qed.

Lemma dofs_loop_cons s id r :
  dofs_loop s (id :: r) =
  match dofs_loop s [id] with
  | inr e => inr e
  | inl a => match dofs_loop s r with inr e => inr e | inl b => inl (a ++ b) end
  end.
Proof.
  cbn [dofs_loop]. destruct (lookup (numbers s) id) as [k|]; auto.
  destruct (nth_error (gvd s) k); auto. destruct (nth_error (gvd s) (S k)); auto.
  now rewrite app_nil_r.
Qed.

Lemma dofs_loop_registered g s : forall ids,
  Inv g s -> (forall id, In id ids -> In id (block_ids s)) ->
  dofs_loop s ids = inl (concat (map (block_of s) ids)).
Proof.
  intros ids HI. induction ids as [|id r IH]; intro Hreg; [reflexivity|].
  assert (Hid : In id (block_ids s)) by (apply Hreg; now left).
  rewrite (block_ids_order g s HI) in Hid. apply in_map_iff in Hid.
  destruct Hid as (v & <- & Hv). apply In_nth_error in Hv. destruct Hv as [k Hk].
  rewrite dofs_loop_cons, (dofs_loop_one g s v k HI Hk), IH by (intros; apply Hreg; now right).
  cbn [map concat]. now rewrite (block_of_nth g s v k HI Hk).
Qed.

Lemma insert_perm x l : Permutation (insert x l) (x :: l).
Proof.
  induction l as [|y r IH]; cbn; auto. destruct (x <=? y); auto.
  rewrite IH. apply perm_swap.
Qed.

Lemma sort_perm l : Permutation (sort l) l.
Proof. induction l as [|x r IH]; cbn; auto. now rewrite insert_perm, IH. Qed.

Lemma insert_sorted x l : StronglySorted le l -> StronglySorted le (insert x l).
Proof.
  induction 1 as [|y r Hs IH Hf]; cbn; [repeat constructor|].
  destruct (Nat.leb_spec x y) as [Hle|Hgt]; constructor; auto.
  - constructor; auto.
  - constructor; auto. apply (Forall_impl _ (fun z (H : y <= z) => Nat.le_trans _ _ _ Hle H) Hf).
  - apply Forall_forall. intros z Hz. apply (Permutation_in _ (insert_perm x r)) in Hz.
    rewrite Forall_forall in Hf. destruct Hz as [<-|Hz]; auto with arith.
Qed.

Lemma sort_sorted l : StronglySorted le (sort l).
Proof. induction l; cbn; [constructor|now apply insert_sorted]. Qed.

Lemma sort_sorted_id l : StronglySorted le l -> sort l = l.
Proof. intro H. apply sorted_perm_unique; auto using sort_sorted, sort_perm. Qed.

Lemma projection_ok g s r :
  Inv g s -> truthy r = true -> (forall id, In id (parse s r) -> In id (block_ids s)) ->
  exists cols, projection_to s r = OProjM cols (num_dofs s) /\
    StronglySorted le cols /\
    Permutation cols (concat (map (block_of s) (parse s r))) /\
    (forall i, In i cols <-> exists id, In id (parse s r) /\ In i (block_of s id)) /\
    (forall x, proj_apply cols x = map (fun c => nth c x 0%Z) cols).
Proof.
  intros HI Ht Hreg. unfold projection_to, dofs_of.
  rewrite Ht, (dofs_loop_registered g s _ HI Hreg).
  eexists. split; [reflexivity|]. split; [apply sort_sorted|]. split; [apply sort_perm|].
  split; [|reflexivity].
  intro i. rewrite sort_perm, in_concat. setoid_rewrite in_map_iff.
  split; [intros (b & (id & <- & Hid) & Hi)|intros (id & Hid & Hi)]; eauto.
Qed.

Lemma projection_null s r : truthy r = false -> projection_to s r = OProjM [] (num_dofs s).
Proof. intro H. unfold projection_to. now rewrite H. Qed.

Lemma loc_eqb_eq a b : loc_eqb a b = true <-> a = b.
Proof. destruct a, b; cbn; split; congruence. Qed.

Lemma skey_eqb_spec a b : reflect (a = b) (skey_eqb a b).
Proof.
  apply iff_reflect. destruct a as [[la na] da], b as [[lb nb] db]. cbn [skey_eqb].
  rewrite !andb_true_iff, loc_eqb_eq, Nat.eqb_eq, dom_eqb_eq.
  split; [intros [= -> -> ->]|intros [[-> ->] ->]]; auto.
Qed.

Lemma slookup_supdate d k v k' :
  slookup (supdate d k v) k' = if skey_eqb k k' then Some v else slookup d k'.
Proof.
  induction d as [|[k0 v0] r IH]; cbn; [reflexivity|].
  destruct (skey_eqb_spec k0 k) as [->|]; cbn.
  - now destruct (skey_eqb k k').
  - rewrite IH. destruct (skey_eqb_spec k0 k') as [->|]; auto.
    destruct (skey_eqb_spec k k'); congruence.
Qed.

Lemma wlocs_NoDup w : NoDup (wlocs w).
Proof. destruct w; cbn; repeat constructor; cbn; intuition discriminate. Qed.

Definition vadd (a v : list Z) : list Z := map (fun p => (fst p + snd p)%Z) (combine a v).

Lemma np_iadd_same a v : length v = length a -> np_iadd a v = Some (vadd a v).
Proof. intro H. unfold np_iadd. now rewrite H, Nat.eqb_refl. Qed.

Lemma vadd_app a1 a2 v1 v2 :
  length a1 = length v1 -> vadd (a1 ++ a2) (v1 ++ v2) = vadd a1 v1 ++ vadd a2 v2.
Proof. intro H. unfold vadd. rewrite combine_app by auto. apply map_app. Qed.

Definition written (additive : bool) (old : option (list Z)) (v : list Z) : list Z :=
  match additive, old with true, Some a => vadd a v | _, _ => v end.

(* set_solution_values at the locations [ls] of one variable; an additive write needs arrays
   of the length of [v] to be there *)
Lemma set_solution_spec additive name d v : forall ls sto,
  NoDup ls ->
  (additive = true -> forall l, In l ls ->
     exists a, slookup sto (l, name, d) = Some a /\ length v = length a) ->
  exists sto', set_solution sto ls name d v additive = (sto', None) /\
    (forall l, In l ls ->
       slookup sto' (l, name, d) = Some (written additive (slookup sto (l, name, d)) v)) /\
    (forall k, (forall l, In l ls -> k <> (l, name, d)) -> slookup sto' k = slookup sto k).
Proof.
  induction ls as [|l r IH]; intros sto Hnd Hpre.
  - exists sto. repeat split; auto. intros l [].
  - inversion Hnd as [|? ? Hnin Hnd']; subst.
    set (sto1 := supdate sto (l, name, d) (written additive (slookup sto (l, name, d)) v)).
    assert (E : set_solution sto (l :: r) name d v additive =
                set_solution sto1 r name d v additive).
    { cbn [set_solution]. destruct additive; [|reflexivity].
      destruct (Hpre eq_refl l (or_introl eq_refl)) as (a & Ha & Hlen).
      unfold sto1. now rewrite Ha, (np_iadd_same a v Hlen). }
    assert (Hother : forall l', In l' r -> slookup sto1 (l', name, d) = slookup sto (l', name, d)).
    { intros l' Hl'. unfold sto1. rewrite slookup_supdate.
      destruct (skey_eqb_spec (l, name, d) (l', name, d)) as [[= ->]|]; [contradiction|auto]. }
    destruct (IH sto1 Hnd') as (sto' & E' & H1 & H2).
    { intros Ha l' Hl'. rewrite Hother by auto. apply Hpre; cbn; auto. }
    exists sto'. rewrite E. repeat split; auto.
    + intros l' [<-|Hl']; [|now rewrite H1, Hother].
      rewrite H2 by (intros l' Hl' [= <-]; contradiction).
      unfold sto1. rewrite slookup_supdate. now destruct (skey_eqb_spec (l, name, d) (l, name, d)).
    + intros k Hk. rewrite H2 by (intros; apply Hk; now right).
      unfold sto1. rewrite slookup_supdate.
      destruct (skey_eqb_spec (l, name, d) k) as [<-|]; auto. now destruct (Hk l (or_introl eq_refl)).
Qed.

Lemma slice_app x a b c : a <= b -> b <= c -> slice x a b ++ slice x b c = slice x a c.
Proof.
  intros H1 H2. unfold slice. replace (c - a) with ((b - a) + (c - b)) by lia.
  rewrite firstn_add, skipn_add. do 3 f_equal. lia.
Qed.

Lemma slice_nil x a : slice x a a = [].
Proof. unfold slice. now rewrite Nat.sub_diag. Qed.

Lemma slice_all x : slice x 0 (length x) = x.
Proof. unfold slice. cbn [skipn]. rewrite Nat.sub_0_r. apply firstn_all. Qed.

Lemma slice_length x a b : a <= b -> b <= length x -> length (slice x a b) = b - a.
Proof. intros. unfold slice. rewrite firstn_length, skipn_length. lia. Qed.

Section SetGet.
  Variable g : mdgrid.
  Variable s : st.
  Variable pids : list nat.
  Variable xs : list Z.
  Variable w : wloc.

  (* an entry of _variable_numbers and the variable it stands for *)
  Definition item_rel (it : nat * nat) (v : var) : Prop :=
    fst it = vid v /\ find_var s (vid v) = Some v /\
    nth_error (sizes s) (snd it) = Some (ndofv g v).

  Definition selv (vs : list var) : list var := filter (fun v => memb (vid v) pids) vs.

  (* the loops of set_variable_values and get_variable_values as they run over the selected
     variables themselves: no dictionaries, no membership test *)
  Fixpoint wr (L : list var) (additive : bool) (a : nat) (sto : list (skey * list Z))
    : list (skey * list Z) * nat * option err :=
    match L with
    | [] => (sto, a, None)
    | v :: r =>
        match set_solution sto (wlocs w) (vname v) (vdom v) (slice xs a (a + ndofv g v)) additive
        with
        | (sto', Some e) => (sto', a + ndofv g v, Some e)
        | (sto', None) => wr r additive (a + ndofv g v) sto'
        end
    end.

  Fixpoint rd (L : list var) (sto : list (skey * list Z)) (l : loc) : list Z + err :=
    match L with
    | [] => inl []
    | v :: r =>
        match slookup sto (l, vname v, vdom v) with
        | None => inr KeyErr
        | Some a => match rd r sto l with inr e => inr e | inl rest => inl (a ++ rest) end
        end
    end.

  Lemma set_loop_wr additive : forall items vs, Forall2 item_rel items vs -> forall a sto,
    set_loop s items pids xs w additive a a sto = wr (selv vs) additive a sto.
  Proof.
    induction 1 as [|[id num] v items vs (Hid & Hf & Hn) _ IH]; intros a sto; [reflexivity|].
    cbn in Hid, Hn. subst id. cbn [set_loop selv filter].
    destruct (memb (vid v) pids); [|apply IH]. rewrite Hn, Hf. cbn [wr].
    destruct (set_solution _ _ _ _ _ _) as [sto' [e|]]; [reflexivity|apply IH].
  Qed.

  Lemma get_loop_rd l : forall items vs, Forall2 item_rel items vs ->
    get_loop s items pids l = rd (selv vs) (store s) l.
  Proof.
    induction 1 as [|[id num] v items vs (Hid & Hf & _) _ IH]; [reflexivity|].
    cbn in Hid. subst id. cbn [get_loop selv filter].
    destruct (memb (vid v) pids); [|exact IH]. now rewrite Hf, IH.
  Qed.

  Definition total (L : list var) : nat := sum (map (ndofv g) L).

  Definition has_values (sto : list (skey * list Z)) (L : list var) : Prop :=
    forall v l, In v L -> In l (wlocs w) ->
      exists a, slookup sto (l, vname v, vdom v) = Some a /\ length a = ndofv g v.

  Definition touched (L : list var) (k : skey) : Prop :=
    exists v l, In v L /\ In l (wlocs w) /\ k = (l, vname v, vdom v).

  Lemma key_in L v v' (l l' : loc) :
    In v' L -> (l', vname v', vdom v') = (l, vname v, vdom v) -> In (vkey v) (map vkey L).
  Proof.
    intros Hv' [= _ En Ed]. apply in_map_iff. exists v'. unfold vkey. now rewrite En, Ed.
  Qed.

  Lemma rd_frame sto sto' l : forall L,
    (forall v, In v L -> slookup sto' (l, vname v, vdom v) = slookup sto (l, vname v, vdom v)) ->
    rd L sto' l = rd L sto l.
  Proof.
    induction L as [|v L IH]; intro Hfr; [reflexivity|]. cbn [rd].
    now rewrite (Hfr v (or_introl eq_refl)), IH by (intros; apply Hfr; now right).
  Qed.

  Lemma wr_rd : forall L a sto, NoDup (map vkey L) ->
    exists sto',
      wr L false a sto = (sto', a + total L, None) /\
      (forall l, In l (wlocs w) -> rd L sto' l = inl (slice xs a (a + total L))) /\
      (a + total L <= length xs -> has_values sto' L) /\
      (forall k, ~ touched L k -> slookup sto' k = slookup sto k).
  Proof.
    induction L as [|v L IH]; intros a sto Hnd.
    - exists sto. cbn. rewrite Nat.add_0_r, slice_nil. repeat split; auto. intros _ v l [].
    - cbn [wr rd]. change (total (v :: L)) with (ndofv g v + total L).
      set (n := ndofv g v). cbn [map] in Hnd. inversion Hnd as [|? ? Hnin Hnd']; subst.
      destruct (set_solution_spec false (vname v) (vdom v) (slice xs a (a + n)) (wlocs w) sto
                  (wlocs_NoDup w)) as (sto1 & -> & G1 & F1); [discriminate|].
      destruct (IH (a + n) sto1 Hnd') as (sto' & -> & G2 & V2 & F2).
      assert (Hk : forall l, In l (wlocs w) ->
                slookup sto' (l, vname v, vdom v) = Some (slice xs a (a + n))).
      { intros l Hl. rewrite F2, G1; auto. intros (v' & l' & Hv' & _ & E).
        apply Hnin, (key_in L v v' l l' Hv'). auto. }
      exists sto'. rewrite Nat.add_assoc. repeat split.
      + intros l Hl. rewrite (Hk l Hl), (G2 l Hl). f_equal. apply slice_app; lia.
      + intros Hb v' l [<-|Hv'] Hl; [|apply V2; auto; lia].
        rewrite (Hk l Hl). eexists. split; [reflexivity|]. rewrite slice_length; lia.
      + intros k Hk'. rewrite F2, F1; auto.
        * intros l Hl ->. apply Hk'. exists v, l. cbn. auto.
        * intros (v' & l & Hv' & Hl & ->). apply Hk'. exists v', l. cbn. auto.
  Qed.

  Lemma wr_add : forall L a sto,
    NoDup (map vkey L) -> a + total L <= length xs -> has_values sto L ->
    exists sto',
      wr L true a sto = (sto', a + total L, None) /\
      (forall l, In l (wlocs w) -> exists old,
         rd L sto l = inl old /\ length old = total L /\
         rd L sto' l = inl (vadd old (slice xs a (a + total L)))) /\
      (forall k, ~ touched L k -> slookup sto' k = slookup sto k).
  Proof.
    induction L as [|v L IH]; intros a sto Hnd Hx Hpre.
    - exists sto. cbn. rewrite Nat.add_0_r, slice_nil. repeat split; auto. now exists [].
    - cbn [wr rd]. change (total (v :: L)) with (ndofv g v + total L) in *.
      set (n := ndofv g v) in *. cbn [map] in Hnd. inversion Hnd as [|? ? Hnin Hnd']; subst.
      destruct (set_solution_spec true (vname v) (vdom v) (slice xs a (a + n)) (wlocs w) sto
                  (wlocs_NoDup w)) as (sto1 & -> & G1 & F1).
      { intros _ l Hl. destruct (Hpre v l (or_introl eq_refl) Hl) as (a0 & Ha0 & Hlen).
        exists a0. split; [exact Ha0|]. rewrite slice_length; lia. }
      assert (Hfr : forall v' l, In v' L ->
                slookup sto1 (l, vname v', vdom v') = slookup sto (l, vname v', vdom v')).
      { intros v' l Hv'. apply F1. intros l' _ E. apply Hnin, (key_in L v v' l' l Hv' E). }
      destruct (IH (a + n) sto1 Hnd') as (sto' & -> & G2 & F2); [lia| |].
      { intros v' l Hv' Hl. rewrite Hfr by exact Hv'. apply Hpre; cbn; auto. }
      exists sto'. rewrite Nat.add_assoc. repeat split.
      + intros l Hl. destruct (Hpre v l (or_introl eq_refl) Hl) as (a0 & Ha0 & Hlen).
        destruct (G2 l Hl) as (old & Go & Lo & Gn).
        rewrite (rd_frame sto sto1 l L) in Go by (intros; now apply Hfr).
        exists (a0 ++ old). rewrite Ha0, Go, Gn, app_length, Lo, Hlen. repeat split.
        rewrite F2, (G1 l Hl), Ha0.
        * cbn [written]. rewrite <- vadd_app, slice_app; auto; try lia.
          rewrite slice_length; lia.
        * intros (v' & l' & Hv' & _ & E). apply Hnin, (key_in L v v' l l' Hv'). auto.
      + intros k Hk'. rewrite F2, F1; auto.
        * intros l Hl ->. apply Hk'. exists v, l. cbn. auto.
        * intros (v' & l & Hv' & Hl & ->). apply Hk'. exists v', l. cbn. auto.
  Qed.
End SetGet.

Lemma items_rel_gen g s : forall vs b,
  (forall j v, nth_error vs j = Some v ->
     find_var s (vid v) = Some v /\ nth_error (sizes s) (b + j) = Some (ndofv g v)) ->
  Forall2 (item_rel g s) (combine (map vid vs) (seq b (length vs))) vs.
Proof.
  induction vs as [|v r IH]; intros b H; cbn; constructor.
  - destruct (H 0 v eq_refl) as [H1 H2]. rewrite Nat.add_0_r in H2. now split.
  - apply IH. intros j v' Hj. rewrite Nat.add_succ_comm. exact (H (S j) v' Hj).
Qed.

Lemma items_rel g s : Inv g s -> Forall2 (item_rel g s) (numbers s) (order g (vars s)).
Proof.
  intro HI. rewrite (proj1 (inv_cl g s HI)). apply items_rel_gen. intros j v Hj. split.
  - apply find_var_In; [apply SS_lt_NoDup, HI|]. eapply in_order_Inv, nth_error_In; eauto.
  - apply (order_nth g s j v HI Hj).
Qed.

(* the number of values a write to / read of [r] handles: the dofs of the registered
   variables selected by [r], each counted once *)
Definition selected_ids (s : st) (r : refs) : list nat :=
  filter (fun id => memb id (parse s r)) (block_ids s).
Definition need (s : st) (r : refs) : nat :=
  length (concat (map (block_of s) (selected_ids s r))).

(* the same for a list of ids, whatever produced it *)
Definition need_of (s : st) (ids : list nat) : nat :=
  length (concat (map (block_of s) (filter (fun id => memb id ids) (block_ids s)))).

Lemma need_of_total g s ids :
  Inv g s -> need_of s ids = total g (selv ids (order g (vars s))).
Proof.
  intro HI. unfold need_of, total, selv.
  rewrite (block_ids_order g s HI), filter_map_comm, length_concat, !map_map.
  apply (f_equal sum), map_ext_in. intros v Hv. apply filter_In, proj1, in_order in Hv.
  now apply (layout g s HI).
Qed.

Lemma need_with_store g s sto r : Inv g s -> need (with_store s sto) r = need s r.
Proof. reflexivity. Qed.

Lemma parse_ids s ids : parse s (Some (map ById ids)) = ids.
Proof. cbn. induction ids; cbn; congruence. Qed.

Lemma parse_with_store s sto r : parse (with_store s sto) r = parse s r.
Proof. reflexivity. Qed.

Lemma selected_keys_NoDup g s ids :
  Inv2 g s -> NoDup (map vkey (selv ids (order g (vars s)))).
Proof. intros [HI Hk]. now apply NoDup_map_filter, order_NoDup_map; [apply HI|]. Qed.

Section Values.
  Variables (g : mdgrid) (s : st) (ids : list nat) (xs : list Z) (w : wloc).
  Hypothesis HI : Inv2 g s.

  Lemma set_get_ids :
    exists sto',
      set_loop s (numbers s) ids xs w false 0 0 (store s) = (sto', need_of s ids, None) /\
      (forall l, In l (wlocs w) ->
         get_loop (with_store s sto') (numbers s) ids l = inl (slice xs 0 (need_of s ids))) /\
      (need_of s ids <= length xs -> has_values g w sto' (selv ids (order g (vars s)))).
  Proof.
    pose proof (items_rel g s (proj1 HI)) as HF.
    rewrite (need_of_total g s ids (proj1 HI)), (set_loop_wr g s ids xs w false _ _ HF).
    destruct (wr_rd g xs w _ 0 (store s) (selected_keys_NoDup g s ids HI))
      as (sto' & E & G & V & _).
    exists sto'. repeat split; auto. intros l Hl.
    rewrite (get_loop_rd g (with_store s sto') ids l _ _ HF). exact (G l Hl).
  Qed.

  Lemma add_ids :
    length xs = need_of s ids -> has_values g w (store s) (selv ids (order g (vars s))) ->
    exists sto',
      set_loop s (numbers s) ids xs w true 0 0 (store s) = (sto', length xs, None) /\
      forall l, In l (wlocs w) -> exists old,
        get_loop s (numbers s) ids l = inl old /\ length old = length xs /\
        get_loop (with_store s sto') (numbers s) ids l = inl (vadd old xs).
  Proof.
    intros Hx Hpre. pose proof (items_rel g s (proj1 HI)) as HF.
    rewrite (need_of_total g s ids (proj1 HI)) in Hx.
    destruct (wr_add g xs w _ 0 (store s) (selected_keys_NoDup g s ids HI))
      as (sto' & E & G & _); [cbn; lia|exact Hpre|].
    cbn [Nat.add] in E, G. rewrite <- Hx, slice_all in *.
    exists sto'. rewrite (set_loop_wr g s ids xs w true _ _ HF). split; [exact E|].
    intros l Hl.
    rewrite (get_loop_rd g s ids l _ _ HF), (get_loop_rd g (with_store s sto') ids l _ _ HF).
    exact (G l Hl).
  Qed.
End Values.

Lemma set_get_roundtrip g s r xs w :
  Inv2 g s -> length xs = need s r ->
  exists s', set_values s r xs w false = (s', ODone) /\
             vars s' = vars s /\ numbers s' = numbers s /\ sizes s' = sizes s /\
             forall l, In l (wlocs w) -> get_values s' r l = OVals xs.
Proof.
  intros HI Hlen. destruct (set_get_ids g s (parse s r) xs w HI) as (sto' & E & G & _).
  exists (with_store s sto'). unfold set_values, get_values. rewrite E.
  change (need_of s (parse s r)) with (need s r) in *. rewrite <- Hlen, Nat.eqb_refl in *.
  repeat split; auto. intros l Hl. rewrite parse_with_store. cbn [with_store numbers].
  now rewrite (G l Hl), slice_all.
Qed.

Lemma set_wrong_size g s r xs w :
  Inv2 g s -> length xs <> need s r -> snd (set_values s r xs w false) = OErr AssertErr.
Proof.
  intros HI Hlen. destruct (set_get_ids g s (parse s r) xs w HI) as (sto' & E & _).
  unfold set_values. rewrite E. change (need_of s (parse s r)) with (need s r).
  cbn [snd]. destruct (Nat.eqb_spec (need s r) (length xs)); congruence.
Qed.

Lemma set_add_roundtrip g s r xs ys w :
  Inv2 g s -> length ys = need s r -> length xs = need s r ->
  exists s1 s2,
    set_values s r ys w false = (s1, ODone) /\
    set_values s1 r xs w true = (s2, ODone) /\
    forall l, In l (wlocs w) -> get_values s2 r l = OVals (vadd ys xs).
Proof.
  intros HI Hy Hx. change (need s r) with (need_of s (parse s r)) in *.
  destruct (set_get_ids g s (parse s r) ys w HI) as (sto1 & E1 & G1 & V1).
  rewrite <- Hy in E1, G1, V1. rewrite slice_all in G1.
  destruct (add_ids g (with_store s sto1) (parse s r) xs w) as (sto2 & E2 & G2);
    [now apply with_store_Inv2|exact Hx|now apply V1|].
  exists (with_store s sto1), (with_store (with_store s sto1) sto2).
  unfold set_values, get_values. rewrite !parse_with_store, E1, E2, !Nat.eqb_refl.
  repeat split. intros l Hl. destruct (G2 l Hl) as (old & Go & _ & Gn).
  change (get_loop (with_store s sto1) (numbers s) (parse s r) l = inl old) in Go.
  rewrite (G1 l Hl) in Go. injection Go as <-. cbn [with_store numbers] in *. now rewrite Gn.
Qed.

(* the round trips under the stronger guard that no create_variables call lists a grid twice
   (the code rejects such calls itself, so the guard adds nothing) *)
Definition nodup_opt (o : option (list nat)) : Prop :=
  match o with None => True | Some l => NoDup l end.

Definition wf2_op (g : mdgrid) (o : op) : Prop :=
  wf_op g o /\
  match o with
  | OpCreate _ _ _ sub intf => nodup_opt sub /\ nodup_opt intf
  | _ => True
  end.

Lemma wf2_wf g ops : Forall (wf2_op g) ops -> Forall (wf_op g) ops.
Proof. apply Forall_impl. now intros o []. Qed.

Lemma thm_set_get g ops r xs w :
  Forall (wf2_op g) ops ->
  let s := final g ops in
  length xs = need s r ->
  exists s', step g s (OpSet r xs w false) = (s', ODone) /\
    vars s' = vars s /\ numbers s' = numbers s /\ sizes s' = sizes s /\
    forall l, In l (wlocs w) -> snd (step g s' (OpGet r l)) = OVals xs.
Proof. intros Hw s. apply (set_get_roundtrip g), final_Inv2, wf2_wf, Hw. Qed.

Lemma thm_set_wrong_size g ops r xs w :
  Forall (wf2_op g) ops ->
  let s := final g ops in
  length xs <> need s r -> snd (step g s (OpSet r xs w false)) = OErr AssertErr.
Proof. intros Hw s. apply (set_wrong_size g), final_Inv2, wf2_wf, Hw. Qed.

Lemma thm_set_add g ops r xs ys w :
  Forall (wf2_op g) ops ->
  let s := final g ops in
  length ys = need s r -> length xs = need s r ->
  exists s1 s2,
    step g s (OpSet r ys w false) = (s1, ODone) /\
    step g s1 (OpSet r xs w true) = (s2, ODone) /\
    forall l, In l (wlocs w) -> snd (step g s2 (OpGet r l)) = OVals (vadd ys xs).
Proof. intros Hw s. apply (set_add_roundtrip g), final_Inv2, wf2_wf, Hw. Qed.
