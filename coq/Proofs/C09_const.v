(* C09 — constant time step (constant_dt=True): the constructor's compatibility test
   (np.arange + searchsorted + isclose, Model/C09_ext.v) and the time loop.  Exact reals. *)
From Coq Require Import List ZArith Bool Arith Lia Reals Lra Sorted FinFun.
Import ListNotations.
From PP Require Import Model.C09 Model.C09_ext Proofs.C09_loop Proofs.C09 Proofs.C09_transfer
                       Proofs.C09_QR.

Local Open Scope R_scope.

Lemma removelast_length (A : Type) (l : list A) : length (removelast l) = (length l - 1)%nat.
Proof.
  induction l as [|a [|b l] IH]; [reflexivity|reflexivity|].
  change (S (length (removelast (b :: l))) = (length (a :: b :: l) - 1)%nat).
  rewrite IH. cbn [length]. lia.
Qed.

Lemma filter_length_le (A : Type) (f : A -> bool) l : (length (filter f l) <= length l)%nat.
Proof. induction l as [|a l IH]; cbn; [lia|]. destruct (f a); cbn; lia. Qed.

Lemma NoDup_map_inj_on (A B : Type) (f : A -> B) (l : list A) :
  (forall x y, In x l -> In y l -> f x = f y -> x = y) -> NoDup l -> NoDup (map f l).
Proof.
  induction l as [|a l IH]; intros Hinj Hnd; [constructor|].
  inversion Hnd as [|? ? Hna Hnd']; subst. cbn [map]. constructor.
  - intros Hin. apply in_map_iff in Hin. destruct Hin as (y & Hy & Hyl).
    assert (y = a) by (apply Hinj; [right; exact Hyl|left; reflexivity|exact Hy]).
    subst. contradiction.
  - apply IH; [|exact Hnd']. intros x y Hx Hy. apply Hinj; right; assumption.
Qed.

Lemma sorted_of_steps (l : list R) :
  (forall k, (S k < length l)%nat -> nth k l 0 < nth (S k) l 0) -> Sorted Rlt l.
Proof.
  induction l as [|a [|b l] IH]; intros H; [constructor|repeat constructor|].
  constructor.
  - apply IH. intros k Hk. apply (H (S k)). cbn [length] in *. lia.
  - constructor. apply (H 0%nat). cbn [length]. lia.
Qed.

Section Const.
  Variable c : cfgR.
  Variable sched : list R.

  Notation s := (s sched).
  Notation n := (n sched).
  Notation tol := (tol c).
  Let d := dt_init c.

  Hypothesis Hconst : constant c = true.
  Hypothesis Hrtol : 0 <= rtol c.
  Hypothesis Hatol : 0 <= atol c.
  Hypothesis Hlen : (2 <= length sched)%nat.
  Hypothesis Hnn : 0 <= s 0.
  Hypothesis Hinc : forall j, (S j <= n)%nat -> s j < s (S j).
  Hypothesis Hd : 0 < d.
  (* the isclose tolerance (at any simulated time) is small against the step *)
  Hypothesis Htau : 2 * tol (s n + d) < d.

  Definition T (i : nat) : R := s 0 + INR i * d.
  Definition L : nat := Z.to_nat (Rceil ((s n + d - s 0) / d)).

  Lemma tol_nn b : 0 <= tol b.
  Proof. exact (tol_nonneg c Hrtol Hatol b). Qed.

  Lemma T_nonneg i : 0 <= T i.
  Proof.
    unfold T. pose proof (Rmult_le_pos _ _ (pos_INR i) (Rlt_le _ _ Hd)). lra.
  Qed.

  Lemma T_step i : T (S i) = T i + d.
  Proof. unfold T. rewrite S_INR. ring. Qed.

  Lemma T_mono i k : (i < k)%nat -> T i + d <= T k.
  Proof.
    intros H. rewrite <- T_step. unfold T.
    pose proof (Rmult_le_compat_r d _ _ (Rlt_le _ _ Hd) (le_INR (S i) k H)). lra.
  Qed.

  Lemma T_inj : Injective T.
  Proof.
    intros i k H. destruct (Nat.lt_trichotomy i k) as [Hlt|[Heq|Hgt]]; [|exact Heq|].
    - pose proof (T_mono _ _ Hlt). lra.
    - pose proof (T_mono _ _ Hgt). lra.
  Qed.

  Lemma T_below i : (i < L)%nat -> T i < s n + d.
  Proof.
    intros Hi. unfold L in Hi. set (q := (s n + d - s 0) / d) in *.
    destruct (Rceil_bounds q) as [Hq _].
    assert (Hz : (Z.of_nat i <= Rceil q - 1)%Z) by lia.
    apply IZR_le in Hz. rewrite minus_IZR, <- INR_IZR_INZ in Hz. simpl in Hz.
    assert (INR i * d < q * d) by (apply Rmult_lt_compat_r; lra).
    unfold q, Rdiv in H. rewrite Rmult_assoc, Rinv_l in H by lra.
    unfold T. lra.
  Qed.

  Lemma tol_T i : (i < L)%nat -> tol (T i) <= tol (s n + d).
  Proof.
    intros Hi. apply (tol_mono c Hrtol); [apply T_nonneg|apply Rlt_le, T_below, Hi].
  Qed.

  Lemma sim_times_eq : sim_times R ROps RExt c sched = map T (seq 0 L).
  Proof.
    unfold sim_times, arange, arange_len, L.
    cbn [x_div x_ceil x_ofZ RExt n_add n_sub n_zero ROps]. fold d.
    assert (Hhd : hd 0 sched = s 0) by (unfold Proofs.C09.s; destruct sched; reflexivity).
    rewrite Hhd, (last_nth _ sched 0 : last sched 0 = s n). unfold Rdiv0.
    destruct (Req_EM_T d 0) as [H0|_]; [lra|].
    apply map_ext. intros i. unfold T.
    destruct i as [|[|i]]; cbn [arange_item n_add n_sub n_mul ROps x_ofZ RExt];
      rewrite <- ?INR_IZR_INZ; cbn [INR]; ring.
  Qed.

  (* the scheduled index a simulated time is matched with *)
  Definition phi (t : R) : nat :=
    let ss := searchsorted_left R ROps (removelast (tl sched)) t in
    if iscloseR c (nth ss sched 0) t then ss else S ss.

  Lemma phi_le t : (phi t <= n)%nat.
  Proof.
    unfold phi, searchsorted_left.
    pose proof (filter_length_le R (fun x => n_ltb R ROps x t) (removelast (tl sched))) as H.
    rewrite removelast_length in H.
    assert (length (tl sched) = (length sched - 1)%nat) by (destruct sched; cbn; lia).
    unfold Proofs.C09.n.
    destruct (iscloseR c _ t); lia.
  Qed.

  Lemma phi_close t : matches R ROps c sched t = true -> iscloseR c (s (phi t)) t = true.
  Proof.
    unfold matches, phi, Proofs.C09.s. cbn [n_zero ROps].
    destruct (iscloseR c (nth (searchsorted_left R ROps (removelast (tl sched)) t) sched 0) t)
      eqn:E; intros H; [exact E|exact H].
  Qed.

  (* pigeonhole: distinct matched simulated times go to distinct scheduled indices *)
  Lemma compat_hits :
    compatible R ROps RExt c sched = true ->
    forall j, (j <= n)%nat -> exists i, (i < L)%nat /\ iscloseR c (s j) (T i) = true.
  Proof.
    unfold compatible. intros Hc j Hj. apply Nat.eqb_eq in Hc. rewrite sim_times_eq in Hc.
    set (sims := map T (seq 0 L)) in *.
    set (M := filter (matches R ROps c sched) sims) in *.
    assert (HndM : NoDup M).
    { apply NoDup_filter, Injective_map_NoDup; [exact T_inj|apply seq_NoDup]. }
    assert (HinM : forall t, In t M -> exists i, (i < L)%nat /\ t = T i /\
                                      iscloseR c (s (phi t)) t = true).
    { intros t Ht. apply filter_In in Ht. destruct Ht as [Hs Hm].
      apply in_map_iff in Hs. destruct Hs as (i & <- & Hi). apply in_seq in Hi.
      exists i. split; [lia|]. split; [reflexivity|]. apply phi_close, Hm. }
    (* two simulated times matched with the same scheduled time are less than d apart *)
    assert (Hinj : forall x y, In x M -> In y M -> phi x = phi y -> x = y).
    { intros x y Hx Hy Hxy.
      destruct (HinM x Hx) as (i & Hi & -> & Cx). destruct (HinM y Hy) as (k & Hk & -> & Cy).
      rewrite Hxy in Cx. apply (isclose_iff c Hrtol Hatol) in Cx, Cy.
      pose proof (tol_T i Hi). pose proof (tol_T k Hk).
      destruct (Nat.lt_trichotomy i k) as [Hlt|[->|Hgt]]; [|reflexivity|].
      - pose proof (T_mono _ _ Hlt). lra.
      - pose proof (T_mono _ _ Hgt). lra. }
    assert (Hincl : incl (map phi M) (seq 0 (S n))).
    { intros k Hk. apply in_map_iff in Hk. destruct Hk as (t & <- & _).
      apply in_seq. pose proof (phi_le t). lia. }
    assert (Hlen' : (length (seq 0 (S n)) <= length (map phi M))%nat).
    { rewrite seq_length, map_length, <- Hc. unfold Proofs.C09.n. lia. }
    pose proof (NoDup_length_incl (NoDup_map_inj_on _ _ phi M Hinj HndM) Hlen' Hincl) as Hback.
    assert (Hjin : In j (map phi M)) by (apply Hback, in_seq; lia).
    apply in_map_iff in Hjin. destruct Hjin as (t & <- & Ht).
    destruct (HinM t Ht) as (i & Hi & -> & Cx). exists i. split; assumption.
  Qed.

  Notation fin t := (s n < t \/ iscloseR c t (s n) = true).
  Notation trace := (list (event * stateR * out R)).

  (* what holds of a run from a loop-head state whose clock is [t] *)
  Definition const_ok (t : R) (tr : trace) (st : stop) : Prop :=
    let acc := accepted R tr in
    (forall k, (k < length acc)%nat -> nth k acc 0 = t + INR (S k) * d) /\
    (forall k, (k < length acc)%nat -> ~ fin (t + INR k * d)) /\
    (st = Finished -> fin (t + INR (length acc) * d)) /\
    (forall ev x' o, In (ev, x', o) tr ->
       (exists k, ev = Converged k /\ o = OUnit) \/
       (ev = Failed /\ o = OErr E_not_converged /\ st = Raised E_not_converged)) /\
    (forall e, st = Raised e -> e = E_not_converged) /\
    (forall pre x' o post, tr = pre ++ (Failed, x', o) :: post ->
       o = OErr E_not_converged /\ post = [] /\ st = Raised E_not_converged).

  Lemma const_ok_nil t st :
    (st = Finished -> fin t) -> (forall e, st <> Raised e) -> const_ok t [] st.
  Proof.
    intros Hf Hr. unfold const_ok. cbn [accepted length INR In]. rewrite Rmult_0_l, Rplus_0_r.
    repeat split; try (intros; lia || contradiction); try exact Hf.
    - intros e He. destruct (Hr e He).
    - destruct pre; discriminate.
    - destruct pre; discriminate.
    - destruct pre; discriminate.
  Qed.

  Lemma const_drive evs : forall x tr st,
    dt x = d -> driveR c sched x evs = (tr, st) -> const_ok (time x) tr st.
  Proof.
    induction evs as [|ev r IH]; intros x tr st Hdx H;
      destruct (finalR c sched x) eqn:Hf;
      try (rewrite drive_final in H by exact Hf; injection H as <- <-;
           apply const_ok_nil; [intros _; apply final_iff, Hf|discriminate]).
    { rewrite drive_nil in H by exact Hf. injection H as <- <-.
      apply const_ok_nil; discriminate. }
    set (x1 := stepped x).
    assert (Hs : forall k, time x + INR (S k) * d = time x1 + INR k * d).
    { intros k. unfold x1, stepped, increase_time_index, increase_time; cbn [time]; rops.
      rewrite Hdx, S_INR. ring. }
    destruct ev as [k|];
      rewrite (drive_cons R ROps c sched x _ r x1 _ Hf) in H
        by (unfold cstep; rewrite Hconst; reflexivity).
    - destruct (driveR c sched x1 r) as [tr' st'] eqn:Hrec. injection H as <- <-.
      destruct (IH x1 _ _ Hdx Hrec) as (A & B & C & D & E & F).
      unfold const_ok. cbn [accepted length In].
      split; [|split; [|split; [|split; [|split]]]].
      + intros [|k'] Hk; cbn [nth]; rewrite Hs; [cbn [INR]; ring|apply A; lia].
      + intros [|k'] Hk; [|rewrite Hs; apply B; lia].
        cbn [INR]. rewrite Rmult_0_l, Rplus_0_r. intros Hfin. apply final_iff in Hfin.
        congruence.
      + rewrite Hs. exact C.
      + intros ev x' o [[= <- <- <-]|Hin]; [left; exists k; split; reflexivity|exact (D _ _ _ Hin)].
      + exact E.
      + intros [|p pre] x' o post Heq; [discriminate|]. injection Heq as _ Heq.
        exact (F _ _ _ _ Heq).
    - injection H as <- <-. unfold const_ok. cbn [accepted length In].
      split; [intros k Hk; lia|split; [intros k Hk; lia|split; [discriminate|split; [|split]]]].
      + intros ev x' o [[= <- <- <-]|[]]. right. repeat split.
      + intros e [= <-]. reflexivity.
      + intros [|p [|q pre]] x' o post [= <- <- <-]. repeat split.
  Qed.

  Lemma const_run evs x tr st :
    dt x = d -> time x = s 0 -> compatible R ROps RExt c sched = true ->
    driveR c sched x evs = (tr, st) ->
    let acc := accepted R tr in
    Sorted Rlt (s 0 :: acc) /\
    (forall t, In t acc -> t <= s n \/ iscloseR c (s n) t = true) /\
    (st = Finished ->
       forall j, (j <= n)%nat -> exists t, In t (s 0 :: acc) /\ iscloseR c (s j) t = true).
  Proof.
    intros Hdx Htx Hcomp Hdrv acc.
    destruct (const_drive evs x tr st Hdx Hdrv) as (A & B & C & _).
    rewrite Htx in A, B, C. fold acc in A, B, C.
    change (forall k, (k < length acc)%nat -> nth k acc 0 = T (S k)) in A.
    change (forall k, (k < length acc)%nat -> ~ fin (T k)) in B.
    change (st = Finished -> fin (T (length acc))) in C.
    set (tau := tol (s n + d)) in *.
    assert (Hsn : 0 <= s n) by (pose proof (s_incr_le sched Hinc 0 n ltac:(lia) ltac:(lia)); lra).
    assert (Htsn : 0 <= tol (s n) <= tau) by (split; [apply tol_nn|apply (tol_mono c Hrtol); lra]).
    (* every scheduled time is within tolerance (at most tau) of a simulated time; the
       simulated times are d apart and the loop stops at the first final one *)
    assert (Hhits : forall j, (j <= n)%nat -> exists i,
               s j - tol (T i) <= T i <= s j + tol (T i) /\ tol (T i) <= tau /\
               iscloseR c (s j) (T i) = true).
    { intros j Hj. destruct (compat_hits Hcomp j Hj) as (i & Hi & Hcl). exists i.
      split; [apply (isclose_iff c Hrtol Hatol) in Hcl; lra|].
      split; [exact (tol_T i Hi)|exact Hcl]. }
    split; [|split].
    - apply sorted_of_steps. intros k Hk. cbn [length] in Hk.
      destruct k as [|k]; cbn [nth]; rewrite !A by lia.
      + unfold T. cbn [INR]. lra.
      + pose proof (T_mono (S k) (S (S k)) ltac:(lia)). lra.
    - intros t Hin. destruct (In_nth acc t 0 Hin) as (k & Hk & <-). rewrite A by exact Hk.
      destruct (Hhits n ltac:(lia)) as (i & Hb & Hti & Hcl).
      destruct (Nat.lt_trichotomy i (S k)) as [Hlt|[->|Hgt]].
      + (* the matching simulated time is an earlier loop time: the loop would have stopped *)
        destruct (B i ltac:(lia)).
        destruct (Rlt_le_dec (s n) (T i)) as [|Hle]; [left; assumption|right].
        apply (isclose_iff c Hrtol Hatol). pose proof (tol_mono c Hrtol _ (s n) (T_nonneg i) Hle).
        lra.
      + right. exact Hcl.
      + left. pose proof (T_mono (S k) i Hgt). lra.
    - intros Hst j Hj. destruct (Hhits j Hj) as (i & Hb & Hti & Hcl).
      assert (Hik : (i <= length acc)%nat).
      { (* otherwise the loop would have gone on: its last time is at least d before T i *)
        destruct (le_lt_dec i (length acc)) as [|Hgt]; [assumption|exfalso].
        pose proof (T_mono (length acc) i Hgt).
        pose proof (s_incr_le sched Hinc j n Hj ltac:(lia)).
        destruct (C Hst) as [C'|C']; [lra|]. apply (isclose_iff c Hrtol Hatol) in C'. lra. }
      destruct i as [|i].
      + exists (s 0). split; [left; reflexivity|].
        replace (s 0) with (T 0) by (unfold T; cbn [INR]; ring). exact Hcl.
      + exists (nth i acc 0). split; [right; apply nth_In; lia|]. rewrite A by lia. exact Hcl.
  Qed.
End Const.

Lemma strictly_increasing_nth (l : list R) :
  strictly_increasing R ROps l = true ->
  forall j, (S j < length l)%nat -> nth j l 0 < nth (S j) l 0.
Proof.
  induction l as [|a [|b l] IH]; intros H j Hj; cbn [length] in Hj; try lia.
  change (n_ltb R ROps a b && strictly_increasing R ROps (b :: l) = true) in H.
  apply andb_true_iff in H. destruct H as [H1 H2]. cbn [n_ltb ROps] in H1.
  apply Rltb_true in H1. destruct j as [|j]; [exact H1|].
  change (nth j (b :: l) 0 < nth (S j) (b :: l) 0). apply IH; [exact H2|cbn [length]; lia].
Qed.

Lemma construct_ok_const (a : args R) (sched : list R) (c : cfgR) :
  construct R ROps a sched = inl c -> a_constant a = true ->
  constant c = true /\ dt_init c = a_dt_init a /\ rtol c = a_rtol a /\ atol c = a_atol a /\
  (2 <= length sched)%nat /\ 0 <= nth 0 sched 0 /\ 0 < dt_init c /\
  strictly_increasing R ROps sched = true.
Proof.
  unfold construct. intros H Hc. rewrite Hc in H. cbv zeta in H. revert H. rops.
  repeat (apply passed; intros ?). intros [= <-]. cbn [constant dt_init rtol atol].
  rewrite Nat.ltb_ge, negb_false_iff, ?Rleb_false in *.
  repeat split; auto using no_negative_hd.
Qed.
