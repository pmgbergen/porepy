(* C22 — the 2-D geometry model of C19 (PP.Model.C19, transcription of
   Grid._compute_geometry_2d) evaluated on an extracted subgrid equals the parent's
   geometry on the extracted cells and faces. *)
From Coq Require Import List ZArith QArith Bool Arith Lia Lqa Sorted Permutation.
Import ListNotations.
From PP Require Import Lib.ListFacts Model.C22 Proofs.C22 Model.C19 Proofs.C19 Model.C22_geom.
Close Scope Q_scope.

(* an array indexed by the entities of the subgrid, read off the parent's array *)
Lemma map_nth_sub {T} (F' F : nat -> T) (u : list nat) (n : nat) (d : T) :
  (forall j, j < length u -> F' j = F (nth j u 0)) -> Forall (fun k => k < n) u ->
  map F' (seq 0 (length u)) = map (fun k => nth k (map F (seq 0 n)) d) u.
Proof.
  intros HF Hu. rewrite <- (map_nth_seq u 0) at 2. rewrite map_map.
  apply map_ext_in. intros j Hj. apply in_seq in Hj. rewrite HF by lia.
  symmetry. apply (nth_map_seq F 0). apply (proj1 (Forall_nth _ _) Hu). lia.
Qed.

Lemma sorted_nth_lt (u : list nat) : StronglySorted lt u ->
  forall i j, i < j -> j < length u -> nth i u 0 < nth j u 0.
Proof.
  induction 1 as [|a t Hs IH Hf]; intros i j Hij Hj; cbn [length] in Hj; [lia|].
  destruct j as [|j]; [lia|]. destruct i as [|i]; cbn [nth].
  - rewrite Forall_forall in Hf. apply Hf, nth_In. lia.
  - apply IH; lia.
Qed.

Lemma sorted_nth_inj (u : list nat) : StronglySorted lt u ->
  forall i j, i < length u -> j < length u -> nth i u 0 = nth j u 0 -> i = j.
Proof.
  intros Hs i j Hi Hj E. destruct (lt_eq_lt_dec i j) as [[H|H]|H]; [|exact H|].
  - pose proof (sorted_nth_lt u Hs i j H Hj). lia.
  - pose proof (sorted_nth_lt u Hs j i H Hi). lia.
Qed.

Lemma count_map_inj (u : nat -> nat) (l : list nat) (x : nat) :
  (forall y, In y l -> u y = u x -> y = x) -> count (map u l) (u x) = count l x.
Proof.
  unfold count. induction l as [|a t IH]; intros H; [reflexivity|]. cbn [map count_occ].
  rewrite IH by (intros y Hy; apply H; right; exact Hy).
  destruct (Nat.eq_dec (u a) (u x)) as [E|E], (Nat.eq_dec a x) as [E'|E']; try reflexivity.
  - destruct E'. apply H; [left; reflexivity|exact E].
  - destruct E. rewrite E'. reflexivity.
Qed.

(* the balance test is unchanged by a renumbering that is injective on the numbers present *)
Lemma balance_map_inj (u : nat -> nat) (P : nat -> Prop) (A B L : list nat) :
  (forall x y, P x -> P y -> u x = u y -> x = y) ->
  Forall P (A ++ B) -> Forall P L ->
  forallb (fun n => count (map u A) n =? count (map u B) n) (map u L)
  = forallb (fun n => count A n =? count B n) L.
Proof.
  intros Hinj HAB HL. apply Forall_app in HAB. destruct HAB as [HA HB]. rewrite Forall_forall in HA, HB.
  induction HL as [|n t Hn Ht IH]; [reflexivity|]. cbn [map forallb].
  rewrite !count_map_inj, IH by (intros y Hy; apply Hinj; auto). reflexivity.
Qed.

Lemma filter_map_tag (cl : list (nat * Z)) (j c : nat) :
  filter (fun x : nat * nat * Z => Nat.eqb (snd (fst x)) c) (map (fun e : nat * Z => (fst e, j, snd e)) cl)
  = if j =? c then map (fun e : nat * Z => (fst e, j, snd e)) cl else [].
Proof.
  induction cl as [|e t IH]; [destruct (j =? c); reflexivity|].
  cbn [map filter fst snd]. rewrite IH. destruct (j =? c); reflexivity.
Qed.

Lemma filter_tagged (cf : csc) (c : nat) : forall n s,
  filter (fun x : nat * nat * Z => Nat.eqb (snd (fst x)) c)
         (flat_map (fun j => map (fun e : nat * Z => (fst e, j, snd e)) (nth j cf [])) (seq s n))
  = if (s <=? c) && (c <? s + n) then map (fun e : nat * Z => (fst e, c, snd e)) (nth c cf []) else [].
Proof.
  induction n as [|n IH]; intros s; cbn [seq flat_map].
  - destruct (Nat.leb_spec s c), (Nat.ltb_spec c (s + 0)); try reflexivity. lia.
  - rewrite filter_app, IH, filter_map_tag.
    destruct (Nat.leb_spec (S s) c), (Nat.ltb_spec c (S s + n)), (Nat.leb_spec s c),
      (Nat.ltb_spec c (s + S n)), (Nat.eqb_spec s c) as [->|Hne];
      cbn [andb app]; rewrite ?app_nil_r; try reflexivity; lia.
Qed.

Lemma cell_entries_to_grid2 nodes cf fn c :
  c < length cf -> cell_entries (to_grid2 nodes cf fn) c = nth c cf [].
Proof.
  intros H. unfold cell_entries, to_grid2, cf_entries. cbn [g_cf].
  rewrite filter_tagged. apply Nat.ltb_lt in H. cbn [Nat.leb Nat.add]. rewrite H. cbn [andb].
  rewrite map_map. cbn [fst snd]. rewrite <- (map_id (nth c cf [])) at 2.
  apply map_ext. intros [f s]. reflexivity.
Qed.

Lemma faces_to_grid2 nodes cf fn f :
  nth f (g_faces (to_grid2 nodes cf fn)) (0, 0) = pair_of (nth f fn []).
Proof.
  unfold to_grid2. cbn [g_faces]. change (0, 0) with (pair_of []). apply map_nth.
Qed.

Lemma cf_entries_In cf f c s :
  In (f, c, s) (cf_entries cf) <-> c < length cf /\ In (f, s) (nth c cf []).
Proof.
  unfold cf_entries. rewrite in_flat_map. split.
  - intros [j [Hj Hin]]. apply in_seq in Hj. apply in_map_iff in Hin.
    destruct Hin as [[f0 s0] [E Hin]]. cbn in E. inversion E; subst. split; [lia|exact Hin].
  - intros [Hc Hin]. exists c. split; [apply in_seq; lia|].
    apply in_map_iff. exists (f, s). split; [reflexivity|exact Hin].
Qed.

Lemma relabel_nth u (c : col) k :
  k < length c ->
  nth k (relabel u c) (0, 0%Z) = (nth (fst (nth k c (0, 0%Z))) u 0, snd (nth k c (0, 0%Z))).
Proof. intros H. unfold relabel. rewrite (nth_map_lt _ c k (0, 0%Z) (0, 0%Z) H). reflexivity. Qed.

Definition two_nodes (fn : csc) (fs : list nat) : Prop :=
  forall f, In f fs -> length (nth f fn []) = 2.

Section Sub.
  Variables (nodes : list pt) (cf fn : csc) (sg : subgrid).
  Hypothesis Hc : submatrix_of cf (sg_cells sg) (sg_cf sg) (sg_faces sg).
  Hypothesis Hf : submatrix_of fn (sg_faces sg) (sg_fn sg) (sg_nodes sg).
  Hypothesis H2 : two_nodes fn (sg_faces sg).

  Let g := to_grid2 nodes cf fn.
  Let g' := to_grid2 (take_nodes (0%Q, 0%Q) nodes (sg_nodes sg)) (sg_cf sg) (sg_fn sg).
  Let u := fun n => nth n (sg_nodes sg) 0.

  Lemma cell_in_range i : i < length (sg_cells sg) -> nth i (sg_cells sg) 0 < length cf.
  Proof. apply (proj1 (Forall_nth _ _) (sm_ind _ _ _ _ Hc)). Qed.

  Lemma local_pair j :
    j < length (sg_faces sg) ->
    let p' := pair_of (nth j (sg_fn sg) []) in
    fst p' < length (sg_nodes sg) /\ snd p' < length (sg_nodes sg) /\
    pair_of (nth (nth j (sg_faces sg) 0) fn []) = (u (fst p'), u (snd p')).
  Proof.
    intros Hj p'. destruct (sm_col _ _ _ _ Hf j Hj) as [Hrel Hloc].
    pose proof (H2 _ (nth_In _ 0 Hj)) as Hlen. rewrite <- Hrel in Hlen |- *.
    unfold relabel in Hlen. rewrite map_length in Hlen. rewrite Forall_forall in Hloc.
    unfold p', pair_of. cbn [fst snd].
    split; [apply Hloc, nth_In; lia|]. split; [apply Hloc, nth_In; lia|].
    rewrite !relabel_nth by lia. reflexivity.
  Qed.

  Lemma face_of_sub j s :
    j < length (sg_faces sg) -> face_of g' j s = face_of g (nth j (sg_faces sg) 0) s.
  Proof.
    intros Hj. destruct (local_pair j Hj) as (L1 & L2 & L3).
    unfold face_of, g, g'. rewrite !faces_to_grid2, L3. cbn [fst snd].
    unfold node, to_grid2. cbn [g_nodes]. rewrite !take_nodes_nth by assumption. reflexivity.
  Qed.

  Lemma cell_entries_sub i :
    i < length (sg_cells sg) ->
    cell_entries g' i = nth i (sg_cf sg) [] /\
    cell_entries g (nth i (sg_cells sg) 0) = relabel (sg_faces sg) (nth i (sg_cf sg) []).
  Proof.
    intros Hi. unfold g, g'. rewrite !cell_entries_to_grid2.
    - split; [reflexivity|]. symmetry. apply (sm_col _ _ _ _ Hc i Hi).
    - apply cell_in_range, Hi.
    - rewrite (sm_length _ _ _ _ Hc). exact Hi.
  Qed.

  Lemma local_face i e :
    i < length (sg_cells sg) -> In e (nth i (sg_cf sg) []) -> fst e < length (sg_faces sg).
  Proof.
    intros Hi. destruct (sm_col _ _ _ _ Hc i Hi) as [_ Hloc]. rewrite Forall_forall in Hloc. apply Hloc.
  Qed.

  Lemma cell_sfaces_sub i :
    i < length (sg_cells sg) -> cell_sfaces g' i = cell_sfaces g (nth i (sg_cells sg) 0).
  Proof.
    intros Hi. unfold cell_sfaces. destruct (cell_entries_sub i Hi) as [-> ->].
    unfold relabel. rewrite map_map. apply map_ext_in. intros e He. cbn [fst snd].
    apply face_of_sub, (local_face i e Hi He).
  Qed.

  Lemma oedge_sub i e :
    i < length (sg_cells sg) -> In e (nth i (sg_cf sg) []) ->
    let o' := oedge_idx g' e in
    fst o' < length (sg_nodes sg) /\ snd o' < length (sg_nodes sg) /\
    oedge_idx g (nth (fst e) (sg_faces sg) 0, snd e) = (u (fst o'), u (snd o')).
  Proof.
    intros Hi He o'. destruct (local_pair (fst e) (local_face i e Hi He)) as [L1 [L2 L3]].
    unfold o', oedge_idx, g, g'. rewrite !faces_to_grid2. cbn [fst snd]. rewrite L3.
    destruct (0 <? snd e)%Z; cbn [fst snd]; auto.
  Qed.

  Lemma balanced_sub i :
    i < length (sg_cells sg) -> balanced g' i = balanced g (nth i (sg_cells sg) 0).
  Proof.
    intros Hi. unfold balanced. destruct (cell_entries_sub i Hi) as [-> ->].
    set (cl := nth i (sg_cf sg) []). set (es' := map (oedge_idx g') cl).
    assert (Hr : Forall (fun n => n < length (sg_nodes sg)) (map fst es' ++ map snd es')).
    { apply Forall_app. split; unfold es'; rewrite map_map; apply Forall_map, Forall_forall;
        intros e He; apply (oedge_sub i e Hi He). }
    assert (Hes : map (oedge_idx g) (relabel (sg_faces sg) cl)
                  = map (fun p => (u (fst p), u (snd p))) es').
    { unfold es', relabel. rewrite !map_map. apply map_ext_in. intros e He.
      apply (oedge_sub i e Hi He). }
    rewrite Hes, !map_map. cbn [fst snd].
    rewrite <- (map_map fst u), <- (map_map snd u), <- map_app. symmetry.
    apply (balance_map_inj u _ _ _ _ (sorted_nth_inj _ (sm_sorted _ _ _ _ Hf)) Hr Hr).
  Qed.

  Lemma oriented_sub : oriented1 g = true -> oriented1 g' = true.
  Proof.
    intros H. apply oriented1_spec in H. destruct H as [Hs Hb]. apply oriented1_spec. split.
    - intros [[f' i] s] Hin. apply cf_entries_In in Hin. destruct Hin as [Hi Hin].
      rewrite (sm_length _ _ _ _ Hc) in Hi.
      apply (Hs (nth f' (sg_faces sg) 0, nth i (sg_cells sg) 0, s)).
      apply cf_entries_In. split; [apply cell_in_range, Hi|].
      rewrite <- (proj1 (sm_col _ _ _ _ Hc i Hi)).
      apply (in_map (fun e => (nth (fst e) (sg_faces sg) 0, snd e)) _ (f', s) Hin).
    - intros i Hi. change (g_nc g') with (length (sg_cf sg)) in Hi.
      rewrite (sm_length _ _ _ _ Hc) in Hi.
      rewrite (balanced_sub i Hi). apply Hb, cell_in_range, Hi.
  Qed.

  (* any per-cell / per-face array computed on the subgrid is the parent's array read at the
     extracted cells / faces *)
  Lemma cell_array_sub T (F : list sface -> T) d :
    map (fun i => F (cell_sfaces g' i)) (seq 0 (g_nc g'))
    = map (fun k => nth k (map (fun c => F (cell_sfaces g c)) (seq 0 (g_nc g))) d) (sg_cells sg).
  Proof.
    replace (g_nc g') with (length (sg_cells sg)) by (symmetry; apply (sm_length _ _ _ _ Hc)).
    apply map_nth_sub; [|apply (sm_ind _ _ _ _ Hc)].
    intros i Hi. rewrite cell_sfaces_sub by exact Hi. reflexivity.
  Qed.

  Lemma face_array_sub T (F : sface -> T) d :
    map (fun f => F (face_of g' f 1%Z)) (seq 0 (length (g_faces g')))
    = map (fun f => nth f (map (fun f => F (face_of g f 1%Z)) (seq 0 (length (g_faces g)))) d)
          (sg_faces sg).
  Proof.
    unfold g' at 2, g at 2, to_grid2. cbn [g_faces].
    rewrite !map_length, (sm_length _ _ _ _ Hf).
    apply map_nth_sub; [|apply (sm_ind _ _ _ _ Hf)].
    intros j Hj. rewrite face_of_sub by exact Hj. reflexivity.
  Qed.

  Definition restrict_geom (r : geom2) (cs fs : list nat) : geom2 :=
    {| o_area2 := map (fun f => nth f (o_area2 r) 0%Q) fs;
       o_fc := map (fun f => nth f (o_fc r) (0%Q, 0%Q)) fs;
       o_fn := map (fun f => nth f (o_fn r) (0%Q, 0%Q)) fs;
       o_vol := map (fun k => nth k (o_vol r) 0%Q) cs;
       o_cc := map (fun k => nth k (o_cc r) (0%Q, 0%Q)) cs |}.

  (* the whole result of the oriented branch, global decisions included: the volumes of the
     subgrid's cells are the parent's, so none is negative and, one being positive, the plane
     orientation is the parent's *)
  Theorem geometry2_restrict r :
    geometry2 g = GOk r ->
    (exists i, i < length (sg_cells sg) /\ (0 < nth (nth i (sg_cells sg) 0%nat) (o_vol r) 0)%Q) ->
    geometry2 g' = GOk (restrict_geom r (sg_cells sg) (sg_faces sg)).
  Proof.
    intros Hg (i0 & Hi0 & Hpos).
    destruct (geometry2_ok g r Hg) as (Hor & Hsig & Hvol & Hcc & Hfn & Hfc & Ha & Hnn).
    set (sigma := qsign (plane_sum g)) in *.
    pose proof (cell_array_sub Q (fun es => cell_volume sigma (temp_center es) es) 0%Q) as HV.
    cbv beta in HV. rewrite <- Hvol in HV.
    assert (Hnn' : forall v, In v (map (fun k => nth k (o_vol r) 0%Q) (sg_cells sg)) -> (0 <= v)%Q).
    { intros v Hv. apply in_map_iff in Hv. destruct Hv as (k & <- & Hk). apply Hnn, nth_In.
      rewrite Hvol, map_length, seq_length.
      pose proof (sm_ind _ _ _ _ Hc) as HF. rewrite Forall_forall in HF. apply HF, Hk. }
    destruct (qsign_scaled sigma (plane_sum g') Hsig) as [Hsg Hnz].
    { rewrite plane_sum_volumes, HV. apply (sumQ_pos_one _ Hnn').
      exists (nth (nth i0 (sg_cells sg) 0) (o_vol r) 0%Q). split; [|exact Hpos].
      apply (in_map (fun k => nth k (o_vol r) 0%Q)), nth_In, Hi0. }
    destruct (geometry2_GOk g' (oriented_sub Hor) Hnz) as [r' Hr'].
    { rewrite Hsg, HV. exact Hnn'. }
    rewrite Hr'. f_equal.
    destruct (geometry2_ok g' r' Hr') as (_ & _ & Hvol' & Hcc' & Hfn' & Hfc' & Ha' & _).
    rewrite Hsg in *. destruct r' as [ra rfc rfn rv rcc]. cbn [o_vol o_cc o_fn o_fc o_area2] in *. subst.
    unfold restrict_geom. rewrite Hvol, Hcc, Hfn, Hfc, Ha. f_equal.
    - apply (face_array_sub Q farea2).
    - apply (face_array_sub pt fcenter).
    - apply (face_array_sub pt (fnormal sigma)).
    - apply (cell_array_sub Q (fun es => cell_volume sigma (temp_center es) es)).
    - apply (cell_array_sub pt (fun es => cell_center sigma (temp_center es) es)).
  Qed.
End Sub.

(* everything _compute_geometry_2d computes per face and per cell (for any orientation sign
   sigma of the plane) coincides on the subgrid and on the parent *)
Theorem geometry2_entities (nodes : list pt) (cf fn : csc) (c : cells) (sort : bool) (sg : subgrid) :
  extract_subgrid cf fn c sort = Ok sg ->
  two_nodes fn (sg_faces sg) ->
  let g := to_grid2 nodes cf fn in
  let g' := to_grid2 (take_nodes (0%Q, 0%Q) nodes (sg_nodes sg)) (sg_cf sg) (sg_fn sg) in
  (forall j, j < length (sg_faces sg) ->
     let e' := face_of g' j 1%Z in let e := face_of g (nth j (sg_faces sg) 0) 1%Z in
     e' = e /\ farea2 e' = farea2 e /\ fcenter e' = fcenter e /\
     forall sigma, fnormal sigma e' = fnormal sigma e) /\
  (forall i, i < length (sg_cells sg) ->
     let es' := cell_sfaces g' i in let es := cell_sfaces g (nth i (sg_cells sg) 0) in
     es' = es /\
     forall sigma, cell_volume sigma (temp_center es') es' = cell_volume sigma (temp_center es) es /\
                   cell_center sigma (temp_center es') es' = cell_center sigma (temp_center es) es).
Proof.
  intros H Htwo g g'. apply extract_subgrid_cells in H. destruct H as (_ & _ & Hc & Hf). split.
  - intros j Hj e' e. unfold e', g'. rewrite (face_of_sub nodes cf fn sg Hf Htwo j 1%Z Hj). auto.
  - intros i Hi es' es. unfold es', g'. rewrite (cell_sfaces_sub nodes cf fn sg Hc Hf Htwo i Hi). auto.
Qed.
