(* C01 — proofs for safe_power and row assignment. *)
From Coq Require Import Reals ZArith List Lra Lia.
From Coquelicot Require Import Coquelicot.
From PP Require Import Model.C01 Model.C01R Model.C01X Proofs.C01 Proofs.C01_fun Proofs.C01_comp.
Import ListNotations.
Open Scope R_scope.

(* safe_power away from its switch |x| = tol (tol >= 0); where the power is taken the
   usual domain of the power applies (non-integer powers: positive argument) *)
Definition sp_smooth (p : pexp R) (tol x : R) : Prop :=
  0 <= tol /\ Rabs x <> tol /\
  (tol < Rabs x -> match p with PZ _ => True | PR _ => 0 < x end).

Lemma sp_rule (p : pexp R) (zv tol x : R) :
  sp_smooth p tol x ->
  is_derive (sp_val ROps p zv tol) x (sp_fac ROps p tol x).
Proof.
  intros (Ht & Hne & Hd). unfold sp_val, sp_fac. cbn [oltb ROps].
  apply (is_derive_ltb (fun _ => tol) (np_abs ROps) (fun y => pow_plain ROps y p));
    [apply continuous_const | apply continuous_np_abs | rewrite np_abs_Rabs; auto |].
  rewrite np_abs_Rabs. destruct (Rlt_dec tol (Rabs x)) as [Hlt|Hge].
  - rewrite ltbR_true by exact Hlt. destruct p as [n|q].
    + apply is_derive_powerRZ_id. left. intros ->. rewrite Rabs_R0 in Hlt. lra.
    + apply is_derive_Rpower_id, Hd, Hlt.
  - rewrite ltbR_false by exact Hge. apply @is_derive_const.
Qed.

Lemma find_last_spec (idx : list nat) (i : nat) : forall k acc,
  match find_last idx i k acc with
  | Some r => acc = Some r \/ (k <= r /\ nth_error idx (r - k) = Some i)%nat
  | None => acc = None /\ ~ In i idx
  end.
Proof.
  induction idx as [|j idx IH]; intros k acc; cbn [find_last].
  - destruct acc; auto.
  - specialize (IH (S k) (if Nat.eqb j i then Some k else acc)).
    destruct (find_last idx i (S k) _) as [r|]; destruct (Nat.eqb_spec j i) as [->|Hne].
    + right. destruct IH as [[= ->]|[Hle Hn]]; (split; [lia|]).
      * now rewrite Nat.sub_diag.
      * now replace (r - k)%nat with (S (r - S k)) by lia.
    + destruct IH as [->|[Hle Hn]]; [now left | right]. split; [lia|].
      now replace (r - k)%nat with (S (r - S k)) by lia.
    + now destruct IH.
    + destruct IH as [-> Hn]. split; [reflexivity|]. now intros [|].
Qed.

Lemma set_rows_cases {A} (idx : list nat) (a b : nat -> A) (i : nat) :
  (exists k, set_rows idx a b i = b k /\ nth_error idx k = Some i) \/
  (set_rows idx a b i = a i /\ ~ In i idx).
Proof.
  unfold set_rows. pose proof (find_last_spec idx i 0 None) as G.
  destruct (find_last idx i 0 None) as [r|].
  - left. exists r. split; [reflexivity|].
    destruct G as [[=]|[_ Hn]]. now rewrite Nat.sub_0_r in Hn.
  - right. now destruct G.
Qed.
