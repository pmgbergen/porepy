(* C31 — the stable argsort by insertion returns a permutation of the indices along which
   no key precedes a strictly smaller one; sort_point_plane is the instance for the exact
   arctan2 order (sectors and cross products). *)
From Coq Require Import List QArith Bool ZArith Arith Lia Lqa Permutation.
Import ListNotations.
From PP Require Import Model.C28 Model.C31 Proofs.C28.
Open Scope Q_scope.

Section By.
  Variable A : Type.
  Variable ltb : A -> A -> bool.
  Hypothesis ltb_asym : forall x y, ltb x y = true -> ltb y x = false.

  Fixpoint no_descent (l : list A) : Prop :=
    match l with
    | [] => True
    | x :: r => match r with [] => True | y :: _ => ltb y x = false end /\ no_descent r
    end.

  Lemma ins_by_perm : forall v i l, Permutation (ins_by ltb v i l) ((v, i) :: l).
  Proof.
    intros v i l. induction l as [|[w j] r IH]; cbn [ins_by]; [reflexivity|].
    destruct (ltb v w); [reflexivity|]. rewrite IH. apply perm_swap.
  Qed.

  Lemma ins_by_no_descent : forall v i l,
    no_descent (map fst l) -> no_descent (map fst (ins_by ltb v i l)).
  Proof.
    intros v i l. induction l as [|[w j] r IH]; intro H; cbn [ins_by].
    - cbn. tauto.
    - destruct (ltb v w) eqn:E; cbn [map fst no_descent] in *.
      + split; [exact (ltb_asym _ _ E)|exact H].
      + destruct H as [H1 H2]. split; [|exact (IH H2)].
        destruct r as [|[w' j'] r']; cbn [ins_by map fst] in *; [exact E|].
        destruct (ltb v w'); [exact E|exact H1].
  Qed.

  (* invariant of argsort_by_aux: pre is the part of the input already inserted *)
  Lemma argsort_by_aux_spec : forall (d : A) r pre acc,
    no_descent (map fst acc) -> Permutation (map snd acc) (seq 0 (length pre)) ->
    (forall v j, In (v, j) acc -> nth j (pre ++ r) d = v) ->
    let idx := argsort_by_aux ltb r (length pre) acc in
    Permutation idx (seq 0 (length (pre ++ r))) /\
    no_descent (map (fun j => nth j (pre ++ r) d) idx).
  Proof.
    intros d r. induction r as [|v r IH]; intros pre acc Hs Hp Hv; cbn [argsort_by_aux].
    - rewrite app_nil_r in *. split; [exact Hp|].
      rewrite map_map, (map_ext_in _ fst); [exact Hs|]. intros [v j] Hin. exact (Hv v j Hin).
    - replace (pre ++ v :: r) with ((pre ++ [v]) ++ r) in * by (rewrite <- app_assoc; reflexivity).
      rewrite <- (last_length pre v). apply IH.
      + exact (ins_by_no_descent v _ acc Hs).
      + rewrite (Permutation_map snd (ins_by_perm v _ acc)), last_length, seq_S.
        cbn [map snd]. rewrite Hp. apply Permutation_cons_append.
      + intros w j Hin. apply (Permutation_in _ (ins_by_perm _ _ _)) in Hin.
        destruct Hin as [[= <- <-] | Hin]; [|exact (Hv w j Hin)].
        rewrite <- app_assoc. apply nth_middle.
  Qed.

  Lemma argsort_by_spec : forall (keys : list A) (d : A),
    Permutation (argsort_by ltb keys) (seq 0 (length keys)) /\
    no_descent (map (fun i => nth i keys d) (argsort_by ltb keys)).
  Proof.
    intros keys d. apply (argsort_by_aux_spec d keys [] []); [exact I|reflexivity|intros v j []].
  Qed.
End By.

Lemma atan2_ltb_asym : forall x y, atan2_ltb x y = true -> atan2_ltb y x = false.
Proof.
  intros x y. unfold atan2_ltb. cbv zeta.
  destruct (Nat.ltb_spec (atan2_sector x) (atan2_sector y)) as [L1 | L1],
           (Nat.ltb_spec (atan2_sector y) (atan2_sector x)) as [L2 | L2];
    try reflexivity; try discriminate; [lia|].
  replace (atan2_sector x) with (atan2_sector y) by lia.
  destruct (Nat.eqb (atan2_sector y) 0 || Nat.eqb (atan2_sector y) 2); [|discriminate].
  rewrite qltb_true, qltb_false. lra.
Qed.

Lemma plane_keys_length : forall n s pts centre, length (plane_keys n s pts centre) = length pts.
Proof. intros. apply map_length. Qed.
