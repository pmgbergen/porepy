(* C30 — global optimality of the segment-segment result (off the tolerance band).
   Scalar part: the convex quadratic
       F(s,t) = A s^2 - 2 B s t + C t^2 + 2 D s - 2 E t      (|ds + s d1 - t d2|^2 - |ds|^2)
   with A = d1.d1 > 0, C = d2.d2 > 0, A C - B^2 >= 0.  *)
From Coq Require Import Reals Lra List Bool Arith.
Import ListNotations.
From PP Require Import Model.C32 Model.C30 Proofs.C32 Proofs.C30.
Open Scope R_scope.

Section Quadratic.
  Variables A B C D E : R.
  Hypothesis HA : 0 < A.
  Hypothesis HC : 0 < C.
  Hypothesis HDelta : 0 <= A * C - B * B.

  Definition F (s t : R) : R := A * s * s - 2 * B * s * t + C * t * t + 2 * D * s - 2 * E * t.
  Definition Qf (x y : R) : R := A * x * x - 2 * B * x * y + C * y * y.

  (* A Qf = (A x - B y)^2 + (A C - B^2) y^2 *)
  Lemma Qf_nonneg x y : 0 <= Qf x y.
  Proof.
    unfold Qf. pose proof (Rle_0_sqr (A * x - B * y)).
    pose proof (Rmult_le_pos _ _ HDelta (Rle_0_sqr y)). unfold Rsqr in *.
    assert (0 <= A * (A * x * x - 2 * B * x * y + C * y * y)) by lra. nra.
  Qed.

  Lemma taylor s t s0 t0 :
    F s t = F s0 t0 + 2 * ((s - s0) * (A * s0 - B * t0 + D))
            + 2 * ((t - t0) * (- B * s0 + C * t0 - E)) + Qf (s - s0) (t - t0).
  Proof. unfold F, Qf. lra. Qed.

  Lemma kkt_min s t s0 t0 :
    0 <= (s - s0) * (A * s0 - B * t0 + D) -> 0 <= (t - t0) * (- B * s0 + C * t0 - E) ->
    F s0 t0 <= F s t.
  Proof. intros H1 H2. rewrite (taylor s t s0 t0). pose proof (Qf_nonneg (s - s0) (t - t0)). lra. Qed.

  Lemma convex_comb s t s' t' l :
    0 <= l <= 1 ->
    F ((1 - l) * s + l * s') ((1 - l) * t + l * t') <= (1 - l) * F s t + l * F s' t'.
  Proof.
    intros Hl.
    assert (H : (1 - l) * F s t + l * F s' t' - F ((1 - l) * s + l * s') ((1 - l) * t + l * t')
                = l * (1 - l) * Qf (s - s') (t - t')) by (unfold F, Qf; lra).
    pose proof (Qf_nonneg (s - s') (t - t')) as HQ.
    assert (0 <= l * (1 - l) * Qf (s - s') (t - t')) by (apply Rmult_le_pos; nra).
    lra.
  Qed.

  (* minimiser over the strip [0,1] x R *)
  Definition strip (s' t' : R) : Prop := forall s t, 0 <= s <= 1 -> F s' t' <= F s t.

  (* when the strip minimiser lies beyond the edge t = e of the square, the minimum over the
     square is attained on that edge: the segment from (s,t) to (s',t') crosses the edge in a
     point that is at least as good as (s,t) *)
  Lemma box_edge s' t' s'' e :
    strip s' t' -> 0 <= s' <= 1 ->
    (forall x, 0 <= x <= 1 -> F s'' e <= F x e) ->
    forall s t, 0 <= s <= 1 -> t <= e < t' \/ t' < e <= t -> F s'' e <= F s t.
  Proof.
    intros Hst Hs' H1 s t Hs Ht.
    set (l := (e - t) / (t' - t)).
    assert (Hd : l * (t' - t) = e - t) by (unfold l; field; lra).
    assert (Hl : 0 <= l <= 1) by (destruct Ht; split; nra).
    assert (Hz : (1 - l) * t + l * t' = e) by lra.
    pose proof (convex_comb s t s' t' l Hl) as HC2. rewrite Hz in HC2.
    assert (Hx : 0 <= (1 - l) * s + l * s' <= 1) by nra.
    pose proof (H1 _ Hx). pose proof (Hst s t Hs).
    assert (l * F s' t' <= l * F s t) by (apply Rmult_le_compat_l; lra).
    lra.
  Qed.

  (* minimisation in s on [0,1] along the line t = t0: B t0 - D clamped to [0, A], as the
     numerator sN over the denominator sD *)
  Lemma clamp_edge t0 sN sD :
    0 < sD ->
    sN = 0 /\ B * t0 - D <= 0 \/ sN = sD /\ A <= B * t0 - D \/
    sD = A /\ sN = B * t0 - D /\ 0 <= sN <= A ->
    forall x, 0 <= x <= 1 -> F (sN / sD) t0 <= F x t0.
  Proof.
    intros HsD Hc x Hx.
    apply kkt_min; [|nra]. destruct Hc as [[-> H]|[[-> H]|(-> & -> & H)]].
    - replace (0 / sD) with 0 by (unfold Rdiv; lra). nra.
    - replace (sD / sD) with 1 by (field; lra). nra.
    - replace (A * ((B * t0 - D) / A) - B * t0 + D) with 0 by (field; lra). lra.
  Qed.

  Hypothesis Hpar : A * C - B * B = 0 -> C * D = B * E.

  Definition inv4 (q : quad R) : Prop :=
    let '(sN, sD, tN, tD) := q in 0 <= sN <= sD /\ 0 < sD /\ 0 < tD.

  (* (s', t') with t' the free minimiser along s = s' minimises over the strip as soon as the
     derivative in s, (Delta s' - (B E - C D)) / C, does not point into [0,1] *)
  Lemma strip_crit s' t' :
    C * t' = B * s' + E ->
    (forall s, 0 <= s <= 1 -> 0 <= (s - s') * ((A * C - B * B) * s' - (B * E - C * D))) ->
    strip s' t'.
  Proof.
    intros Ht Hs s t Hs01. specialize (Hs s Hs01).
    assert (Hg : C * (A * s' - B * t' + D) = (A * C - B * B) * s' - (B * E - C * D)) by nra.
    apply kkt_min; [|replace (- B * s' + C * t' - E) with 0 by lra; lra].
    rewrite <- Hg in Hs. replace ((s - s') * (C * (A * s' - B * t' + D)))
      with (C * ((s - s') * (A * s' - B * t' + D))) in Hs by ring. nra.
  Qed.

  Lemma stage1_strip small :
    0 < small -> (A * C - B * B <= 0 \/ small <= A * C - B * B) ->
    let '(sN, sD, tN, tD) := stage1 R RO small A B C D E in strip (sN / sD) (tN / tD).
  Proof.
    intros Hs Hoff. unfold stage1. cbv zeta. cbn [n_ltb n_zero n_one n_add n_sub n_mul RO].
    destruct (Rltb_spec (A * C - B * B) small);
      [|destruct (Rltb_spec (B * E - C * D) 0);
        [|destruct (Rltb_spec (A * C - B * B) (B * E - C * D))]];
      (apply strip_crit; [field; lra|]); intros s Hs01.
    - (* parallel: exactly parallel off the band *)
      replace (0 / 1) with 0 by lra. assert (C * D = B * E) by (apply Hpar; lra). nra.
    - replace (0 / (A * C - B * B)) with 0 by (unfold Rdiv; lra). nra.
    - replace ((A * C - B * B) / (A * C - B * B)) with 1 by (field; lra). nra.
    - replace ((A * C - B * B) * ((B * E - C * D) / (A * C - B * B)) - (B * E - C * D)) with 0
        by (field; lra). lra.
  Qed.

  Lemma stage2_spec sN sD tN tD :
    0 < sD -> tN < 0 ->
    exists sN' sD', stage2 R RO A D (sN, sD, tN, tD) = (sN', sD', 0, tD) /\
      forall x, 0 <= x <= 1 -> F (sN' / sD') 0 <= F x 0.
  Proof.
    intros HsD Ht. unfold stage2. cbn [n_ltb n_zero n_opp RO].
    destruct (Rltb_spec tN 0); [|lra].
    destruct (Rltb_spec 0 D); [|destruct (Rltb_spec A (- D))];
      do 2 eexists; (split; [reflexivity|]); apply clamp_edge; lra.
  Qed.

  Lemma stage2_id q : (let '(_, _, tN, _) := q in 0 <= tN) -> stage2 R RO A D q = q.
  Proof.
    destruct q as [[[sN sD] tN] tD]. intros H. unfold stage2. cbn [n_ltb n_zero RO].
    destruct (Rltb_spec tN 0); [lra | reflexivity].
  Qed.

  Lemma stage3_spec sN sD tN tD :
    0 < sD -> tD < tN ->
    exists sN' sD', stage3 R RO A B D (sN, sD, tN, tD) = (sN', sD', tD, tD) /\
      forall x, 0 <= x <= 1 -> F (sN' / sD') 1 <= F x 1.
  Proof.
    intros HsD Ht. unfold stage3. cbv zeta. cbn [n_ltb n_zero n_opp n_add RO].
    destruct (Rltb_spec tD tN); [|lra].
    destruct (Rltb_spec (- D + B) 0); [|destruct (Rltb_spec A (- D + B))];
      do 2 eexists; (split; [reflexivity|]); apply clamp_edge; lra.
  Qed.

  Lemma stage3_id q : (let '(_, _, tN, tD) := q in tN <= tD) -> stage3 R RO A B D q = q.
  Proof.
    destruct q as [[[sN sD] tN] tD]. intros H. unfold stage3. cbv zeta. cbn [n_ltb RO].
    destruct (Rltb_spec tD tN); [lra | reflexivity].
  Qed.

  (* the three stages end in a minimiser over the square [0,1]^2 *)
  Lemma stages_optimal small :
    0 < small -> (A * C - B * B <= 0 \/ small <= A * C - B * B) ->
    let '(sN, sD, tN, tD) :=
        stage3 R RO A B D (stage2 R RO A D (stage1 R RO small A B C D E)) in
    forall s t, 0 <= s <= 1 -> 0 <= t <= 1 -> F (sN / sD) (tN / tD) <= F s t.
  Proof.
    intros Hs Hoff. pose proof (stage1_strip small Hs Hoff) as Hstrip.
    pose proof (stage1_inv small A B C D E Hs HC) as I1.
    destruct (stage1 R RO small A B C D E) as [[[sN1 sD1] tN1] tD1].
    destruct I1 as (Hsn & HsD & HtD).
    pose proof (div_unit sN1 sD1 Hsn HsD) as Hs'.
    assert (Ht' : tN1 / tD1 * tD1 = tN1) by (field; lra).
    destruct (Rlt_or_le tN1 0) as [Hlow|Hnl].
    -
      destruct (stage2_spec sN1 sD1 tN1 tD1 HsD Hlow) as (sN' & sD' & -> & H1d).
      rewrite stage3_id by lra. replace (0 / tD1) with 0 by (unfold Rdiv; lra).
      intros s t Hs01 Ht01. apply (box_edge (sN1 / sD1) (tN1 / tD1)); auto. right. nra.
    - rewrite stage2_id by exact Hnl.
      destruct (Rlt_or_le tD1 tN1) as [Hhigh|Hnh].
      + destruct (stage3_spec sN1 sD1 tN1 tD1 HsD Hhigh) as (sN' & sD' & -> & H1d).
        replace (tD1 / tD1) with 1 by (field; lra).
        intros s t Hs01 Ht01. apply (box_edge (sN1 / sD1) (tN1 / tD1)); auto. left. nra.
      + rewrite stage3_id by exact Hnh. intros s t Hs01 _. apply Hstrip, Hs01.
  Qed.
End Quadratic.

(* d1 parallel to d2: then C d1 = B d2 *)
Lemma parallel_dot (d1 d2 ds : V) :
  dotR d1 d1 * dotR d2 d2 - dotR d1 d2 * dotR d1 d2 = 0 ->
  dotR d2 d2 * dotR d1 ds = dotR d1 d2 * dotR d2 ds.
Proof.
  rewrite <- lagrange. intros H. apply dot_self_zero, parallel_scale in H.
  apply (f_equal (dotR ds)) in H. rewrite !dot_vscale in H.
  rewrite (dot_comm d1 ds), (dot_comm d2 ds), (dot_comm d1 d2). exact H.
Qed.

Lemma F_norm : forall (a b c d : V) (s t : R),
  normsqR (vsubR (vaddR a (vscaleR s (vsubR b a))) (vaddR c (vscaleR t (vsubR d c))))
  = F (dotR (vsubR b a) (vsubR b a)) (dotR (vsubR b a) (vsubR d c)) (dotR (vsubR d c) (vsubR d c))
      (dotR (vsubR b a) (vsubR a c)) (dotR (vsubR d c) (vsubR a c)) s t
    + dotR (vsubR a c) (vsubR a c).
Proof. intros [[]] [[]] [[]] [[]] s t. unfold F. coords. Qed.

Lemma orb_off x small : (Rleb x 0 || negb (Rltb x small)) = true -> x <= 0 \/ small <= x.
Proof. destruct (Rleb_spec x 0), (Rltb_spec x small); cbn; intros; lra || discriminate. Qed.

Theorem seg_seg_optimal (a b c d : V) dist2 cp1 cp2 sc tc :
  0 < dotR (vsubR b a) (vsubR b a) -> 0 < dotR (vsubR d c) (vsubR d c) ->
  off_band R RO a b c d = true ->
  seg_seg R RO a b c d = Ok (dist2, cp1, cp2, sc, tc) ->
  forall s t, 0 <= s <= 1 -> 0 <= t <= 1 ->
    dist2 <= normsqR (vsubR (vaddR a (vscaleR s (vsubR b a))) (vaddR c (vscaleR t (vsubR d c)))).
Proof.
  intros H11 H22. unfold off_band, seg_seg. cbv zeta.
  set (d1 := vsubR b a) in *. set (d2 := vsubR d c) in *. set (ds := vsubR a c).
  assert (HDelta : 0 <= dotR d1 d1 * dotR d2 d2 - dotR d1 d2 * dotR d1 d2).
  { rewrite <- lagrange. apply dot_self_nonneg. }
  assert (Hk : 0 < / 100000000) by lra.
  assert (Hs : 0 < / 100000000 * dotR d1 d1 * dotR d2 d2).
  { apply Rmult_lt_0_compat; [apply Rmult_lt_0_compat; lra | lra]. }
  pose proof (stages_optimal _ _ _ _ _ H11 H22 HDelta (parallel_dot d1 d2 ds) _ Hs) as SO.
  pose proof (stages_inv _ _ (dotR d1 d2) _ (dotR d1 ds) (dotR d2 ds) Hs H11 H22) as I.
  cbn [n_leb n_ltb n_zero n_sub n_mul n_atol RO] in *.
  destruct (stage3 R RO _ _ _ _) as [[[sN sD] tN] tD]. destruct I as (Hsn & HsD & Htn & HtD).
  intros Hoff. apply andb_true_iff in Hoff as [Hoff Ht]. apply andb_true_iff in Hoff as [Hd Hsn'].
  apply orb_off in Hd, Hsn', Ht.
  destruct (ratio R RO (/ 100000000 * sD) sN sD) as [sc'|] eqn:Rs; [|discriminate].
  destruct (ratio R RO (/ 100000000 * tD) tN tD) as [tc'|] eqn:Rt; [|discriminate].
  apply ratio_val in Rs, Rt; try apply Rmult_lt_0_compat; try lra. subst sc' tc'.
  intros H s t Hs01 Ht01. specialize (SO Hd s t Hs01 Ht01).
  replace dist2 with (normsqR (vsubR (vaddR ds (vscaleR (sN / sD) d1)) (vscaleR (tN / tD) d2)))
    by congruence.
  subst d1 d2 ds. rewrite dist_form, !F_norm. lra.
Qed.
