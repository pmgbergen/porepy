(* C22 — partition_structured: along each axis the coarse indices are exactly 0 .. coarse-1;
   the part ids are their mixed-radix combinations. *)
From Coq Require Import List ZArith Bool Arith Lia Sorted.
Import ListNotations.
From PP Require Import Lib.ListFacts Model.C22 Proofs.C22.
Open Scope Z_scope.

Lemma firstn_seq' n : forall s m, (n <= m)%nat -> firstn n (seq s m) = seq s n.
Proof.
  induction n as [|n IH]; intros s m H; [reflexivity|].
  destruct m as [|m]; [lia|]. cbn [seq firstn]. f_equal. apply IH. lia.
Qed.

Lemma set_one_nth_other l i j : i <> j -> nth j (set_one l i) 0 = nth j l 0.
Proof.
  revert i j. induction l as [|x t IH]; intros [|i] [|j] H; cbn [set_one nth]; try reflexivity; try lia.
  apply IH. lia.
Qed.

Lemma set_one_sum_exact l i :
  (i < length l)%nat -> nth i l 0 = 0 -> sumZ (set_one l i) = sumZ l + 1.
Proof.
  revert i. induction l as [|x t IH]; intros [|i] Hi H0; cbn [length] in Hi; try lia;
    cbn [set_one sumZ nth] in *.
  - lia.
  - rewrite IH by (try lia; exact H0). lia.
Qed.

(* the loop  loc_ind[idx] += 1  over natural indices *)
Definition paintn (l : list Z) (idx : list nat) : list Z := fold_left set_one idx l.

Lemma paintn_cons l i t : paintn l (i :: t) = paintn (set_one l i) t.
Proof. reflexivity. Qed.

Lemma fold_paintn is l :
  fold_left (fun l i => set_one l (Z.to_nat i)) is l = paintn l (map Z.to_nat is).
Proof. revert l. induction is as [|i t IH]; intros l; [reflexivity|apply IH]. Qed.

Lemma paintn_preserves (P : list Z -> Prop) :
  (forall l i, P l -> P (set_one l i)) -> forall idx l, P l -> P (paintn l idx).
Proof.
  intros H idx. induction idx as [|i t IH]; intros l Hl; [exact Hl|]. exact (IH _ (H _ i Hl)).
Qed.

Lemma paintn_length idx : forall l, length (paintn l idx) = length l.
Proof.
  intros l. apply (paintn_preserves (fun l' => length l' = length l)); [|reflexivity].
  intros l' i <-. apply set_one_length.
Qed.

Lemma paintn_sum idx : forall l,
  StronglySorted lt idx -> Forall (fun i => (i < length l)%nat) idx ->
  (forall i, In i idx -> nth i l 0 = 0) ->
  sumZ (paintn l idx) = sumZ l + Z.of_nat (length idx).
Proof.
  induction idx as [|i0 t IH]; intros l Hs Hr Hz; [cbn; lia|].
  inversion Hs as [|? ? Hs' Hlt]; subst. inversion Hr as [|? ? Hi0 Hr']; subst.
  rewrite paintn_cons, IH.
  - rewrite set_one_sum_exact by (auto; apply Hz; left; reflexivity). cbn [length]. lia.
  - exact Hs'.
  - rewrite set_one_length. exact Hr'.
  - intros i Hi. rewrite Forall_forall in Hlt. specialize (Hlt i Hi).
    rewrite set_one_nth_other by lia. apply Hz. right. exact Hi.
Qed.

(* discrete intermediate values of a cumulative sum of 0/1 entries *)
Lemma cumsum_covers l : Forall bit l -> forall acc v,
  acc < v <= acc + sumZ l -> In v (cumsum_from acc l).
Proof.
  induction 1 as [|x t Hx Ht IH]; intros acc v Hv; cbn [sumZ cumsum_from] in *; [lia|].
  unfold bit in Hx. destruct (Z.eq_dec v (acc + x)) as [->|Hne]; [left; reflexivity|].
  right. apply IH. lia.
Qed.

(* hence a 0/1 list with a leading 1 counts 1 .. sum *)
Lemma cumsum_exact l c : Forall bit l -> hd 0 l = 1 -> sumZ l = c ->
  forall v, In v (map (fun x => x - 1) (cumsum_from 0 l)) <-> 0 <= v < c.
Proof.
  intros Hb Hh Hs v. rewrite in_map_iff. split.
  - intros [w [<- Hw]].
    assert (Hnn : Forall (fun x => 0 <= x) l).
    { eapply Forall_impl; [|exact Hb]. unfold bit. intros; lia. }
    pose proof (cumsum_bounds l Hnn 0) as H. rewrite Forall_forall in H.
    specialize (H w Hw). cbn beta in H. lia.
  - intros Hv. exists (v + 1). split; [lia|]. apply cumsum_covers; [exact Hb|lia].
Qed.

(* the surplus start indices are dropped: the multiples k * (fine / coarse), k < coarse, remain *)
Lemma start_indices_exact fine coarse :
  1 <= coarse <= fine ->
  start_indices fine coarse
  = map (fun k => Z.of_nat k * (fine / coarse)) (seq 0 (Z.to_nat coarse)).
Proof.
  intros H. unfold start_indices, arange0.
  set (fpc := fine / coarse).
  assert (Hf : 1 <= fpc) by (apply Z.div_le_lower_bound; lia).
  assert (Hmul : coarse * fpc <= fine) by (apply Z.mul_div_le; lia).
  set (n := Z.to_nat ((fine + fpc - 1) / fpc)).
  assert (Hn : (Z.to_nat coarse <= n)%nat).
  { apply Z2Nat.inj_le; [lia|apply Z.div_pos; lia|]. apply Z.div_le_lower_bound; nia. }
  rewrite map_length, seq_length.
  destruct (Z.of_nat n >? coarse) eqn:E.
  - rewrite firstn_map, firstn_seq' by exact Hn. reflexivity.
  - replace n with (Z.to_nat coarse) by lia. reflexivity.
Qed.

Lemma multiples_sorted f : 0 < f -> forall m s,
  StronglySorted lt (map (fun k => Z.to_nat (Z.of_nat k * f)) (seq s m)).
Proof.
  intros Hf. induction m as [|m IHm]; intros s; cbn [seq map]; constructor; [apply IHm|].
  apply Forall_forall. intros y Hy. apply in_map_iff in Hy.
  destruct Hy as [k [<- Hk]]. apply in_seq in Hk. apply Z2Nat.inj_lt; nia.
Qed.

(* loc_ind has exactly [coarse] ones, the first at position 0: its cumulative sums run
   through 1 .. coarse *)
Lemma dim_index_spec fine coarse :
  1 <= coarse <= fine ->
  exists l, dim_index fine coarse = Ok l /\ Z.of_nat (length l) = fine /\
            forall v, In v l <-> 0 <= v < coarse.
Proof.
  intros H. unfold dim_index.
  assert (Hf : 1 <= fine / coarse) by (apply Z.div_le_lower_bound; lia).
  destruct (coarse <=? 0) eqn:E1; [lia|]. destruct (fine / coarse =? 0) eqn:E2; [lia|].
  eexists. split; [reflexivity|].
  rewrite start_indices_exact, fold_paintn, map_map by exact H.
  set (fpc := fine / coarse) in *.
  assert (Hmul : coarse * fpc <= fine) by (apply Z.mul_div_le; lia).
  destruct (Z.to_nat coarse) as [|c'] eqn:Ec; [lia|].
  set (idx := map (fun k => Z.to_nat (Z.of_nat k * fpc)) (seq 0 (S c'))).
  set (z := repeat 0 (Z.to_nat fine)).
  split.
  - rewrite map_length, cumsum_length, paintn_length. unfold z. rewrite repeat_length. lia.
  - apply cumsum_exact.
    + apply (paintn_preserves _ set_one_bits), repeat_bits.
    + unfold idx. cbn [seq map]. rewrite paintn_cons.
      apply (paintn_preserves (fun l => hd 0 l = 1) set_one_hd_keep).
      unfold z. destruct (Z.to_nat fine) eqn:Ef; [lia|reflexivity].
    + rewrite paintn_sum.
      * unfold z, idx. rewrite sumZ_repeat0, map_length, seq_length. lia.
      * apply multiples_sorted. lia.
      * apply Forall_forall. intros y Hy. apply in_map_iff in Hy. destruct Hy as [k [<- Hk]].
        apply in_seq in Hk. unfold z. rewrite repeat_length. apply Z2Nat.inj_lt; nia.
      * intros i _. apply nth_repeat.
Qed.

Lemma flat_map_In_const {A B} (f : A -> list B) l b : In b (flat_map f l) <-> exists a, In a l /\ In b (f a).
Proof. apply in_flat_map. Qed.

(* one part id per cell, and the ids used are exactly 0 .. prod coarse - 1 *)
Theorem structured_partition_exact fine coarse :
  (1 <= length fine <= 3)%nat -> Forall2 (fun f c => 1 <= c <= f) fine coarse ->
  exists ids, partition_structured fine coarse = Ok ids /\
              Z.of_nat (length ids) = prodZ fine /\
              forall p, In p ids <-> 0 <= p < prodZ coarse.
Proof.
  intros Hlen Hd.
  destruct Hd as [|f0 c0 ? ? H0 [|f1 c1 ? ? H1 [|f2 c2 ? ? H2 [|]]]]; cbn in Hlen; try lia;
    unfold prodZ; cbn [partition_structured fold_right];
    destruct (dim_index_spec f0 c0 H0) as (i0 & E0 & L0 & I0).
  - exists i0. split; [exact E0|]. split; [lia|]. intros p. rewrite I0. lia.
  - destruct (dim_index_spec f1 c1 H1) as (i1 & E1 & L1 & I1).
    rewrite E0, E1. cbn [bind2]. eexists. split; [reflexivity|]. split.
    + rewrite (flat_map_length_const _ i1 (length i0)) by (intros; apply map_length).
      rewrite Nat2Z.inj_mul, L0, L1. ring.
    + intros p. rewrite in_flat_map. split.
      * intros (y & Hy & Hp). apply in_map_iff in Hp. destruct Hp as (x & <- & Hx).
        apply I0 in Hx. apply I1 in Hy. apply radix_range; lia.
      * intros Hp. destruct (radix_digits c0 (c1 * 1) p) as (x & y & Hx & Hy & ->); [lia|exact Hp|].
        exists y. split; [apply I1; lia|]. apply in_map_iff. exists x. split; [reflexivity|apply I0, Hx].
  - destruct (dim_index_spec f1 c1 H1) as (i1 & E1 & L1 & I1).
    destruct (dim_index_spec f2 c2 H2) as (i2 & E2 & L2 & I2).
    rewrite E0, E1, E2. cbn [bind2]. eexists. split; [reflexivity|]. split.
    + rewrite (flat_map_length_const _ i2 (length i1 * length i0)%nat).
      2:{ intros z _. apply flat_map_length_const. intros; apply map_length. }
      rewrite !Nat2Z.inj_mul, L0, L1, L2. ring.
    + intros p. rewrite in_flat_map. split.
      * intros (z & Hz & Hp). apply in_flat_map in Hp. destruct Hp as (y & Hy & Hp).
        apply in_map_iff in Hp. destruct Hp as (x & <- & Hx).
        apply I0 in Hx. apply I1 in Hy. apply I2 in Hz.
        replace (x + y * c0 + z * (c0 * c1)) with (x + (y + z * c1) * c0) by ring.
        apply radix_range; [lia|]. apply radix_range; lia.
      * intros Hp. destruct (radix_digits c0 (c1 * (c2 * 1)) p) as (x & q & Hx & Hq & ->); [lia|exact Hp|].
        destruct (radix_digits c1 (c2 * 1) q) as (y & z & Hy & Hz & ->); [lia|exact Hq|].
        exists z. split; [apply I2; lia|]. apply in_flat_map. exists y. split; [apply I1, Hy|].
        apply in_map_iff. exists x. split; [ring|apply I0, Hx].
Qed.

(* error branch: some coarse dimension exceeds the fine one *)
Theorem structured_partition_error fine coarse :
  (1 <= length fine <= 3)%nat ->
  Forall2 (fun f c => 1 <= c /\ 1 <= f) fine coarse ->
  Exists (fun fc => fst fc < snd fc) (combine fine coarse) ->
  partition_structured fine coarse = Err ValueErr.
Proof.
  intros Hlen Hd Hex.
  assert (Hax : forall f c, 1 <= c /\ 1 <= f ->
            dim_index f c = Err ValueErr \/ (c <= f /\ exists l, dim_index f c = Ok l)).
  { intros f c [Hc Hf]. destruct (Z.lt_ge_cases f c); [left; apply dim_index_err; lia|right].
    split; [lia|]. destruct (dim_index_spec f c) as (l & E & _); [lia|eauto]. }
  destruct Hd as [|f0 c0 ? ? H0 [|f1 c1 ? ? H1 [|f2 c2 ? ? H2 [|]]]]; cbn in Hlen; try lia;
    cbn [partition_structured combine] in *; rewrite ?Exists_cons, Exists_nil in Hex;
    cbn [fst snd] in Hex.
  - destruct (Hax _ _ H0) as [E0|[L0 _]]; [exact E0|lia].
  - destruct (Hax _ _ H0) as [->|[L0 [i0 ->]]]; [reflexivity|].
    destruct (Hax _ _ H1) as [->|[L1 [i1 ->]]]; [reflexivity|lia].
  - destruct (Hax _ _ H0) as [->|[L0 [i0 ->]]]; [reflexivity|].
    destruct (Hax _ _ H1) as [->|[L1 [i1 ->]]]; [reflexivity|].
    destruct (Hax _ _ H2) as [->|[L2 [i2 ->]]]; [reflexivity|lia].
Qed.

Close Scope Z_scope.
