(* C11 — proofs about the MPFA interaction-region model and the matrix-level residual
   (PP.Model.C11) at the reals.  Section Linear (functionals that are linear in the
   coefficients of the field) also serves C13. *)
From Coq Require Import List ZArith Bool Arith Lia Reals Lra.
Import ListNotations.
From PP Require Import Model.C11.

Local Open Scope R_scope.

Definition RO : ops R :=
  {| o0 := 0; o1 := 1; oadd := Rplus; osub := Rminus; omul := Rmult; oopp := Ropp |}.

Notation rdotl := (dotl R RO).
Notation rvsubl := (vsubl R RO).
Notation rvoppl := (voppl R RO).
Notation rnK := (nK R RO).
Notation rlhs := (lhs R RO).
Notation rcell_of := (cell_of R RO).
Notation rface_eqs := (face_eqs R RO).
Notation rlocal_system := (local_system R RO).
Notation rlhs_all := (lhs_all R RO).
Notation rrhs_all := (rhs_all R).
Notation rapply_inv := (apply_inv R RO).
Notation rsubflux := (subflux R RO).
Notation rsubpressure := (subpressure R RO).
Notation rlinl := (linl R RO).
Notation rcell_ok := (cell_ok R RO).
Notation rface_data_ok := (face_data_ok R RO).
Notation rface_wf := (face_wf R).

Notation rrow_apply := (row_apply R RO).
Notation rlin := (lin R RO).
Notation rexact := (exact R RO).
Notation rbdata := (bdata R RO).
Notation rflux_of := (flux_of R RO).
Notation rfacep_of := (facep_of R RO).
Notation rres_flux := (res_flux R RO).
Notation rres_bp := (res_bp R RO).
Notation re0 := (e0 R RO).
Notation re1 := (e1 R RO).
Notation re2 := (e2 R RO).
Notation re3 := (e3 R RO).

Ltac ro := cbn [o0 o1 oadd osub omul oopp RO] in *.

Lemma Rabs_scal_le (s r t : R) : Rabs r <= t -> Rabs (s * r) <= Rabs s * t.
Proof. intros H. rewrite Rabs_mult. apply Rmult_le_compat_l; [apply Rabs_pos | exact H]. Qed.

Lemma dotl_comm (u v : list R) : rdotl u v = rdotl v u.
Proof.
  revert v; induction u as [|a u IH]; intros [|b v]; cbn [dotl]; ro; try reflexivity.
  rewrite IH. ring.
Qed.

Lemma dotl_vsubl (u v a : list R) :
  length u = length v -> rdotl (rvsubl u v) a = rdotl u a - rdotl v a.
Proof.
  revert v a; induction u as [|x u IH]; intros [|y v] a Hl; cbn in Hl; try discriminate.
  - cbn [vsubl dotl]; ro. ring.
  - destruct a as [|z a]; cbn [vsubl dotl]; ro; [ring|].
    rewrite IH by (injection Hl; auto). ring.
Qed.

Lemma dotl_voppl (u a : list R) : rdotl (rvoppl u) a = - rdotl u a.
Proof.
  revert a; induction u as [|x u IH]; intros [|z a]; cbn [voppl map dotl]; ro; try ring.
  fold (rvoppl u). rewrite IH. ring.
Qed.

Lemma dotl_zeros_r (u : list R) (d : nat) : rdotl u (repeat 0 d) = 0.
Proof.
  revert d; induction u as [|x u IH]; intros [|d]; cbn [repeat dotl]; ro; try reflexivity.
  rewrite IH. ring.
Qed.

Lemma linl_zeros (b : R) (d : nat) (x : list R) : rlinl b (repeat 0 d) x = b.
Proof. unfold linl; ro. rewrite dotl_comm, dotl_zeros_r. ring. Qed.

Lemma linl_diff (b : R) (a u v : list R) :
  length u = length v -> rdotl (rvsubl u v) a = rlinl b a u - rlinl b a v.
Proof. intros H. unfold linl; ro. rewrite dotl_vsubl, !(dotl_comm a) by exact H. ring. Qed.

Lemma grad_of_repeat (a : list R) (m k : nat) : (k < m)%nat -> grad_of R (repeat a m) k = a.
Proof.
  intros Hk. unfold grad_of. rewrite (nth_indep _ [] a) by (rewrite repeat_length; exact Hk).
  apply nth_repeat.
Qed.

Definition shape (d m : nat) (G : list (list R)) : Prop :=
  length G = m /\ Forall (fun g => length g = d) G.

Lemma shape_repeat d m (a : list R) : length a = d -> shape d m (repeat a m).
Proof.
  intros Ha. split; [apply repeat_length|].
  apply Forall_forall. intros g Hg. apply repeat_spec in Hg. subst g. exact Ha.
Qed.

(* An interaction region whose data are taken from p = b + a.x and one tensor K. *)
Section Region.
  Variables (d m : nat) (K : list (list R)) (b : R) (a : list R)
            (cells : list (subcell R)) (faces : list (subface R))
            (Inv : list (list (list R))).
  Hypotheses (Ha : length a = d) (Hm : length cells = m)
             (Hc : Forall (rcell_ok d K b a) cells)
             (Hw : Forall (rface_wf d m) faces)
             (Hd : Forall (rface_data_ok K b a) faces).

  Lemma cell_of_ok k : (k < m)%nat -> rcell_ok d K b a (rcell_of cells k).
  Proof. rewrite <- Hm. intros Hk. exact (proj1 (Forall_nth _ _) Hc k _ Hk). Qed.

  Lemma face_eqs_linear sf e :
    rface_wf d m sf -> rface_data_ok K b a sf -> In e (rface_eqs cells sf) ->
    rlhs e (repeat a m) = rhs e.
  Proof.
    destruct sf as [k1 k2 n xc | k n xc pD | k n q]; cbn [face_wf face_data_ok face_eqs In];
      intros Hwf Hdat He; repeat destruct He as [<- | He]; try contradiction;
      unfold lhs; cbn [terms rhs fold_right fst snd]; rewrite !grad_of_repeat by tauto; ro.
    - (* flux continuity *)
      destruct (cell_of_ok k1 ltac:(tauto)) as (_ & -> & _).
      destruct (cell_of_ok k2 ltac:(tauto)) as (_ & -> & _). rewrite dotl_voppl. ring.
    - (* pressure continuity *)
      destruct (cell_of_ok k1 ltac:(tauto)) as (Hx1 & _ & ->).
      destruct (cell_of_ok k2 ltac:(tauto)) as (Hx2 & _ & ->).
      rewrite dotl_voppl, !(linl_diff b) by (rewrite ?Hx1, ?Hx2; tauto). ring.
    - (* Dirichlet *)
      destruct (cell_of_ok k ltac:(tauto)) as (Hx & _ & ->).
      rewrite (linl_diff b), Hdat by (rewrite Hx; tauto). ring.
    - (* Neumann *)
      destruct (cell_of_ok k ltac:(tauto)) as (_ & -> & _). rewrite dotl_voppl, Hdat. ring.
  Qed.

  Lemma local_system_linear e :
    In e (rlocal_system cells faces) -> rlhs e (repeat a m) = rhs e.
  Proof.
    intros He. apply in_flat_map in He. destruct He as [sf [Hsf He]].
    rewrite Forall_forall in Hw, Hd. exact (face_eqs_linear sf e (Hw sf Hsf) (Hd sf Hsf) He).
  Qed.

  (* with a left inverse the computed gradients are a: exact flux and pressure *)
  Hypothesis Hinv :
    forall G, shape d m G -> rapply_inv Inv (rlhs_all (rlocal_system cells faces) G) = G.

  Lemma unique_exact :
    let G := rapply_inv Inv (rrhs_all (rlocal_system cells faces)) in
    G = repeat a m /\
    (forall k n, (k < m)%nat -> rsubflux cells G k n = - rdotl (rnK n K) a) /\
    (forall k x, (k < m)%nat -> length x = d -> rsubpressure cells G k x = rlinl b a x).
  Proof.
    intros G.
    assert (HG : G = repeat a m).
    { rewrite <- (Hinv _ (shape_repeat d m a Ha)). unfold G, rhs_all, lhs_all. f_equal.
      apply map_ext_in. intros e He. symmetry. exact (local_system_linear e He). }
    rewrite HG. split; [reflexivity|]. split.
    - intros k n Hk. unfold subflux. destruct (cell_of_ok k Hk) as (_ & -> & _).
      rewrite grad_of_repeat by exact Hk. reflexivity.
    - intros k x Hk Hx. unfold subpressure. destruct (cell_of_ok k Hk) as (Hxk & _ & ->).
      rewrite grad_of_repeat, (linl_diff b) by congruence. ro. ring.
  Qed.
End Region.

Lemma linear_solves_local :
  forall (d m : nat) (K : list (list R)) (b : R) (a : list R)
         (cells : list (subcell R)) (faces : list (subface R)),
    length a = d -> length cells = m ->
    Forall (rcell_ok d K b a) cells ->
    Forall (rface_wf d m) faces ->
    Forall (rface_data_ok K b a) faces ->
    forall e, In e (rlocal_system cells faces) -> rlhs e (repeat a m) = rhs e.
Proof. intros d m K b a cells faces _. apply local_system_linear. Qed.

Definition cell_const (d : nat) (K : list (list R)) (b : R) (c : subcell R) : Prop :=
  length (sc_x c) = d /\ sc_K c = K /\ sc_p c = b.
Definition face_const (b : R) (sf : subface R) : Prop :=
  match sf with
  | Interior _ _ _ _ => True
  | DirichletF _ _ _ pD => pD = b
  | NeumannF _ _ q => q = 0
  end.

(* the constant field is the linear field with a = 0 *)
Lemma cell_const_ok d K b c : cell_const d K b c -> rcell_ok d K b (repeat 0 d) c.
Proof. unfold cell_const, cell_ok. rewrite linl_zeros. tauto. Qed.

Lemma face_const_ok K b d sf : face_const b sf -> rface_data_ok K b (repeat 0 d) sf.
Proof.
  destruct sf as [k1 k2 n xc | k n xc pD | k n q]; cbn [face_const face_data_ok]; ro;
    rewrite ?linl_zeros, ?dotl_zeros_r; [auto.. | intros ->; ring].
Qed.

Lemma row_apply_nil r (x : nat -> R) : rrow_apply [] r x = 0.
Proof. reflexivity. Qed.

Lemma row_apply_cons t (M : coo R) r (x : nat -> R) :
  rrow_apply (t :: M) r x =
  if (fst (fst t) =? r)%nat then snd t * x (snd (fst t)) + rrow_apply M r x else rrow_apply M r x.
Proof. reflexivity. Qed.

(* Functionals of the coefficients of a field that are linear: C is the type of coefficients
   with its linear combinations s c1 + c2 (for C11 a scalar field b + a.x, for C13 a vector
   field b + A x).  Every residual of the matrix level is one, being built from such by sums,
   differences, constant factors and rows of matrices. *)
Section Linear.
  Variables (C : Type) (add : C -> C -> C) (scale : R -> C -> C) (zero : C).
  Hypothesis add_zero : add (scale 1 zero) zero = zero.

  Definition linear (F : C -> R) : Prop :=
    forall s c1 c2, F (add (scale s c1) c2) = s * F c1 + F c2.

  Lemma linear_zero F : linear F -> F zero = 0.
  Proof. intros HF. pose proof (HF 1 zero zero) as H. rewrite add_zero in H. lra. Qed.

  Lemma linear_null : linear (fun _ => 0).
  Proof. intros s c1 c2. ring. Qed.

  Lemma linear_plus F G : linear F -> linear G -> linear (fun c => F c + G c).
  Proof. intros HF HG s c1 c2. rewrite HF, HG. ring. Qed.

  Lemma linear_minus F G : linear F -> linear G -> linear (fun c => F c - G c).
  Proof. intros HF HG s c1 c2. rewrite HF, HG. ring. Qed.

  Lemma linear_scal k F : linear F -> linear (fun c => k * F c).
  Proof. intros HF s c1 c2. rewrite HF. ring. Qed.

  Lemma linear_row_apply (M : coo R) r (x : C -> nat -> R) :
    (forall k, linear (fun c => x c k)) -> linear (fun c => rrow_apply M r (x c)).
  Proof.
    intros Hx s c1 c2. induction M as [|t M IH]; [rewrite !row_apply_nil; ring|].
    rewrite !row_apply_cons, IH, (Hx _ s c1 c2). destruct (fst (fst t) =? r)%nat; ring.
  Qed.
End Linear.

(* scalar fields: c = (b, a) stands for b + a.x *)
Definition coef_add (c1 c2 : coef R) : coef R :=
  let '(b1, (x1, y1, z1)) := c1 in let '(b2, (x2, y2, z2)) := c2 in
  (b1 + b2, (x1 + x2, y1 + y2, z1 + z2)).
Definition coef_scale (s : R) (c : coef R) : coef R :=
  let '(b, (x, y, z)) := c in (s * b, (s * x, s * y, s * z)).
Definition coef_zero : coef R := (0, (0, 0, 0)).
Notation lin4 := (linear (coef R) coef_add coef_scale).

Lemma coef_add_zero : coef_add (coef_scale 1 coef_zero) coef_zero = coef_zero.
Proof. unfold coef_zero; cbn [coef_add coef_scale]. repeat f_equal; ring. Qed.

Lemma lin4_decomp F : lin4 F ->
  forall b ax ay az, F (b, (ax, ay, az)) = b * F re0 + ax * F re1 + ay * F re2 + az * F re3.
Proof.
  intros HF b ax ay az.
  replace (b, (ax, ay, az))
    with (coef_add (coef_scale b re0) (coef_add (coef_scale ax re1) (coef_add (coef_scale ay re2)
           (coef_add (coef_scale az re3) coef_zero))))
    by (unfold coef_add, coef_scale, coef_zero, e0, e1, e2, e3; ro; repeat f_equal; ring).
  rewrite !HF, (linear_zero _ _ _ _ coef_add_zero F HF). ring.
Qed.

Lemma lin4_bound F : lin4 F ->
  forall t0 t1 t2 t3 : R,
    Rabs (F re0) <= t0 -> Rabs (F re1) <= t1 -> Rabs (F re2) <= t2 -> Rabs (F re3) <= t3 ->
    forall b ax ay az : R,
      Rabs (F (b, (ax, ay, az))) <= Rabs b * t0 + Rabs ax * t1 + Rabs ay * t2 + Rabs az * t3.
Proof.
  intros HF t0 t1 t2 t3 H0 H1 H2 H3 b ax ay az. rewrite (lin4_decomp F HF).
  pose proof (Rabs_triang (b * F re0 + ax * F re1 + ay * F re2) (az * F re3)).
  pose proof (Rabs_triang (b * F re0 + ax * F re1) (ay * F re2)).
  pose proof (Rabs_triang (b * F re0) (ax * F re1)).
  pose proof (Rabs_scal_le b _ _ H0). pose proof (Rabs_scal_le ax _ _ H1).
  pose proof (Rabs_scal_le ay _ _ H2). pose proof (Rabs_scal_le az _ _ H3). lra.
Qed.

Lemma lin4_equal F G : lin4 F -> lin4 G ->
  F re0 - G re0 = 0 -> F re1 - G re1 = 0 -> F re2 - G re2 = 0 -> F re3 - G re3 = 0 ->
  forall b ax ay az, F (b, (ax, ay, az)) = G (b, (ax, ay, az)).
Proof.
  intros HF HG H0 H1 H2 H3 b ax ay az. apply Rminus_diag_uniq in H0, H1, H2, H3.
  rewrite (lin4_decomp F HF), (lin4_decomp G HG), H0, H1, H2, H3. reflexivity.
Qed.

Lemma lin4_lin (x : vec3 R) : lin4 (fun c => rlin c x).
Proof.
  intros s [b1 [[x1 y1] z1]] [b2 [[x2 y2] z2]]. destruct x as [[x y] z].
  unfold lin, dot3; cbn [coef_add coef_scale fst snd]; ro. ring.
Qed.

Lemma lin4_gstar nd col : lin4 (fun c => gstar R c nd col).
Proof.
  intros s [b1 [[x1 y1] z1]] [b2 [[x2 y2] z2]].
  unfold gstar, comp3; cbn [coef_add coef_scale fst snd]. destruct (col mod nd)%nat as [|[|k]]; reflexivity.
Qed.

Section MatrixLevel.
  Variable I : inst R.

  Lemma lin4_exact f : lin4 (fun c => rexact I c f).
  Proof.
    intros s [b1 [[x1 y1] z1]] [b2 [[x2 y2] z2]].
    unfold exact, mulmv3, dot3; cbn [coef_add coef_scale fst snd].
    destruct (normal I f) as [[n1 n2] n3].
    destruct (perm I) as [[[[k11 k12] k13] [[k21 k22] k23]] [[k31 k32] k33]]. ro. ring.
  Qed.

  Lemma lin4_bdata f : lin4 (fun c => rbdata I c f).
  Proof.
    unfold bdata. destruct (btype I f);
      [apply linear_null | apply lin4_lin | apply linear_scal, lin4_exact].
  Qed.

  Lemma lin4_flux_of f : lin4 (fun c => rflux_of I c f).
  Proof.
    apply linear_plus; apply linear_row_apply; intros k; [apply lin4_lin | apply lin4_bdata].
  Qed.

  Lemma lin4_facep_of f : lin4 (fun c => rfacep_of I c f).
  Proof.
    apply linear_plus; apply linear_row_apply; intros k; [apply lin4_lin | apply lin4_bdata].
  Qed.

  Lemma lin4_res_flux f : lin4 (fun c => rres_flux I c f).
  Proof. apply linear_minus; [apply lin4_flux_of | apply lin4_exact]. Qed.

  Lemma lin4_res_bp f : lin4 (fun c => rres_bp I c f).
  Proof. apply linear_minus; [apply lin4_facep_of | apply lin4_lin]. Qed.

  (* certificate (ii): the residual of the captured local equations (LA = local matrix, nd =
     gradient components per sub-cell; the right-hand side matrices sit in the FL / BF slots
     of I) *)
  Lemma lin4_res_local (LA : coo R) nd r : lin4 (fun c => res_local R RO I LA nd c r).
  Proof.
    apply linear_minus; [|apply lin4_flux_of]. apply linear_row_apply. intros k. apply lin4_gstar.
  Qed.

  (* exact reads only the gradient part of the field, so for the constant basis field it is
     (convertible to) its value at the zero field *)
  Lemma exact_e0 f : rexact I re0 f = 0.
  Proof. exact (linear_zero _ _ _ _ coef_add_zero _ (lin4_exact f)). Qed.
End MatrixLevel.

(* Interaction region at the boundary vertex (1,0) of a 2 x 1 Cartesian grid, K = [[2,1],[1,3]]:
   two sub-cells, one interior sub-face, one Dirichlet and one Neumann sub-face. *)
Definition exK : list (list R) := [[2; 1]; [1; 3]].
Definition exa : list R := [1; -2].
Definition exb : R := 3.
Definition excells : list (subcell R) :=
  [ {| sc_x := [1/2; 1/2]; sc_p := rlinl exb exa [1/2; 1/2]; sc_K := exK |};
    {| sc_x := [3/2; 1/2]; sc_p := rlinl exb exa [3/2; 1/2]; sc_K := exK |} ].
Definition exfaces : list (subface R) :=
  [ Interior 0 1 [1/2; 0] [1; 1/2];
    DirichletF 0 [0; -1/2] [1/2; 0] (rlinl exb exa [1/2; 0]);
    NeumannF 1 [0; -1/2] (- rdotl (rnK [0; -1/2] exK) exa) ].
Definition exInv : list (list (list R)) :=
  [ [ [6/11; 10/11; 6/11; 2/11]; [0; 0; -2; 0] ];
    [ [-6/11; 12/11; -6/11; -2/11]; [2/11; -4/11; 2/11; 8/11] ] ].


(* A two-cell instance with exact two-point matrices (cells [0,1] and [1,2] on the x axis,
   K = identity, face 0 Dirichlet, face 2 Neumann): all basis residuals vanish. *)
Definition exinst : inst R :=
  {| nf := 3;
     ccen := fun k => (INR k + 1/2, 0, 0);
     fcen := fun f => (INR f, 0, 0);
     normal := fun _ => (1, 0, 0);
     perm := ((1, 0, 0), (0, 1, 0), (0, 0, 1));
     btype := fun f => match f with O => BDir | 2%nat => BNeu | _ => BInt end;
     bsgn := fun f => match f with O => -1 | 2%nat => 1 | _ => 0 end;
     FL := [(0%nat, 0%nat, -2); (1%nat, 0%nat, 1); (1%nat, 1%nat, -1)];
     BF := [(0%nat, 0%nat, 2); (2%nat, 2%nat, 1)];
     BPC := [(2%nat, 1%nat, 1)];
     BPF := [(0%nat, 0%nat, 1); (2%nat, 2%nat, -1/2)] |}.
