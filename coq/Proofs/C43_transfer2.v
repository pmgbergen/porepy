(* C43 — material constants: transfer for the wrappers (Q instance = R instance on embedded
   data) and the declared fields of the generated classes; the specification of
   Units.__init__ (a function over Q only). *)
From Coq Require Import String Ascii List ZArith QArith Qabs Bool Reals Qreals Lra Lia.
Import ListNotations.
From PP Require Import Model.C43 Model.C43_fields Gen.C43_tables Proofs.C43 Proofs.C43_transfer.
Open Scope string_scope.

Definition mapv {A B} (f : A -> B) (l : list (string * A)) : list (string * B) :=
  map (fun p => (fst p, f (snd p))) l.

Definition cmap (c : constants Q) : constants R :=
  {| in_SI := mapv Q2R (in_SI c); attrs := mapv Q2R (attrs c) |}.

Section Transfer2.
  Variable pif : Q.
  Hypothesis pif_pos : (0 < pif)%Q.
  Variable derived : list (string * uexpr).
  Variable other : list string.
  Hypothesis derived_pos : table_pos derived = true.

  Notation qops := (QOps pif).
  Notation rops := (ROps (Q2R pif)).

  Lemma constants_transfer : forall env si cs ts, env_posQ env ->
    agrees (mapv Q2R) (convert_constants qops derived other env si cs ts)
                      (convert_constants rops derived other (envR env) si (mapv Q2R cs) ts).
  Proof.
    intros env si cs ts Henv.
    induction cs as [|[k v] r IH]; cbn [convert_constants mapv map fst snd]; [reflexivity|].
    destruct (assoc k si) as [u|]; [|reflexivity].
    apply (agrees_bind (map Q2R)); [now apply (convert_agrees pif pif_pos derived other derived_pos env Henv [v])|].
    intros w _. apply (agrees_bind (mapv Q2R)); [exact IH|]. intros r' _.
    cbn [agrees mapv map fst snd]. do 3 f_equal. now destruct w.
  Qed.

  (* to_units is a construction from in_SI *)
  Lemma make_constants_agrees : forall env si cs, env_posQ env ->
    agrees cmap (make_constants qops derived other env si cs)
                (make_constants rops derived other (envR env) si (mapv Q2R cs)).
  Proof.
    intros env si cs Henv. unfold make_constants.
    apply (agrees_bind (mapv Q2R)); [now apply constants_transfer|]. reflexivity.
  Qed.
End Transfer2.

(* the validation loop of Units.__init__ *)
Lemma check_kwargs_spec bases kw :
  match check_kwargs bases kw with
  | None => Forall (fun kv => match snd kv with KNum _ => mem (fst kv) bases = true
                                              | KOther => False end) kw
  | Some e => e = ValueErr /\
              Exists (fun kv => match snd kv with KNum _ => mem (fst kv) bases = false
                                                | KOther => True end) kw
  end.
Proof.
  induction kw as [|[k [q|]] r IH]; cbn; [constructor| |split; [reflexivity|now left]].
  destruct (mem k bases) eqn:Em; [|split; [reflexivity|now left]].
  destruct (check_kwargs bases r); [destruct IH; split; [|right]; assumption|now constructor].
Qed.

(* the object Units.__init__ builds: one attribute per base unit, keyword value or default *)
Lemma init_env_spec (bases : list (string * Q)) kw :
  let env := map (fun '(b, d) => (b, kw_get kw b d)) bases in
  map fst env = map fst bases /\ forall b d, In (b, d) bases -> In (b, kw_get kw b d) env.
Proof.
  split.
  - rewrite map_map. apply map_ext. now intros [b d].
  - intros b d Hin. apply in_map_iff. now exists (b, d).
Qed.

Lemma override_keys : forall {T} (fields given : list (string * T)),
  map fst (override fields given) = map fst fields.
Proof. intros. unfold override. now rewrite map_map. Qed.

Lemma fields_declared_of_keys : forall tab (cs : list (string * R)),
  forallb (fun k => match assoc k tab with Some _ => true | None => false end) (map fst cs) = true ->
  fields_declared tab cs.
Proof.
  intros tab cs H. rewrite forallb_forall in H. apply Forall_forall. intros [k v] Hin.
  specialize (H k (in_map fst _ _ Hin)). cbn.
  destruct (assoc k tab); [discriminate|discriminate H].
Qed.

(* tables that pass [fields_ok]: every field of every class is declared in the class's
   SI_units, so objects can be constructed (defaults overridden by any keyword values) in
   every unit system *)
Lemma fields_ok_declared si cf : fields_ok si cf = true ->
  forall cls fields (given : list (string * R)), In (cls, fields) cf ->
    exists tab, In (cls, tab) si /\ fields_declared tab (override (mapv Q2R fields) given).
Proof.
  intros Hok cls fields given Hin.
  pose proof (proj1 (forallb_forall _ _) Hok _ Hin) as H. cbn [fst snd] in H.
  destruct (assoc cls si) as [tab|] eqn:Et; [|discriminate].
  exists tab. split; [now apply assoc_In|].
  apply fields_declared_of_keys. rewrite override_keys. unfold mapv. rewrite map_map.
  rewrite forallb_forall in *. intros k Hk. apply in_map_iff in Hk as (fd & <- & Hk).
  exact (H _ Hk).
Qed.

Lemma gen_fields_ok : fields_ok si_tables class_fields = true.
Proof. vm_compute. reflexivity. Qed.
