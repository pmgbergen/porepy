(* C12 — from the executed rational instance to the real instance used in the theorems
   (in2r: the same input with every rational read as a real).  If the boolean K-orthogonality
   checker evaluated by the harness on the exact rational geometry returns true, the hypothesis
   [korth] of the exactness / M-matrix theorems holds for the real input (korth_entry_transfer);
   and the matrices the rational instance computes, read as reals, are those of the real
   instance (discretize_transfer). *)
From Coq Require Import List ZArith Bool Arith QArith Qreals Reals Lra.
Import ListNotations.
From PP Require Import Model.C12 Proofs.C12.

Local Open Scope R_scope.

Definition v2r (v : vec Q) : vec R := (Q2R (vx Q v), Q2R (vy Q v), Q2R (vz Q v)).
Definition m2r (K : mat Q) : mat R := (v2r (fst (fst K)), v2r (snd (fst K)), v2r (snd K)).

Definition in2r (I : input Q) : input R :=
  {| dim := dim I; nf := nf I; nc := nc I; cf := cf I;
     normal := fun f => v2r (normal I f); fcen := fun f => v2r (fcen I f);
     ccen := fun c => v2r (ccen I c); perm := fun c => m2r (perm I c);
     is_dir := is_dir I; is_neu := is_neu I; is_int := is_int I; bnd := bnd I |}.

(* Q2R commutes with the executed operations (which reduce their results; division by zero is
   total on both sides: Qinv 0 = 0 and Rinv 0 = 0) *)
Lemma Q2R_Qred q : Q2R (Qred q) = Q2R q.
Proof. exact (Qeq_eqR _ _ (Qred_correct q)). Qed.

Lemma Q2R_qadd a b : Q2R (qadd a b) = Q2R a + Q2R b.
Proof. unfold qadd. rewrite Q2R_Qred. apply Q2R_plus. Qed.
Lemma Q2R_qsub a b : Q2R (qsub a b) = Q2R a - Q2R b.
Proof. unfold qsub. rewrite Q2R_Qred. apply Q2R_minus. Qed.
Lemma Q2R_qmul a b : Q2R (qmul a b) = Q2R a * Q2R b.
Proof. unfold qmul. rewrite Q2R_Qred. apply Q2R_mult. Qed.
Lemma Q2R_qopp a : Q2R (qopp a) = - Q2R a.
Proof. unfold qopp. rewrite Q2R_Qred. apply Q2R_opp. Qed.
Lemma Q2R_inject z : Q2R (inject_Z z) = IZR z.
Proof. unfold Q2R, inject_Z. cbn. rewrite Rinv_1. ring. Qed.
Lemma Q2R_zero : Q2R 0 = 0.
Proof. unfold Q2R. cbn. lra. Qed.
Lemma Q2R_one : Q2R 1 = 1.
Proof. unfold Q2R. cbn. lra. Qed.

Lemma Q2R_qdiv a b : Q2R (qdiv a b) = Q2R a / Q2R b.
Proof.
  unfold qdiv. rewrite Q2R_Qred.
  destruct (Qeq_dec b 0) as [E|E]; [|apply Q2R_div, E].
  assert (H : (a / b == 0)%Q) by (unfold Qdiv; rewrite E; unfold Qinv; cbn; ring).
  rewrite (Qeq_eqR _ _ H), (Qeq_eqR _ _ E), Q2R_zero. unfold Rdiv. rewrite Rinv_0. ring.
Qed.

Lemma knvec_transfer I e :
  v2r (knvec Q qadd qmul inject_Z I e) = rknvec (in2r I) e.
Proof.
  unfold knvec, nvec, mulmv, vscale, v2r, in2r, m2r. cbn [normal perm].
  destruct (perm I (tc e)) as [[[[k11 k12] k13] [[k21 k22] k23]] [[k31 k32] k33]].
  destruct (normal I (tg e)) as [[n1 n2] n3].
  unfold v2r. unfold dot, vx, vy, vz. cbn [fst snd].
  rewrite !Q2R_qadd, !Q2R_qmul, !Q2R_inject. reflexivity.
Qed.

Lemma dvec_transfer I e : v2r (dvec Q qsub I e) = rdvec (in2r I) e.
Proof.
  unfold dvec, vsub, v2r, in2r. cbn [fcen ccen].
  destruct (fcen I (tg e)) as [[x1 x2] x3]. destruct (ccen I (tc e)) as [[y1 y2] y3].
  unfold v2r, vx, vy, vz. cbn [fst snd]. rewrite !Q2R_qsub. reflexivity.
Qed.

Lemma qzero_R x : qzero x = true -> Q2R x = 0.
Proof.
  unfold qzero. intros H. apply Qeq_bool_eq in H. rewrite (Qeq_eqR _ _ H). apply Q2R_zero.
Qed.

Theorem korth_entry_transfer I e : korth_entry_b I e = true -> korth (in2r I) e.
Proof.
  unfold korth_entry_b, korth. rewrite <- knvec_transfer, <- dvec_transfer.
  generalize (knvec Q qadd qmul inject_Z I e) as k, (dvec Q qsub I e) as d.
  intros [[k1 k2] k3] [[d1 d2] d3]. unfold v2r, cross, dot, vx, vy, vz. cbn [fst snd].
  intros H. rewrite !andb_true_iff in H. destruct H as [[[H1 H2] H3] Hp].
  apply qzero_R in H1, H2, H3. rewrite Q2R_qsub, !Q2R_qmul in H1, H2, H3.
  split.
  - rewrite H1, H2, H3. reflexivity.
  - apply negb_true_iff in Hp.
    assert (L : (0 < qadd (qadd (qmul k1 d1) (qmul k2 d2)) (qmul k3 d3))%Q).
    { apply Qnot_le_lt. intros C. apply Qle_bool_iff in C. congruence. }
    apply Qlt_Rlt in L. rewrite Q2R_zero, !Q2R_qadd, !Q2R_qmul in L. exact L.
Qed.

Lemma dot_transfer u v : Q2R (dot Q qadd qmul u v) = rdot (v2r u) (v2r v).
Proof.
  destruct u as [[u1 u2] u3], v as [[w1 w2] w3]. unfold dot, v2r, vx, vy, vz. cbn [fst snd].
  rewrite !Q2R_qadd, !Q2R_qmul. reflexivity.
Qed.

Lemma half_transfer I e :
  Q2R (half_trans Q qadd qsub qmul qdiv inject_Z I e) = rhalf (in2r I) e.
Proof.
  unfold half_trans. rewrite Q2R_qdiv, !dot_transfer, knvec_transfer, dvec_transfer. reflexivity.
Qed.

Lemma inv_sum_transfer I f :
  Q2R (inv_sum Q 0%Q 1%Q qadd qsub qmul qdiv inject_Z I f) = rinv_sum (in2r I) f.
Proof.
  unfold inv_sum. cbn [cf in2r]. induction (cf I) as [|e l IH]; cbn [fold_right].
  - apply Q2R_zero.
  - destruct (tf e =? f)%nat; [|exact IH].
    rewrite Q2R_qadd, Q2R_qdiv, Q2R_one, half_transfer, IH. reflexivity.
Qed.

Lemma t_full_transfer I f :
  Q2R (t_full Q 0%Q 1%Q qadd qsub qmul qdiv inject_Z I f) = rt_full (in2r I) f.
Proof. unfold t_full. rewrite Q2R_qdiv, Q2R_one, inv_sum_transfer. reflexivity. Qed.

Lemma t_flux_transfer I f :
  Q2R (t_flux Q 0%Q 1%Q qadd qsub qmul qdiv inject_Z I f) = rt_flux (in2r I) f.
Proof.
  unfold t_flux. change (neu' R (in2r I) f) with (neu' Q I f).
  destruct (neu' Q I f); [apply Q2R_zero | apply t_full_transfer].
Qed.

Lemma t_b_transfer I f :
  Q2R (t_b Q 0%Q 1%Q qadd qsub qmul qdiv qopp inject_Z I f) = rt_b (in2r I) f.
Proof.
  unfold t_b. change (neu' R (in2r I) f) with (neu' Q I f). change (dir' R (in2r I) f) with (dir' Q I f).
  destruct (neu' Q I f); [apply Q2R_one|]. destruct (dir' Q I f); [|apply Q2R_zero].
  rewrite Q2R_qopp, t_full_transfer. reflexivity.
Qed.

Lemma bsgn_transfer I f : Q2R (bsgn Q 0%Q inject_Z I f) = rbsgn (in2r I) f.
Proof.
  unfold bsgn. cbn [cf in2r]. destruct (filter _ (cf I)) as [|e l]; [apply Q2R_zero | apply Q2R_inject].
Qed.

Lemma v_face_transfer I f :
  Q2R (v_face Q 0%Q 1%Q qadd qsub qmul qdiv qopp inject_Z I f) = rv_face (in2r I) f.
Proof.
  unfold v_face. cbn [is_neu is_dir in2r]. destruct (is_neu I f).
  - rewrite Q2R_qopp, Q2R_qdiv, Q2R_one, t_full_transfer. reflexivity.
  - destruct (is_dir I f); [apply Q2R_one | apply Q2R_zero].
Qed.

Definition c2r (M : coo Q) : coo R := map (fun t => (fst (fst t), snd (fst t), Q2R (snd t))) M.

Theorem discretize_transfer I :
  let '(a, b, c, d) := qdiscretize I in
  rdiscretize (in2r I) = (c2r a, c2r b, c2r c, c2r d).
Proof.
  unfold qdiscretize, discretize. cbn [dim in2r]. destruct (dim I =? 0)%nat; [reflexivity|].
  unfold flux, bound_flux, bound_pressure_cell, bound_pressure_face, c2r.
  cbn [cf bnd nf is_neu in2r]. rewrite !map_map. cbn [fst snd].
  f_equal; [f_equal; [f_equal|]|].
  - apply map_ext. intros e. rewrite Q2R_qmul, t_flux_transfer, Q2R_inject. reflexivity.
  - apply map_ext. intros f. rewrite Q2R_qmul, t_b_transfer, bsgn_transfer. reflexivity.
  - apply map_ext. intros e. destruct (is_neu I (tg e)); [rewrite Q2R_one | rewrite Q2R_zero]; reflexivity.
  - apply map_ext. intros f. rewrite v_face_transfer. reflexivity.
Qed.
