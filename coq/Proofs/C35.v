(* C35 — the numpy primitives of PP.Model.C35 (fancy-index assignment, cumulative sums, boolean
   masks, element-wise pairing) and the F-order ravel of a family of rows. *)
From Coq Require Import List ZArith Bool Arith Lia.
Import ListNotations.
From PP Require Import Lib.ListFacts Lib.Csr Model.C35.

Lemma map_repeat' : forall {A B} (f : A -> B) x n, map f (repeat x n) = repeat (f x) n.
Proof. induction n; simpl; congruence. Qed.

Lemma skipn_nth_cons : forall {E} (d : E) l a, a < length l -> skipn a l = nth a l d :: skipn (S a) l.
Proof.
  induction l as [|x l IH]; intros a H; simpl in H; [lia|].
  destruct a; [reflexivity|]. simpl. apply IH. lia.
Qed.

Lemma skipn_add : forall {E} (l : list E) a b, skipn a (skipn b l) = skipn (b + a) l.
Proof.
  intros E l a b. revert l. induction b as [|b IH]; intros l; [reflexivity|].
  destruct l as [|x l]; [destruct a; reflexivity|]. simpl. apply IH.
Qed.

Lemma combine_map_same : forall {A B C} (f : A -> B) (g : A -> C) l,
  combine (map f l) (map g l) = map (fun x => (f x, g x)) l.
Proof. induction l; simpl; congruence. Qed.

Lemma combine_fst_snd : forall {A B} (l : list (A * B)), combine (map fst l) (map snd l) = l.
Proof. induction l as [|[a b] l IH]; simpl; congruence. Qed.

Lemma combine_map_l : forall {A B C} (g : A -> C) (l1 : list A) (l2 : list B),
  combine (map g l1) l2 = map (fun e => (g (fst e), snd e)) (combine l1 l2).
Proof. induction l1 as [|x l1 IH]; intros [|y l2]; simpl; try reflexivity. f_equal. apply IH. Qed.

Lemma combine_app' : forall {A B} (a1 a2 : list A) (b1 b2 : list B), length a1 = length b1 ->
  combine (a1 ++ a2) (b1 ++ b2) = combine a1 b1 ++ combine a2 b2.
Proof.
  induction a1 as [|x a1 IH]; intros a2 [|y b1] b2 H; simpl in H; try discriminate; [reflexivity|].
  simpl. f_equal. apply IH. lia.
Qed.

Lemma combine_repeat : forall {A V} (s : A) (b : list V), combine (repeat s (length b)) b = map (pair s) b.
Proof. induction b; simpl; congruence. Qed.

Lemma combine_repeat_r : forall {A V} (s : V) (a : list A),
  combine a (repeat s (length a)) = map (fun x => (x, s)) a.
Proof. induction a; simpl; congruence. Qed.

Lemma flat_map_map : forall {A B C} (g : A -> B) (f : B -> list C) l,
  flat_map f (map g l) = flat_map (fun x => f (g x)) l.
Proof. induction l; simpl; congruence. Qed.

Lemma map_length_map : forall {E F} (f : E -> F) (R : list (list E)),
  map (@length F) (map (map f) R) = map (@length E) R.
Proof. intros. rewrite map_map. apply map_ext. intros r. apply map_length. Qed.

Lemma upd_length : forall {E} (l : list E) p v, length (upd l p v) = length l.
Proof. induction l as [|x l IH]; intros [|p] v; simpl; auto. Qed.

Lemma upd_nth : forall {E} (l : list E) p v k d,
  nth k (upd l p v) d = if (k =? p) && (k <? length l) then v else nth k l d.
Proof.
  induction l as [|x l IH]; intros p v k d.
  - simpl. destruct k; rewrite andb_false_r; reflexivity.
  - destruct p, k; simpl; try reflexivity. apply IH.
Qed.

Lemma upd_app_len : forall {E} (pre : list E) x r v, upd (pre ++ x :: r) (length pre) v = pre ++ v :: r.
Proof. induction pre as [|a pre IH]; intros x r v; simpl; [reflexivity|]. f_equal. apply IH. Qed.

Lemma scatter_length : forall {E} pos (base vals : list E), length (scatter base pos vals) = length base.
Proof.
  induction pos as [|p pos IH]; intros base [|v vals]; simpl; try reflexivity.
  rewrite IH. apply upd_length.
Qed.

Lemma scatter_fun_nth : forall {V} pos (base : list V) (g : nat -> V) j d,
  nth j (scatter base pos (map g pos)) d
  = if existsb (Nat.eqb j) pos && (j <? length base) then g j else nth j base d.
Proof.
  induction pos as [|p pos IH]; intros base g j d; [reflexivity|].
  cbn [map scatter existsb]. rewrite IH, upd_length, upd_nth.
  destruct (j <? length base); rewrite ?andb_false_r, ?andb_true_r; [|reflexivity].
  destruct (existsb (Nat.eqb j) pos); rewrite ?orb_true_r; [reflexivity|].
  rewrite orb_false_r. destruct (j =? p) eqn:E; [|reflexivity].
  apply Nat.eqb_eq in E. subst. reflexivity.
Qed.

Lemma scatter_const_nth : forall {E} pos (base : list E) v k d,
  nth k (scatter base pos (repeat v (length pos))) d
  = if existsb (Nat.eqb k) pos && (k <? length base) then v else nth k base d.
Proof. intros. rewrite <- map_const. apply (scatter_fun_nth pos base (fun _ => v)). Qed.

Lemma cumsum_acc_app : forall l1 l2 a,
  cumsum_acc a (l1 ++ l2) = cumsum_acc a l1 ++ cumsum_acc (a + sumZ l1)%Z l2.
Proof.
  induction l1 as [|x l1 IH]; intros l2 a; simpl.
  - f_equal. lia.
  - f_equal. rewrite IH. f_equal. f_equal. lia.
Qed.

Lemma cumsum_acc_length : forall m acc, length (cumsum_acc acc m) = length m.
Proof. induction m; intros; simpl; auto. Qed.

Lemma sumZ_repeat : forall v n, sumZ (repeat v n) = (v * Z.of_nat n)%Z.
Proof. induction n as [|n IH]; simpl; [lia|]. rewrite IH. lia. Qed.

Lemma cumsum_acc_ones : forall n a,
  cumsum_acc a (repeat 1%Z n) = map (fun k => (a + 1 + Z.of_nat k)%Z) (seq 0 n).
Proof.
  induction n as [|n IH]; intros a; simpl; [reflexivity|].
  f_equal; [lia|]. rewrite IH, <- seq_shift, map_map. apply map_ext. intros k. lia.
Qed.

Lemma cumsum_acc_zeros : forall n a, cumsum_acc a (repeat 0%Z n) = repeat a n.
Proof.
  induction n as [|n IH]; intros a; simpl; [reflexivity|].
  replace (a + 0)%Z with a by lia. f_equal. apply IH.
Qed.

Lemma cumsumN_length : forall l a, length (cumsumN a l) = length l.
Proof. induction l; intros; simpl; auto. Qed.

Lemma cumsumN_app : forall l1 l2 a, cumsumN a (l1 ++ l2) = cumsumN a l1 ++ cumsumN (a + sum_nat l1) l2.
Proof.
  unfold sum_nat. induction l1 as [|x l1 IH]; intros l2 a; cbn.
  - f_equal. lia.
  - f_equal. rewrite IH. f_equal. f_equal. lia.
Qed.

Lemma cumsumN_shift : forall l a k, map (fun p => p + k) (cumsumN a l) = cumsumN (a + k) l.
Proof.
  induction l as [|x l IH]; intros a k; cbn; [reflexivity|].
  rewrite IH. f_equal; [lia|]. f_equal. lia.
Qed.

Lemma last_cumsumN : forall l a d, last (a :: cumsumN a l) d = a + sum_nat l.
Proof.
  unfold sum_nat. induction l as [|x l IH]; intros a d; [cbn; lia|].
  change (last (a :: cumsumN a (x :: l)) d) with (last ((a + x) :: cumsumN (a + x) l) d).
  rewrite IH. cbn. lia.
Qed.

Lemma diffN_ptr : forall lens a, diffN (a :: cumsumN a lens) = lens.
Proof.
  induction lens as [|x lens IH]; intros a; [reflexivity|].
  change (diffN (a :: cumsumN a (x :: lens))) with ((a + x - a) :: diffN ((a + x) :: cumsumN (a + x) lens)).
  rewrite IH. f_equal. lia.
Qed.

Lemma sum_nat_cons : forall x l, sum_nat (x :: l) = x + sum_nat l.
Proof. reflexivity. Qed.

Lemma sum_nat_app : forall l1 l2, sum_nat (l1 ++ l2) = sum_nat l1 + sum_nat l2.
Proof. exact list_sum_app. Qed.

Lemma sum_repeat : forall x k, sum_nat (repeat x k) = k * x.
Proof. unfold sum_nat. induction k; simpl; congruence. Qed.

Lemma mask_app : forall {E} (b1 b2 : list bool) (l1 l2 : list E), length b1 = length l1 ->
  mask (b1 ++ b2) (l1 ++ l2) = mask b1 l1 ++ mask b2 l2.
Proof.
  induction b1 as [|b b1 IH]; intros b2 [|x l1] l2 H; simpl in H; try discriminate; [reflexivity|].
  simpl. destruct b; simpl; rewrite IH by lia; reflexivity.
Qed.

Lemma mask_true : forall {E} (l : list E), mask (repeat true (length l)) l = l.
Proof. induction l; simpl; congruence. Qed.

Lemma mask_false : forall {E} (l : list E), mask (repeat false (length l)) l = [].
Proof. induction l; simpl; auto. Qed.

Lemma mask_map : forall {A B} (f : A -> B) (k : list bool) l, mask k (map f l) = map f (mask k l).
Proof.
  induction k as [|x k IH]; intros [|a l]; try reflexivity; [destruct x; reflexivity|].
  cbn [map mask]. destruct x; cbn [map]; rewrite IH; reflexivity.
Qed.

Lemma mask_fst : forall {A B} (f : A * B -> bool) (l1 : list A) (l2 : list B),
  length l1 = length l2 ->
  mask (map f (combine l1 l2)) l1 = map fst (filter f (combine l1 l2)).
Proof.
  induction l1 as [|a l1 IH]; intros [|b l2] H; simpl in *; try discriminate; try reflexivity.
  destruct (f (a, b)); simpl; rewrite IH by lia; reflexivity.
Qed.

Lemma mask_snd : forall {A B} (f : A * B -> bool) (l1 : list A) (l2 : list B),
  length l1 = length l2 ->
  mask (map f (combine l1 l2)) l2 = map snd (filter f (combine l1 l2)).
Proof.
  induction l1 as [|a l1 IH]; intros [|b l2] H; simpl in *; try discriminate; try reflexivity.
  destruct (f (a, b)); simpl; rewrite IH by lia; reflexivity.
Qed.

Lemma map2_map : forall {A B C X} (f : A -> B -> C) (u : X -> A) (v : X -> B) l,
  map2 f (map u l) (map v l) = map (fun x => f (u x) (v x)) l.
Proof. induction l; simpl; congruence. Qed.

Lemma map2_map_l : forall {A B C X} (f : A -> B -> C) (u : X -> A) l b,
  map2 f (map u l) b = map2 (fun x y => f (u x) y) l b.
Proof. induction l as [|x l IH]; intros [|y b]; simpl; try reflexivity. f_equal. apply IH. Qed.

Lemma map2_app : forall {A B C} (f : A -> B -> C) a1 a2 b1 b2, length a1 = length b1 ->
  map2 f (a1 ++ a2) (b1 ++ b2) = map2 f a1 b1 ++ map2 f a2 b2.
Proof.
  induction a1 as [|x a1 IH]; intros a2 [|y b1] b2 H; simpl in H; try discriminate; [reflexivity|].
  simpl. f_equal. apply IH. lia.
Qed.

Lemma ravel_f_rows : forall (h : nat -> Z -> Z) x n,
  ravel_f (length x) (map (fun k => map (h k) x) (seq 0 n))
  = flat_map (fun v => map (fun k => h k v) (seq 0 n)) x.
Proof.
  intros h x n. unfold ravel_f. induction x as [|v x IH]; [reflexivity|].
  cbn [length seq flat_map]. f_equal.
  - rewrite map_map. reflexivity.
  - rewrite <- IH, <- seq_shift, !flat_map_concat_map, map_map. f_equal.
    apply map_ext. intros j. rewrite !map_map. reflexivity.
Qed.
