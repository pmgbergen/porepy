(* C18 — proofs (over exact rationals).  Gram matrices B^T W B are symmetric positive definite
   (spd_certificate, gram_identity, gram_spd, mass_spd); local consistency certificates
   (local_sound); the 1-D RT0 system is exact with trivial kernel (rt0_1d_exact, rt0_1d_kernel);
   soundness of the instance checkers (check_inv, check_locals). *)
From Coq Require Import List ZArith QArith Qabs Bool Arith Lia Lqa.
Import ListNotations.
From PP Require Import Lib.ListFacts Lib.RowLin Lib.SumF Lib.RowInv Model.C18.
Local Open Scope Q_scope.

Definition allzero (x : list Q) : Prop := Forall (fun q => q == 0) x.

Lemma allzero_dec : forall x, {allzero x} + {~ allzero x}.
Proof. intros x. apply Forall_dec. intros q. apply Qeq_dec. Qed.

Lemma dotv_nil_r : forall x, dotv x [] == 0.
Proof. destruct x; reflexivity. Qed.

Lemma dotv_comm : forall x y, dotv x y == dotv y x.
Proof.
  induction x as [|a x IH]; intros y; destruct y as [|b y]; cbn [dotv]; try reflexivity.
  rewrite IH. ring.
Qed.

Lemma dotv_allzero_l : forall x y, allzero x -> dotv x y == 0.
Proof.
  induction x as [|a x IH]; intros y H; [reflexivity|].
  destruct y as [|b y]; [reflexivity|]. cbn [dotv].
  inversion H as [|? ? Ha Hx]; subst. rewrite Ha, (IH y Hx). ring.
Qed.

Lemma dotv_allzero_r : forall x y, allzero y -> dotv x y == 0.
Proof. intros x y H. rewrite dotv_comm. apply dotv_allzero_l. exact H. Qed.

Lemma dotv_cons_r : forall r x0 x', dotv r (x0 :: x') == hd0 r * x0 + dotv (tl r) x'.
Proof. intros r x0 x'. destruct r as [|c C]; cbn [dotv hd0 tl]; ring. Qed.

Lemma dotv_map_lin : forall (rows : mat) x c (f g h : list Q -> Q),
  (forall r, In r rows -> f r == g r + c * h r) ->
  dotv x (map f rows) == dotv x (map g rows) + c * dotv x (map h rows).
Proof.
  induction rows as [|r rows IH]; intros x c f g h H; cbn [map].
  - rewrite !dotv_nil_r. ring.
  - destruct x as [|a x]; cbn [dotv]; [ring|].
    rewrite (H r), (IH x c f g h) by auto with datatypes. ring.
Qed.

Lemma dotv_eqlist : forall u v x, qlist_eqb u v = true -> dotv u x == dotv v x.
Proof.
  induction u as [|a u IH]; intros v x H; destruct v as [|b v]; cbn in H; try discriminate.
  - reflexivity.
  - apply andb_prop in H. destruct H as [Hab Huv]. apply Qeq_bool_iff in Hab.
    destruct x as [|c x]; cbn [dotv]; [reflexivity|]. rewrite Hab, (IH v x Huv). reflexivity.
Qed.

Lemma dotv_axpy : forall x k v u,
  length u = length x -> length v = length x ->
  dotv (axpy k v u) x == dotv u x - k * dotv v x.
Proof.
  induction x as [|x0 x IH]; intros k v u Hu Hv.
  - destruct u; [|discriminate]. destruct v; [|discriminate]. cbn. ring.
  - destruct u as [|u0 u]; [discriminate|]. destruct v as [|v0 v]; [discriminate|].
    cbn [axpy hd0 tl dotv]. rewrite Qred_correct.
    rewrite IH by (cbn [length] in *; lia). ring.
Qed.

Lemma quad_step : forall a b rows x0 x',
  ~ a == 0 ->
  length b = length x' ->
  (forall r, In r rows -> length (tl r) = length x') ->
  qlist_eqb (map hd0 rows) b = true ->
  quad ((a :: b) :: rows) (x0 :: x')
  == a * ((x0 + dotv b x' / a) * (x0 + dotv b x' / a)) + quad (schur a b rows) x'.
Proof.
  intros a b rows x0 x' Ha Hb Hrows Hsym.
  unfold quad, mulmv, schur. cbn [map dotv]. rewrite map_map.
  (* a row of the matrix against its row of the Schur complement *)
  rewrite (dotv_map_lin rows x' (x0 + dotv b x' / a) (fun r => dotv r (x0 :: x'))
             (fun r => dotv (axpy (hd0 r / a) b (tl r)) x') hd0).
  2:{ intros r Hr. rewrite dotv_cons_r, dotv_axpy by (try apply Hrows; assumption).
      field. exact Ha. }
  rewrite (dotv_comm x' (map hd0 rows)), (dotv_eqlist _ _ x' Hsym). field. exact Ha.
Qed.

Lemma Qlt_bool_true : forall a b, Qlt_bool a b = true -> a < b.
Proof.
  intros a b H. unfold Qlt_bool in H. apply negb_true_iff in H.
  apply Qnot_le_lt. intros Hle. apply Qle_bool_iff in Hle. congruence.
Qed.

Lemma spd_certificate : forall n M x,
  spd_chk n M = true -> length x = n -> ~ allzero x -> 0 < quad M x.
Proof.
  induction n as [|n IH]; intros M x H Hlen Hnz.
  - destruct x; [|discriminate]. exfalso. apply Hnz. constructor.
  - destruct M as [|[|a b] rows]; cbn [spd_chk] in H; try discriminate.
    apply andb_prop in H as [[[[[Hpos Hlb]%andb_prop Hnrows]%andb_prop Hlens]%andb_prop Hsym]%andb_prop Hrec].
    apply Qlt_bool_true in Hpos. apply Nat.eqb_eq in Hlb.
    destruct x as [|x0 x']; [discriminate|]. injection Hlen as Hx'.
    assert (Ha : ~ a == 0) by lra.
    rewrite quad_step; [| exact Ha | lia | | exact Hsym].
    2:{ intros r Hr. apply (proj1 (forallb_forall _ _) Hlens), Nat.eqb_eq in Hr.
        destruct r; cbn [length tl] in *; lia. }
    set (t := x0 + dotv b x' / a).
    assert (Hsq : 0 <= t * t) by nra.
    destruct (allzero_dec x') as [Hz|Hnz'].
    + (* the tail vanishes: x0 is not zero *)
      assert (Hq : quad (schur a b rows) x' == 0) by (unfold quad; apply dotv_allzero_l; exact Hz).
      assert (Hb0 : dotv b x' == 0) by (apply dotv_allzero_r; exact Hz).
      assert (Hx0 : ~ x0 == 0).
      { intros E. apply Hnz. constructor; assumption. }
      rewrite Hq. unfold t. rewrite Hb0.
      setoid_replace (x0 + 0 / a) with x0 by (field; exact Ha).
      assert (0 < x0 * x0) by nra. nra.
    + pose proof (IH (schur a b rows) x' Hrec Hx' Hnz') as Hs. nra.
Qed.

Definition wf (n : nat) (M : mat) : Prop := length M = n /\ forall r, In r M -> length r = n.

Definition wfr (m n : nat) (B : mat) : Prop := length B = m /\ forall r, In r B -> length r = n.

Lemma wfr_b_true : forall m n B, wfr_b m n B = true -> wfr m n B.
Proof.
  intros m n B H. unfold wfr_b in H. apply andb_prop in H. destruct H as [H1 H2].
  apply Nat.eqb_eq in H1. split; [exact H1|].
  intros r Hr. apply Nat.eqb_eq, (proj1 (forallb_forall _ _) H2 r Hr).
Qed.

(* wf n M is wfr n n M, and wf_b n M is wfr_b n n M *)
Lemma wf_b_true : forall n M, wf_b n M = true -> wf n M.
Proof. intros n M. exact (wfr_b_true n n M). Qed.

Lemma wf_tab : forall n (F : nat -> nat -> Q),
  wf n (map (fun i => map (F i) (seq 0 n)) (seq 0 n)).
Proof.
  intros n F. split.
  - rewrite map_length, seq_length. reflexivity.
  - intros r Hr. apply in_map_iff in Hr. destruct Hr as [i [<- _]].
    rewrite map_length, seq_length. reflexivity.
Qed.

Lemma wf_sympart : forall n M, wf n (sympart n M).
Proof. intros n M. apply wf_tab. Qed.

Lemma wf_gram_mat : forall n m W B, wf n (gram_mat n m W B).
Proof. intros n m W B. apply wf_tab. Qed.

Lemma wf_idmat : forall m, wf m (idmat m).
Proof. intros m. apply wf_tab. Qed.

Lemma ent_tab : forall n (F : nat -> nat -> Q) i j, (i < n)%nat -> (j < n)%nat ->
  ent (map (fun i => map (F i) (seq 0 n)) (seq 0 n)) i j = F i j.
Proof.
  intros n F i j Hi Hj. unfold ent.
  rewrite (nth_map_seq _ 0 n i [] Hi). apply (nth_map_seq _ 0 n j 0 Hj).
Qed.

Lemma ent_sympart : forall n M i j, (i < n)%nat -> (j < n)%nat ->
  ent (sympart n M) i j == (ent M i j + ent M j i) / 2.
Proof.
  intros n M i j Hi Hj. unfold sympart.
  rewrite (ent_tab n (fun i j => Qred ((ent M i j + ent M j i) / 2))) by assumption.
  apply Qred_correct.
Qed.

Lemma ent_gram_mat : forall n m W B i j, (i < n)%nat -> (j < n)%nat ->
  ent (gram_mat n m W B) i j
  == sumf m (fun k => sumf m (fun l => ent B k i * ent W k l * ent B l j)).
Proof.
  intros n m W B i j Hi Hj. unfold gram_mat.
  rewrite (ent_tab n (fun i j => Qred (sumf m (fun k => sumf m (fun l =>
             ent B k i * ent W k l * ent B l j))))) by assumption.
  apply Qred_correct.
Qed.

Lemma dotv_sumf : forall n x y, length x = n -> length y = n ->
  dotv x y == sumf n (fun i => nth i x 0 * nth i y 0).
Proof.
  induction n as [|n IH]; intros x y Hx Hy.
  - destruct x; [|discriminate]. reflexivity.
  - destruct x as [|a x]; [discriminate|]. destruct y as [|b y]; [discriminate|].
    cbn [dotv sumf nth]. rewrite (IH x y) by (cbn [length] in *; lia). reflexivity.
Qed.

Lemma nth_mulmv : forall M x i, nth i (mulmv M x) 0 = dotv (nth i M []) x.
Proof. intros M x i. exact (map_nth (fun r => dotv r x) M [] i). Qed.

Lemma nth_mulmv_sumf : forall m n B x k, wfr m n B -> length x = n -> (k < m)%nat ->
  nth k (mulmv B x) 0 == sumf n (fun i => ent B k i * nth i x 0).
Proof.
  intros m n B x k [HB Hrows] Hx Hk. rewrite nth_mulmv.
  apply dotv_sumf; [|exact Hx]. apply Hrows, nth_In. lia.
Qed.

Lemma quad_sumf : forall n M x, wf n M -> length x = n ->
  quad M x == sumf n (fun i => sumf n (fun j => nth i x 0 * ent M i j * nth j x 0)).
Proof.
  intros n M x HM Hx. unfold quad.
  rewrite (dotv_sumf n x (mulmv M x) Hx) by (unfold mulmv; rewrite map_length; exact (proj1 HM)).
  apply sumf_ext. intros i Hi.
  rewrite (nth_mulmv_sumf n n M x i HM Hx Hi), <- sumf_scal.
  apply sumf_ext. intros j Hj. ring.
Qed.

Lemma quad_sympart : forall n M x, wf n M -> length x = n ->
  quad (sympart n M) x == quad M x.
Proof.
  intros n M x HM Hx.
  rewrite (quad_sumf n (sympart n M) x (wf_sympart n M) Hx), (quad_sumf n M x HM Hx).
  set (F := fun i j => nth i x 0 * ent M i j * nth j x 0).
  rewrite (sumf_ext n _ (fun i => sumf n (fun j => (1 # 2) * F i j) + sumf n (fun j => (1 # 2) * F j i))).
  2:{ intros i Hi. rewrite <- sumf_plus. apply sumf_ext. intros j Hj.
      rewrite (ent_sympart n M i j Hi Hj). unfold F. field. }
  rewrite sumf_plus.
  rewrite (sumf_swap n n (fun i j => (1 # 2) * F j i)).
  fold F.
  rewrite <- sumf_plus. apply sumf_ext. intros i Hi.
  rewrite <- sumf_plus. apply sumf_ext. intros j Hj.
  unfold F. ring.
Qed.

Lemma mass_spd : forall tol n M x,
  mass_ok tol n M = true -> length x = n -> ~ allzero x -> 0 < quad M x.
Proof.
  intros tol n M x H Hx Hnz. apply andb_prop in H as [[Hwf _]%andb_prop Hspd].
  rewrite <- (quad_sympart n M x (wf_b_true n M Hwf) Hx).
  apply (spd_certificate n); assumption.
Qed.

Lemma sumf_mul3 : forall n (a b : nat -> Q) w,
  sumf n a * w * sumf n b == sumf n (fun i => sumf n (fun j => a i * w * b j)).
Proof.
  intros n a b w.
  transitivity (sumf n (fun i => a i * (w * sumf n b))).
  - rewrite (sumf_scal_r n (w * sumf n b) a). ring.
  - apply sumf_ext. intros i _. rewrite (sumf_scal n (a i * w) b). ring.
Qed.

Lemma gram_identity : forall n m W B x,
  wf m W -> wfr m n B -> length x = n ->
  quad (gram_mat n m W B) x == gram_quad W B x.
Proof.
  intros n m W B x HW HB Hx. unfold gram_quad.
  assert (Hy : length (mulmv B x) = m) by (unfold mulmv; rewrite map_length; exact (proj1 HB)).
  rewrite (quad_sumf n _ x (wf_gram_mat n m W B) Hx), (quad_sumf m W _ HW Hy).
  set (F := fun i j k l => nth i x 0 * ent B k i * ent W k l * ent B l j * nth j x 0).
  (* left: sum_i sum_j sum_k sum_l F *)
  transitivity (sumf n (fun i => sumf n (fun j => sumf m (fun k => sumf m (fun l => F i j k l))))).
  { apply sumf_ext. intros i Hi. apply sumf_ext. intros j Hj.
    rewrite (ent_gram_mat n m W B i j Hi Hj).
    rewrite <- sumf_scal, <- sumf_scal_r. apply sumf_ext. intros k _.
    rewrite <- sumf_scal, <- sumf_scal_r. apply sumf_ext. intros l _. unfold F. ring. }
  (* right: sum_k sum_l sum_i sum_j F *)
  symmetry.
  transitivity (sumf m (fun k => sumf m (fun l => sumf n (fun i => sumf n (fun j => F i j k l))))).
  { apply sumf_ext. intros k Hk. apply sumf_ext. intros l Hl.
    rewrite (nth_mulmv_sumf m n B x k HB Hx Hk), (nth_mulmv_sumf m n B x l HB Hx Hl).
    rewrite sumf_mul3. apply sumf_ext. intros i _. apply sumf_ext. intros j _. unfold F. ring. }
  (* reorder k l i j -> i j k l *)
  transitivity (sumf m (fun k => sumf n (fun i => sumf m (fun l => sumf n (fun j => F i j k l))))).
  { apply sumf_ext. intros k _. apply sumf_swap. }
  rewrite sumf_swap.
  apply sumf_ext. intros i _.
  transitivity (sumf m (fun k => sumf n (fun j => sumf m (fun l => F i j k l)))).
  { apply sumf_ext. intros k _. apply sumf_swap. }
  apply sumf_swap.
Qed.

Lemma gram_spd : forall n m W B x,
  wf m W -> wfr m n B ->
  (forall y, length y = m -> ~ allzero y -> 0 < quad W y) ->
  (allzero (mulmv B x) -> allzero x) ->
  length x = n -> ~ allzero x -> 0 < quad (gram_mat n m W B) x.
Proof.
  intros n m W B x HW HB HPD Hinj Hx Hnz.
  rewrite (gram_identity n m W B x HW HB Hx). apply HPD.
  - unfold mulmv. rewrite map_length. exact (proj1 HB).
  - intros Hz. apply Hnz, Hinj, Hz.
Qed.

(* B^T B positive definite  =>  B injective *)
Lemma injective_from_gram : forall n m B x,
  wfr m n B -> spd_chk n (gram_mat n m (idmat m) B) = true -> length x = n ->
  allzero (mulmv B x) -> allzero x.
Proof.
  intros n m B x HB Hspd Hx Hz.
  destruct (allzero_dec x) as [H|H]; [exact H|exfalso].
  pose proof (spd_certificate n _ x Hspd Hx H) as Hpos.
  rewrite (gram_identity n m (idmat m) B x (wf_idmat m) HB Hx) in Hpos.
  unfold gram_quad, quad in Hpos. rewrite (dotv_allzero_l _ _ Hz) in Hpos. lra.
Qed.

(* the checker of one captured local matrix: its exact factorised form B^T W B is positive definite *)
Lemma local_sound : forall tol L x,
  local_ok tol L = true -> length x = l_n L -> ~ allzero x ->
  0 < quad (gram_mat (l_n L) (l_m L) (l_W L) (l_B L)) x.
Proof.
  intros tol L x H Hx Hnz. apply andb_prop in H as [[[[HB HW]%andb_prop Hinj]%andb_prop _]%andb_prop _].
  apply wfr_b_true in HB.
  apply (gram_spd (l_n L) (l_m L)); try assumption.
  - apply andb_prop in HW as [[Hwf _]%andb_prop _]. exact (wf_b_true _ _ Hwf).
  - intros y Hy Hy0. apply (mass_spd tol (l_m L)); assumption.
  - apply (injective_from_gram (l_n L) (l_m L)); assumption.
Qed.

Lemma isum_minus_const : forall ic (g : nat -> Q) k,
  isum ic (fun c => g c - k) == isum ic g - isum ic (fun _ => 1) * k.
Proof. induction ic as [|fs ic IH]; intros; cbn [isum]; [ring|]. rewrite IH. ring. Qed.

(* the residual bound of C18_certificate_sound *)
Definition res_bound (tol : Q) (I : inst) (r : row) (theta : list Q) : Q :=
  tsum 0 (map Qabs theta) (fun m => tol * (1 + rabs r (basis I m))).

Lemma cand_flux : forall xs k a c0 j, (j < S (ncell xs))%nat -> rt0_cand xs k a c0 j = - k * a.
Proof.
  intros xs k a c0 j Hj. unfold rt0_cand.
  destruct (Nat.ltb_spec j (S (ncell xs))); [reflexivity|lia].
Qed.

Lemma cand_pres : forall xs k a c0 c,
  rt0_cand xs k a c0 (S (ncell xs) + c)%nat = a * ((xn xs c + xn xs (S c)) / 2) + c0.
Proof.
  intros xs k a c0 c. unfold rt0_cand.
  destruct (Nat.ltb_spec (S (ncell xs) + c)%nat (S (ncell xs))); [lia|].
  replace (S (ncell xs) + c - S (ncell xs))%nat with c by lia. reflexivity.
Qed.

Lemma row_cell : forall xs k (v : vec) c, (c < ncell xs)%nat ->
  rdot (rt0_row xs k (S (ncell xs) + c)) v == v c - v (S c).
Proof.
  intros xs k v c Hc. unfold rt0_row.
  destruct (Nat.ltb_spec (S (ncell xs) + c) (S (ncell xs))); [lia|].
  replace (S (ncell xs) + c - S (ncell xs))%nat with c by lia.
  unfold rt0_cell_row. cbn [rdot fst snd]. ring.
Qed.

Lemma row_f0 : forall xs k (v : vec), (1 <= ncell xs)%nat ->
  rdot (rt0_row xs k 0) v
  == hlen xs 0 / (3 * k) * v 0%nat + hlen xs 0 / (6 * k) * v 1%nat + v (S (ncell xs) + 0)%nat.
Proof.
  intros xs k v Hn. unfold rt0_row.
  destruct (Nat.ltb_spec 0 (S (ncell xs))); [|lia].
  unfold rt0_flux_row. change (0 <? 0)%nat with false. cbv iota.
  destruct (Nat.ltb_spec 0 (ncell xs)); [|lia].
  cbn [app rdot fst snd]. ring.
Qed.

Lemma row_fi : forall xs k (v : vec) g, (S g < ncell xs)%nat ->
  rdot (rt0_row xs k (S g)) v
  == hlen xs g / (6 * k) * v g + hlen xs g / (3 * k) * v (S g)
     + hlen xs (S g) / (3 * k) * v (S g) + hlen xs (S g) / (6 * k) * v (S (S g))
     - v (S (ncell xs) + g)%nat + v (S (ncell xs) + S g)%nat.
Proof.
  intros xs k v g Hg. unfold rt0_row.
  destruct (Nat.ltb_spec (S g) (S (ncell xs))); [|lia].
  unfold rt0_flux_row. change (0 <? S g)%nat with true. cbv iota. cbn [pred].
  destruct (Nat.ltb_spec (S g) (ncell xs)); [|lia].
  cbn [app rdot fst snd]. ring.
Qed.

Lemma row_fn : forall xs k (v : vec) g, S g = ncell xs ->
  rdot (rt0_row xs k (S g)) v
  == hlen xs g / (6 * k) * v g + hlen xs g / (3 * k) * v (S g) - v (S (ncell xs) + g)%nat.
Proof.
  intros xs k v g Hg. unfold rt0_row.
  destruct (Nat.ltb_spec (S g) (S (ncell xs))); [|lia].
  unfold rt0_flux_row. change (0 <? S g)%nat with true. cbv iota. cbn [pred].
  destruct (Nat.ltb_spec (S g) (ncell xs)); [lia|].
  cbn [app rdot fst snd]. ring.
Qed.

Lemma rt0_1d_exact : forall xs k a c0 i,
  ~ k == 0 -> (1 <= ncell xs)%nat -> (i < S (ncell xs) + ncell xs)%nat ->
  rdot (rt0_row xs k i) (rt0_cand xs k a c0)
  == rt0_rhs xs (a * xn xs 0 + c0) (a * xn xs (ncell xs) + c0) i.
Proof.
  intros xs k a c0 i Hk Hn Hi. unfold rt0_rhs.
  destruct (Nat.eqb_spec i 0) as [->|H0].
  { rewrite row_f0, !cand_pres, !cand_flux by lia. unfold hlen. field. exact Hk. }
  destruct (Nat.eqb_spec i (ncell xs)) as [E|Hlast].
  { (* the last face *)
    destruct i as [|g]; [lia|].
    rewrite row_fn, !cand_pres, !cand_flux by lia. rewrite <- E. unfold hlen. field. exact Hk. }
  destruct (Nat.lt_ge_cases i (ncell xs)) as [Hin|Hcell].
  - (* an interior face *)
    destruct i as [|g]; [lia|].
    rewrite row_fi, !cand_pres, !cand_flux by lia. unfold hlen. field. exact Hk.
  - (* mass conservation in cell i - (n+1) *)
    replace i with (S (ncell xs) + (i - S (ncell xs)))%nat by lia.
    rewrite row_cell, !cand_flux by lia. ring.
Qed.

Lemma Qeq_from_sum : forall a p b : Q, a + p == 0 -> a + b == 0 -> p == b.
Proof. intros a p b H1 H2. lra. Qed.

Lemma rt0_1d_kernel : forall xs k (v : vec),
  ~ k == 0 -> (1 <= ncell xs)%nat -> ~ xn xs (ncell xs) == xn xs 0 ->
  (forall i, (i < S (ncell xs) + ncell xs)%nat -> rdot (rt0_row xs k i) v == 0) ->
  forall j, (j < S (ncell xs) + ncell xs)%nat -> v j == 0.
Proof.
  intros xs k v Hk Hn Hx H.
  (* mass conservation: all fluxes are equal *)
  assert (HU : forall f, (f <= ncell xs)%nat -> v f == v 0%nat).
  { induction f as [|f IH]; intros Hf; [reflexivity|].
    pose proof (H (S (ncell xs) + f)%nat ltac:(lia)) as E.
    rewrite row_cell in E by lia. rewrite <- IH by lia. lra. }
  (* the flux equations but the last determine the pressures from the flux, face by face *)
  assert (HP : forall f, (f < ncell xs)%nat ->
     v (S (ncell xs) + f)%nat
     == - (v 0%nat / (2 * k)) * (xn xs (S f) + xn xs f - 2 * xn xs 0)).
  { induction f as [|f IH]; intros Hf.
    - pose proof (H 0%nat ltac:(lia)) as E.
      rewrite row_f0, (HU 1%nat) in E by lia.
      apply (Qeq_from_sum _ _ _ E). unfold hlen. field. exact Hk.
    - pose proof (H (S f) ltac:(lia)) as E.
      rewrite row_fi, (HU f), (HU (S f)), (HU (S (S f))), IH in E by lia.
      apply (Qeq_from_sum _ _ _ E). unfold hlen. field. exact Hk. }
  (* the last flux equation then reads  U (x_n - x_0) / k = 0 *)
  assert (HU0 : v 0%nat == 0).
  { destruct (ncell xs) as [|g] eqn:En; [lia|].
    pose proof (H (S g) ltac:(lia)) as E.
    rewrite row_fn, (HU g), (HU (S g)), En, HP in E by lia. unfold hlen in E.
    assert (E2 : v 0%nat * (xn xs (S g) - xn xs 0) == 0).
    { rewrite <- (Qmult_0_l k), <- E. field. exact Hk. }
    apply Qmult_integral in E2. destruct E2 as [E2|E2]; [exact E2|]. exfalso. apply Hx. lra. }
  intros j Hj.
  destruct (Nat.le_gt_cases j (ncell xs)) as [Hle|Hgt].
  - rewrite (HU j Hle). exact HU0.
  - replace j with (S (ncell xs) + (j - S (ncell xs)))%nat by lia.
    rewrite HP, HU0 by lia. field. exact Hk.
Qed.

(* A concrete instance: the real pp.RT0 system on the 1-D grid with nodes 0, 1, 3 (2 cells,
   3 faces), K = 2, all Dirichlet: assembled 5 x 5 matrix with the right-hand sides of the
   basis pressures x, y, z, 1 in columns 5..8, and the 3 x 3 mass matrix (entries h/(3K),
   h/(6K): not dyadic, so the certificates hold within the tolerance 1e-9, not exactly). *)
Definition ex_inst : inst :=
(mk_inst 3%nat 2%nat [[(2 # 1); (0 # 1); (0 # 1)]; [(0 # 1); (2 # 1); (0 # 1)]; [(0 # 1); (0 # 1);
(2 # 1)]] [[(1 # 1); (0 # 1); (0 # 1)]; [(0 # 1); (0 # 1); (0 # 1)]; [(0 # 1); (0 # 1); (0 # 1)]]
[[(1 # 1); (0 # 1); (0 # 1)]; [(1 # 1); (0 # 1); (0 # 1)]; [(1 # 1); (0 # 1); (0 # 1)]] [[(1 # 2);
(0 # 1); (0 # 1)]; [(2 # 1); (0 # 1); (0 # 1)]] [[(0 # 1); (0 # 1); (0 # 1)]; [(1 # 1); (0 # 1); (0
# 1)]; [(3 # 1); (0 # 1); (0 # 1)]] [[(0%nat, ((-1) # 1))]; [(0%nat, (1 # 1)); (1%nat, ((-1) # 1))];
[(1%nat, (1 # 1))]] [[(0%nat, (6004799503160661 # 36028797018963968)); (1%nat, (6004799503160661 #
72057594037927936)); (3%nat, (1 # 1)); (8%nat, ((-1) # 1))]; [(0%nat, (6004799503160661 #
72057594037927936)); (1%nat, (1 # 2)); (2%nat, (6004799503160661 # 36028797018963968)); (3%nat,
((-1) # 1)); (4%nat, (1 # 1))]; [(1%nat, (6004799503160661 # 36028797018963968)); (2%nat,
(6004799503160661 # 18014398509481984)); (4%nat, ((-1) # 1)); (5%nat, (3 # 1)); (8%nat, (1 # 1))];
[(0%nat, (1 # 1)); (1%nat, ((-1) # 1))]; [(1%nat, (1 # 1)); (2%nat, ((-1) # 1))]]
[[(6004799503160661 # 36028797018963968); (6004799503160661 # 72057594037927936); (0 # 1)];
[(6004799503160661 # 72057594037927936); (1 # 2); (6004799503160661 # 36028797018963968)]; [(0 # 1);
(6004799503160661 # 36028797018963968); (6004799503160661 # 18014398509481984)]] [(0 # 1); (1 # 1);
(3 # 1)] (Some ([[(5192296858534827628530496329220096 # 1); (5192296858534827628530496329220096 #
1); (5192296858534827628530496329220096 # 1); (6490371073168534319490338297741312 # 1);
(2596148429267413670150060088754176 # 1)]; [(5192296858534827628530496329220096 # 1);
(5192296858534827628530496329220096 # 1); (5192296858534827628530496329220096 # 1);
((-1298074214633706835075030044377088) # 1); (2596148429267413670150060088754176 # 1)];
[(5192296858534827628530496329220096 # 1); (5192296858534827628530496329220096 # 1);
(5192296858534827628530496329220096 # 1); ((-1298074214633706835075030044377088) # 1);
((-5192296858534827484415308253364224) # 1)]; [(6490371073168534319490338297741312 # 1);
((-1298074214633706835075030044377088) # 1); ((-1298074214633706835075030044377088) # 1);
((-973555660975280096282275017479511) # 1); ((-649037107316853381508718003224578) # 1)];
[(2596148429267413670150060088754176 # 1); (2596148429267413670150060088754176 # 1);
((-5192296858534827484415308253364224) # 1); ((-649037107316853381508718003224578) # 1);
((-1298074214633706811055832031734444) # 1)]], (7788445287802241154565368342118400 # 1))) [(mk_local
2%nat 2%nat [[(6004799503160661 # 36028797018963968); (6004799503160661 # 72057594037927936)];
[(6004799503160661 # 72057594037927936); (6004799503160661 # 36028797018963968)]]
[[(6004799503160661 # 36028797018963968); (6004799503160661 # 72057594037927936)];
[(6004799503160661 # 72057594037927936); (6004799503160661 # 36028797018963968)]] [[(0 # 1); (1 #
1)]; [(1 # 1); (0 # 1)]]); (mk_local 2%nat 2%nat [[(6004799503160661 # 18014398509481984);
(6004799503160661 # 36028797018963968)]; [(6004799503160661 # 36028797018963968); (6004799503160661
# 18014398509481984)]] [[(6004799503160661 # 72057594037927936); (6004799503160661 #
144115188075855872)]; [(6004799503160661 # 144115188075855872); (6004799503160661 #
72057594037927936)]] [[(0 # 1); (2 # 1)]; [(2 # 1); (0 # 1)]])]).

Lemma ex_inst_locals : forallb (local_ok (1 # 1000000000)) (i_locals ex_inst) = true.
Proof. vm_compute. reflexivity. Qed.

Lemma ex_inst_check : check (1 # 1000000000) ex_inst = true.
Proof.
  unfold check. rewrite ex_inst_locals, andb_true_r. vm_compute. reflexivity.
Qed.

Lemma check_inv : forall tol I N d,
  check tol I = true -> i_inv I = Some (N, d) ->
  inv_ok (i_nf I + i_nc I) (i_rows I) N d = true.
Proof.
  intros tol I N d H E. apply andb_prop in H as [[_ H]%andb_prop _].
  unfold inv_cert_ok in H. rewrite E in H. exact H.
Qed.

Lemma check_tie_1d : forall tol I,
  check tol I = true -> i_xs I <> [] ->
  agree_1d tol (i_xs I) (nth 0 (nth 0 (i_K I) []) 0) (i_rows I) = true.
Proof.
  intros tol I H E. apply andb_prop in H as [[[_ H]%andb_prop _]%andb_prop _].
  unfold tie_1d_ok in H. destruct (i_xs I) as [|x xs]; [congruence|].
  apply andb_prop in H. apply H.
Qed.

Lemma check_locals : forall tol I L,
  check tol I = true -> In L (i_locals I) -> local_ok tol L = true.
Proof.
  intros tol I L H HL. apply andb_prop in H.
  exact (proj1 (forallb_forall _ _) (proj2 H) L HL).
Qed.
