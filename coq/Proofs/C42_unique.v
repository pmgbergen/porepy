(* C42 — the assembled n-phase system has the closed form as its only solution; what
   _compute_saturations returns when no phase is saturated (the solver on the present phases)
   and when one is (the indicator of that phase). *)
From Coq Require Import List Reals Lra Lia Arith Bool.
Import ListNotations.
From PP Require Import Lib.ListFacts Model.C42 Proofs.C42.
Open Scope R_scope.

Lemma rhs_sum_le y rho : phases y rho -> rsum y <= 1 -> rsum (build_rhsR y rho) <= 0.
Proof.
  unfold build_rhsR, build_rhs.
  induction 1 as [|a r y rho Ha Hr Hp IH]; intros Hs; cbn [map2 tsum] in *; [lra|].
  pose proof (rsum_nonneg y (proj1 (phases_nonneg _ _ Hp))). specialize (IH ltac:(lra)). nra.
Qed.

(* C = sum_j rho_j (y_j - 1), the sum of the right-hand side, is negative for at least two
   phases on the simplex: some y_j < 1 among the first two *)
Lemma rhs_sum_negative y rho : phases y rho -> rsum y = 1 -> (2 <= length y)%nat ->
  rsum (build_rhsR y rho) < 0.
Proof.
  intros H Hs Hl. destruct H as [|a1 r1 ? ? Ha1 Hr1 [|a2 r2 y rho Ha2 Hr2 H]]; cbn in Hl; try lia.
  unfold build_rhsR, build_rhs. cbn [map2 tsum] in *.
  pose proof (rsum_nonneg y (proj1 (phases_nonneg _ _ H))).
  pose proof (rhs_sum_le y rho H ltac:(lra)) as Hrest. unfold build_rhsR, build_rhs in Hrest.
  destruct (Rlt_le_dec a1 1); [|assert (a2 = 0) by lra; subst a2]; nra.
Qed.

Lemma rsum_lin k B : forall y rho, length rho = length y ->
  rsum (map2 (fun r a => r * (a - 1) * k + a * B) rho y) = k * rsum (build_rhsR y rho) + B * rsum y.
Proof.
  unfold build_rhsR, build_rhs.
  induction y as [|a y IH]; intros [|r rho] Hl; try discriminate; cbn [map2 tsum]; [ring|].
  rewrite IH by (cbn in Hl; lia). ring.
Qed.

Lemma closed_solves_list y rho : phases y rho -> rsum y = 1 ->
  mat_vecR (build_matR y rho) (closedR y rho) = build_rhsR y rho.
Proof.
  intros H Hy. pose proof (phases_length _ _ H) as Hlen.
  assert (Hl : length (mat_vecR (build_matR y rho) (closedR y rho)) = length y)
    by (unfold mat_vecR, mat_vec; now rewrite map_length, build_mat_length).
  apply (nth_ext _ _ 0 0).
  - now rewrite Hl, build_rhs_length.
  - intros j Hj. rewrite Hl in Hj. now apply closed_solves_system.
Qed.

Lemma system_unique y rho s :
  phases y rho -> rsum y = 1 -> (2 <= length y)%nat -> length s = length y ->
  (forall j, (j < length y)%nat ->
     nth j (mat_vecR (build_matR y rho) s) 0 = nth j (build_rhsR y rho) 0) ->
  s = closedR y rho.
Proof.
  (* with A = sum s and B = rho . s, row j reads rho_j s_j = rho_j (y_j - 1) (1 - A) + y_j B;
     summing the rows gives (1 - A) C = 0 with C < 0, so A = 1 and s_j = (y_j / rho_j) B;
     summing again gives B = 1 / D *)
  intros H Hy Hn Hls Hsys. pose proof (phases_length _ _ H) as Hlen.
  pose proof (D_pos _ _ H ltac:(lra)) as HD.
  set (A := rsum s). set (B := rdot rho s).
  assert (Hrow : forall j, (j < length y)%nat ->
            nth j rho 0 * nth j s 0 = nth j rho 0 * (nth j y 0 - 1) * (1 - A) + nth j y 0 * B).
  { intros j Hj. specialize (Hsys j Hj). rewrite system_row, rhs_row in Hsys by assumption.
    fold A B in Hsys. lra. }
  assert (HA : A = 1).
  { assert (L : map2 Rmult rho s = map2 (fun r a => r * (a - 1) * (1 - A) + a * B) rho y).
    { apply (nth_ext _ _ 0 0); [rewrite !map2_length; lia|].
      intros j Hj. rewrite map2_length in Hj by lia.
      rewrite (nth_map2 _ rho s j 0 0), (nth_map2 _ rho y j 0 0) by lia. apply Hrow. lia. }
    apply (f_equal rsum) in L. rewrite rsum_lin, Hy in L by assumption.
    change (rsum (map2 Rmult rho s)) with B in L.
    pose proof (rhs_sum_negative y rho H Hy Hn). nra. }
  assert (Hs : s = map (fun q => q * B) (map2 Rdiv y rho)).
  { apply (nth_ext _ _ 0 (0 * B)); [rewrite map_length, map2_length; lia|].
    intros j Hj. rewrite Hls in Hj. destruct (phases_nth _ _ H j Hj) as [_ Hrj].
    rewrite (map_nth (fun q => q * B)), (nth_map2 Rdiv y rho j 0 0) by lia.
    specialize (Hrow j Hj). rewrite HA in Hrow.
    apply (Rmult_eq_reg_l (nth j rho 0)); [|lra]. rewrite Hrow. field. lra. }
  assert (HB : B = 1 / rsum (map2 Rdiv y rho)).
  { apply (f_equal rsum) in Hs. rewrite rsum_scale_r in Hs. fold A in Hs.
    rewrite HA in Hs. rewrite Hs. field. lra. }
  rewrite Hs, HB. apply map_ext. intros q. field. lra.
Qed.

(* the contract of np.linalg.solve: a solution is returned whenever one exists *)
Definition solver (solve : list (list R) -> list R -> list R) : Prop :=
  forall M b s, length s = length b -> mat_vecR M s = b ->
                mat_vecR M (solve M b) = b /\ length (solve M b) = length b.

Lemma solve_closed solve y rho : solver solve -> phases y rho -> rsum y = 1 ->
  (2 <= length y)%nat -> solve (build_matR y rho) (build_rhsR y rho) = closedR y rho.
Proof.
  intros Hsolve H Hy Hn. pose proof (phases_length _ _ H) as Hlen.
  pose proof (build_rhs_length y rho Hlen) as Hlb.
  destruct (Hsolve (build_matR y rho) (build_rhsR y rho) (closedR y rho)) as [Hsol Hsl].
  - now rewrite closed_length, Hlb.
  - now apply closed_solves_list.
  - apply system_unique; try assumption; [lia|]. intros j Hj. now rewrite Hsol.
Qed.

Lemma select_present eps : 0 < eps -> forall y rho, phases y rho ->
  Forall (fun a => a = 0 \/ eps < a) y ->
  let nv := map (fun a => Rltb eps a) y in
  phases (select nv y) (select nv rho) /\
  rsum (select nv y) = rsum y /\
  rsum (map2 Rdiv (select nv y) (select nv rho)) = rsum (map2 Rdiv y rho) /\
  (forall P : R -> Prop, Forall P y -> Forall P (select nv y)) /\
  forall D, scatter R 0 nv (map (fun q => q / D) (map2 Rdiv (select nv y) (select nv rho)))
            = map (fun q => q / D) (map2 Rdiv y rho).
Proof.
  intros He y rho H. induction H as [|a r y rho Ha Hr Hp IH]; intros Hf; cbn zeta in *.
  - repeat split; try constructor.
  - inversion Hf as [|? ? Hfa Hf']; subst. destruct (IH Hf') as (I1 & I2 & I3 & I4 & I5).
    cbn [map]. destruct (Rltb_spec eps a) as [Hgt|Hle]; cbn [select map2 map tsum scatter].
    + rewrite I2, I3. repeat split; [now constructor| |intros D; now rewrite I5].
      intros P HP. inversion HP; subst. constructor; auto.
    + assert (a = 0) by (destruct Hfa; lra). subst a.
      replace (0 / r) with 0 by (unfold Rdiv; ring). rewrite !Rplus_0_l, I2, I3.
      repeat split; [assumption| |intros D; rewrite I5; f_equal; unfold Rdiv; ring].
      intros P HP. inversion HP; subst. auto.
Qed.

(* three or more phases, each vanished or present, none carrying the whole sum: the solver's
   answer on the present phases, scattered back, is the closed form of all phases *)
Lemma unsaturated_closed solve y rho eps : solver solve -> phases y rho -> rsum y = 1 ->
  (3 <= length y)%nat -> 0 < eps ->
  Forall (fun a => a = 0 \/ eps < a) y -> Forall (fun a => a < 1) y ->
  unsaturated R 0 1 Rplus Rminus Rmult Rdiv Rltb solve y rho eps = closedR y rho.
Proof.
  intros Hsolve H Hy Hn He Hpres Hlt1. rewrite unsaturated_solve by lia. cbn zeta.
  change (build_mat R 0 1 Rminus Rmult) with build_matR.
  change (build_rhs R 1 Rminus Rmult) with build_rhsR.
  destruct (select_present eps He y rho H Hpres) as (Hp' & Hs' & HD' & Hsel & Hsc). cbn zeta in *.
  set (nv := map (fun a => Rltb eps a) y) in *.
  rewrite solve_closed; [unfold closedR, closed; now rewrite Hsc, HD'|assumption..| |]; [lra|].
  (* at least two present phases: a single one would carry the whole sum *)
  pose proof (Hsel _ Hlt1) as Hlt. destruct (select nv y) as [|a [|b y']]; cbn [length]; try lia;
    cbn in Hs'; [|inversion Hlt; subst]; lra.
Qed.

Definition ind (b : list bool) : list R := map (fun b : bool => if b then 1 else 0) b.
Definition satmask (eps : R) (y : list R) : list bool := map (fun a => Rleb (1 - eps) a) y.

Lemma ind_nonneg b : Forall (fun s => 0 <= s) (ind b).
Proof. apply Forall_map, Forall_forall. intros [|] _; lra. Qed.

Lemma rsum_ind b : rsum (ind b) = INR (count b).
Proof.
  unfold count, ind. induction b as [|[|] b IH]; cbn [map tsum filter length];
    rewrite ?S_INR, ?IH; cbn; ring.
Qed.

Lemma zero_mask : forall b rho c, length rho = length b -> count b = 0%nat ->
  rsum (map2 Rmult rho (ind b)) = 0 /\ map (fun a => a / c) (map2 Rmult rho (ind b)) = ind b.
Proof.
  unfold count, ind. induction b as [|[|] b IH]; intros [|r rho] c Hl Hc; try discriminate.
  - split; reflexivity.
  - cbn [filter] in Hc. destruct (IH rho c) as [I1 I2]; [cbn in Hl; lia|assumption|].
    cbn [map map2 tsum]. rewrite I1, I2. split; [ring|f_equal; unfold Rdiv; ring].
Qed.

Lemma fractions_ind : forall b rho, length rho = length b -> Forall (fun r => 0 < r) rho ->
  (count b <= 1)%nat -> fractions_ofR (ind b) rho = ind b.
Proof.
  unfold fractions_ofR, fractions_of, count.
  induction b as [|[|] b IH]; intros [|r rho] Hl Hp Hc; try discriminate; [reflexivity| |];
    inversion Hp as [|? ? Hr Hp']; subst; cbn [filter length] in Hc.
  - destruct (zero_mask b rho (r * 1 + 0)) as [Z1 Z2]; [cbn in Hl; lia|unfold count; lia|].
    change (ind (true :: b)) with (1 :: ind b). cbn [map2 map tsum]. rewrite Z1, Z2.
    f_equal. field. lra.
  - change (ind (false :: b)) with (0 :: ind b). cbn [map2 map tsum].
    rewrite Rmult_0_r, Rplus_0_l, IH by (auto; cbn in Hl; lia). f_equal. unfold Rdiv. ring.
Qed.

Lemma pair_le_sum : forall y j k, Forall (fun a => 0 <= a) y -> j <> k ->
  (j < length y)%nat -> (k < length y)%nat -> nth j y 0 + nth k y 0 <= rsum y.
Proof.
  induction y as [|a y IH]; intros j k Hn Hne Hj Hk; [cbn in Hj; lia|].
  inversion Hn as [|? ? Ha Hn']; subst.
  destruct j as [|j], k as [|k]; try lia; cbn [nth tsum].
  - pose proof (nth_le_rsum y k Hn'). lra.
  - pose proof (nth_le_rsum y j Hn'). lra.
  - specialize (IH j k Hn' ltac:(lia) ltac:(cbn in Hj; lia) ltac:(cbn in Hk; lia)). lra.
Qed.

Lemma one_saturated eps y j : eps < 1 / 2 -> Forall (fun a => 0 <= a) y -> rsum y = 1 ->
  (j < length y)%nat -> 1 - eps <= nth j y 0 -> count (satmask eps y) = 1%nat.
Proof.
  intros He Hnn Hy Hj Hsat. apply Nat.le_antisymm.
  - apply (count_le_one _ eps); auto. intros a. destruct (Rleb_spec (1 - eps) a); [lra|discriminate].
  - apply (count_nth _ 0 y j Hj). now destruct (Rleb_spec (1 - eps) (nth j y 0)).
Qed.

Lemma ind_satmask_close eps y j k : Forall (fun a => 0 <= a) y -> rsum y = 1 ->
  (j < length y)%nat -> 1 - eps <= nth j y 0 -> (k < length y)%nat ->
  Rabs (nth k (ind (satmask eps y)) 0 - nth k y 0) <= eps.
Proof.
  intros Hnn Hy Hj Hsat Hk. unfold ind, satmask. rewrite map_map.
  rewrite (nth_map_lt (fun a => if Rleb (1 - eps) a then 1 else 0) y k 0) by assumption.
  pose proof (nth_le_rsum y k Hnn) as Hk1. rewrite Hy in Hk1.
  pose proof (proj1 (Forall_nth _ y) Hnn k 0 Hk) as Hk0. cbn beta in Hk0.
  destruct (Rleb_spec (1 - eps) (nth k y 0)); apply Rabs_le; [lra|].
  destruct (Nat.eq_dec j k) as [->|Hne]; [lra|].
  pose proof (pair_le_sum y j k Hnn Hne Hj Hk). lra.
Qed.

Section InnerR.
  Variable solve : list (list R) -> list R -> list R.
  Variables (y rho : list R) (eps : R).
  Hypothesis Hlen : length y <> 1%nat.
  Notation inner := (compute_saturations_inner R 0 1 Rplus Rminus Rmult Rdiv Rltb Rleb solve y rho eps).

  Lemma inner_unsaturated : Forall (fun a => a < 1 - eps) y ->
    inner = inr (unsaturated R 0 1 Rplus Rminus Rmult Rdiv Rltb solve y rho eps).
  Proof.
    intros H. rewrite inner_eq by assumption. cbn zeta.
    now rewrite existsb_count, count_none
      by (refine (Forall_impl _ _ H); intros a Ha; destruct (Rleb_spec (1 - eps) a); [lra|reflexivity]).
  Qed.

  Lemma inner_saturated : count (satmask eps y) = 1%nat -> inner = inr (ind (satmask eps y)).
  Proof.
    intros Hc. rewrite inner_eq by assumption. cbn zeta. fold (satmask eps y).
    now rewrite existsb_count, Hc.
  Qed.
End InnerR.
