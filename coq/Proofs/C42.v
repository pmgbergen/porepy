(* C42 — the instance over the reals of the polymorphic model PP.Model.C42: the closed form,
   the assembled linear system row by row, and the steps every call goes through. *)
From Coq Require Import List Reals Lra Lia Arith Bool.
Import ListNotations.
From PP Require Import Lib.ListFacts Model.C42.
Open Scope R_scope.

Lemma map2_length {A B C} (g : A -> B -> C) : forall l m, length l = length m ->
  length (map2 g l m) = length l.
Proof. induction l as [|a l IH]; intros [|b m] H; cbn in *; try lia. rewrite IH; lia. Qed.

Lemma nth_map2 {A B C} (g : A -> B -> C) : forall (l : list A) (m : list B) i da db dc,
  (i < length l)%nat -> (i < length m)%nat ->
  nth i (map2 g l m) dc = g (nth i l da) (nth i m db).
Proof.
  induction l as [|a l IH]; intros [|b m] i da db dc Hl Hm; cbn in Hl, Hm; try lia.
  destruct i as [|i]; cbn [map2 nth]; [reflexivity|]. apply IH; lia.
Qed.

Lemma map_map2 {A B C D} (h : C -> D) (f : A -> B -> C) : forall l m,
  map h (map2 f l m) = map2 (fun a b => h (f a b)) l m.
Proof. induction l as [|a l IH]; intros [|b m]; cbn [map2 map]; try reflexivity. now rewrite IH. Qed.

Lemma map2_map {A A' B B' C} (f : A' -> B' -> C) (g : A -> A') (h : B -> B') : forall l m,
  map2 f (map g l) (map h m) = map2 (fun a b => f (g a) (h b)) l m.
Proof. induction l as [|a l IH]; intros [|b m]; cbn [map2 map]; try reflexivity. now rewrite IH. Qed.

Lemma map2_map_r {A B C D} (g : A -> C -> D) (h : B -> C) (l : list A) (m : list B) :
  map2 g l (map h m) = map2 (fun a b => g a (h b)) l m.
Proof. rewrite <- (map_id l) at 1. apply map2_map. Qed.

Lemma map2_ext_in {A B C} (f g : A -> B -> C) : forall l m,
  (forall a b, In b m -> f a b = g a b) -> map2 f l m = map2 g l m.
Proof.
  induction l as [|a l IH]; intros [|b m] H; cbn [map2]; try reflexivity.
  rewrite H by now left. f_equal. apply IH. intros; apply H; now right.
Qed.

Lemma combine_map {A A' B B'} (g : A -> A') (h : B -> B') : forall l m,
  combine (map g l) (map h m) = map (fun p => (g (fst p), h (snd p))) (combine l m).
Proof. induction l as [|a l IH]; intros [|b m]; cbn [combine map]; try reflexivity. now rewrite IH. Qed.

Lemma existsb_count mask : existsb (fun b => b) mask = negb (Nat.eqb (count mask) 0).
Proof. unfold count. induction mask as [|[|] mask IH]; cbn; auto. Qed.

Lemma count_none {A} (p : A -> bool) l : Forall (fun a => p a = false) l -> count (map p l) = 0%nat.
Proof. unfold count. induction 1 as [|a l Ha _ IH]; cbn; [|rewrite Ha]; auto. Qed.

Lemma count_nth {A} (p : A -> bool) d : forall l j, (j < length l)%nat -> p (nth j l d) = true ->
  (1 <= count (map p l))%nat.
Proof.
  unfold count. induction l as [|a l IH]; intros [|j] Hj Hp; cbn in *; try lia.
  - rewrite Hp. cbn. lia.
  - specialize (IH j ltac:(lia) Hp). destruct (p a); cbn; lia.
Qed.

Definition Rltb (a b : R) : bool := if Rlt_dec a b then true else false.
Definition Rleb (a b : R) : bool := if Rle_dec a b then true else false.

Lemma Rltb_spec a b : reflect (a < b) (Rltb a b).
Proof. unfold Rltb. destruct (Rlt_dec a b); constructor; assumption. Qed.

Lemma Rleb_spec a b : reflect (a <= b) (Rleb a b).
Proof. unfold Rleb. destruct (Rle_dec a b); constructor; assumption. Qed.

Notation rsum := (tsum R 0 Rplus).
Notation rdot := (dot R 0 Rplus Rmult).
Definition closedR := closed R 0 Rplus Rdiv.
Definition fractions_ofR := fractions_of R 0 Rplus Rmult Rdiv.
Definition build_matR := build_mat R 0 1 Rminus Rmult.
Definition build_rhsR := build_rhs R 1 Rminus Rmult.
Definition mat_vecR := mat_vec R 0 Rplus Rmult.
Definition dxnR := dxn R 0 1 Rplus Rminus Rmult Rdiv.
Definition normalizeR := normalize R 0 Rplus Rdiv.
Definition normalize_rowsR := normalize_rows R 0 Rplus Rdiv.
Definition chainruleR := chainrule R 0 1 Rplus Rminus Rmult Rdiv.
Definition satR (solve : list (list R) -> list R -> list R) :=
  compute_saturations R 0 1 Rplus Rminus Rmult Rdiv Rltb Rleb solve.

Inductive phases : list R -> list R -> Prop :=
| ph_nil : phases [] []
| ph_cons a r y rho : 0 <= a -> 0 < r -> phases y rho -> phases (a :: y) (r :: rho).

Lemma rsum_scale_r B l : rsum (map (fun q => q * B) l) = rsum l * B.
Proof. induction l as [|a l IH]; cbn [map tsum]; [|rewrite IH]; ring. Qed.

Lemma rsum_scale c l : rsum (map (fun a => a / c) l) = rsum l / c.
Proof. exact (rsum_scale_r (/ c) l). Qed.

Lemma rsum_nonneg l : Forall (fun a => 0 <= a) l -> 0 <= rsum l.
Proof. induction 1; cbn [tsum]; lra. Qed.

Lemma nth_le_rsum l k : Forall (fun a => 0 <= a) l -> nth k l 0 <= rsum l.
Proof.
  intros H. revert k. induction H as [|a l Ha Hl IH]; intros [|k]; cbn [nth tsum]; try lra.
  - pose proof (rsum_nonneg l Hl). lra.
  - specialize (IH k). lra.
Qed.

Lemma phases_length y rho : phases y rho -> length rho = length y.
Proof. induction 1; cbn; lia. Qed.

Lemma phases_nonneg y rho : phases y rho -> Forall (fun a => 0 <= a) y /\ Forall (fun r => 0 < r) rho.
Proof. induction 1 as [|a r y rho Ha Hr _ [I1 I2]]; split; constructor; assumption. Qed.

Lemma phases_nth y rho : phases y rho -> forall j, (j < length y)%nat ->
  0 <= nth j y 0 /\ 0 < nth j rho 0.
Proof.
  induction 1 as [|a r y rho Ha Hr _ IH]; intros [|j] Hj; cbn in Hj; try lia; cbn [nth]; auto.
  apply IH. lia.
Qed.

Lemma phases_q_nonneg y rho : phases y rho -> Forall (fun q => 0 <= q) (map2 Rdiv y rho).
Proof.
  induction 1 as [|a r y rho Ha Hr _ IH]; cbn [map2]; constructor; [|exact IH].
  now apply Rle_mult_inv_pos.
Qed.

Lemma D_pos y rho : phases y rho -> 0 < rsum y -> 0 < rsum (map2 Rdiv y rho).
Proof.
  induction 1 as [|a r y rho Ha Hr Hp IH]; cbn [tsum map2]; intros Hs; [lra|].
  pose proof (rsum_nonneg _ (phases_q_nonneg _ _ Hp)).
  destruct (Rle_lt_or_eq_dec 0 a Ha) as [Hpos|<-].
  - pose proof (Rdiv_lt_0_compat a r Hpos Hr). lra.
  - unfold Rdiv at 1. rewrite Rmult_0_l, Rplus_0_l in *. auto.
Qed.

Lemma closed_length y rho : length rho = length y -> length (closedR y rho) = length y.
Proof. intros H. unfold closedR, closed. rewrite map_length. now apply map2_length. Qed.

Lemma closed_nth y rho j : length rho = length y -> (j < length y)%nat ->
  nth j (closedR y rho) 0 = nth j y 0 / nth j rho 0 / rsum (map2 Rdiv y rho).
Proof.
  intros H Hj. unfold closedR, closed. set (D := rsum (map2 Rdiv y rho)).
  now rewrite (nth_map_lt (fun a => a / D) _ j 0), (nth_map2 Rdiv y rho j 0 0 0)
    by (rewrite ?map2_length; lia).
Qed.

Lemma closed_nonneg y rho : phases y rho -> rsum y = 1 -> Forall (fun s => 0 <= s) (closedR y rho).
Proof.
  intros H Hy. pose proof (D_pos _ _ H ltac:(lra)) as HD.
  apply Forall_map. apply (Forall_impl _ (fun q Hq => Rle_mult_inv_pos q _ Hq HD)).
  now apply phases_q_nonneg.
Qed.

Lemma closed_sum_one y rho : phases y rho -> rsum y = 1 -> rsum (closedR y rho) = 1.
Proof.
  intros H Hy. pose proof (D_pos _ _ H ltac:(lra)).
  unfold closedR, closed. rewrite rsum_scale. field. lra.
Qed.

Lemma rho_s_is_y_over_D D : forall y rho, phases y rho ->
  map2 Rmult rho (map (fun a => a / D) (map2 Rdiv y rho)) = map (fun a => a / D) y.
Proof.
  induction 1 as [|a r y rho Ha Hr _ IH]; cbn [map2 map]; [reflexivity|].
  rewrite IH. f_equal. unfold Rdiv. generalize (/ D). intros i. field. lra.
Qed.

Lemma rdot_closed y rho : phases y rho ->
  rdot rho (closedR y rho) = rsum y / rsum (map2 Rdiv y rho).
Proof. intros H. unfold dot, closedR, closed. now rewrite rho_s_is_y_over_D, rsum_scale. Qed.

Lemma normalize_sum_one x : rsum x <> 0 -> rsum (normalizeR x) = 1.
Proof. intros H. unfold normalizeR, normalize. rewrite rsum_scale. now field. Qed.

Lemma normalize_one x : rsum x = 1 -> normalizeR x = x.
Proof.
  intros H. unfold normalizeR, normalize. rewrite H. rewrite <- (map_id x) at 2.
  apply map_ext. intros a. field.
Qed.

Lemma closed_fractions y rho : phases y rho -> 0 < rsum y ->
  fractions_ofR (closedR y rho) rho = normalizeR y.
Proof.
  intros H Hy. pose proof (D_pos _ _ H Hy).
  unfold fractions_ofR, fractions_of. fold (rdot rho (closedR y rho)).
  rewrite rdot_closed by assumption. unfold closedR, closed.
  rewrite rho_s_is_y_over_D, map_map by assumption.
  apply map_ext. intros a. field. lra.
Qed.

Lemma dot_row c yj j : forall rho s a, length s = length rho ->
  rdot (map2 (fun k rk => if Nat.eqb k j then 0 else c - rk * yj) (seq a (length rho)) rho) s
  = c * rsum s - yj * rdot rho s
    - (if (a <=? j)%nat then (c - nth (j - a) rho 0 * yj) * nth (j - a) s 0 else 0).
Proof.
  unfold dot. induction rho as [|r rho IH]; intros [|x s] a Hl; try discriminate;
    cbn [length seq map2 tsum].
  - destruct (a <=? j)%nat, (j - a)%nat; cbn [nth]; ring.
  - rewrite IH by (cbn in Hl; lia).
    destruct (Nat.leb_spec a j), (Nat.leb_spec (S a) j), (Nat.eqb_spec a j); try lia.
    + replace (j - a)%nat with (S (j - S a)) by lia. cbn [nth]. ring.
    + subst a. rewrite Nat.sub_diag. cbn [nth]. ring.
    + ring.
Qed.

Lemma build_mat_length y rho : length rho = length y -> length (build_matR y rho) = length y.
Proof.
  intros H. unfold build_matR, build_mat.
  rewrite map2_length; rewrite seq_length; [|rewrite combine_length]; lia.
Qed.

(* row j of the system matrix times s, with rho_j (y_j - 1) - rho_j y_j = - rho_j *)
Lemma system_row y rho s j : length rho = length y -> length s = length y -> (j < length y)%nat ->
  nth j (mat_vecR (build_matR y rho) s) 0
  = nth j rho 0 * (nth j y 0 - 1) * rsum s - nth j y 0 * rdot rho s + nth j rho 0 * nth j s 0.
Proof.
  intros Hr Hs Hj. unfold mat_vecR, mat_vec.
  rewrite (nth_map_lt (fun row => rdot row s) _ j []) by (rewrite build_mat_length; lia).
  unfold build_matR, build_mat.
  rewrite (nth_map2 _ _ _ j 0%nat (0, 0) [])
    by (rewrite ?seq_length, ?combine_length; lia).
  rewrite seq_nth, combine_nth by lia. cbn [plus fst snd]. unfold mat_row.
  rewrite dot_row by lia. cbn [Nat.leb]. rewrite Nat.sub_0_r. ring.
Qed.

Lemma build_rhs_length y rho : length rho = length y -> length (build_rhsR y rho) = length y.
Proof. intros H. unfold build_rhsR, build_rhs. rewrite map2_length; lia. Qed.

Lemma rhs_row y rho j : length rho = length y -> (j < length y)%nat ->
  nth j (build_rhsR y rho) 0 = nth j rho 0 * (nth j y 0 - 1).
Proof. intros Hr Hj. unfold build_rhsR, build_rhs. now rewrite (nth_map2 _ rho y j 0 0 0) by lia. Qed.

Lemma closed_solves_system y rho : phases y rho -> rsum y = 1 ->
  forall j, (j < length y)%nat ->
  nth j (mat_vecR (build_matR y rho) (closedR y rho)) 0 = nth j (build_rhsR y rho) 0.
Proof.
  intros H Hy j Hj. pose proof (phases_length _ _ H) as Hlen.
  pose proof (D_pos _ _ H ltac:(lra)). destruct (phases_nth _ _ H j Hj) as [_ Hrj].
  rewrite system_row, rhs_row, closed_sum_one, rdot_closed, closed_nth, Hy
    by (rewrite ?closed_length; auto).
  field. split; lra.
Qed.

Section Inner.
  Variable T : Type.
  Variables (zero one : T) (add sub mul div : T -> T -> T) (ltb leb : T -> T -> bool).
  Variable solve : list (list T) -> list T -> list T.

  (* the result of _compute_saturations when no phase is saturated: the analytic formula
     for two phases, the linear system on the present phases otherwise *)
  Definition unsaturated (y rho : list T) (eps : T) : list T :=
    match y, rho with
    | [_; y1], [rho0; rho1] =>
        let s0 := div one (add one (mul (div y1 (sub one y1)) (div rho0 rho1))) in [s0; sub one s0]
    | _, _ =>
        let nv := map (fun a => ltb eps a) y in
        scatter T zero nv (solve (build_mat T zero one sub mul (select nv y) (select nv rho))
                                 (build_rhs T one sub mul (select nv y) (select nv rho)))
    end.

  Lemma unsaturated_solve y rho eps : ~ (length y = 2 /\ length rho = 2)%nat ->
    unsaturated y rho eps =
    let nv := map (fun a => ltb eps a) y in
    scatter T zero nv (solve (build_mat T zero one sub mul (select nv y) (select nv rho))
                             (build_rhs T one sub mul (select nv y) (select nv rho))).
  Proof.
    intros N. destruct y as [|a [|b [|c y]]]; try reflexivity.
    destruct rho as [|r0 [|r1 [|r2 rho]]]; try reflexivity. now elim N.
  Qed.

  (* _compute_saturations for other than one phase: the saturation tests come first *)
  Lemma inner_eq y rho eps : length y <> 1%nat ->
    compute_saturations_inner T zero one add sub mul div ltb leb solve y rho eps =
    let saturated := map (fun a => leb (sub one eps) a) y in
    if existsb (fun b => b) saturated && negb (Nat.eqb (count saturated) 1) then inl AssertErr
    else if existsb (fun b => b) saturated
    then inr (map (fun b : bool => if b then one else zero) saturated)
    else inr (unsaturated y rho eps).
  Proof.
    intros Hl. destruct y as [|a [|b [|c y]]]; [reflexivity|now elim Hl| |reflexivity].
    destruct rho as [|r0 [|r1 [|r2 rho]]]; reflexivity.
  Qed.
End Inner.

Lemma count_bound (p : R -> bool) t : 0 <= t -> (forall a, p a = true -> t <= a) ->
  forall s, Forall (fun a => 0 <= a) s -> INR (count (map p s)) * t <= rsum s.
Proof.
  intros Ht Hp. unfold count.
  induction 1 as [|a s Ha _ IH]; cbn [map filter length tsum]; [cbn; lra|].
  destruct (p a) eqn:E; [|lra]. apply Hp in E. cbn [length]. rewrite S_INR. lra.
Qed.

Lemma count_le_one (p : R -> bool) eps s : eps < 1 / 2 -> (forall a, p a = true -> 1 - eps <= a) ->
  Forall (fun a => 0 <= a) s -> rsum s = 1 -> (count (map p s) <= 1)%nat.
Proof.
  intros He Hp Hs H1. pose proof (count_bound p (1 - eps) ltac:(lra) Hp s Hs) as Hb.
  apply Nat.nlt_ge. intros Hgt. apply le_INR in Hgt. cbn [INR] in Hgt. nra.
Qed.

(* the two multi-saturation checks of compute_saturations *)
Lemma at_most_one_large eps s : eps < 1 / 2 -> Forall (fun a => 0 <= a) s -> rsum s = 1 ->
  Nat.ltb 1 (count (map (fun a => Rltb (1 - eps) a) s)) = false.
Proof.
  intros He Hs H1. apply Nat.ltb_ge. apply (count_le_one _ eps); auto.
  intros a. destruct (Rltb_spec (1 - eps) a); [lra|discriminate].
Qed.

(* compute_saturations around _compute_saturations, for vectors on the simplex *)
Lemma satR_inr solve y rho eps s : eps < 1 / 2 -> length rho = length y ->
  Forall (fun a => 0 <= a) y -> rsum y = 1 ->
  compute_saturations_inner R 0 1 Rplus Rminus Rmult Rdiv Rltb Rleb solve y rho eps = inr s ->
  Forall (fun a => 0 <= a) s -> rsum s = 1 ->
  satR solve y rho eps = inr s.
Proof.
  intros He Hl Hy Hy1 Hin Hs Hs1. unfold satR, compute_saturations.
  now rewrite Hl, Nat.eqb_refl, at_most_one_large, Hin, at_most_one_large.
Qed.
