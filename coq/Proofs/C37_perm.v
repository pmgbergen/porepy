(* C37 — permuted block-diagonal matrices: Q . B^-1 . P inverts A when P . A . Q = B;
   permutation matrices of mutually inverse index lists are mutually inverse; the row
   slicer is the product with a permutation matrix. *)
From Coq Require Import List Arith Bool Lia Ring.
Import ListNotations.
From PP Require Import Lib.ListFacts Lib.Dense Proofs.C37_dense Model.C37.

Section PermAlg.
  Variable T : Type.
  Variables (zero one : T) (add mul sub : T -> T -> T) (opp : T -> T).
  Hypothesis Rth : ring_theory zero one add mul sub opp eq.

  Notation mm n := (mat_mul zero add mul n).
  Notation I n := (identity zero one n).
  Notation width := (width T).

  Definition sq (n : nat) (X : list (list T)) : Prop := length X = n /\ width n X.

  Lemma sq_mul : forall n X Y, sq n X -> sq n Y -> sq n (mm n X Y).
  Proof. intros n X Y. apply shaped_mat_mul. Qed.

  Lemma sq_id : forall n, sq n (I n).
  Proof. intros n. apply shaped_identity. Qed.

  Lemma mm_assoc : forall n X Y Z, sq n Y -> sq n Z -> mm n (mm n X Y) Z = mm n X (mm n Y Z).
  Proof. intros n X Y Z [_ WY] [_ WZ]. apply (mat_mul_assoc T zero one add mul sub opp Rth); assumption. Qed.

  Lemma mm_id_l : forall n X, sq n X -> mm n (I n) X = X.
  Proof. intros n X [<- W]. apply (mat_mul_identity_l T zero one add mul sub opp Rth), W. Qed.

  Lemma mm_id_r : forall n X, sq n X -> mm n X (I n) = X.
  Proof. intros n X [_ W]. apply (mat_mul_identity_r T zero one add mul sub opp Rth), W. Qed.

  Lemma cancel : forall n X Y Y' Z, sq n Y -> sq n Y' -> sq n Z ->
    mm n Y' Y = I n -> mm n (mm n X Y') (mm n Y Z) = mm n X Z.
  Proof.
    intros n X Y Y' Z SY SY' SZ H.
    rewrite mm_assoc, <- (mm_assoc n Y' Y Z), H, mm_id_l by auto using sq_mul. reflexivity.
  Qed.

  (* Q . B^-1 . P is the two-sided inverse of A when P . A . Q = B and P, Q are invertible
     with inverses P', Q' (for permutation matrices: their transposes) *)
  Theorem perm_inverse : forall n A B Bi P P' Q Q',
    sq n A -> sq n B -> sq n Bi -> sq n P -> sq n P' -> sq n Q -> sq n Q' ->
    mm n P P' = I n -> mm n P' P = I n -> mm n Q Q' = I n -> mm n Q' Q = I n ->
    mm n B Bi = I n -> mm n Bi B = I n ->
    mm n (mm n P A) Q = B ->
    mm n A (mm n (mm n Q Bi) P) = I n /\ mm n (mm n (mm n Q Bi) P) A = I n.
  Proof.
    intros n A B Bi P P' Q Q' SA SB SBi SP SP' SQ SQ' PP' P'P QQ' Q'Q BBi BiB HB.
    assert (HA : A = mm n P' (mm n B Q')).
    { rewrite <- HB, (mm_assoc n (mm n P A) Q Q'), QQ', mm_id_r, <- mm_assoc, P'P, mm_id_l
        by auto using sq_mul. reflexivity. }
    rewrite HA. split.
    - rewrite (mm_assoc n Q Bi P), <- (mm_assoc n P' B Q') by assumption.
      rewrite (cancel n (mm n P' B) Q Q'), (cancel n P' Bi B) by auto using sq_mul. exact P'P.
    - rewrite (cancel n (mm n Q Bi) P' P), (cancel n Q B Bi) by auto using sq_mul. exact QQ'.
  Qed.

  Notation pm n p := (perm_mat zero one n p).

  Lemma sq_perm_mat : forall n p, length p = n -> sq n (pm n p).
  Proof.
    intros n p L. split; [unfold perm_mat; rewrite map_length; exact L|].
    apply width_map. intros x _. apply unit_row_length.
  Qed.

  (* (perm_mat p) . A = A[p, :]  -- the "onto" ArraySlicer *)
  Lemma perm_mat_select : forall n w p A, length A = n -> width w A -> Forall (fun x => x < n) p ->
    mat_mul zero add mul w (pm n p) A = select_rows zero A p w.
  Proof.
    intros n w p A L W F. unfold mat_mul, perm_mat, select_rows. rewrite map_map.
    apply map_ext_in. intros x Hx. rewrite Forall_forall in F.
    apply (vecmat_unit_row T zero one add mul sub opp Rth); auto.
  Qed.

  Lemma perm_mat_compose : forall n p p', length p' = n -> Forall (fun x => x < n) p ->
    mm n (pm n p) (pm n p') = pm n (map (fun x => nth x p' 0) p).
  Proof.
    intros n p p' L F.
    rewrite (perm_mat_select n n p (pm n p')) by (exact F || apply sq_perm_mat, L).
    unfold select_rows, perm_mat. rewrite map_map. apply map_ext_in. intros x Hx.
    rewrite Forall_forall in F. apply nth_map_lt. rewrite L. exact (F x Hx).
  Qed.

  Theorem perm_mat_inverse : forall n p p', length p = n -> length p' = n ->
    Forall (fun x => x < n) p -> Forall (fun x => x < n) p' ->
    map (fun x => nth x p' 0) p = seq 0 n -> map (fun x => nth x p 0) p' = seq 0 n ->
    mm n (pm n p) (pm n p') = I n /\ mm n (pm n p') (pm n p) = I n.
  Proof.
    intros n p p' L L' F F' E E'. rewrite !perm_mat_compose, E, E' by assumption. split; reflexivity.
  Qed.
End PermAlg.
