(* C11 / C13 — an approximate left inverse certifies that a local system determines its
   solution: if B A = I + E with every row of E of 1-norm <= q < 1, then A is injective,
   so a system A x = r has at most one solution.  (The code's float inverse is never an exact
   inverse; what the run-time certificate can establish exactly, in rational arithmetic, is
   the row bound on E = B A - I for the captured matrices A and B.) *)
From Coq Require Import List ZArith Bool Arith Lia Reals Lra.
Import ListNotations.
From PP Require Import Model.C11 Model.C13 Proofs.C11 Proofs.C13.
Local Open Scope R_scope.

Fixpoint maxn (n : nat) (f : nat -> R) : R :=
  match n with O => 0 | S n' => Rmax (maxn n' f) (f n') end.

Lemma maxn_ge n f j : (j < n)%nat -> f j <= maxn n f.
Proof.
  induction n as [|n IH]; intros Hj; [lia|]. cbn [maxn].
  destruct (Nat.eq_dec j n) as [E|NE]; [subst; apply Rmax_r|].
  eapply Rle_trans; [apply IH; lia | apply Rmax_l].
Qed.

Lemma maxn_le n f c : 0 <= c -> (forall j, (j < n)%nat -> f j <= c) -> maxn n f <= c.
Proof.
  induction n as [|n IH]; intros Hc H; cbn [maxn]; [exact Hc|].
  apply Rmax_lub; [apply IH; auto | apply H; lia].
Qed.

Section ApproxInverse.
  Variables (n : nat) (A B : nat -> nat -> R) (q : R).
  Definition prodBA (i j : nat) : R := rsumn n (fun k => B i k * A k j).
  Definition idn (i j : nat) : R := if (i =? j)%nat then 1 else 0.
  Definition mulv (M : nat -> nat -> R) (x : nat -> R) (i : nat) : R := rsumn n (fun j => M i j * x j).

  Lemma mulv_minus M x y i : mulv M (fun j => x j - y j) i = mulv M x i - mulv M y i.
  Proof. unfold mulv. rewrite <- sumn_minus. apply sumn_ext. intros; ring. Qed.

  Lemma mulv_prodBA x i : mulv prodBA x i = rsumn n (fun k => B i k * mulv A x k).
  Proof.
    unfold mulv, prodBA.
    rewrite (sumn_ext n _ (fun j => rsumn n (fun k => B i k * (A k j * x j)))).
    - rewrite sumn_swap. apply sumn_ext. intros k _. apply sumn_scal_l.
    - intros j _. rewrite <- sumn_scal_r. apply sumn_ext. intros; ring.
  Qed.

  Hypothesis Hq : q < 1.
  Hypothesis Hrow : forall i, (i < n)%nat -> rsumn n (fun j => Rabs (prodBA i j - idn i j)) <= q.

  (* x = -(B A - I) x for x in the kernel of A, so max |x| <= q max |x| *)
  Lemma kernel_trivial :
    forall x : nat -> R, (forall i, (i < n)%nat -> mulv A x i = 0) -> forall j, (j < n)%nat -> x j = 0.
  Proof.
    intros x HAx j Hj.
    set (M := maxn n (fun j => Rabs (x j))).
    assert (Hbound : forall i, (i < n)%nat -> Rabs (x i) <= q * M).
    { intros i Hi.
      replace (x i) with (- rsumn n (fun j => (prodBA i j - idn i j) * x j)).
      - rewrite Rabs_Ropp.
        eapply Rle_trans; [exact (sumn_abs_bound n _ x M (maxn_ge n (fun j => Rabs (x j))))|].
        apply Rmult_le_compat_r; [|apply Hrow, Hi].
        eapply Rle_trans; [apply Rabs_pos | exact (maxn_ge n (fun j => Rabs (x j)) j Hj)].
      - rewrite (sumn_ext n _ (fun j => prodBA i j * x j - idn i j * x j)) by (intros; ring).
        rewrite sumn_minus. fold (mulv prodBA x i). rewrite mulv_prodBA.
        rewrite sumn_zero by (intros k Hk; rewrite HAx by exact Hk; ring).
        unfold idn. rewrite sumn_delta by exact Hi. ring. }
    pose proof (Rabs_pos (x j)). pose proof (Hbound j Hj).
    pose proof (maxn_ge n (fun j => Rabs (x j)) j Hj : Rabs (x j) <= M).
    assert (M <= q * M) by (apply maxn_le; [lra | exact Hbound]).
    assert (M <= 0) by nra.
    pose proof (Rle_abs (x j)). pose proof (Rle_abs (- x j)). rewrite Rabs_Ropp in *. lra.
  Qed.

  Lemma unique_solution :
    forall (r x y : nat -> R),
      (forall i, (i < n)%nat -> mulv A x i = r i) ->
      (forall i, (i < n)%nat -> mulv A y i = r i) ->
      forall j, (j < n)%nat -> x j = y j.
  Proof.
    intros r x y Hx Hy j Hj. apply Rminus_diag_uniq.
    apply (kernel_trivial (fun j => x j - y j)); [|exact Hj].
    intros i Hi. rewrite mulv_minus, Hx, Hy by exact Hi. ring.
  Qed.
End ApproxInverse.

(* non-vacuity: A = [[2,1],[1,3]], B = [[0.6,-0.2],[-0.2,0.4]] (the exact inverse, so E = 0) *)
Definition exA2 (i j : nat) : R :=
  match i, j with O, O => 2 | O, S O => 1 | S O, O => 1 | S O, S O => 3 | _, _ => 0 end.
Definition exB2 (i j : nat) : R :=
  match i, j with O, O => 3/5 | O, S O => -1/5 | S O, O => -1/5 | S O, S O => 2/5 | _, _ => 0 end.
