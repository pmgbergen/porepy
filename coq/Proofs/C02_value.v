(* C02 — values with and without derivative agree.  On operands that satisfy the AdArray
   invariant every operation of the model, when it succeeds, also succeeds on the operands
   without their Jacobians, with the result without its Jacobian (relation [strips]); by
   induction so does the direct semantics of a tree, and by [Proofs.C02.refines] the parser. *)
From Coq Require Import List ZArith QArith Qabs Qcanon Bool Arith Lia.
Import ListNotations.
From PP Require Import Model.C02 Proofs.C02.
Local Open Scope Qc_scope.

Definition strip (a : value) : value := match a with VAd v _ => VVec v | _ => a end.

(* AdArray invariant (checked by its constructor): one Jacobian row per value *)
Definition wf (a : value) : Prop := match a with VAd v j => length v = length j | _ => True end.

Definition is_ad (a : value) : bool := match a with VAd _ _ => true | _ => false end.

Lemma map2_length {A B C} (f : A -> B -> C) a b :
  length a = length b -> length (map2 f a b) = length a.
Proof. revert b. induction a as [|x a IH]; intros [|y b] [=]; cbn; auto. Qed.

Lemma same_len_spec {A B} (a : list A) (b : list B) :
  reflect (length a = length b) (same_len a b).
Proof. apply Nat.eqb_spec. Qed.

(* numpy broadcasting of a scalar against a vector *)
Lemma map2_repeat_r {A B C} (f : A -> B -> C) v c :
  map2 f v (repeat c (length v)) = map (fun x => f x c) v.
Proof. induction v as [|x v IH]; cbn; congruence. Qed.

Lemma map2_repeat_l {A B C} (f : A -> B -> C) v c :
  map2 f (repeat c (length v)) v = map (f c) v.
Proof. induction v as [|x v IH]; cbn; congruence. Qed.

Lemma has_zero_repeat c n : is_zero c = false -> has_zero (repeat c n) = false.
Proof. intros H. induction n; cbn; [reflexivity | now rewrite H]. Qed.

Lemma vmul_inv_div v w : vmul v (map (fun x => qpowz x (-1)) w) = map2 Qcdiv v w.
Proof. now rewrite vmul_comm, div_val. Qed.

Lemma vmul_inv_div' : forall v w, vmul (map (fun x => qpowz x (-1)) w) v = map2 Qcdiv v w.
Proof. intros v w. apply div_val. Qed.

Lemma scatter_length {A} (rng : list nat) : forall (vals out : list A),
  length (scatter out rng vals) = length out.
Proof.
  assert (U : forall (out : list A) i a, length (update out i a) = length out)
    by (induction out; intros [|i] y; cbn; auto).
  induction rng as [|i rng IH]; intros [|a vals] out; cbn; auto. now rewrite IH, U.
Qed.

(* equal lengths of the vectors and Jacobians the operations build, from the equalities
   between the operands' lengths in the context *)
Ltac lens :=
  cbn [wf];
  unfold vadd, vsub, vmul, madd, vneg, mneg, scale_rows, mat_vec, mat_mat, slice_vec,
    slice_rows, zeros, zero_mat, take; unfold mat, vec in *;
  repeat first [rewrite map_length | rewrite repeat_length | rewrite scatter_length
               | rewrite map2_length by lens];
  congruence.

Ltac inv_ok H := first [discriminate H | injection H as <-].

Lemma neg_strip : forall o r, neg o = Ok r -> neg (strip o) = Ok (strip r) /\ (wf o -> wf r).
Proof.
  intros o r H; destruct o; cbn [neg] in H; inv_ok H; cbn [strip neg]; split; auto. lens.
Qed.

Lemma pyop_sub_as_add_neg : forall v o o',
    neg o = Ok o' -> is_ad o = false ->
    pyop Sub (VVec v) o = pyop Add (VVec v) o' \/ True.
Proof. auto. Qed.

Lemma ad_pow_m1 v j :
  ad_pow v j (VNum (Q2Qc (-1)))
  = if has_zero v then Err EDivZero
    else Ok (VAd (map (fun x => qpowz x (-1)) v)
                 (scale_rows (map (fun x => Q2Qc (-1) * qpowz x (-1 - 1)) v) j)).
Proof. cbn [ad_pow]. now rewrite as_int_minus_one. Qed.

Lemma pow_guard z hz : Z.ltb z 1 && hz = false -> Z.ltb z 0 && hz = false.
Proof. destruct hz; rewrite ?andb_false_r, ?andb_true_r; auto. lia. Qed.

Definition strips (r r' : res value) : Prop := forall a, r = Ok a -> r' = Ok (strip a) /\ wf a.

Lemma bind_strips r r' f f' :
  strips r r' -> (forall a, wf a -> strips (f a) (f' (strip a))) -> strips (bind r f) (bind r' f').
Proof.
  intros H Hf b Hb. apply bind_Ok in Hb as (a & Ea & Hb).
  destruct (H a Ea) as [-> Wa]. exact (Hf a Wa b Hb).
Qed.

Lemma ad_left_strip o v j b :
  is_rop o = false -> length v = length j -> wf b ->
  strips (pyop o (VAd v j) b) (pyop o (VVec v) (strip b)).
Proof.
  intros Ho Hl Wb r H.
  destruct o; try discriminate; cbn [pyop] in H;
    destruct b as [c | w | nc m | w k | s | l]; try discriminate;
    cbn [strip pyop wf ad_add ad_sub ad_mul ad_truediv neg bind] in *.
  all: unfold vec_op; rewrite ?same_len_repeat'; cbn [negb].
  - (* + number *) injection H as <-. unfold vadd. rewrite map2_repeat_r. split; [reflexivity | lens].
  - (* + array *) destruct (same_len_spec v w); [injection H as <- | discriminate].
    split; [reflexivity | lens].
  - (* + AdArray *) destruct (same_len_spec v w), (same_len_spec j k); try discriminate.
    injection H as <-. split; [reflexivity | lens].
  - (* - number *) injection H as <-. unfold vsub. rewrite map2_repeat_r. split; [reflexivity | lens].
  - (* - array *) unfold vneg in H at 1.
    rewrite same_len_map in H. destruct (same_len_spec v w); [injection H as <- | discriminate].
    rewrite vadd_vneg. split; [reflexivity | lens].
  - (* - AdArray *) unfold vneg in H at 1. unfold mneg in H at 1. rewrite !same_len_map in H.
    destruct (same_len_spec v w), (same_len_spec j k); try discriminate.
    injection H as <-. rewrite vadd_vneg. split; [reflexivity | lens].
  - (* * number *) injection H as <-. unfold vmul. rewrite map2_repeat_r. split; [reflexivity | lens].
  - (* * array *) destruct (same_len_spec v w); [injection H as <- | discriminate].
    split; [reflexivity | lens].
  - (* * AdArray *) destruct (same_len_spec v w), (same_len_spec j k); try discriminate.
    injection H as <-. split; [reflexivity | lens].
  - (* / number *) destruct (is_zero c) eqn:Ec; [discriminate | injection H as <-].
    rewrite has_zero_repeat, map2_repeat_r by exact Ec. split; [reflexivity | lens].
  - (* / array *) destruct (has_zero w); [discriminate|].
    destruct (same_len_spec v w); [injection H as <- | discriminate].
    rewrite vmul_inv_div. split; [reflexivity | lens].
  - (* / AdArray *) destruct (same_len_spec v w), (same_len_spec j k); try discriminate.
    cbn [andb negb] in *. rewrite ad_pow_m1 in H. destruct (has_zero w); [discriminate|].
    cbn [bind ad_mul] in H. rewrite same_len_map in H.
    destruct (same_len_spec v w); [|contradiction].
    destruct (same_len j _); [injection H as <- | discriminate].
    rewrite vmul_inv_div. split; [reflexivity | lens].
  - (* ** number *) cbn [ad_pow] in H. destruct (as_int c) as [z|]; [|discriminate].
    destruct (_ && has_zero v) eqn:G in H; [discriminate | injection H as <-].
    rewrite (pow_guard _ _ G). split; [reflexivity | lens].
Qed.

(* number (op) AdArray: python calls the reflected AdArray method *)
Lemma num_ad_strip o c v j :
  is_rop o = false -> length v = length j ->
  strips (pyop o (VNum c) (VAd v j)) (pyop o (VNum c) (VVec v)).
Proof.
  intros Ho Hl r H. destruct o; try discriminate; cbn [pyop] in *; unfold vec_op;
    rewrite ?same_len_repeat; cbn [negb].
  - (* + *) injection H as <-. rewrite vadd_comm. unfold vadd. rewrite map2_repeat_r.
    split; [reflexivity | lens].
  - (* - *) injection H as <-. rewrite <- vneg_vsub. unfold vsub. rewrite map2_repeat_r.
    split; [reflexivity | lens].
  - (* * *) injection H as <-. rewrite vmul_comm. unfold vmul. rewrite map2_repeat_r.
    split; [reflexivity | lens].
  - (* / *) unfold ad_rtruediv in H. rewrite ad_pow_m1 in H.
    destruct (has_zero v); [discriminate | injection H as <-].
    rewrite map2_repeat_l, map_map. cbn [strip]. split; [|lens].
    do 2 f_equal. apply map_ext. intros x. rewrite Qcmult_1_r. apply Qcmult_comm.
Qed.

(* numpy array (op) AdArray: the dual-number formulas *)
Lemma vec_ad_strip o w v j :
  is_rop o = false -> length v = length j ->
  strips (math_node o (VVec w) (VAd v j)) (pyop o (VVec w) (VVec v)).
Proof.
  intros Ho Hl r H. destruct o; try discriminate; cbn [pyop math_node] in *; unfold vec_op;
    rewrite (same_len_sym w v); try destruct (has_zero v); try discriminate;
    (destruct (same_len_spec v w); [injection H as <- | discriminate]);
    (split; [reflexivity | lens]).
Qed.

Definition no_ad (r : res value) : Prop := forall x, r = Ok x -> is_ad x = false.

Lemma if_no_ad (c : bool) r s : no_ad r -> no_ad s -> no_ad (if c then r else s).
Proof. now destruct c. Qed.

#[local] Hint Resolve if_no_ad : no_ad.
#[local] Hint Extern 1 (no_ad _) => (let H := fresh in intros ? H; inv_ok H; reflexivity) : no_ad.

Lemma vec_op_no_ad o a b : no_ad (vec_op o a b).
Proof. unfold vec_op; destruct o; auto with no_ad. Qed.

Lemma pyop_no_ad o a b : is_ad a = false -> is_ad b = false -> no_ad (pyop o a b).
Proof.
  intros Ha Hb.
  destruct a as [x| | | | |]; try discriminate Ha; destruct b as [y| | | | |]; try discriminate Hb;
    cbn [pyop slicer_matmul]; auto with no_ad.
  1: destruct (num_op o x y); auto with no_ad.
  all: destruct o; auto using vec_op_no_ad with no_ad.
  destruct (as_int y); auto with no_ad.
Qed.

Lemma strip_nonad a : is_ad a = false -> strip a = a.
Proof. now destruct a. Qed.

Lemma strip_is_nonad a : is_ad (strip a) = false.
Proof. now destruct a. Qed.

Lemma nonad_case o a b :
  is_ad a = false -> is_ad b = false -> strips (pyop o a b) (pyop o (strip a) (strip b)).
Proof.
  intros Ha Hb r H. pose proof (pyop_no_ad o a b Ha Hb r H) as Hr.
  rewrite !strip_nonad by assumption. split; [exact H | now destruct r].
Qed.

Lemma slicer_matmul_strip s b : strips (slicer_matmul s b) (slicer_matmul s (strip b)).
Proof.
  intros r H. destruct b; cbn [slicer_matmul] in H; inv_ok H; cbn [strip slicer_matmul wf];
    split; auto. lens.
Qed.

Lemma ad_rmatmul_strip v j nc m :
  length v = length j ->
  strips (ad_rmatmul v j (VMat nc m)) (pyop Matmul (VMat nc m) (VVec v)).
Proof.
  intros Hl r H. cbn [ad_rmatmul pyop] in *. rewrite Nat.eqb_sym, Hl.
  destruct (Nat.eqb _ nc); inv_ok H. split; [reflexivity | lens].
Qed.

Lemma pyop_strip o a b :
  is_rop o = false -> wf a -> wf b -> strips (pyop o a b) (pyop o (strip a) (strip b)).
Proof.
  intros Ho Wa Wb r H.
  destruct (is_ad a) eqn:Ea;
    [destruct a as [| | |v j| |]; try discriminate; exact (ad_left_strip o v j b Ho Wa Wb r H)|].
  destruct (is_ad b) eqn:Eb; [|now apply nonad_case].
  destruct b as [| | |v j| |]; try discriminate. cbn [wf strip] in *.
  destruct a as [c|w|nc m| |s|l]; try discriminate; cbn [strip].
  - exact (num_ad_strip o c v j Ho Wb r H).
  - destruct o; try discriminate. exact (ad_rmatmul_strip v j nc m Wb r H).
  - destruct o; try discriminate. exact (slicer_matmul_strip s (VAd v j) r H).
Qed.

Lemma sum_slices_strip l x : wf x -> strips (sum_slices l x) (sum_slices l (strip x)).
Proof.
  intros Wx. unfold sum_slices.
  cut (strips (Ok (VNum 0)) (Ok (VNum 0))); [|intros a [= <-]; now split].
  generalize (Ok (VNum 0)) at 1 3. generalize (Ok (VNum 0)).
  induction l as [|s l IH]; intros acc' acc H; cbn [fold_left]; [exact H|].
  apply IH, bind_strips; [exact H|]. intros a Wa.
  apply bind_strips; [apply slicer_matmul_strip|]. intros y Wy. now apply pyop_strip.
Qed.

Lemma math_node_strip o a b :
  is_rop o = false -> wf a -> wf b ->
  strips (math_node o a b) (math_node o (strip a) (strip b)).
Proof.
  intros Ho Wa Wb r H. destruct a as [c|w|nc m|v j|s|l]; cbn [math_node strip] in *.
  1, 3, 5: exact (pyop_strip o _ b Ho Wa Wb r H).
  - destruct b as [| | |v j| |]; cbn [math_node strip] in *;
      [| | |exact (vec_ad_strip o w v j Ho Wb r H)| |];
      exact (pyop_strip o (VVec w) _ Ho Wa Wb r H).
  - (* the stripped right operand is no AdArray *)
    destruct b; exact (pyop_strip o (VAd v j) _ Ho Wa Wb r H).
  - destruct o; cbn [pyop] in H; try discriminate. exact (sum_slices_strip l b Wb r H).
Qed.

Definition with_deriv (d : bool) (e : env) : env :=
  {| state := state e; deriv := d; ts := ts e; its := its e; src_it0 := src_it0 e;
     src_ts := src_ts e |}.

Lemma parse_leaf_strip l e :
  strips (parse_leaf l (with_deriv true e)) (parse_leaf l (with_deriv false e)).
Proof.
  intros r. destruct l; cbn [parse_leaf ts its src_ts src_it0 with_deriv];
    try (intros [= <-]; cbn; auto; fail).
  - destruct (Z.leb 0 t), (Z.leb 0 i); try (destruct (lookup _ _); intros [= <-]; cbn; auto; fail).
    intros [= <-]. split; [reflexivity | lens].
  - destruct (Z.leb 0 t); [destruct (lookup _ _)|]; intros [= <-]; cbn; auto.
Qed.

Lemma direct_strip t e :
  no_rops t = true -> strips (direct t (with_deriv true e)) (direct t (with_deriv false e)).
Proof.
  revert t. apply no_rops_ind; cbn [direct]; [intros l; apply parse_leaf_strip|].
  intros o a b Ho IHa IHb.
  apply bind_strips; [exact IHa|]. intros va Wa.
  apply bind_strips; [exact IHb|]. intros vb Wb.
  replace (direct_node o) with (math_node o) by now destruct o.
  now apply math_node_strip.
Qed.

Definition val_of (r : value) : option vec :=
  match r with VNum x => Some [x] | VVec v => Some v | VAd v _ => Some v | _ => None end.

Lemma value_agrees t e r :
  no_rops t = true -> parse t (with_deriv true e) = Ok r ->
  parse t (with_deriv false e) = Ok (strip r).
Proof. intros Hn. rewrite !refines by exact Hn. intros H. now apply direct_strip. Qed.
