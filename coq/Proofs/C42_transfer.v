(* C42 — transfer between the Q instance (executed by the tie) and the R instance (theorems) of
   the polymorphic model: Q2R commutes with the functions that compute_saturations, the closed
   form, the chain rule and row normalisation are made of. *)
From Coq Require Import List QArith Qreals Reals Lra Lia Arith Bool.
Import ListNotations.
From PP Require Import Model.C42 Proofs.C42.

Definition QR (l : list Q) : list R := map Q2R l.
Definition nz (q : Q) : Prop := ~ q == 0.
Definition QRres (r : sum err (list Q)) : sum err (list R) :=
  match r with inl e => inl e | inr l => inr (QR l) end.

Notation qsum := (tsum Q 0%Q Qplus).
Notation Q2R_0 := RMicromega.Q2R_0.
Notation Q2R_1 := RMicromega.Q2R_1.

Lemma QR_length l : length (QR l) = length l.
Proof. apply map_length. Qed.

Lemma nth_QR j row : Q2R (nth j row 0%Q) = nth j (QR row) 0%R.
Proof. rewrite <- Q2R_0. symmetry. apply (map_nth Q2R). Qed.

Lemma tsum_QR l : Q2R (qsum l) = rsum (QR l).
Proof. induction l as [|a l IH]; cbn [tsum QR map]; [apply Q2R_0|]. now rewrite Q2R_plus, IH. Qed.

(* [In b m] lets division ask for a non-zero divisor *)
Lemma map2_QR (op : Q -> Q -> Q) (opR : R -> R -> R) l m :
  (forall a b, In b m -> Q2R (op a b) = opR (Q2R a) (Q2R b)) ->
  QR (map2 op l m) = map2 opR (QR l) (QR m).
Proof. intros H. unfold QR. rewrite map_map2, map2_map. now apply map2_ext_in. Qed.

Lemma build_rhs_QR y rho :
  QR (build_rhs Q 1%Q Qminus Qmult y rho) = build_rhsR (QR y) (QR rho).
Proof. apply map2_QR. intros a b _. now rewrite Q2R_mult, Q2R_minus, Q2R_1. Qed.

Lemma mat_row_QR yj rhoj j y rho :
  QR (mat_row Q 0%Q 1%Q Qminus Qmult yj rhoj j y rho)
  = mat_row R 0%R 1%R Rminus Rmult (Q2R yj) (Q2R rhoj) j (QR y) (QR rho).
Proof.
  unfold mat_row. rewrite QR_length. unfold QR. rewrite map_map2, map2_map_r.
  apply map2_ext_in. intros k r _. destruct (Nat.eqb k j); [apply Q2R_0|].
  now rewrite Q2R_minus, !Q2R_mult, Q2R_minus, Q2R_1.
Qed.

Lemma build_mat_QR y rho :
  map QR (build_mat Q 0%Q 1%Q Qminus Qmult y rho) = build_matR (QR y) (QR rho).
Proof.
  unfold build_matR, build_mat. rewrite QR_length, map_map2.
  change (combine (QR y) (QR rho)) with (combine (map Q2R y) (map Q2R rho)).
  rewrite combine_map, map2_map_r. apply map2_ext_in. intros k [a r] _. apply mat_row_QR.
Qed.

Lemma dot_QR a b : Q2R (dot Q 0%Q Qplus Qmult a b) = rdot (QR a) (QR b).
Proof. unfold dot. rewrite tsum_QR. f_equal. apply map2_QR. intros. apply Q2R_mult. Qed.

Lemma mat_vec_QR m v : QR (mat_vec Q 0%Q Qplus Qmult m v) = mat_vecR (map QR m) (QR v).
Proof.
  unfold mat_vecR, mat_vec, QR. rewrite !List.map_map. apply map_ext. intros row. apply dot_QR.
Qed.

Lemma normalize_QR x : nz (qsum x) -> QR (normalize Q 0%Q Qplus Qdiv x) = normalizeR (QR x).
Proof.
  intros HS. unfold normalizeR, normalize. rewrite <- tsum_QR. unfold QR. rewrite !map_map.
  apply map_ext. intros a. now apply Q2R_div.
Qed.

Lemma dxn_QR x : nz (qsum x) ->
  map QR (dxn Q 0%Q 1%Q Qplus Qminus Qmult Qdiv x) = dxnR (QR x).
Proof.
  intros HS. unfold dxnR, dxn. rewrite <- tsum_QR, QR_length.
  assert (HSS : nz (qsum x * qsum x)) by (intros E; apply Qmult_integral in E; destruct E; now apply HS).
  rewrite map_map2. unfold QR at 2. rewrite map2_map_r. apply map2_ext_in. intros i xi _.
  unfold QR. rewrite map_map. apply map_ext. intros j.
  rewrite Q2R_minus, (Q2R_div _ _ HS), (Q2R_div _ _ HSS), !Q2R_mult, Q2R_1.
  destruct (Nat.eqb i j); [rewrite Q2R_1|rewrite Q2R_0]; reflexivity.
Qed.

Lemma vec_mat_QR g m n :
  QR (vec_mat Q 0%Q Qplus Qmult g m n) = vec_mat R 0%R Rplus Rmult (QR g) (map QR m) n.
Proof.
  unfold vec_mat, QR at 1. rewrite map_map. apply map_ext. intros j. rewrite tsum_QR. f_equal.
  unfold QR at 1 2. rewrite map_map2, map2_map. apply map2_ext_in. intros a row _.
  now rewrite Q2R_mult, nth_QR.
Qed.

Lemma Qltb_Rltb a b : Qltb a b = Rltb (Q2R a) (Q2R b).
Proof.
  unfold Qltb. destruct (Rltb_spec (Q2R a) (Q2R b)) as [H|H], (Qle_bool b a) eqn:E; try reflexivity.
  - apply Qle_bool_iff, Qle_Rle in E. lra.
  - elim H. apply Qlt_Rlt, Qnot_le_lt. rewrite <- Qle_bool_iff. congruence.
Qed.

Lemma Qleb_Rleb a b : Qle_bool a b = Rleb (Q2R a) (Q2R b).
Proof.
  destruct (Rleb_spec (Q2R a) (Q2R b)) as [H|H].
  - now apply Qle_bool_iff, Rle_Qle.
  - destruct (Qle_bool a b) eqn:E; [|reflexivity]. elim H. now apply Qle_Rle, Qle_bool_iff.
Qed.

Lemma select_QR mask : forall l, QR (select mask l) = select mask (QR l).
Proof.
  induction mask as [|[|] mask IH]; intros [|a l]; cbn [select QR map]; try reflexivity; fold (QR l).
  - now rewrite <- IH.
  - apply IH.
Qed.

Lemma scatter_QR mask : forall v, QR (scatter Q 0%Q mask v) = scatter R 0%R mask (QR v).
Proof.
  induction mask as [|[|] mask IH]; intros v; cbn [scatter QR map]; try reflexivity.
  - destruct v as [|x v]; cbn [map QR]; rewrite ?Q2R_0; f_equal; apply IH.
  - rewrite Q2R_0. f_equal. apply IH.
Qed.

Lemma mask_le c y : map (fun a => Rleb (Q2R c) a) (QR y) = map (fun a => Qle_bool c a) y.
Proof. unfold QR. rewrite map_map. apply map_ext. intros a. symmetry. apply Qleb_Rleb. Qed.

Lemma mask_lt c y : map (fun a => Rltb (Q2R c) a) (QR y) = map (fun a => Qltb c a) y.
Proof. unfold QR. rewrite map_map. apply map_ext. intros a. symmetry. apply Qltb_Rltb. Qed.

Lemma one_minus eps : (1 - Q2R eps)%R = Q2R (1 - eps).
Proof. now rewrite Q2R_minus, Q2R_1. Qed.

Lemma ind_QR (b : list bool) :
  QR (map (fun b : bool => if b then 1%Q else 0%Q) b) = map (fun b : bool => if b then 1%R else 0%R) b.
Proof. unfold QR. rewrite map_map. apply map_ext. intros [|]; [apply Q2R_1|apply Q2R_0]. Qed.

Section Saturations.
  Variable solveR : list (list R) -> list R -> list R.
  Hypothesis Hsolve : forall M b, QR (solveQ M b) = solveR (map QR M) (QR b).
  Variables (y rho : list Q) (eps : Q).
  Hypothesis H2 : forall y0 y1 r0 r1, y = [y0; y1] -> rho = [r0; r1] ->
    nz (1 - y1) /\ nz r1 /\ nz (1 + y1 / (1 - y1) * (r0 / r1)).

  Lemma unsaturated_QR :
    QR (unsaturated Q 0%Q 1%Q Qplus Qminus Qmult Qdiv Qltb solveQ y rho eps)
    = unsaturated R 0%R 1%R Rplus Rminus Rmult Rdiv Rltb solveR (QR y) (QR rho) (Q2R eps).
  Proof.
    destruct (Nat.eq_dec (length y) 2) as [Ey|Ny], (Nat.eq_dec (length rho) 2) as [Er|Nr].
    1: { destruct y as [|a [|b [|]]], rho as [|r0 [|r1 [|]]]; try discriminate.
         destruct (H2 a b r0 r1 eq_refl eq_refl) as (N1 & N2 & N3). cbn [unsaturated QR map].
         now rewrite Q2R_minus, (Q2R_div _ _ N3), Q2R_plus, Q2R_mult, (Q2R_div _ _ N1), (Q2R_div _ _ N2),
           Q2R_minus, !Q2R_1. }
    all: rewrite !unsaturated_solve by (rewrite ?QR_length; tauto); cbv zeta;
      now rewrite mask_lt, scatter_QR, Hsolve, build_mat_QR, build_rhs_QR, !select_QR.
  Qed.

  Lemma inner_QR :
    QRres (compute_saturations_inner Q 0%Q 1%Q Qplus Qminus Qmult Qdiv Qltb Qle_bool solveQ y rho eps)
    = compute_saturations_inner R 0%R 1%R Rplus Rminus Rmult Rdiv Rltb Rleb solveR (QR y) (QR rho) (Q2R eps).
  Proof.
    destruct (Nat.eq_dec (length y) 1) as [E1|N1].
    - destruct y as [|a [|]]; try discriminate. cbn. now rewrite Q2R_1.
    - rewrite !inner_eq by now rewrite ?QR_length. cbv zeta. rewrite one_minus, mask_le.
      destruct (existsb _ _ && _); [reflexivity|].
      destruct (existsb _ _); cbn [QRres]; f_equal; [apply ind_QR|apply unsaturated_QR].
  Qed.

End Saturations.
