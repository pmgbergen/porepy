(* C35 — compressed storage read as the concatenation of its lines (entries = concat of the
   lines, index pointer = cumulative line lengths); slices and stacked matrices brought into that
   form; dense rows of padded and shifted lines. *)
From Coq Require Import List ZArith Bool Arith Lia.
Import ListNotations.
From PP Require Import Lib.ListFacts Lib.Csr Model.C35 Proofs.C35 Proofs.C35_rl.

Lemma seg_length : forall {E} (l : list E) a b, a <= b -> b <= length l -> length (seg a b l) = b - a.
Proof. intros E l a b H1 H2. unfold seg. rewrite firstn_length, skipn_length. lia. Qed.

Lemma seg_mid : forall {E} (pre s l : list E), seg (length pre) (length pre + length s) (pre ++ s ++ l) = s.
Proof.
  intros E pre s l. unfold seg. rewrite skipn_app, skipn_all, Nat.sub_diag. cbn [skipn app].
  replace (length pre + length s - length pre) with (length s + 0) by lia.
  rewrite firstn_app_2. cbn [firstn]. apply app_nil_r.
Qed.

Lemma seg_skipn : forall {E} (l : list E) a b, a <= b -> seg a b l ++ skipn b l = skipn a l.
Proof.
  intros E l a b H. unfold seg. replace (skipn b l) with (skipn (b - a) (skipn a l))
    by (rewrite skipn_add; f_equal; lia).
  apply firstn_skipn.
Qed.

Lemma gather_seq : forall {E} (d : E) l n a, a + n <= length l ->
  gather d l (seq a n) = seg a (a + n) l.
Proof.
  intros E d l. unfold gather, seg. induction n as [|n IH]; intros a H.
  - replace (a + 0 - a) with 0 by lia. reflexivity.
  - replace (a + S n - a) with (S n) by lia. cbn [seq map].
    rewrite (skipn_nth_cons d l a) by lia. cbn [firstn]. f_equal.
    rewrite IH by lia. f_equal. lia.
Qed.

Lemma seg_pointwise : forall {E F} (l : list E) (l' : list F) a b (g : E -> F) d d',
  a <= b -> b <= length l -> length l' = length l ->
  (forall k, a <= k < b -> nth k l' d' = g (nth k l d)) ->
  seg a b l' = map g (seg a b l).
Proof.
  intros E F l l' a b g d d' Hab Hb Hl H.
  replace b with (a + (b - a)) by lia.
  rewrite <- (gather_seq d), <- (gather_seq d') by lia. unfold gather. rewrite map_map.
  apply map_ext_in. intros k Hk. apply in_seq in Hk. apply H. lia.
Qed.

Lemma rows_of_cons : forall {E} a b r (l : list E), rows_of (a :: b :: r) l = seg a b l :: rows_of (b :: r) l.
Proof. reflexivity. Qed.

Lemma rows_of_length : forall {E} (ip : list nat) (l : list E), length (rows_of ip l) = length ip - 1.
Proof.
  induction ip as [|a ip IH]; intros l; [reflexivity|].
  destruct ip as [|b r]; [reflexivity|].
  rewrite rows_of_cons. cbn [length]. rewrite IH. cbn [length]. lia.
Qed.

Lemma rows_of_nth : forall {E} (ip : list nat) (l : list E) i, S i < length ip ->
  nth i (rows_of ip l) [] = seg (nth i ip 0) (nth (S i) ip 0) l.
Proof.
  induction ip as [|a ip IH]; intros l i H; simpl in H; [lia|].
  destruct ip as [|b r]; simpl in H; [lia|].
  rewrite rows_of_cons. destruct i; [reflexivity|]. cbn [nth]. apply IH. simpl. lia.
Qed.

Lemma rows_of_seq : forall {E} (ip : list nat) (l : list E),
  rows_of ip l = map (fun i => seg (nth i ip 0) (nth (S i) ip 0) l) (seq 0 (length ip - 1)).
Proof.
  intros E ip l. rewrite <- (map_nth_seq (rows_of ip l) []) at 1. rewrite rows_of_length.
  apply map_ext_in. intros i Hi. apply in_seq in Hi. apply rows_of_nth. lia.
Qed.

Lemma rows_of_concat : forall {E} (segs : list (list E)) pre a, length pre = a ->
  rows_of (a :: cumsumN a (map (@length E) segs)) (pre ++ concat segs) = segs.
Proof.
  induction segs as [|s segs IH]; intros pre a H; [reflexivity|].
  cbn [map cumsumN concat]. rewrite rows_of_cons. subst a. f_equal; [apply seg_mid|].
  rewrite app_assoc. apply IH. apply app_length.
Qed.

Lemma rows_of_lines : forall {E} (R : list (list E)),
  rows_of (0 :: cumsumN 0 (map (@length E) R)) (concat R) = R.
Proof. intros E R. apply (rows_of_concat R [] 0). reflexivity. Qed.

Lemma rows_of_map : forall {E F} (f : E -> F) ip l, rows_of ip (map f l) = map (map f) (rows_of ip l).
Proof.
  intros E F f ip l. rewrite !rows_of_seq, map_map. apply map_ext. intros i.
  unfold seg. rewrite skipn_map, firstn_map. reflexivity.
Qed.

Lemma monotone_cons : forall a b r, monotone (a :: b :: r) = true <-> a <= b /\ monotone (b :: r) = true.
Proof.
  intros a b r. change (monotone (a :: b :: r)) with ((a <=? b) && monotone (b :: r)).
  rewrite andb_true_iff, Nat.leb_le. reflexivity.
Qed.

Lemma mono_step : forall ip, monotone ip = true -> forall i, S i < length ip ->
  nth i ip 0 <= nth (S i) ip 0.
Proof.
  induction ip as [|a ip IH]; intros M i H; simpl in H; [lia|].
  destruct ip as [|b r]; simpl in H; [lia|].
  apply monotone_cons in M. destruct M as [M1 M2].
  destruct i; [exact M1|]. cbn [nth]. apply IH; [exact M2|simpl; lia].
Qed.

Lemma mono_le : forall ip, monotone ip = true -> forall j i, i <= j -> j < length ip ->
  nth i ip 0 <= nth j ip 0.
Proof.
  intros ip M. induction j as [|j IH]; intros i Hi Hj.
  - replace i with 0 by lia. lia.
  - destruct (Nat.eq_dec i (S j)) as [->|Hne]; [lia|].
    pose proof (mono_step ip M j Hj). specialize (IH i). lia.
Qed.

Lemma mono_last : forall ip, monotone ip = true -> forall i, i < length ip -> nth i ip 0 <= last ip 0.
Proof.
  induction ip as [|a ip IH]; intros M i H; simpl in H; [lia|].
  destruct ip as [|b r]; [destruct i; simpl in *; lia|].
  apply monotone_cons in M. destruct M as [M1 M2].
  change (last (a :: b :: r) 0) with (last (b :: r) 0).
  destruct i; cbn [nth]; [|apply IH; [exact M2|simpl in *; lia]].
  pose proof (IH M2 0 ltac:(simpl; lia)) as H0. cbn [nth] in H0. lia.
Qed.

Lemma rows_of_recon : forall {E} ip (l : list E), monotone ip = true -> ip <> [] ->
  last ip 0 = length l -> skipn (hd 0 ip) l = concat (rows_of ip l).
Proof.
  induction ip as [|a ip IH]; intros l M Hne Hl; [congruence|].
  destruct ip as [|b r]; [simpl in *; subst a; apply skipn_all|].
  apply monotone_cons in M. destruct M as [M1 M2].
  rewrite rows_of_cons. cbn [concat hd]. rewrite <- (IH l M2 ltac:(discriminate) Hl).
  symmetry. apply seg_skipn. exact M1.
Qed.

Lemma ptr_recon : forall {E} ip (l : list E), monotone ip = true -> ip <> [] ->
  last ip 0 <= length l -> ip = hd 0 ip :: cumsumN (hd 0 ip) (map (@length E) (rows_of ip l)).
Proof.
  induction ip as [|a ip IH]; intros l M Hne Hl; [congruence|].
  destruct ip as [|b r]; [reflexivity|].
  assert (Hb : b <= last (a :: b :: r) 0) by (apply (mono_last (a :: b :: r) M 1); simpl; lia).
  apply monotone_cons in M. destruct M as [M1 M2].
  rewrite rows_of_cons. cbn [map cumsumN hd]. rewrite seg_length by lia.
  replace (a + (b - a)) with b by lia.
  f_equal. apply (IH l M2 ltac:(discriminate) Hl).
Qed.

Record wfP (A : csr) : Prop := {
  wf_len : length (indptr A) = S (nmaj A);
  wf_hd : hd 1 (indptr A) = 0;
  wf_mono : monotone (indptr A) = true;
  wf_last : last (indptr A) 0 = length (indices A);
  wf_data : length (data A) = length (indices A);
  wf_minor : forallb (fun j => j <? nmin A) (indices A) = true }.

Lemma wf_wfP : forall A, wf A = true -> wfP A.
Proof.
  intros A H. unfold wf in H.
  repeat (apply andb_true_iff in H; destruct H as [H ?]).
  constructor; try (apply Nat.eqb_eq; assumption); assumption.
Qed.

Lemma entries_length : forall A, wfP A -> length (entries A) = length (indices A).
Proof. intros A W. unfold entries. rewrite combine_length, (wf_data A W). lia. Qed.

Lemma entries_split : forall A, length (data A) = length (indices A) ->
  indices A = map fst (entries A) /\ data A = map snd (entries A).
Proof.
  intros A H. unfold entries. rewrite map_fst_combine, map_snd_combine by (symmetry; exact H). auto.
Qed.

Lemma line_bounds : forall A i, wfP A -> i < nmaj A ->
  nth i (indptr A) 0 <= nth (S i) (indptr A) 0 /\ nth (S i) (indptr A) 0 <= length (entries A).
Proof.
  intros A i W H. split.
  - apply mono_step; [apply (wf_mono A W)|rewrite (wf_len A W); lia].
  - rewrite (entries_length A W), <- (wf_last A W). apply mono_last; [apply (wf_mono A W)|rewrite (wf_len A W); lia].
Qed.

Lemma rows_length : forall A, wfP A -> length (rows A) = nmaj A.
Proof. intros A W. unfold rows. rewrite rows_of_length, (wf_len A W). lia. Qed.

Lemma rows_seq : forall A, wfP A -> rows A = map (fun i => nth i (rows A) []) (seq 0 (nmaj A)).
Proof. intros A W. rewrite <- (rows_length A W). symmetry. apply map_nth_seq. Qed.

Lemma row_length : forall A i, wfP A -> i < nmaj A ->
  length (nth i (rows A) []) = nth (S i) (indptr A) 0 - nth i (indptr A) 0.
Proof.
  intros A i W H. destruct (line_bounds A i W H). unfold rows.
  rewrite rows_of_nth by (rewrite (wf_len A W); lia). apply seg_length; assumption.
Qed.

Lemma rows_pointwise : forall {E F} A (l : list E) (l' : list F) (g : nat -> E -> F) d d', wfP A ->
  length l = length (indices A) -> length l' = length (indices A) ->
  (forall i k, i < nmaj A -> nth i (indptr A) 0 <= k < nth (S i) (indptr A) 0 ->
               nth k l' d' = g i (nth k l d)) ->
  rows_of (indptr A) l' = map (fun i => map (g i) (nth i (rows_of (indptr A) l) [])) (seq 0 (nmaj A)).
Proof.
  intros E F A l l' g d d' W Hl Hl' H.
  rewrite rows_of_seq, (wf_len A W). replace (S (nmaj A) - 1) with (nmaj A) by lia.
  apply map_ext_in. intros i Hi. apply in_seq in Hi.
  destruct (line_bounds A i W ltac:(lia)) as [H1 H2]. rewrite (entries_length A W) in H2.
  rewrite rows_of_nth by (rewrite (wf_len A W); lia).
  apply (seg_pointwise l l' _ _ (g i) d d'); try lia. intros k Hk. apply H; lia.
Qed.

Lemma wf_ptr_hd : forall A, wfP A -> indptr A <> [] /\ hd 0 (indptr A) = 0.
Proof.
  intros A W. pose proof (wf_len A W) as L. pose proof (wf_hd A W) as H.
  destruct (indptr A); [discriminate|]. split; [discriminate|exact H].
Qed.

Lemma concat_rows_of : forall {E} A (K : list E), wfP A -> length K = length (indices A) ->
  K = concat (rows_of (indptr A) K).
Proof.
  intros E A K W HK. destruct (wf_ptr_hd A W) as [Hne Hh].
  pose proof (rows_of_recon (indptr A) K (wf_mono A W) Hne) as H. rewrite Hh in H.
  apply H. rewrite HK. apply (wf_last A W).
Qed.

Lemma wf_entries : forall A, wfP A -> entries A = concat (rows A).
Proof. intros A W. apply (concat_rows_of A _ W (entries_length A W)). Qed.

Lemma wf_indptr : forall A, wfP A -> indptr A = 0 :: cumsumN 0 (map (@length _) (rows A)).
Proof.
  intros A W. destruct (wf_ptr_hd A W) as [Hne Hh].
  pose proof (ptr_recon (indptr A) (entries A) (wf_mono A W) Hne) as H. rewrite Hh in H.
  apply H. rewrite (entries_length A W), (wf_last A W). lia.
Qed.

Lemma rows_minor : forall A row, wfP A -> In row (rows A) -> Forall (fun e => fst e < nmin A) row.
Proof.
  intros A row W Hr. apply Forall_forall. intros [j v] He.
  assert (Hin : In (j, v) (entries A)) by (rewrite (wf_entries A W); apply in_concat; eauto).
  apply in_combine_l in Hin. pose proof (wf_minor A W) as Hm. rewrite forallb_forall in Hm.
  apply Nat.ltb_lt, Hm, Hin.
Qed.

Lemma gather_combine : forall {A B} (da : A) (db : B) l1 l2 ks, length l1 = length l2 ->
  combine (gather da l1 ks) (gather db l2 ks) = gather (da, db) (combine l1 l2) ks.
Proof.
  intros A B da db l1 l2 ks H. unfold gather. rewrite combine_map_same.
  apply map_ext. intros k. symmetry. apply combine_nth. exact H.
Qed.

Lemma gather_flat_map : forall {E X} (d : E) l (f : X -> list nat) xs,
  gather d l (flat_map f xs) = concat (map (fun x => gather d l (f x)) xs).
Proof.
  intros. induction xs as [|x xs IH]; simpl; [reflexivity|].
  unfold gather in *. rewrite map_app, IH. reflexivity.
Qed.

Lemma lines_ok_Forall : forall A ind, lines_ok A ind = true <-> Forall (fun i => i < nmaj A) ind.
Proof.
  intros A ind. unfold lines_ok. rewrite forallb_forall, Forall_forall.
  split; intros H i Hi; apply Nat.ltb_lt, H, Hi.
Qed.

Lemma array_ind_spec : forall A ind,
  array_ind A ind
  = flat_map (fun i => seq (nth i (indptr A) 0) (nth (S i) (indptr A) 0 - nth i (indptr A) 0)) ind.
Proof.
  intros A ind. unfold array_ind. rewrite expand_nat_spec by (unfold gather; rewrite !map_length; reflexivity).
  unfold gather. rewrite map_map, combine_map_same, flat_map_map. reflexivity.
Qed.

Lemma position_in_lines : forall A ind i k, wfP A -> Forall (fun l => l < nmaj A) ind ->
  i < nmaj A -> nth i (indptr A) 0 <= k < nth (S i) (indptr A) 0 ->
  existsb (Nat.eqb k) (array_ind A ind) = existsb (Nat.eqb i) ind.
Proof.
  intros A ind i k W Hind Hi Hk. rewrite array_ind_spec.
  pose proof (wf_mono A W) as M. pose proof (wf_len A W) as L.
  apply eq_true_iff_eq. rewrite !existsb_exists. split.
  - (* the lines are disjoint: the line holding k is i *)
    intros [k' [Hin Heq]]. apply Nat.eqb_eq in Heq. subst k'. exists i. split; [|apply Nat.eqb_refl].
    apply in_flat_map in Hin. destruct Hin as [i' [Hi' Hr]]. apply in_seq in Hr.
    rewrite Forall_forall in Hind. pose proof (Hind i' Hi') as Hlt.
    destruct (Nat.lt_trichotomy i' i) as [Hc|[->|Hc]]; [|exact Hi'|]; exfalso.
    + pose proof (mono_le _ M i (S i') ltac:(lia) ltac:(lia)). lia.
    + pose proof (mono_le _ M i' (S i) ltac:(lia) ltac:(lia)). lia.
  - intros [i' [Hin Heq]]. apply Nat.eqb_eq in Heq. subst i'. exists k. split; [|apply Nat.eqb_refl].
    apply in_flat_map. exists i. split; [exact Hin|]. apply in_seq. lia.
Qed.

Lemma scatter_lines_nth : forall {E} A ind (base : list E) v d i k, wfP A ->
  Forall (fun l => l < nmaj A) ind -> length base = length (indices A) ->
  i < nmaj A -> nth i (indptr A) 0 <= k < nth (S i) (indptr A) 0 ->
  nth k (scatter base (array_ind A ind) (repeat v (length (array_ind A ind)))) d
  = if existsb (Nat.eqb i) ind then v else nth k base d.
Proof.
  intros E A ind base v d i k W Hind Hb Hi Hk.
  rewrite scatter_const_nth, (position_in_lines A ind i k W Hind Hi Hk).
  destruct (line_bounds A i W Hi) as [_ H2]. rewrite (entries_length A W) in H2.
  replace (k <? length base) with true by (symmetry; apply Nat.ltb_lt; lia).
  rewrite andb_true_r. reflexivity.
Qed.

Lemma sliced_entries : forall A ind, wfP A -> Forall (fun i => i < nmaj A) ind ->
  gather (0, 0%Z) (entries A) (array_ind A ind) = concat (map (fun i => nth i (rows A) []) ind).
Proof.
  intros A ind W H. rewrite array_ind_spec, gather_flat_map. f_equal.
  apply map_ext_in. intros i Hi.
  rewrite Forall_forall in H. specialize (H i Hi).
  destruct (line_bounds A i W H) as [H1 H2].
  rewrite gather_seq by lia.
  unfold rows. rewrite rows_of_nth by (rewrite (wf_len A W); lia).
  f_equal. lia.
Qed.

Lemma sliced_lengths : forall A ind, wfP A -> Forall (fun i => i < nmaj A) ind ->
  map (fun p => snd p - fst p) (combine (gather 0 (indptr A) ind) (gather 0 (indptr A) (map S ind)))
  = map (@length _) (map (fun i => nth i (rows A) []) ind).
Proof.
  intros A ind W H. unfold gather. rewrite !map_map, combine_map_same, map_map.
  apply map_ext_in. intros i Hi. rewrite Forall_forall in H. symmetry. apply (row_length A i W (H i Hi)).
Qed.

(* the stacked storage of A and of B, the minor indices of B replaced by [idxB] *)
Lemma stacked_rows : forall A B idxB R2, wfP A -> wfP B ->
  combine idxB (data B) = concat R2 -> map (@length _) R2 = map (@length _) (rows B) ->
  rows_of (indptr A ++ map (fun p => p + last (indptr A) 0) (tl (indptr B)))
          (combine (indices A ++ idxB) (data A ++ data B))
  = rows A ++ R2.
Proof.
  intros A B idxB R2 WA WB He Hl.
  rewrite combine_app', He by (symmetry; apply (wf_data A WA)). fold (entries A).
  rewrite (wf_indptr A WA), (wf_indptr B WB), (wf_entries A WA), <- Hl. cbn [tl].
  (* the shifted pointers of B continue the cumulative sums of A *)
  rewrite last_cumsumN, cumsumN_shift, <- app_comm_cons, <- cumsumN_app, <- map_app, <- concat_app.
  apply rows_of_lines.
Qed.

Definition shift_entry (k : nat) (e : nat * Z) : nat * Z := (fst e + k, snd e).

Lemma shifted_entries : forall k idx (dat : list Z),
  combine (map (fun j => j + k) idx) dat = map (shift_entry k) (combine idx dat).
Proof. intros. apply (combine_map_l (fun j => j + k)). Qed.

Lemma entry_sum_out : forall r j, Forall (fun e => fst e <> j) r -> entry_sum j r = 0%Z.
Proof.
  induction 1 as [|e r He _ IH]; [reflexivity|]. simpl.
  apply Nat.eqb_neq in He. rewrite He. exact IH.
Qed.

Lemma entry_sum_shift : forall r k j, entry_sum (j + k) (map (shift_entry k) r) = entry_sum j r.
Proof.
  induction r as [|e r IH]; intros k j; [reflexivity|]. simpl. rewrite IH.
  destruct (Nat.eqb_spec (fst e) j) as [E|E].
  - replace (fst e + k =? j + k) with true by (symmetry; apply Nat.eqb_eq; lia). reflexivity.
  - replace (fst e + k =? j + k) with false by (symmetry; apply Nat.eqb_neq; lia). reflexivity.
Qed.

Lemma dense_zero : forall r s m, Forall (fun e => fst e < s \/ s + m <= fst e) r ->
  map (fun j => entry_sum j r) (seq s m) = repeat 0%Z m.
Proof.
  intros r s m H. rewrite <- (seq_length m s) at 2. rewrite <- map_const.
  apply map_ext_in. intros j Hj. apply in_seq in Hj. apply entry_sum_out.
  eapply Forall_impl; [|exact H]. cbn. intros; lia.
Qed.

Lemma dense_row_pad_r : forall r n m, Forall (fun e => fst e < n) r ->
  dense_row (n + m) r = dense_row n r ++ repeat 0%Z m.
Proof.
  intros r n m H. unfold dense_row. rewrite seq_app, map_app. f_equal.
  apply dense_zero. eapply Forall_impl; [|exact H]. cbn. intros; lia.
Qed.

Lemma dense_row_pad_l : forall r n m,
  dense_row (n + m) (map (shift_entry n) r) = repeat 0%Z n ++ dense_row m r.
Proof.
  intros r n m. unfold dense_row. rewrite seq_app, map_app. f_equal.
  - apply dense_zero. apply Forall_map, Forall_forall. intros e _. cbn. lia.
  - cbn [Nat.add]. rewrite <- (Nat.add_0_r n) at 1. rewrite <- map_add_seq, map_map.
    apply map_ext. intros j. rewrite Nat.add_comm. apply entry_sum_shift.
Qed.

Lemma nth_to_dense : forall A i, wfP A -> i < nmaj A ->
  nth i (to_dense A) [] = dense_row (nmin A) (nth i (rows A) []).
Proof. intros A i W H. apply nth_map_lt. rewrite (rows_length A W). exact H. Qed.
