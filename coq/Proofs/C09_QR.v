(* C09 — the exact rational instance (executable) and the real instance (theorems) run the
   same model: Q2R is a homomorphism of instances, so Proofs/C09_transfer.v applies. *)
From Coq Require Import List ZArith Bool QArith Qabs Qround Reals Qreals Lra Lia.
Import ListNotations.
From PP Require Import Model.C09 Model.C09_ext Proofs.C09 Proofs.C09_transfer.

Local Open Scope R_scope.

(* Rdiv0: division totalised at 0 like Qdiv (never used: dt_init > 0) *)
Definition Rceil (x : R) : Z := (1 - up (- x))%Z.
Definition Rdiv0 (x y : R) : R := if Req_EM_T y 0 then 0 else x / y.

Definition RExt : numext R := {| x_div := Rdiv0; x_ceil := Rceil; x_ofZ := IZR |}.

Lemma Rceil_bounds x : IZR (Rceil x) - 1 < x <= IZR (Rceil x).
Proof.
  unfold Rceil. destruct (archimed (- x)) as [H1 H2].
  rewrite minus_IZR. simpl. lra.
Qed.

Lemma Rceil_spec x z : IZR z - 1 < x <= IZR z -> Rceil x = z.
Proof.
  intros [H1 H2]. unfold Rceil.
  assert (E : (1 - z)%Z = up (- x)).
  { apply tech_up; rewrite minus_IZR; simpl; lra. }
  rewrite <- E. lia.
Qed.

Lemma Q2R_inject_Z z : Q2R (inject_Z z) = IZR z.
Proof. unfold Q2R, inject_Z; cbn. rewrite Rinv_1. ring. Qed.

Lemma Q2R_abs q : Q2R (Qabs q) = Rabs (Q2R q).
Proof.
  destruct (Qlt_le_dec q 0) as [H|H].
  - rewrite (Qeq_eqR _ _ (Qabs_neg q (Qlt_le_weak _ _ H))), Q2R_opp.
    apply Qlt_Rlt in H. rewrite RMicromega.Q2R_0 in H. rewrite Rabs_left by exact H. reflexivity.
  - rewrite (Qeq_eqR _ _ (Qabs_pos q H)).
    apply Qle_Rle in H. rewrite RMicromega.Q2R_0 in H. rewrite Rabs_pos_eq by exact H. reflexivity.
Qed.

Lemma Q2R_red q : Q2R (Qred q) = Q2R q.
Proof. apply Qeq_eqR, Qred_correct. Qed.

Lemma QR_leb x y : Rleb (Q2R x) (Q2R y) = Qle_bool x y.
Proof.
  destruct (Qle_bool x y) eqn:E.
  - apply Rleb_true, Qle_Rle, Qle_bool_iff, E.
  - apply Rleb_false. destruct (Qlt_le_dec y x) as [H|H]; [apply Qlt_Rlt; exact H|].
    apply Qle_bool_iff in H. congruence.
Qed.

Lemma QR_ltb x y : Rltb (Q2R x) (Q2R y) = negb (Qle_bool y x).
Proof.
  destruct (Qle_bool y x) eqn:E; cbn [negb].
  - apply Rltb_false, Qle_Rle, Qle_bool_iff, E.
  - apply Rltb_true. destruct (Qlt_le_dec x y) as [H|H]; [apply Qlt_Rlt; exact H|].
    apply Qle_bool_iff in H. congruence.
Qed.

Lemma QR_eqb x y : Reqb (Q2R x) (Q2R y) = Qeq_bool x y.
Proof.
  destruct (Qeq_bool x y) eqn:E.
  - apply Reqb_true, Qeq_eqR, Qeq_bool_iff, E.
  - unfold Reqb. destruct (Req_EM_T (Q2R x) (Q2R y)) as [H|H]; [|reflexivity].
    apply eqR_Qeq, Qeq_bool_iff in H. congruence.
Qed.

Theorem Q2R_morph : morph Q R QOps ROps Q2R.
Proof.
  constructor; cbn [n_zero n_one n_milli n_tenth n_add n_sub n_mul n_abs n_leb n_ltb n_eqb
                    QOps ROps]; intros.
  - exact RMicromega.Q2R_0.
  - exact RMicromega.Q2R_1.
  - unfold Q2R; cbn; field.
  - unfold Q2R; cbn; field.
  - rewrite Q2R_red. apply Q2R_plus.
  - rewrite Q2R_red. apply Q2R_minus.
  - rewrite Q2R_red. apply Q2R_mult.
  - apply Q2R_abs.
  - apply QR_leb.
  - apply QR_ltb.
  - apply QR_eqb.
Qed.

Theorem Q2R_morph_ext : morph_ext Q R QExt RExt Q2R.
Proof.
  constructor; cbn [x_div x_ceil x_ofZ QExt RExt]; intros.
  - rewrite Q2R_red. unfold Rdiv0. destruct (Req_EM_T (Q2R y) 0) as [H|H].
    + assert (Hy : (y == 0)%Q) by (apply eqR_Qeq; rewrite H, RMicromega.Q2R_0; reflexivity).
      rewrite (Qeq_eqR _ 0%Q); [exact RMicromega.Q2R_0|].
      rewrite Hy. unfold Qdiv. change (/ 0)%Q with 0%Q. apply Qmult_0_r.
    + apply Q2R_div. intros Hy. apply H. rewrite (Qeq_eqR _ _ Hy). exact RMicromega.Q2R_0.
  - apply Rceil_spec. split.
    + pose proof (Qceiling_lt x) as H. apply Qlt_Rlt in H.
      rewrite Q2R_inject_Z, minus_IZR in H. simpl in H. lra.
    + pose proof (Qle_ceiling x) as H. apply Qle_Rle in H.
      rewrite Q2R_inject_Z in H. exact H.
  - apply Q2R_inject_Z.
Qed.
