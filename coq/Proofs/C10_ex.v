(* C10 — a concrete TimeManager configuration over the reals accepted by the (modelled)
   constructor; used only by the non-vacuity examples of Props/C10.v. *)
From Coq Require Import List ZArith Bool Arith Lia Reals Lra.
Import ListNotations.
From PP Require Import Model.C09 Proofs.C09.
Local Open Scope R_scope.

Definition ex_args : args R :=
  Build_args R 1 false (Some (1 / 10, 1)) 15 4 7 (7 / 10) (13 / 10) (1 / 2) 10
             (1 / 10000000000) 0.
Definition ex_sched : list R := [0; 1; 3 / 2].

Lemma ex_construct :
  exists c, construct R ROps ex_args ex_sched = inl c /\ dt_min c = 1 / 10.
Proof. exact (proj1 regression_input_ok). Qed.

Lemma ex_guards :
  a_constant ex_args = false /\ 0 <= a_rtol ex_args /\ 0 <= a_atol ex_args /\
  well_separated (a_rtol ex_args) (a_atol ex_args) ex_sched /\
  a_dt_init ex_args <= nth 1 ex_sched 0 - nth 0 ex_sched 0.
Proof. exact (proj2 regression_input_ok). Qed.
