(* C31 — sort_point_pairs.  Soundness: on success the output is a permutation of the input
   pairs (up to flipping) forming one chain.  Completeness in circular mode: a single cycle,
   stored in any order and orientation, is traversed. *)
From Coq Require Import List ZArith Bool Arith Lia Permutation.
Import ListNotations.
From PP Require Import Model.C28 Model.C31 Proofs.C31.

Definition dl : line := (0, 0)%Z.

Lemma last_nth : forall {A} (l : list A) d, last l d = nth (length l - 1) l d.
Proof.
  intros A l d. induction l as [|a [|b r] IH]; try reflexivity.
  change (last (a :: b :: r) d) with (last (b :: r) d). rewrite IH.
  cbn [length]. rewrite !Nat.sub_succ, Nat.sub_0_r. reflexivity.
Qed.

(* a permutation of 0..n-1 as a bijection of the positions *)
Section PermSeq.
  Variables (perm : list nat) (n : nat).
  Hypothesis Hperm : Permutation perm (seq 0 n).

  Lemma perm_len : length perm = n.
  Proof. rewrite (Permutation_length Hperm). apply seq_length. Qed.

  Lemma perm_lt : forall k, k < n -> nth k perm 0 < n.
  Proof.
    intros k Hk. assert (In (nth k perm 0) perm) by (apply nth_In; rewrite perm_len; exact Hk).
    apply (Permutation_in _ Hperm) in H. apply in_seq in H. lia.
  Qed.

  Lemma perm_inj : forall k1 k2, k1 < n -> k2 < n -> nth k1 perm 0 = nth k2 perm 0 -> k1 = k2.
  Proof.
    intros k1 k2 H1 H2. apply NoDup_nth; try (rewrite perm_len; assumption).
    apply (Permutation_NoDup (Permutation_sym Hperm)). apply seq_NoDup.
  Qed.

  Lemma perm_surj : forall j, j < n -> exists k, k < n /\ nth k perm 0 = j.
  Proof.
    intros j Hj. assert (In j perm).
    { apply (Permutation_in _ (Permutation_sym Hperm)). apply in_seq. lia. }
    apply (In_nth _ _ 0) in H. destruct H as (k & Hk & E). rewrite perm_len in Hk. eauto.
  Qed.

End PermSeq.

Lemma set_nth_length : forall {A} (l : list A) i x, length (set_nth l i x) = length l.
Proof.
  intros A l. induction l as [|y l IH]; intros [|i] x; cbn; try reflexivity.
  rewrite IH. reflexivity.
Qed.

Lemma nth_set_nth_eq : forall {A} (l : list A) i x d, i < length l -> nth i (set_nth l i x) d = x.
Proof.
  intros A l. induction l as [|y l IH]; intros [|i] x d H; cbn in *; try lia; try reflexivity.
  apply IH. lia.
Qed.

Lemma nth_set_nth_neq : forall {A} (l : list A) i k x d, k <> i -> nth k (set_nth l i x) d = nth k l d.
Proof.
  intros A l. induction l as [|y l IH]; intros [|i] [|k] x d H; cbn; try reflexivity; try lia.
  apply IH. lia.
Qed.

(* writing position i extends a description of the first i entries to the first S i *)
Lemma set_nth_prefix : forall {A} (l : list A) (f : nat -> A) d i,
  i < length l -> (forall k, k < i -> nth k l d = f k) ->
  forall k, k < S i -> nth k (set_nth l i (f i)) d = f k.
Proof.
  intros A l f d i Hi H k Hk. destruct (Nat.eq_dec k i) as [-> | N].
  - apply nth_set_nth_eq. exact Hi.
  - rewrite nth_set_nth_neq by exact N. apply H. lia.
Qed.

Lemma count_set_true : forall (l : list bool) j,
  nth_error l j = Some false -> count_true (set_nth l j true) = S (count_true l).
Proof.
  unfold count_true. induction l as [|b l IH]; intros [|j] H; cbn in *; try discriminate.
  - injection H as ->. reflexivity.
  - destruct b; cbn; rewrite (IH j H); reflexivity.
Qed.

Lemma nth_all_false : forall {A} (l : list A) k, nth k (map (fun _ => false) l) false = false.
Proof. intros A l. induction l as [|x l IH]; intros [|k]; cbn; auto. Qed.

Lemma count_all_false : forall {A} (l : list A), count_true (map (fun _ => false) l) = 0.
Proof. intros A l. unfold count_true. induction l; cbn; auto. Qed.

(* a hit is an unused pair (found = false) with an entry equal to prev; it is returned
   turned so that this entry comes first *)
Lemma scan_cases : forall lines found prev j0,
  match scan lines found prev j0 with
  | Some (j, l, np) =>
      exists k a b,
        j = j0 + k /\ nth_error lines k = Some (a, b) /\ nth_error found k = Some false /\
        (l = (a, b) \/ l = (b, a)) /\ fst l = prev /\ np = snd l
  | None =>
      forall k a b, nth_error lines k = Some (a, b) -> nth_error found k = Some false ->
                    a <> prev /\ b <> prev
  end.
Proof.
  induction lines as [|[a b] lr IH]; intros [|f fr] prev j0; cbn [scan];
    try (intros [|k] ? ?; discriminate).
  destruct (negb f && Z.eqb a prev) eqn:E1; [|destruct (negb f && Z.eqb b prev) eqn:E2].
  - apply andb_prop in E1 as [Ef Ea]. apply negb_true_iff in Ef. apply Z.eqb_eq in Ea. subst f prev.
    exists 0, a, b. rewrite Nat.add_0_r. cbn. tauto.
  - apply andb_prop in E2 as [Ef Eb]. apply negb_true_iff in Ef. apply Z.eqb_eq in Eb. subst f prev.
    exists 0, a, b. rewrite Nat.add_0_r. cbn. tauto.
  - specialize (IH fr prev (S j0)). destruct (scan lr fr prev (S j0)) as [[[j l] np]|].
    + destruct IH as (k & a' & b' & -> & H). exists (S k), a', b'. split; [lia|exact H].
    + intros [|k] a' b' Hl Hf; [|exact (IH k a' b' Hl Hf)].
      injection Hl as -> ->. injection Hf as ->. cbn in E1, E2.
      split; apply Z.eqb_neq; assumption.
Qed.

(* column i receives pair j, turned as l; the open end becomes snd l *)
Definition place (st : sstate) (i j : nat) (l : line) : sstate :=
  {| s_sorted := set_nth (s_sorted st) i l;
     s_found := set_nth (s_found st) j true;
     s_prev := snd l;
     s_ind := set_nth (s_ind st) i j |}.

Definition step (lines : list line) (st : sstate) (i : nat) : sstate :=
  match scan lines (s_found st) (s_prev st) 0 with
  | Some (j, l, np) =>
      {| s_sorted := set_nth (s_sorted st) i l;
         s_found := set_nth (s_found st) j true;
         s_prev := np;
         s_ind := set_nth (s_ind st) i j |}
  | None => st
  end.

(* the first column is placed on this state before the loop starts at i = 1 *)
Definition blank_state (lines : list line) : sstate :=
  {| s_sorted := map (fun _ => ((-1)%Z, (-1)%Z)) lines;
     s_found := map (fun _ => false) lines;
     s_prev := 0%Z;
     s_ind := map (fun _ => 0) lines |}.

Lemma step_cases : forall (lines : list line) st i,
  (exists j a b l,
     nth_error lines j = Some (a, b) /\ nth_error (s_found st) j = Some false /\
     (l = (a, b) \/ l = (b, a)) /\ fst l = s_prev st /\ step lines st i = place st i j l) \/
  (step lines st i = st /\
   forall j a b, nth_error lines j = Some (a, b) -> nth_error (s_found st) j = Some false ->
                 a <> s_prev st /\ b <> s_prev st).
Proof.
  intros lines st i. unfold step.
  pose proof (scan_cases lines (s_found st) (s_prev st) 0) as SC.
  destruct (scan lines (s_found st) (s_prev st) 0) as [[[j l] np]|]; [left|right; tauto].
  destruct SC as (k & a & b & -> & Hl & Hf & Hor & Hp & ->). exists k, a, b, l. tauto.
Qed.

(* the loop of sort_point_pairs: columns 1 .. m-1 *)
Lemma sort_loop_inv : forall lines (P : sstate -> nat -> Prop) m,
  (forall st i, 1 <= i -> i < m -> P st i -> P (step lines st i) (S i)) ->
  forall st, 1 <= m -> P st 1 -> P (sort_loop lines st 1 (m - 1)) m.
Proof.
  intros lines P m Hstep.
  assert (G : forall fuel st i, 1 <= i -> i + fuel = m -> P st i -> P (sort_loop lines st i fuel) m).
  { induction fuel as [|fuel IH]; intros st i Hi Hm H; cbn [sort_loop].
    - replace m with i by lia. exact H.
    - apply (IH (step lines st i) (S i)); [lia ..|]. apply Hstep; [lia ..|exact H]. }
  intros st Hm. apply G; lia.
Qed.

Section Sound.
  Variable lines : list line.
  Let n := length lines.
  Variable first : line.

  Definition good (st : sstate) (i : nat) : Prop :=
    (forall k, k < i -> exists a b, nth_error lines (nth k (s_ind st) 0) = Some (a, b) /\
                          (nth k (s_sorted st) dl = (a, b) \/ nth k (s_sorted st) dl = (b, a))) /\
    (forall k, S k < i -> snd (nth k (s_sorted st) dl) = fst (nth (S k) (s_sorted st) dl)) /\
    (1 <= i -> s_prev st = snd (nth (i - 1) (s_sorted st) dl) /\ nth 0 (s_sorted st) dl = first) /\
    (forall j, nth j (s_found st) false = true -> exists k, k < i /\ nth k (s_ind st) 0 = j).

  (* every placement marks one more pair, so when column i is due i pairs are marked exactly
     when no step has failed; only then the columns mean anything *)
  Definition inv (st : sstate) (i : nat) : Prop :=
    length (s_sorted st) = n /\ length (s_found st) = n /\ length (s_ind st) = n /\
    count_true (s_found st) <= i /\
    (count_true (s_found st) = i -> i <= n /\ good st i).

  Lemma inv_blank : inv (blank_state lines) 0.
  Proof.
    unfold inv, good. cbn [blank_state s_sorted s_found s_prev s_ind].
    rewrite !map_length, count_all_false.
    repeat split; try reflexivity; try lia; intros j Hj; try lia.
    rewrite nth_all_false in Hj. discriminate.
  Qed.

  Lemma inv_place : forall st i j l a b,
    inv st i ->
    nth_error lines j = Some (a, b) -> nth_error (s_found st) j = Some false ->
    l = (a, b) \/ l = (b, a) ->
    match i with 0 => l = first | S _ => fst l = s_prev st end ->
    inv (place st i j l) (S i).
  Proof.
    intros [sorted found prev ind] i j l a b (L1 & L2 & L3 & Hc & Hg) Hl Hf Hor Hp.
    cbn [s_sorted s_found s_prev s_ind] in *.
    assert (Cnt := count_set_true found j Hf).
    unfold inv, place. cbn [s_sorted s_found s_prev s_ind]. rewrite !set_nth_length, Cnt.
    refine (conj L1 (conj L2 (conj L3 (conj _ _)))); [lia|]. intro E.
    destruct Hg as [_ (G1 & G2 & G3 & G4)]; [lia|].
    cbn [s_sorted s_found s_prev s_ind] in *.
    assert (Hlt : i < n).
    { pose proof (filter_length_le (fun b => b) (set_nth found j true)) as Hle.
      fold (count_true (set_nth found j true)) in Hle. rewrite Cnt, set_nth_length in Hle. lia. }
    split; [lia|]. unfold good. cbn [s_sorted s_found s_prev s_ind].
    split; [|split; [|split]].
    - intros k Hk. destruct (Nat.eq_dec k i) as [-> | N].
      + rewrite !nth_set_nth_eq by lia. eauto.
      + rewrite !nth_set_nth_neq by exact N. apply G1. lia.
    - intros k Hk. rewrite (nth_set_nth_neq _ _ k) by lia.
      destruct (Nat.eq_dec (S k) i) as [<- | N].
      + rewrite nth_set_nth_eq by lia. rewrite Hp, (proj1 (G3 ltac:(lia))). do 2 f_equal. lia.
      + rewrite nth_set_nth_neq by exact N. apply G2. lia.
    - intros _. rewrite Nat.sub_succ, Nat.sub_0_r, nth_set_nth_eq by lia. split; [reflexivity|].
      destruct i; [rewrite nth_set_nth_eq by lia; exact Hp|].
      rewrite nth_set_nth_neq by lia. apply G3. lia.
    - intros j' Hj. destruct (Nat.eq_dec j' j) as [-> | N].
      + exists i. rewrite nth_set_nth_eq by lia. split; [lia|reflexivity].
      + rewrite nth_set_nth_neq in Hj by exact N. destruct (G4 j' Hj) as (k & Hk & Ek).
        exists k. rewrite nth_set_nth_neq by lia. split; [lia|exact Ek].
  Qed.

  Lemma inv_step : forall st i, 1 <= i -> inv st i -> inv (step lines st i) (S i).
  Proof.
    intros st i Hi H.
    destruct (step_cases lines st i) as [(j & a & b & l & Hl & Hf & Hor & Hp & ->) | [-> _]].
    - apply (inv_place st i j l a b H Hl Hf Hor). destruct i; [lia|exact Hp].
    - destruct H as (L1 & L2 & L3 & Hc & _).
      refine (conj L1 (conj L2 (conj L3 (conj _ _)))); lia.
  Qed.
  (* at the exit all pairs are marked: every step has succeeded, and ind is a permutation *)
  Lemma inv_full : forall st, inv st n -> forallb (fun b => b) (s_found st) = true ->
    good st n /\ Permutation (s_ind st) (seq 0 n).
  Proof.
    intros st (_ & L2 & L3 & _ & Hg) EA.
    destruct Hg as [_ Hg]; [apply filter_length_all in EA; unfold count_true; lia|].
    split; [exact Hg|]. destruct Hg as (G1 & _ & _ & G4).
    apply NoDup_Permutation_bis; [|rewrite seq_length; lia|].
    - apply NoDup_incl_NoDup with (l := seq 0 n); [apply seq_NoDup|rewrite seq_length; lia|].
      intros j Hj. apply in_seq in Hj. destruct (G4 j) as (k & Hk & <-); [|apply nth_In; lia].
      rewrite forallb_forall in EA. apply EA, nth_In. lia.
    - intros x Hx. apply (In_nth _ _ 0) in Hx. destruct Hx as (k & Hk & <-). rewrite L3 in Hk.
      destruct (G1 k Hk) as (a & b & Hn & _). apply in_seq.
      assert (nth k (s_ind st) 0 < n) by (apply nth_error_Some; congruence). lia.
  Qed.
End Sound.

Lemma find_first_spec : forall {A} (f : A -> bool) l j0 hit x,
  find_first f l j0 = Some (hit, x) -> exists k, hit = j0 + k /\ nth_error l k = Some x.
Proof.
  intros A f l. induction l as [|y l IH]; intros j0 hit x H; cbn in H; [discriminate|].
  destruct (f y).
  - injection H as <- <-. exists 0. split; [lia|reflexivity].
  - destruct (IH (S j0) hit x H) as (k & Hk & Hn). exists (S k). split; [lia|exact Hn].
Qed.

Lemma sort_point_pairs_sound : forall lines chk circ sorted ind,
  sort_point_pairs lines chk circ = SOk sorted ind ->
  let n := length lines in
  length sorted = n /\ Permutation ind (seq 0 n) /\
  (forall k, k < n -> exists a b, nth_error lines (nth k ind 0) = Some (a, b) /\
                         (nth k sorted dl = (a, b) \/ nth k sorted dl = (b, a))) /\
  (forall k, S k < n -> snd (nth k sorted dl) = fst (nth (S k) sorted dl)) /\
  (circ = true -> chk = true -> fst (nth 0 sorted dl) = snd (nth (n - 1) sorted dl)).
Proof.
  intros lines chk circ sorted ind H n. unfold sort_point_pairs in H. cbv zeta in H.
  destruct (if negb circ then _ else _) as [[[first hit] chk']|] eqn:ES; [|discriminate].
  (* the start is an input pair, possibly flipped *)
  assert (S0 : exists a b, nth_error lines hit = Some (a, b) /\ (first = (a, b) \/ first = (b, a))
                           /\ (circ = true -> chk' = chk)).
  { destruct circ; cbn [negb] in ES.
    - destruct lines as [|[a b] lr]; [discriminate|]. injection ES as <- <- <-.
      exists a, b. cbn. tauto.
    - destruct (find_first _ _ _) as [[h [a b]]|] eqn:EF; [|discriminate].
      destruct (find_first_spec _ _ _ _ _ EF) as (k & -> & Hn).
      injection ES as <- <- <-. exists a, b. split; [exact Hn|]. split; [|discriminate].
      destruct (1 <? count_val lines a); tauto. }
  destruct S0 as (a & b & Hl & Hor & Hchk).
  assert (Hhit : hit < n) by (apply nth_error_Some; congruence).
  change {| s_sorted := _; s_found := _; s_prev := _; s_ind := _ |}
    with (place (blank_state lines) 0 hit first) in H.
  assert (I0 : inv lines first (place (blank_state lines) 0 hit first) 1).
  { apply (inv_place lines first _ 0 hit first a b (inv_blank lines first) Hl); [|exact Hor|reflexivity].
    cbn [blank_state s_found]. rewrite (nth_error_nth' _ false), nth_all_false; [reflexivity|].
    rewrite map_length. exact Hhit. }
  pose proof (sort_loop_inv lines (inv lines first) n (fun st i Hi _ => inv_step lines first st i Hi)
                _ ltac:(lia) I0) as I.
  set (st := sort_loop lines _ 1 _) in *. fold n in H.
  destruct (forallb (fun b => b) (s_found st)) eqn:EA; [|discriminate]. cbn [negb] in H.
  destruct (chk' && _) eqn:ECk; [discriminate|]. injection H as <- <-.
  destruct (inv_full lines first st I EA) as [(G1 & G2 & G3 & _) P].
  destruct I as (L1 & _). fold n in L1.
  split; [exact L1|]. split; [exact P|]. split; [exact G1|]. split; [exact G2|].
  intros -> ->. rewrite (Hchk eq_refl) in ECk. cbn [andb] in ECk.
  apply negb_false_iff, Z.eqb_eq in ECk.
  rewrite (proj2 (G3 ltac:(lia))), ECk, last_nth, L1. reflexivity.
Qed.

Definition orient (l : line) (o : bool) : line := if o then (snd l, fst l) else l.

Section Cycle.
  Variable lines : list line.
  Let n := length lines.
  Variables (perm : list nat) (os : list bool) (es : list line).

  Hypothesis Hperm : Permutation perm (seq 0 n).
  Hypothesis Hes_len : length es = n.
  Hypothesis Hes : forall k, k < n -> nth k es dl = orient (nth (nth k perm 0) lines dl) (nth k os false).
  Hypothesis Hchain : forall k, S k < n -> snd (nth k es dl) = fst (nth (S k) es dl).
  Hypothesis Hclose : fst (nth 0 es dl) = snd (nth (n - 1) es dl).
  Hypothesis Hnodup : NoDup (map fst es).
  Hypothesis Hnoloop : forall l, In l lines -> fst l <> snd l.

  Lemma fst_inj : forall k1 k2, k1 < n -> k2 < n ->
    fst (nth k1 es dl) = fst (nth k2 es dl) -> k1 = k2.
  Proof.
    intros k1 k2 H1 H2 E.
    assert (E' : nth k1 (map fst es) (fst dl) = nth k2 (map fst es) (fst dl))
      by (rewrite !map_nth; exact E).
    revert E'. apply (proj1 (NoDup_nth (map fst es) (fst dl)) Hnodup);
      rewrite map_length; unfold line in *; lia.
  Qed.

  (* from position i >= 1 on, only the pair at i has an entry equal to fst e_i: all first
     entries differ, and the second entries are the first entries one place further on *)
  Lemma next_pair : forall i k a b, 1 <= i -> i <= k -> k < n ->
    nth (nth k perm 0) lines dl = (a, b) ->
    a = fst (nth i es dl) \/ b = fst (nth i es dl) -> k = i.
  Proof.
    intros i k a b Hi Hik Hk Eab Hor.
    assert (E : fst (nth k es dl) = fst (nth i es dl) \/ snd (nth k es dl) = fst (nth i es dl)).
    { rewrite (Hes k Hk), Eab. unfold orient. destruct (nth k os false); cbn; tauto. }
    destruct E as [E | E].
    - apply fst_inj; [lia ..|exact E].
    - destruct (Nat.eq_dec k (n - 1)) as [-> | N].
      + rewrite <- Hclose in E. apply fst_inj in E; lia.
      + rewrite (Hchain k) in E by lia. apply fst_inj in E; lia.
  Qed.

  (* the pair at position i, turned so that it starts at fst e_i, is e_i *)
  Lemma turned : forall i a b l, i < n ->
    nth (nth i perm 0) lines dl = (a, b) -> l = (a, b) \/ l = (b, a) ->
    fst l = fst (nth i es dl) -> l = nth i es dl.
  Proof.
    intros i a b l Hi Eab Hor Hp.
    assert (Hab : a <> b).
    { apply (Hnoloop (a, b)). rewrite <- Eab. apply nth_In, (perm_lt perm n Hperm i Hi). }
    rewrite (Hes i Hi), Eab in *. unfold orient in *.
    destruct Hor as [-> | ->], (nth i os false); cbn in *; congruence.
  Qed.

  (* the state after i columns have been placed along the traversal *)
  Definition along (st : sstate) (i : nat) : Prop :=
    length (s_sorted st) = n /\ length (s_found st) = n /\ length (s_ind st) = n /\
    (forall k, k < i -> nth k (s_sorted st) dl = nth k es dl) /\
    (forall k, k < i -> nth k (s_ind st) 0 = nth k perm 0) /\
    (forall k, k < n -> (nth (nth k perm 0) (s_found st) false = true <-> k < i)) /\
    (1 <= i -> s_prev st = snd (nth (i - 1) es dl)).

  Lemma along_blank : along (blank_state lines) 0.
  Proof.
    unfold along. cbn [blank_state s_sorted s_found s_prev s_ind]. rewrite !map_length.
    repeat split; try reflexivity; try lia. rewrite nth_all_false. discriminate.
  Qed.

  Lemma along_place : forall st i, i < n -> along st i ->
    along (place st i (nth i perm 0) (nth i es dl)) (S i).
  Proof.
    intros [sorted found prev ind] i Hin (L1 & L2 & L3 & A1 & A2 & A3 & _).
    pose proof (perm_lt perm n Hperm i Hin) as Hj.
    unfold along, place. cbn [s_sorted s_found s_prev s_ind] in *. rewrite !set_nth_length.
    refine (conj L1 (conj L2 (conj L3 (conj _ (conj _ (conj _ _)))))).
    - apply (set_nth_prefix sorted (fun k => nth k es dl)); [lia|exact A1].
    - apply (set_nth_prefix ind (fun k => nth k perm 0)); [lia|exact A2].
    - intros k Hk. destruct (Nat.eq_dec k i) as [-> | N].
      + rewrite nth_set_nth_eq by lia. split; [lia|reflexivity].
      + rewrite nth_set_nth_neq, (A3 k Hk); [lia|].
        intro E. exact (N (perm_inj perm n Hperm k i Hk Hin E)).
    - intros _. rewrite Nat.sub_succ, Nat.sub_0_r. reflexivity.
  Qed.

  Lemma along_step : forall st i, 1 <= i -> i < n -> along st i -> along (step lines st i) (S i).
  Proof.
    intros st i Hi1 Hin Hal. pose proof Hal as (_ & L2 & _ & _ & _ & A3 & A4).
    assert (Hprev : s_prev st = fst (nth i es dl)).
    { rewrite (A4 Hi1). replace i with (S (i - 1)) at 2 by lia. apply Hchain. lia. }
    destruct (step_cases lines st i) as [(j & a & b & l & Hl & Hf & Hor & Hp & ->) | [_ Hnone]].
    - (* the pair found is unused and touches the open end, so it is the next of the traversal *)
      assert (Hj : j < n) by (apply nth_error_Some; congruence).
      destruct (perm_surj perm n Hperm j Hj) as (k & Hk & <-).
      apply nth_error_nth with (d := dl) in Hl. apply nth_error_nth with (d := false) in Hf.
      assert (k = i).
      { apply (next_pair i k a b Hi1); [|exact Hk|exact Hl|].
        - destruct (Nat.lt_ge_cases k i) as [L | L]; [|exact L]. apply (A3 k Hk) in L. congruence.
        - rewrite <- Hprev, <- Hp. destruct Hor as [-> | ->]; [left|right]; reflexivity. }
      subst k. rewrite (turned i a b l Hin Hl Hor); [exact (along_place st i Hin Hal)|congruence].
    - (* the next pair of the traversal is unused and touches the open end *)
      exfalso. pose proof (perm_lt perm n Hperm i Hin) as Hj.
      destruct (nth (nth i perm 0) lines dl) as [a b] eqn:Eab.
      destruct (Hnone (nth i perm 0) a b) as [Na Nb].
      + rewrite <- Eab. apply nth_error_nth'. exact Hj.
      + rewrite (nth_error_nth' _ false) by lia. f_equal.
        destruct (nth _ (s_found st) false) eqn:E; [apply (A3 i Hin) in E; lia|reflexivity].
      + rewrite Hprev, (Hes i Hin), Eab in Na, Nb. unfold orient in *.
        destruct (nth i os false); cbn in Na, Nb; congruence.
  Qed.

  (* a single cycle, given in any order with any flips: the call succeeds and returns the
     traversal that starts with the first input pair as given *)
  Lemma sort_point_pairs_complete_cycle : forall chk,
    nth 0 perm 0 = 0 /\ nth 0 os false = false -> 1 <= n ->
    sort_point_pairs lines chk true = SOk es perm.
  Proof.
    intros chk Hstart Hn1.
    assert (El : exists l0 lr, lines = l0 :: lr) by (destruct lines; [cbn in Hn1; lia|eauto]).
    destruct El as (l0 & lr & El).
    assert (E0 : nth 0 es dl = l0) by (rewrite (Hes 0 Hn1), El; destruct Hstart as [-> ->]; reflexivity).
    unfold sort_point_pairs. cbv zeta. cbn [negb]. rewrite El. cbv beta iota. rewrite <- El.
    change {| s_sorted := _; s_found := _; s_prev := _; s_ind := _ |}
      with (place (blank_state lines) 0 0 l0).
    pose proof (along_place _ 0 Hn1 along_blank) as A0. rewrite (proj1 Hstart), E0 in A0.
    pose proof (sort_loop_inv lines along n along_step _ Hn1 A0) as A.
    set (st := sort_loop lines _ 1 _) in *. fold n.
    destruct A as (L1 & L2 & L3 & A1 & A2 & A3 & A4).
    replace (forallb (fun b => b) (s_found st)) with true.
    2: { symmetry. apply forallb_forall. intros b Hb. apply (In_nth _ _ false) in Hb.
         destruct Hb as (j & Hj & <-). rewrite L2 in Hj.
         destruct (perm_surj perm n Hperm j Hj) as (k & Hk & <-). apply (A3 k Hk). exact Hk. }
    replace (Z.eqb (fst l0) (snd (last (s_sorted st) (0, 0)%Z))) with true.
    2: { symmetry. apply Z.eqb_eq. change (0, 0)%Z with dl.
         rewrite last_nth, L1, (A1 (n - 1)), <- E0 by lia. exact Hclose. }
    cbn [negb]. rewrite andb_false_r. f_equal.
    - apply (nth_ext _ _ dl dl); [rewrite L1, Hes_len; reflexivity|]. rewrite L1. exact A1.
    - apply (nth_ext _ _ 0 0); [rewrite L3; symmetry; exact (perm_len perm n Hperm)|].
      rewrite L3. exact A2.
  Qed.
End Cycle.
