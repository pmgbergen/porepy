(* C24 — the invariant relating the container model to the abstract container, and how its
   parts fare under the insertions, deletions and renamings the methods perform. *)
From Coq Require Import List Arith Bool Lia.
Import ListNotations.
From PP Require Import Model.C24 Model.C24_spec Proofs.C24_base Proofs.C24_sort.

Definition unord (p q : gid * gid) : Prop :=
  (fst p = fst q /\ snd p = snd q) \/ (fst p = snd q /\ snd p = fst q).

Definition orel (x y : option (gid * gid)) : Prop :=
  match x, y with
  | Some p, Some q => unord p q
  | None, None => True
  | _, _ => False
  end.

Lemma unord_refl p : unord p p.
Proof. left; auto. Qed.
Lemma unord_sym p q : unord p q -> unord q p.
Proof. unfold unord. intros [[-> ->]|[-> ->]]; [left|right]; auto. Qed.
Lemma unord_trans p q r : unord p q -> unord q r -> unord p r.
Proof.
  unfold unord. intros [[-> ->]|[-> ->]] [[-> ->]|[-> ->]]; [left|right|right|left]; auto.
Qed.

Lemma unord_eq p c d : unord p (c, d) -> p = (c, d) \/ p = (d, c).
Proof. destruct p. unfold unord; cbn. intuition (subst; auto). Qed.

Lemma orel_trans x y z : orel x y -> orel y z -> orel x z.
Proof. destruct x, y, z; cbn; try tauto. apply unord_trans. Qed.

Lemma touches_iff s p : touches s p = true <-> fst p = s \/ snd p = s.
Proof. unfold touches. rewrite orb_true_iff, !geqb_eq. tauto. Qed.

Lemma touches_unord s p q : unord p q -> touches s p = touches s q.
Proof. unfold touches. intros [[-> ->]|[-> ->]]; auto using orb_comm. Qed.

Definition WfI (sp : spec) : Prop :=
  forall i a b, lookup i (pI sp) = Some (a, b) ->
    In a (pS sp) /\ In b (pS sp) /\ fst i <= fst a /\ fst i <= fst b /\
    (forall j c d, lookup j (pI sp) = Some (c, d) -> unord (a, b) (c, d) -> i = j).

(* the two boundary-grid dictionaries *)
Definition BI (m : list (gid * gid)) (b : list gid) (n : nat) : Prop :=
  NoDup (map fst m) /\ b = map snd m /\ NoDup b /\ (forall x, In x b -> snd x < n) /\
  (forall s v, lookup s m = Some v -> fst v = fst s - 1).

Record Inv (g : st) (sp : spec) : Prop := {
  inv_sds : sds g = pS sp;
  inv_nd : NoDup (pS sp);
  inv_intfs : intfs g = map fst (pI sp);
  inv_ndI : NoDup (map fst (pI sp));
  inv_keys : map fst (i2s g) = intfs g;
  inv_rel : forall i, orel (lookup i (pI sp)) (lookup i (i2s g));
  inv_wf : WfI sp;
  inv_bi : BI (s2b g) (bgs g) (nbg g);
  inv_bk : forall s, In s (map fst (s2b g)) <-> In s (sds g) /\ 0 < fst s
}.

Lemma Inv_empty : Inv empty sempty.
Proof.
  split; cbn; try (constructor; fail).
  - intros i a b [=].
  - repeat split; try constructor; [intros x [] | intros s v [=]].
  - tauto.
Qed.

Lemma ren_id o n x : x <> o -> ren o n x = x.
Proof. intros H. unfold ren. apply geqb_neq in H. rewrite H. reflexivity. Qed.

Lemma ren_old o n : ren o n o = n.
Proof. unfold ren. rewrite geqb_refl. reflexivity. Qed.

Lemma ren_inj o n S x y :
  In x S -> In y S -> ~ In n S -> ren o n x = ren o n y -> x = y.
Proof.
  unfold ren. intros Hx Hy Hn. gcase x o; gcase y o; intros H; subst; auto; contradiction.
Qed.

Lemma ren_in o n S x : In x S -> In (ren o n x) (filter (fun y => neqb y o) S ++ [n]).
Proof.
  intros Hx. unfold ren. apply in_app_iff. gcase x o.
  - right; left; reflexivity.
  - left. apply in_filter_neq. auto.
Qed.

Lemma ren_dim o n x : fst n = fst o -> fst (ren o n x) = fst x.
Proof. intros H. unfold ren. gcase x o; subst; auto. Qed.

Definition renp (o n : gid) (p : gid * gid) : gid * gid := (ren o n (fst p), ren o n (snd p)).

Lemma lookup_ren o n j I :
  lookup j (map (ren_entry o n) I) = option_map (renp o n) (lookup j I).
Proof. apply (lookup_map_val (renp o n)). Qed.

Lemma unord_ren o n p q : unord p q -> unord (renp o n p) (renp o n q).
Proof. unfold unord, renp; cbn [fst snd]. intros [[-> ->]|[-> ->]]; auto. Qed.

Lemma orel_ren o n x y :
  orel x y -> orel (option_map (renp o n) x) (option_map (renp o n) y).
Proof. destruct x, y; cbn; auto using unord_ren. Qed.

Lemma ren_entry_keys o n I : map fst (map (ren_entry o n) I) = map fst I.
Proof. rewrite map_map. reflexivity. Qed.

Lemma unord_ren_inv o n S a b c d :
  In a S -> In b S -> In c S -> In d S -> ~ In n S ->
  unord (renp o n (a, b)) (renp o n (c, d)) -> unord (a, b) (c, d).
Proof.
  intros Ha Hb Hc Hd Hn. unfold unord, renp; cbn [fst snd].
  intros [[H1 H2]|[H1 H2]]; [left|right]; split; eapply ren_inj; eauto.
Qed.

Lemma renp_id o n p : touches o p = false -> renp o n p = p.
Proof.
  unfold touches. intros H. apply orb_false_elim in H. destruct H as [H1 H2], p as [a b].
  unfold renp, ren; cbn [fst snd] in *. rewrite H1, H2. reflexivity.
Qed.

Lemma touches_renp o n p : n <> o -> touches o (renp o n p) = false.
Proof.
  intros H. unfold touches, renp, ren; cbn [fst snd]. apply geqb_neq in H. apply orb_false_intro.
  - destruct (geqb (fst p) o) eqn:E; auto.
  - destruct (geqb (snd p) o) eqn:E; auto.
Qed.

Lemma WfI_add sp l : WfI sp -> WfI (sstep sp (AddSd l)).
Proof.
  intros H i a b Hl. destruct (H i a b Hl) as (H1 & H2 & H3). cbn. rewrite !in_app_iff. auto.
Qed.

Lemma joined_false a b I :
  joined a b I = false ->
  forall j c d, lookup j I = Some (c, d) -> ~ unord (a, b) (c, d).
Proof.
  intros H j c d Hl Hu. apply lookup_In in Hl. unfold joined in H.
  apply not_true_iff_false in H. apply H, existsb_exists. exists (j, (c, d)). split; auto.
  unfold unord in Hu. unfold pair_eqb. cbn [fst snd] in *.
  destruct Hu as [[-> ->]|[-> ->]]; rewrite !geqb_refl; auto using orb_true_r.
Qed.

Lemma WfI_intf sp i a b :
  WfI sp -> ~ In i (map fst (pI sp)) -> In a (pS sp) -> In b (pS sp) ->
  fst i <= fst a -> fst i <= fst b -> joined a b (pI sp) = false ->
  WfI (sstep sp (AddIntf i a b)).
Proof.
  intros H Hi Ha Hb Hda Hdb Hj j c d. cbn [sstep pS pI]. rewrite lookup_snoc by auto.
  pose proof (joined_false _ _ _ Hj) as Hnew.
  gcase i j.
  - subst j. intros [= <- <-]. repeat split; auto. intros k e f. rewrite lookup_snoc by auto.
    gcase i k; auto. intros Hk Hu. destruct (Hnew k e f Hk Hu).
  - intros Hl. destruct (H j c d Hl) as (H1 & H2 & H3 & H4 & H5). repeat split; auto.
    intros k e f. rewrite lookup_snoc by auto. gcase i k; [|apply H5].
    intros [= <- <-] Hu. destruct (Hnew j c d Hl (unord_sym _ _ Hu)).
Qed.

Lemma WfI_remove sp s :
  NoDup (map fst (pI sp)) -> WfI sp -> WfI (sstep sp (RemoveSd s)).
Proof.
  intros Hn H.
  assert (Hf : forall j c d,
             lookup j (filter (fun e => negb (touches s (snd e))) (pI sp)) = Some (c, d) ->
             lookup j (pI sp) = Some (c, d) /\ c <> s /\ d <> s).
  { intros j c d. rewrite lookup_filter by auto.
    destruct (lookup j (pI sp)) as [p|]; [|discriminate].
    cbn [snd]. destruct (touches s p) eqn:Et; [discriminate|]. intros [= ->].
    apply not_true_iff_false in Et. rewrite touches_iff in Et. cbn in Et. intuition congruence. }
  intros j c d Hl. cbn [sstep pS pI] in *. apply Hf in Hl. destruct Hl as (Hl & Hc & Hd).
  destruct (H j c d Hl) as (H1 & H2 & H3 & H4 & H5). rewrite !in_filter_neq.
  repeat split; auto. intros k e f Hk. apply Hf in Hk. apply H5, Hk.
Qed.

Lemma WfI_replace sp o n :
  WfI sp -> ~ In n (pS sp) -> fst n = fst o -> WfI (s_replace1 sp o n).
Proof.
  intros H Hn Hdim j a' b'. cbn [s_replace1 pS pI]. rewrite lookup_ren.
  destruct (lookup j (pI sp)) as [[a b]|] eqn:E; [|discriminate]. intros [= <- <-].
  destruct (H j a b E) as (H1 & H2 & H3 & H4 & H5). rewrite !ren_dim by auto.
  repeat split; auto using ren_in.
  intros k c' d'. rewrite lookup_ren.
  destruct (lookup k (pI sp)) as [[c d]|] eqn:E'; [|discriminate]. intros [= <- <-] Hu.
  destruct (H k c d E') as (H1' & H2' & _).
  apply (H5 k c d E'), (unord_ren_inv o n (pS sp)); auto.
Qed.

Definition Bnd (m : list (gid * gid)) (b : list gid) (n : nat) (S : list gid) : Prop :=
  BI m b n /\ forall s, In s (map fst m) <-> In s S /\ 0 < fst s.

Lemma Inv_Bnd g sp : Inv g sp -> Bnd (s2b g) (bgs g) (nbg g) (sds g).
Proof. intros H. split; apply H. Qed.

Lemma Inv_nd_sds g sp : Inv g sp -> NoDup (sds g).
Proof. intros H. rewrite (inv_sds _ _ H). apply H. Qed.

Lemma Inv_nd_intfs g sp : Inv g sp -> NoDup (intfs g).
Proof. intros H. rewrite (inv_intfs _ _ H). apply H. Qed.

Lemma Bnd_ext m b n S S' :
  Bnd m b n S -> (forall s, 0 < fst s -> (In s S' <-> In s S)) -> Bnd m b n S'.
Proof. intros [HB Hk] H. split; auto. intros s. rewrite Hk. specialize (H s). tauto. Qed.

Lemma Bnd_lookup m b n S s :
  Bnd m b n S -> In s S -> 0 < fst s -> exists bg, lookup s m = Some bg /\ In bg b.
Proof.
  intros [(_ & -> & _) Hk] Hs Hpos. destruct (In_keys_lookup m s) as (bg & Hbg); [apply Hk; auto|].
  exists bg. split; auto. apply lookup_In, (in_map snd) in Hbg. exact Hbg.
Qed.

Lemma Bnd_add m b n S k :
  Bnd m b n S -> ~ In k S -> 0 < fst k ->
  Bnd (dset k (fst k - 1, n) m) (kadd (fst k - 1, n) b) (Datatypes.S n) (S ++ [k]).
Proof.
  intros [(H1 & H2 & H3 & H4 & H5) Hk] HkS Hpos.
  assert (Hkm : ~ In k (map fst m)) by (rewrite Hk; tauto).
  assert (Hbg : ~ In (fst k - 1, n) b) by (intros Hi; apply H4 in Hi; cbn in Hi; lia).
  rewrite dset_fresh, kadd_fresh by auto. split; [repeat split|].
  - rewrite map_app. apply nodup_snoc; auto.
  - rewrite map_app, H2. reflexivity.
  - apply nodup_snoc; auto.
  - intros x Hx. apply in_app_iff in Hx. destruct Hx as [Hx|[<-|[]]]; [apply H4 in Hx|cbn]; lia.
  - intros s v. rewrite lookup_snoc by auto. gcase k s; [|apply H5].
    intros [= <-]. subst. reflexivity.
  - intros s. rewrite map_app, !in_app_iff, Hk. cbn. intuition (subst; auto).
Qed.

Lemma Bnd_del m b n S k v :
  Bnd m b n S -> lookup k m = Some v ->
  Bnd (ddel k m) (kdel v b) n (filter (fun x => neqb x k) S).
Proof.
  intros [(H1 & H2 & H3 & H4 & H5) Hk] Hl. split; [repeat split|].
  - rewrite ddel_keys. apply kdel_nodup; auto.
  - subst b. symmetry. apply map_snd_ddel; auto.
  - apply kdel_nodup; auto.
  - intros x Hx. apply kdel_In in Hx; auto. apply H4; tauto.
  - intros s w. rewrite lookup_ddel by auto. gcase k s; [discriminate | apply H5].
  - intros s. rewrite ddel_keys, kdel_In, in_filter_neq, Hk by auto. tauto.
Qed.

(* del of a key that may be absent: a 0-d subdomain has no boundary grid *)
Lemma Bnd_remove m b n S s :
  Bnd m b n S ->
  Bnd (ddel s m) (match lookup s m with Some bg => kdel bg b | None => b end) n
      (filter (fun x => neqb x s) S).
Proof.
  intros HB. destruct (lookup s m) as [bg|] eqn:E; [apply Bnd_del; auto|].
  apply lookup_None in E. rewrite ddel_absent by auto. apply (Bnd_ext _ _ _ _ _ HB).
  intros x Hx. rewrite in_filter_neq. split; [tauto|]. intros Hin. split; auto.
  intros ->. apply E, (proj2 HB). auto.
Qed.

Definition tch (m : list (gid * (gid * gid))) (s i : gid) : bool :=
  match lookup i m with Some p => touches s p | None => false end.

Lemma tch_orel m s i x :
  orel x (lookup i m) -> tch m s i = match x with Some p => touches s p | None => false end.
Proof.
  unfold tch. destruct x, (lookup i m); cbn; try tauto. intros H. symmetry. apply touches_unord, H.
Qed.

Lemma tch_spec g sp s i p :
  Inv g sp -> In (i, p) (pI sp) -> tch (i2s g) s i = touches s p.
Proof.
  intros HI Hin. apply In_lookup in Hin; [|apply HI].
  rewrite (tch_orel _ _ _ _ (inv_rel _ _ HI i)), Hin. reflexivity.
Qed.

Lemma tch_keys m s i : tch m s i = true -> In i (map fst m).
Proof. unfold tch. intros H. apply lookup_keys. destruct (lookup i m); discriminate. Qed.
