(* C43 — soundness of the rational-exponent dimension normal form. *)
From Coq Require Import String Ascii List ZArith QArith Qabs Bool Reals Qreals Lra Lia.
Import ListNotations.
From PP Require Import Model.C43 Model.C43_qdims Proofs.C43.
Open Scope string_scope.
Open Scope R_scope.

Fixpoint qdims_val (xs : list R) (d : list Q) : R :=
  match xs, d with
  | x :: xs', k :: d' => Rpower x (Q2R k) * qdims_val xs' d'
  | _, _ => 1
  end.

Definition qeval (pi_ : R) (xs : list R) (m : qmono) : R :=
  Q2R (qcoef m) * powerRZ pi_ (qpi m) * qdims_val xs (qd m).

(* [injection] would normalise the exponents of the form *)
Lemma Some_inj : forall {A} (a b : A), Some a = Some b -> a = b.
Proof. intros A a b H. now injection H. Qed.

Lemma Rpower_one : forall q, Rpower 1 q = 1.
Proof. intros q. unfold Rpower. rewrite ln_1, Rmult_0_r. apply exp_0. Qed.

Lemma Q2R_inject_Z : forall k, Q2R (inject_Z k) = IZR k.
Proof. intros k. unfold Q2R, inject_Z; cbn. field. Qed.

Lemma qdims_val_pos : forall xs d, 0 < qdims_val xs d.
Proof.
  induction xs as [|x l IH]; intros [|k d]; cbn; try lra.
  apply Rmult_lt_0_compat; [apply exp_pos|apply IH].
Qed.

Lemma qdims_val_inject : forall xs, all_pos xs -> forall d,
  qdims_val xs (map inject_Z d) = dims_val xs d.
Proof.
  induction 1 as [|x l Hx Hl IH]; intros [|k d]; cbn; try reflexivity.
  now rewrite IH, Q2R_inject_Z, <- powerRZ_Rpower.
Qed.

Lemma qdims_val_vadd : forall xs a b,
  qdims_val xs (qvadd a b) = qdims_val xs a * qdims_val xs b.
Proof.
  induction xs as [|x l IH]; intros [|p a] [|q b]; cbn [qdims_val qvadd]; try lra.
  rewrite IH, Q2R_Qred, Q2R_plus, Rpower_plus. ring.
Qed.

Lemma qdims_val_frac : forall xs, all_pos xs -> forall d q,
  qdims_val xs (map (fun k => Qred (inject_Z k * q)) d) = Rpower (dims_val xs d) (Q2R q).
Proof.
  induction 1 as [|x l Hx Hl IH]; intros [|k d] q; cbn [qdims_val dims_val map];
    rewrite ?Rpower_one; try reflexivity.
  rewrite IH, Q2R_Qred, Q2R_mult, Q2R_inject_Z.
  rewrite <- Rpower_mult_distr by auto using powerRZ_lt, dims_val_pos.
  now rewrite (powerRZ_Rpower x k Hx), Rpower_mult.
Qed.

Section QMono.
  Variable pi_ : R.
  Hypothesis pi_pos : 0 < pi_.
  Variable derived : list (string * uexpr).
  Variable other : list string.
  Variable env : list (string * R).
  Hypothesis Henv : env_pos env.
  Hypothesis Hnd : nodupb (map fst env) = true.
  Notation ops := (ROps pi_).
  Notation bases := (map fst env).
  Notation xs := (map snd env).
  Notation ev := (eval_mono pi_ xs).
  Notation qev := (qeval pi_ xs).

  Definition qwf (m : qmono) : Prop := 0 < Q2R (qcoef m).

  Lemma qev_of_mono : forall m, qev (of_mono m) = ev m.
  Proof.
    intros m. unfold qeval, eval_mono, of_mono; cbn [qcoef qpi qd].
    now rewrite qdims_val_inject by now apply xs_pos.
  Qed.

  Lemma qev_pos : forall m, qwf m -> 0 < qev m.
  Proof.
    intros m H. unfold qeval. apply Rmult_lt_0_compat; [apply Rmult_lt_0_compat|];
      [exact H|now apply powerRZ_lt|apply qdims_val_pos].
  Qed.

  Lemma qev_mul : forall a b, qwf a -> qwf b ->
    qev (qmono_mul a b) = qev a * qev b /\ qwf (qmono_mul a b).
  Proof.
    intros a b Ha Hb. unfold qeval, qwf, qmono_mul; cbn [qcoef qpi qd].
    rewrite Q2R_Qred, Q2R_mult, powerRZ_add, qdims_val_vadd by lra.
    split; [ring|now apply Rmult_lt_0_compat].
  Qed.

  Lemma qev_one : qev (of_mono (mono_one bases)) = 1 /\ qwf (of_mono (mono_one bases)).
  Proof. rewrite qev_of_mono. apply ev_one. Qed.

  (* an integer power goes through the integer normal form; a proper decimal power is taken
     of a form without literal and without pi *)
  Lemma qmono_of_sub_sound : forall sub m, qmono_of_sub bases derived sub = Some m ->
    sub_factor ops derived other env sub = Ok (qev m) /\ qwf m.
  Proof.
    intros sub m H. unfold qmono_of_sub in H. unfold sub_factor.
    destruct (tokenize sub) as [s|s p|]; [| |discriminate];
      destruct (mono_of_name bases derived s) as [m0|] eqn:E0; try discriminate;
      destruct (mono_of_name_sound pi_ pi_pos derived other env Henv Hnd _ _ E0) as [-> W0].
    - injection H as <-. now rewrite qev_of_mono.
    - cbn [bind]. destruct (parse_float p) as [q| |]; try discriminate.
      cbn [tpowQ ROps]. destruct (Pos.eqb_spec (Qden (Qred q)) 1) as [Ed|].
      + injection H as <-. destruct (ev_pow pi_ pi_pos env Henv m0 (Qnum (Qred q)) W0) as [Ep W].
        rewrite qev_of_mono, Ep. split; [|exact W].
        now rewrite Rpower_integer by auto using ev_pos.
      + unfold qpow_frac in H.
        destruct (Qeq_bool (coef m0) 1 && Z.eqb (pi_exp m0) 0) eqn:Ec; [|discriminate].
        apply Some_inj in H. subst m. apply andb_true_iff in Ec as [Ec Ep].
        apply Qeq_bool_iff, Qeq_eqR in Ec. apply Z.eqb_eq in Ep.
        unfold qeval, qwf, eval_mono; cbn [qcoef qpi qd].
        rewrite qdims_val_frac, Ec, Ep, RMicromega.Q2R_1 by now apply xs_pos. cbn [powerRZ].
        rewrite !Rmult_1_l. split; [reflexivity|lra].
  Qed.

  Lemma qmono_eqb_sound : forall a b, qmono_eqb a b = true -> qev a = qev b.
  Proof.
    intros a b H. unfold qmono_eqb in H.
    apply andb_true_iff in H as [H Hd]. apply andb_true_iff in H as [Hc Hp].
    apply Qeq_bool_iff, Qeq_eqR in Hc. apply Z.eqb_eq in Hp.
    assert (forall xs', qdims_val xs' (qd a) = qdims_val xs' (qd b)) as Ed.
    { revert Hd. generalize (qd a) (qd b).
      induction l as [|x l IH]; intros [|y l'] H [|z xs']; cbn in H |- *; try discriminate; auto.
      apply andb_true_iff in H as [Hx Hl]. apply Qeq_bool_iff, Qeq_eqR in Hx.
      now rewrite Hx, (IH _ Hl). }
    unfold qeval. now rewrite Hc, Hp, Ed.
  Qed.

  Lemma qmono_forms : sound_forms pi_ derived other env qmono qev qwf
                        (qmono_of_sub bases derived) qmono_mul (of_mono (mono_one bases)) qmono_eqb.
  Proof. constructor; auto using qev_pos, qev_mul, qev_one, qmono_eqb_sound, qmono_of_sub_sound. Qed.
End QMono.

Lemma qmono_of_units_nf bases derived units :
  qmono_of_units bases derived units =
  nf_units qmono (qmono_of_sub bases derived) qmono_mul (of_mono (mono_one bases)) units.
Proof.
  unfold qmono_of_units, nf_units. destruct (is_marker _); [reflexivity|].
  induction (split_on "*" _) as [|s r IH]; cbn; [|rewrite IH]; reflexivity.
Qed.

From PP Require Import Gen.C43_tables.

Definition real_power_spellings : list (string * string) :=
  [("Pa^0.5 * m^0.5", "kg^0.5 * s^-1"); ("J^1.5", "kg^1.5*m^3*s^-3");
   ("W^-0.25*W^0.25", "1"); ("m^0.5*m^0.5", "m"); ("N^2.5*m^-2.5", "Pa^2.5*m^2.5")].
