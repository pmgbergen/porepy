(* C06 — proofs about the model PP.Model.C06 (equation bookkeeping and restricted assembly
   of EquationSystem).  Under the invariant [EInv] the parser returns [blocks_spec] (the last
   mention of each equation decides); the assembly picks rows equation by equation, which is
   selecting the rows [glob_from] of the stack of all equations ([glob_sel]). *)
From Coq Require Import List ZArith Bool Arith Lia Sorted Permutation.
Import ListNotations.
From PP Require Import Model.C05 Proofs.C05_lists Proofs.C05 Model.C06.

Lemma dget_dset {A} (d : list (nat * A)) k k' v :
  dget (dset d k v) k' = if Nat.eqb k k' then Some v else dget d k'.
Proof.
  induction d as [|[a w] r IH]; cbn; [reflexivity|].
  destruct (Nat.eqb_spec a k) as [->|]; cbn.
  - now destruct (Nat.eqb k k').
  - rewrite IH. destruct (Nat.eqb_spec a k') as [->|]; auto.
    destruct (Nat.eqb_spec k k'); congruence.
Qed.

Lemma dget_None {A} (d : list (nat * A)) k : dget d k = None <-> ~ In k (map fst d).
Proof.
  induction d as [|[a v] r IH]; cbn; [tauto|].
  destruct (Nat.eqb_spec a k) as [->|Hne]; [|rewrite IH; tauto].
  split; [discriminate|]. intro H. destruct H. now left.
Qed.

Lemma dset_absent {A} (d : list (nat * A)) k v : dget d k = None -> dset d k v = d ++ [(k, v)].
Proof.
  induction d as [|[a w] r IH]; cbn; auto.
  destruct (Nat.eqb a k); [discriminate|]. intro H. now rewrite IH.
Qed.

Lemma dget_In {A} (d : list (nat * A)) k v : dget d k = Some v -> In (k, v) d.
Proof.
  induction d as [|[a w] r IH]; cbn; [discriminate|].
  destruct (Nat.eqb_spec a k) as [->|]; [intros [= ->]|]; auto.
Qed.

Lemma dhas_In {A} (d : list (nat * A)) k : dhas d k = true <-> In k (map fst d).
Proof.
  unfold dhas. destruct (dget d k) eqn:E; [|apply dget_None in E; intuition discriminate].
  split; auto. intros _. exact (in_map fst _ _ (dget_In _ _ _ E)).
Qed.

Lemma dhas_false {A} (d : list (nat * A)) k : dhas d k = false <-> dget d k = None.
Proof. unfold dhas. destruct (dget d k); split; congruence. Qed.

Lemma In_dget {A} (d : list (nat * A)) k v :
  NoDup (map fst d) -> In (k, v) d -> dget d k = Some v.
Proof.
  induction d as [|[a w] r IH]; cbn; [intros _ []|].
  intros Hnd [[= -> ->]|H]; [now rewrite Nat.eqb_refl|].
  inversion Hnd as [|? ? Hn Hr]; subst. destruct (Nat.eqb_spec a k) as [->|]; auto.
  destruct Hn. now apply (in_map fst _ (k, v)).
Qed.

Lemma dget_ddel_other {A} (d : list (nat * A)) k k' :
  k' <> k -> dget (ddel d k) k' = dget d k'.
Proof.
  intro Hne. unfold ddel. induction d as [|[a v] r IH]; cbn; auto.
  destruct (Nat.eqb_spec a k) as [->|]; cbn; rewrite IH; auto.
  destruct (Nat.eqb_spec k k'); congruence.
Qed.

Lemma ddel_keys {A} (d : list (nat * A)) k k' :
  In k' (map fst (ddel d k)) <-> In k' (map fst d) /\ k' <> k.
Proof.
  unfold ddel. rewrite !in_map_iff. setoid_rewrite filter_In.
  setoid_rewrite negb_true_iff. setoid_rewrite Nat.eqb_neq.
  split; [intros (kv & <- & H & Hne)|intros [(kv & <- & H) Hne]]; eauto.
Qed.

Lemma ddel_NoDup {A} (d : list (nat * A)) k : NoDup (map fst d) -> NoDup (map fst (ddel d k)).
Proof. apply NoDup_map_filter. Qed.

Lemma dset_keys {A} (d : list (nat * A)) k v k' :
  In k' (map fst (dset d k v)) <-> In k' (map fst d) \/ k' = k.
Proof.
  induction d as [|[a w] r IH]; cbn; [intuition|].
  destruct (Nat.eqb_spec a k) as [->|]; cbn; [|rewrite IH; tauto].
  split; [tauto|]. intros [H| ->]; [exact H|now left].
Qed.

Lemma dset_NoDup {A} (d : list (nat * A)) k v : NoDup (map fst d) -> NoDup (map fst (dset d k v)).
Proof.
  induction d as [|[a w] r IH]; cbn; intro Hnd; [repeat constructor; auto|].
  inversion Hnd as [|? ? Hn Hr]; subst. destruct (Nat.eqb_spec a k); cbn; constructor; auto.
  rewrite dset_keys. intuition.
Qed.

(* the loops over the equations append index ranges under keys that are still free: the keys
   of the dictionary, the new key and the keys [ks] still to come are all distinct *)
Lemma dset_fresh {A} (ind : list (nat * A)) name v ks :
  NoDup (map fst ind ++ name :: ks) ->
  dset ind name v = ind ++ [(name, v)] /\ NoDup (map fst (ind ++ [(name, v)]) ++ ks).
Proof.
  intro H. split; [|now rewrite map_app, <- app_assoc].
  apply dset_absent, dget_None. intro Hx. apply (NoDup_remove_2 _ _ _ H), in_or_app. now left.
Qed.

Lemma dupdate_NoDup {A} (d2 : list (nat * A)) : forall d1,
  NoDup (map fst d1) -> NoDup (map fst (dupdate d1 d2)).
Proof. unfold dupdate. induction d2 as [|[k v] t IH]; cbn; auto using dset_NoDup. Qed.

(* Python's d1.update(d2) *)
Lemma dget_dupdate {A} (d2 : list (nat * A)) : NoDup (map fst d2) -> forall d1 k,
  dget (dupdate d1 d2) k = match dget d2 k with Some v => Some v | None => dget d1 k end.
Proof.
  unfold dupdate. induction d2 as [|[k2 v2] r IH]; intros Hnd d1 k; cbn; auto.
  inversion Hnd as [|? ? Hn Hr]; subst. rewrite (IH Hr), dget_dset.
  destruct (Nat.eqb_spec k2 k) as [->|]; auto. apply dget_None in Hn. now rewrite Hn.
Qed.

Definition wfimg (img : image) : Prop := exists n, concat (map snd img) = seq 0 n.

Record EInv (es : est) : Prop := {
  ei_nodup : NoDup (map fst (equations es));
  ei_comp : forall name, In name (map fst (equations es)) ->
            exists img, dget (comp es) name = Some img /\ wfimg img
}.

Lemma EInv_init : EInv einit.
Proof. constructor; cbn; [constructor|intros ? []]. Qed.

(* what set_equation stores: one block per listed grid, in md-grid order (subdomains, then
   interfaces), of the size the dof-info gives on that grid, numbered consecutively *)
Fixpoint img_spec (g : mdgrid) (info : nat * nat * nat) (ds : list dom) (off : nat) : image :=
  match ds with
  | [] => []
  | d :: r => (d, seq off (ndof g d info)) :: img_spec g info r (off + ndof g d info)
  end.

Lemma img_spec_wf g info : forall ds off,
  exists n, concat (map snd (img_spec g info ds off)) = seq off n.
Proof.
  induction ds as [|d r IH]; intro off; cbn; [now exists 0|].
  destruct (IH (off + ndof g d info)) as [n ->]. exists (ndof g d info + n). now rewrite seq_app.
Qed.

Lemma domin_remove_first d d' l : d' <> d -> domin d' (remove_first d l) = domin d' l.
Proof.
  intro Hne. unfold domin. induction l as [|x r IH]; cbn [remove_first existsb]; auto.
  destruct (dom_eqb x d) eqn:E; [|cbn [existsb]; now rewrite IH].
  apply dom_eqb_eq in E. subst x. now rewrite (proj2 (dom_eqb_neq d' d) Hne).
Qed.

Lemma set_loop_closed g info : forall ds, NoDup ds -> forall img total grids,
  fst (fst (set_loop g ds info img total grids)) =
  img ++ img_spec g info (filter (fun d => domin d grids) ds) total.
Proof.
  induction ds as [|d r IH]; intros Hnd img total grids; cbn [set_loop filter].
  - cbn. now rewrite app_nil_r.
  - inversion Hnd as [|? ? Hn Hr]; subst. destruct (domin d grids); [|now apply IH].
    rewrite IH, <- app_assoc by auto. cbn [app img_spec]. do 3 f_equal.
    apply filter_ext_in. intros x Hx. apply domin_remove_first. now intros ->.
Qed.

Lemma set_equation_cases g es name op grids info :
  (exists e, set_equation g es name op grids info = (es, Some e)) \/
  dget (equations es) name = None /\
  set_equation g es name op grids info =
  (store_eq es name op (img_spec g info (filter (fun d => domin d grids) (grid_order g)) 0) info,
   None).
Proof.
  unfold set_equation. destruct (dhas (equations es) name) eqn:Eh; [eauto|].
  apply dhas_false in Eh. destruct grids as [|d0 gr].
  - right. split; auto. now rewrite filter_nil.
  - destruct (negb _); [eauto|].
    pose proof (set_loop_closed g info (grid_order g) (grid_order_NoDup g) [] 0 (d0 :: gr)) as Hl.
    destruct (set_loop g (grid_order g) info [] 0 (d0 :: gr)) as [[img tot] rest].
    cbn in Hl. subst img. destruct rest; eauto.
Qed.

Lemma set_equation_EInv g es name op grids info :
  EInv es -> EInv (fst (set_equation g es name op grids info)).
Proof.
  intros HI. destruct (set_equation_cases g es name op grids info) as [(e & ->)|(_ & ->)]; auto.
  destruct HI as [Hnd Hc]. constructor; cbn; [now apply dset_NoDup|].
  intros n Hn. apply dset_keys in Hn. rewrite dget_dset.
  destruct (Nat.eqb_spec name n); [|apply Hc; intuition congruence].
  eexists. split; [reflexivity|apply img_spec_wf].
Qed.

Lemma remove_equation_EInv es name : EInv es -> EInv (fst (remove_equation es name)).
Proof.
  intros [Hnd Hc]. unfold remove_equation.
  destruct (dhas (equations es) name); [|now constructor].
  destruct (dhas (comp es) name); constructor; cbn; try now apply ddel_NoDup.
  all: intros n Hn; apply ddel_keys in Hn; destruct Hn as [Hn Hne]; auto.
  rewrite dget_ddel_other by auto. auto.
Qed.

Definition mention := option (list dom).      (* None: whole equation; Some gs: on grids gs *)

Fixpoint last_restr (d : restriction) (name : nat) : option (list dom) :=
  match d with
  | [] => None
  | (n, gs) :: r => match last_restr r name with
                    | Some x => Some x
                    | None => if Nat.eqb n name then Some gs else None
                    end
  end.

Fixpoint last_items (l : list eitem) (name : nat) : option mention :=
  match l with
  | [] => None
  | it :: r =>
      match last_items r name with
      | Some m => Some m
      | None => match it with
                | IName n => if Nat.eqb n name then Some None else None
                | IDict d => option_map Some (last_restr d name)
                end
      end
  end.

(* how the argument [equations] mentions an equation last (None: not at all) *)
Definition kept (a : eqarg) (name : nat) : option mention :=
  match a with
  | ENone => Some None
  | EList l => last_items l name
  | EDict d => option_map Some (last_restr d name)
  end.

Definition img_of (es : est) (name : nat) : image :=
  match dget (comp es) name with Some i => i | None => [] end.

(* the rows (local to the equation) on the grids gs, in the order of the image *)
Definition restrict_img (img : image) (gs : list dom) : list nat :=
  concat (map snd (filter (fun kv => domin (fst kv) gs) img)).

Definition sel_of (es : est) (name : nat) (m : mention) : rowsel :=
  match m with None => None | Some gs => Some (restrict_img (img_of es name) gs) end.

(* the arguments the parser accepts: known equations, grids inside the equation's domain *)
Definition restr_ok (es : est) (d : restriction) : bool :=
  forallb (fun kv => dhas (equations es) (fst kv) &&
                     forallb (fun x => domin x (map fst (img_of es (fst kv)))) (snd kv)) d.
Definition item_ok (es : est) (it : eitem) : bool :=
  match it with IName n => dhas (equations es) n | IDict d => restr_ok es d end.
Definition arg_ok (es : est) (a : eqarg) : bool :=
  match a with
  | ENone => true
  | EList l => forallb (item_ok es) l
  | EDict d => restr_ok es d
  end.

Definition blocks_spec (es : est) (a : eqarg) : list (nat * rowsel) :=
  flat_map (fun kv => match kept a (fst kv) with
                      | Some m => [(fst kv, sel_of es (fst kv) m)]
                      | None => []
                      end) (equations es).

Lemma parse_restr_spec es : EInv es -> forall d block,
  NoDup (map fst block) ->
  if restr_ok es d then
    exists block', parse_restr es d block = inl block' /\ NoDup (map fst block') /\
      forall name, dget block' name =
                   match last_restr d name with
                   | Some gs => Some (sel_of es name (Some gs))
                   | None => dget block name
                   end
  else parse_restr es d block = inr ValueErr.
Proof.
  intros [Hnd Hc]. induction d as [|[n gs] r IH]; intros block Hb; cbn [restr_ok forallb].
  - now exists block.
  - cbn [parse_restr fst snd]. destruct (dhas (equations es) n) eqn:Eh; cbn [negb andb]; auto.
    apply dhas_In in Eh. destruct (Hc n Eh) as (img & Hi & _).
    unfold img_of at 1. rewrite Hi, existsb_negb.
    destruct (forallb (fun x => domin x (map fst img)) gs); cbn [negb andb]; auto.
    specialize (IH (dset block n (Some (restrict_img img gs))) (dset_NoDup _ _ _ Hb)).
    fold (restr_ok es r). destruct (restr_ok es r); auto.
    destruct IH as (b' & Hp & Hn' & Hl). exists b'. repeat split; auto.
    intro name. rewrite Hl. cbn [last_restr]. destruct (last_restr r name); auto.
    rewrite dget_dset. destruct (Nat.eqb_spec n name) as [<-|]; auto.
    unfold sel_of, img_of. now rewrite Hi.
Qed.

Lemma parse_single_spec es it : EInv es ->
  if item_ok es it then
    exists block, parse_single es it = inl block /\ NoDup (map fst block) /\
      forall name, dget block name = option_map (sel_of es name) (last_items [it] name)
  else parse_single es it = inr ValueErr.
Proof.
  intro HI. destruct it as [n|d]; cbn [item_ok parse_single last_items].
  - destruct (dhas (equations es) n); [|reflexivity]. eexists. split; [reflexivity|].
    split; [repeat constructor; cbn; tauto|]. intro name. cbn. now destruct (Nat.eqb n name).
  - pose proof (parse_restr_spec es HI d [] (NoDup_nil _)) as H.
    destruct (restr_ok es d); [|exact H]. destruct H as (b & Hb & Hn & Hl).
    exists b. repeat split; auto. intro name. rewrite Hl. now destruct (last_restr d name).
Qed.

Lemma parse_list_spec es : EInv es -> forall l req,
  NoDup (map fst req) ->
  if forallb (item_ok es) l then
    exists req', parse_list es l req = inl req' /\ NoDup (map fst req') /\
      forall name, dget req' name =
                   match last_items l name with
                   | Some m => Some (sel_of es name m)
                   | None => dget req name
                   end
  else parse_list es l req = inr ValueErr.
Proof.
  intro HI. induction l as [|it r IH]; intros req Hr; cbn [forallb parse_list].
  - now exists req.
  - pose proof (parse_single_spec es it HI) as Hs.
    destruct (item_ok es it); cbn [andb]; [|now rewrite Hs].
    destruct Hs as (b & -> & Hnb & Hb).
    specialize (IH (dupdate req b) (dupdate_NoDup b req Hr)).
    destruct (forallb (item_ok es) r); [|exact IH].
    destruct IH as (q & Hq & Hnq & Hl). exists q. repeat split; auto.
    intro name. rewrite Hl, (dget_dupdate _ Hnb), Hb.
    cbn [last_items]. destruct (last_items r name); auto.
    now destruct (match it with IName _ => _ | IDict _ => _ end).
Qed.

(* the loop over a dictionary argument, which parses every entry as a one-entry restriction
   and merges the answer, does what the loop over the entries of one restriction does *)
Lemma parse_dict_restr es : forall d res, parse_dict es d res = parse_restr es d res.
Proof.
  induction d as [|[n gs] r IH]; intro res; cbn [parse_dict parse_single parse_restr]; auto.
  destruct (negb (dhas (equations es) n)); auto. destruct (dget (comp es) n); auto.
  destruct (existsb _ gs); [reflexivity|apply IH].
Qed.

Theorem parse_equations_spec es a :
  EInv es ->
  parse_equations es a = if arg_ok es a then inl (blocks_spec es a) else inr ValueErr.
Proof.
  intro HI. destruct a as [|l|d]; cbn [parse_equations arg_ok].
  - reflexivity.
  - pose proof (parse_list_spec es HI l [] (NoDup_nil _)) as H.
    destruct (forallb (item_ok es) l); [|now rewrite H].
    destruct H as (q & -> & _ & Hl). f_equal. apply flat_map_ext. intros [n op]. cbn.
    rewrite Hl. now destruct (last_items l n).
  - rewrite parse_dict_restr. pose proof (parse_restr_spec es HI d [] (NoDup_nil _)) as H.
    destruct (restr_ok es d); [|now rewrite H].
    destruct H as (q & -> & Hnq & Hl). f_equal. apply flat_map_ext. intros [n op]. cbn [fst kept].
    rewrite (dget_dupdate _ Hnq), Hl. now destruct (last_restr d n).
Qed.

Lemma restrict_sorted gs img n :
  concat (map snd img) = seq 0 n ->
  StronglySorted lt (restrict_img img gs) /\ Forall (fun i => i < n) (restrict_img img gs).
Proof.
  intro H. unfold restrict_img. split.
  - apply SS_concat_filter. rewrite H. apply SS_seq.
  - apply Forall_forall. intros i Hi. apply concat_filter_incl in Hi.
    rewrite H in Hi. now apply in_seq in Hi.
Qed.

Section AssembleProofs.
  Context {V : Type}.
  Variable vzero : V.
  Variable vopp : V -> V.
  Variable eval : nat -> list (@prow V).

  Let dflt : @prow V := ([], vzero).

  Lemma take_ok (x : list (@prow V)) : forall idx,
    Forall (fun i => i < length x) idx -> take x idx = Some (map (fun i => nth i x dflt) idx).
  Proof.
    induction idx as [|i r IH]; intro H; cbn; auto.
    inversion H as [|? ? Hi Hr]; subst. rewrite (IH Hr).
    destruct (nth_error x i) eqn:E; [now rewrite (nth_error_nth _ _ _ E)|].
    apply nth_error_None in E. lia.
  Qed.

  (* residual-only assembly walks the same rows as the Jacobian assembly (any state) *)
  Lemma res_jac_loop eqs : forall blocks acc st ind,
    res_loop eval eqs blocks acc =
    (fst (fst (jac_loop eval eqs blocks acc st ind)), snd (jac_loop eval eqs blocks acc st ind)).
  Proof.
    induction blocks as [|[name row] r IH]; intros acc st ind; cbn [res_loop jac_loop]; auto.
    destruct (dget eqs name) as [op|]; auto.
    destruct (match row with Some idx => take (eval op) idx | None => Some (eval op) end); auto.
  Qed.

  Definition esize (es : est) (name : nat) : nat := length (concat (map snd (img_of es name))).

  (* every operator yields as many rows as set_equation recorded *)
  Definition sized (es : est) : Prop :=
    forall name op, In (name, op) (equations es) -> length (eval op) = esize es name.

  Definition full (es : est) : list (@prow V) := flat_map (fun kv => eval (snd kv)) (equations es).

  Definition local_rows (es : est) (a : eqarg) (name : nat) : list nat :=
    match kept a name with
    | None => []
    | Some None => seq 0 (esize es name)
    | Some (Some gs) => restrict_img (img_of es name) gs
    end.

  (* rows of the full system that an argument keeps: equation by equation in insertion
     order, [off] = number of rows of the equations before *)
  Fixpoint rows_from (es : est) (a : eqarg) (eqs : list (nat * nat)) (off : nat) : list nat :=
    match eqs with
    | [] => []
    | (name, _) :: r =>
        map (Nat.add off) (local_rows es a name) ++ rows_from es a r (off + esize es name)
    end.
  Definition rows_spec (es : est) (a : eqarg) : list nat := rows_from es a (equations es) 0.

  (* the reported indices: consecutive ranges, one per requested equation *)
  Fixpoint ind_from (es : est) (a : eqarg) (eqs : list (nat * nat)) (start : nat)
    : list (nat * list nat) :=
    match eqs with
    | [] => []
    | (name, _) :: r =>
        match kept a name with
        | None => ind_from es a r start
        | Some _ => (name, seq start (length (local_rows es a name)))
                    :: ind_from es a r (start + length (local_rows es a name))
        end
    end.
  Definition ind_spec (es : est) (a : eqarg) : list (nat * list nat) :=
    ind_from es a (equations es) 0.

  Lemma local_rows_bound es a name :
    EInv es -> In name (map fst (equations es)) ->
    StronglySorted lt (local_rows es a name) /\
    Forall (fun i => i < esize es name) (local_rows es a name).
  Proof.
    intros [Hnd Hc] Hn. destruct (Hc name Hn) as (img & Hi & n & Hw).
    unfold local_rows, esize, img_of. rewrite Hi, Hw, seq_length.
    destruct (kept a name) as [[gs|]|]; [apply (restrict_sorted gs img n Hw)| |split; constructor].
    split; [apply SS_seq|]. apply Forall_forall. intros i Hi'. now apply in_seq in Hi'.
  Qed.

  (* [loc name]: positions inside equation [name]; the rows they pick, and where these
     rows stand in the stack of the equations [eqs] when [off] rows come before *)
  Definition pickl (loc : nat -> list nat) (kv : nat * nat) : list (@prow V) :=
    map (fun i => nth i (eval (snd kv)) dflt) (loc (fst kv)).

  Lemma pickl_length loc kv : length (pickl loc kv) = length (loc (fst kv)).
  Proof. apply map_length. Qed.

  Fixpoint glob_from (es : est) (loc : nat -> list nat) (eqs : list (nat * nat)) (off : nat)
    : list nat :=
    match eqs with
    | [] => []
    | (name, _) :: r => map (Nat.add off) (loc name) ++ glob_from es loc r (off + esize es name)
    end.

  Lemma rows_from_glob es a : forall l off,
    rows_from es a l off = glob_from es (local_rows es a) l off.
  Proof. induction l as [|[n o] r IH]; intro off; cbn; [|rewrite IH]; reflexivity. Qed.

  Definition stack (l : list (nat * nat)) : list (@prow V) := flat_map (fun kv => eval (snd kv)) l.
  Definition sized_on (es : est) (l : list (nat * nat)) : Prop :=
    Forall (fun kv => length (eval (snd kv)) = esize es (fst kv)) l.
  Definition inside (es : est) (loc : nat -> list nat) (l : list (nat * nat)) : Prop :=
    Forall (fun kv => Forall (fun i => i < esize es (fst kv)) (loc (fst kv))) l.

  Lemma sized_equations es : sized es -> sized_on es (equations es).
  Proof. intro H. apply Forall_forall. intros [n o]. apply H. Qed.

  Lemma glob_sel es loc : forall l pre, sized_on es l -> inside es loc l ->
    flat_map (pickl loc) l =
    map (fun i => nth i (pre ++ stack l) dflt) (glob_from es loc l (length pre)).
  Proof.
    induction l as [|[name op] r IH]; intros pre Hsz Hb; [reflexivity|].
    inversion Hsz as [|? ? Hlen Hsz']; inversion Hb as [|? ? Hbn Hb']; subst.
    cbn [fst snd flat_map glob_from] in *.
    change (stack ((name, op) :: r)) with (eval op ++ stack r). rewrite map_app. f_equal.
    - unfold pickl. cbn [fst snd]. rewrite map_map. apply map_ext_in. intros i Hi.
      rewrite Forall_forall in Hbn. apply Hbn in Hi.
      rewrite app_nth2, app_nth1 by lia. f_equal. lia.
    - specialize (IH (pre ++ eval op) Hsz' Hb').
      now rewrite app_length, Hlen, <- app_assoc in IH.
  Qed.

  Lemma glob_sorted es loc : forall l off, sized_on es l -> inside es loc l ->
    Forall (fun kv => StronglySorted lt (loc (fst kv))) l ->
    StronglySorted lt (glob_from es loc l off) /\
    Forall (fun i => off <= i < off + length (stack l)) (glob_from es loc l off).
  Proof.
    induction l as [|[name op] r IH]; intros off Hsz Hb Hs; [split; constructor|].
    inversion Hsz as [|? ? Hlen Hsz']; inversion Hb as [|? ? Hbn Hb'];
      inversion Hs as [|? ? Hsn Hs']; subst.
    cbn [fst snd glob_from] in *.
    change (stack ((name, op) :: r)) with (eval op ++ stack r). rewrite app_length, Hlen.
    destruct (IH (off + esize es name) Hsz' Hb' Hs') as [IH1 IH2].
    rewrite Forall_forall in Hbn, IH2.
    assert (Hh : forall x, In x (map (Nat.add off) (loc name)) -> off <= x < off + esize es name).
    { intros x Hx. apply in_map_iff in Hx. destruct Hx as (i & <- & Hi). apply Hbn in Hi. lia. }
    split.
    - apply SS_app; auto.
      + apply SS_map. apply (SS_weaken _ _ _ Hsn). intros. lia.
      + intros x y Hx Hy. apply Hh in Hx. apply IH2 in Hy. lia.
    - apply Forall_forall. intros x Hx. apply in_app_iff in Hx.
      destruct Hx as [Hx|Hx]; [apply Hh in Hx|apply IH2 in Hx]; lia.
  Qed.

  Lemma local_rows_inside es a : EInv es ->
    inside es (local_rows es a) (equations es) /\
    Forall (fun kv => StronglySorted lt (local_rows es a (fst kv))) (equations es).
  Proof.
    intro HI. split; apply Forall_forall; intros kv Hkv;
      apply (local_rows_bound es a (fst kv) HI), in_map, Hkv.
  Qed.

  Definition blk (es : est) (a : eqarg) (kv : nat * nat) : list (nat * rowsel) :=
    match kept a (fst kv) with
    | Some m => [(fst kv, sel_of es (fst kv) m)]
    | None => []
    end.

  Lemma take_sel es a name op m :
    EInv es -> sized es -> In (name, op) (equations es) -> kept a name = Some m ->
    match sel_of es name m with Some idx => take (eval op) idx | None => Some (eval op) end
    = Some (pickl (local_rows es a) (name, op)).
  Proof.
    intros HI Hsz Hmem Ek. unfold pickl, local_rows. cbn [fst snd]. rewrite Ek.
    destruct m as [gs|]; cbn [sel_of].
    - apply take_ok. rewrite (Hsz name op Hmem).
      pose proof (local_rows_bound es a name HI (in_map fst _ _ Hmem)) as [_ Hb].
      unfold local_rows in Hb. now rewrite Ek in Hb.
    - rewrite <- (Hsz name op Hmem).
      now rewrite map_nth_seq.
  Qed.

  Lemma next_start st n : (if 0 <? n then last_plus1 (seq st n) else st) = st + n.
  Proof.
    destruct n; cbn [Nat.ltb Nat.leb]; [lia|]. unfold last_plus1. rewrite last_seq. lia.
  Qed.

  Lemma jac_loop_spec es a : EInv es -> sized es ->
    forall l, incl l (equations es) ->
    forall acc st ind, NoDup (map fst ind ++ map fst l) ->
    jac_loop eval (equations es) (flat_map (blk es a) l) acc st ind =
    ((acc ++ flat_map (pickl (local_rows es a)) l, ind ++ ind_from es a l st), None).
  Proof.
    intros HI Hsz. induction l as [|[name op] r IH]; intros Hin acc st ind Hnd.
    - cbn. now rewrite !app_nil_r.
    - apply incl_cons_inv in Hin as [Hmem Hin]. specialize (IH Hin).
      cbn [flat_map ind_from]. unfold blk at 1. cbn [fst].
      destruct (kept a name) as [m|] eqn:Ek; cbn [app].
      + cbn [jac_loop]. rewrite (In_dget _ _ _ (ei_nodup es HI) Hmem).
        rewrite (take_sel es a name op m HI Hsz Hmem Ek), next_start, pickl_length. cbn [fst].
        destruct (dset_fresh ind name (seq st (length (local_rows es a name))) _ Hnd)
          as [-> Hnd'].
        rewrite IH by exact Hnd'. now rewrite <- !app_assoc.
      + unfold pickl at 1, local_rows at 1. cbn [fst]. rewrite Ek. apply IH.
        exact (NoDup_remove_1 _ _ _ Hnd).
  Qed.

  Lemma rows_from_length es a : forall l off off',
    length (rows_from es a l off) = length (rows_from es a l off').
  Proof.
    induction l as [|[n o] t IH]; intros; cbn; auto.
    rewrite !app_length, !map_length. f_equal. apply IH.
  Qed.

  Lemma ind_from_props es a : forall l st,
    concat (map snd (ind_from es a l st)) = seq st (length (rows_from es a l 0)) /\
    map fst (ind_from es a l st) =
      map fst (filter (fun kv => match kept a (fst kv) with Some _ => true | None => false end) l) /\
    (forall name rows, In (name, rows) (ind_from es a l st) ->
       exists start, rows = seq start (length (local_rows es a name))).
  Proof.
    induction l as [|[name op] r IH]; intro st; cbn [ind_from rows_from filter fst].
    - repeat split. intros ? ? [].
    - rewrite app_length, map_length, (rows_from_length es a r _ 0).
      destruct (kept a name) as [m|] eqn:Ek.
      2:{ replace (local_rows es a name) with (@nil nat) by (unfold local_rows; now rewrite Ek).
          apply IH. }
      destruct (IH (st + length (local_rows es a name))) as (H1 & H2 & H3).
      cbn [map concat fst snd]. rewrite H1, H2, seq_app. repeat split.
      intros n rows [[= <- <-]|H]; eauto.
  Qed.

  Lemma rows_spec_sorted es a : EInv es -> sized es ->
    StronglySorted lt (rows_spec es a) /\ Forall (fun i => i < length (full es)) (rows_spec es a).
  Proof.
    intros HI Hsz. destruct (local_rows_inside es a HI) as [Hb Hs].
    destruct (glob_sorted es _ _ 0 (sized_equations es Hsz) Hb Hs) as [HS HB].
    rewrite <- rows_from_glob in HS, HB. split; [exact HS|].
    exact (Forall_impl _ (fun i H => proj2 H) HB).
  Qed.

  Variable s : st.

  (* the parser accepts the argument: Jacobian assembly reports ind_spec and returns the
     rows rows_spec (strictly increasing) of the full stack, cut to the columns of the
     projection *)
  Theorem assemble_slice es a r cols n :
    EInv es -> sized es -> arg_ok es a = true ->
    projection_to s (asm_vars s r) = OProjM cols n ->
    let Af := map (fun rw => cut vzero cols (fst rw)) (full es) in
    let bf := map (fun rw => vopp (snd rw)) (full es) in
    let R := rows_spec es a in
    assemble vzero vopp eval s es true a r =
      (with_aei es (ind_spec es a),
       AJac (map (fun i => nth i Af []) R) (map (fun i => nth i bf (vopp vzero)) R)
            (length cols)) /\
    StronglySorted lt R /\ Forall (fun i => i < length Af) R.
  Proof.
    intros HI Hsz Hok Hproj Af bf R. destruct (rows_spec_sorted es a HI Hsz) as [HS HB].
    repeat split; [|exact HS|unfold Af; now rewrite map_length].
    unfold assemble. rewrite (parse_equations_spec es a HI), Hok.
    change (blocks_spec es a) with (flat_map (blk es a) (equations es)).
    rewrite (jac_loop_spec es a HI Hsz (equations es) (incl_refl _) [] 0 [] (ei_nodup es HI)),
      Hproj.
    rewrite (glob_sel es _ _ [] (sized_equations es Hsz) (proj1 (local_rows_inside es a HI))),
      <- rows_from_glob.
    cbn [app length]. fold (rows_spec es a) (full es) (ind_spec es a) R. rewrite !map_map.
    rewrite Forall_forall in HB. unfold Af, bf, full.
    do 2 f_equal; apply map_ext_in; intros i Hi; symmetry.
    - apply (nth_map_lt (fun rw => cut vzero cols (fst rw))), HB, Hi.
    - apply (nth_map_lt (fun rw => vopp (snd rw))), HB, Hi.
  Qed.

  Lemma rows_all es : sized es -> rows_spec es ENone = seq 0 (length (full es)).
  Proof.
    intro Hsz. unfold rows_spec, full. generalize (sized_equations es Hsz), 0.
    induction 1 as [|[nm o] t Hn Ht IH]; intros; cbn [rows_from flat_map fst snd] in *; auto.
    unfold local_rows. cbn [kept].
    now rewrite app_length, seq_app, map_add_seq, Nat.add_0_r, IH, Hn.
  Qed.

  Theorem assemble_full es r cols n :
    EInv es -> sized es -> projection_to s (asm_vars s r) = OProjM cols n ->
    assemble vzero vopp eval s es true ENone r =
      (with_aei es (ind_spec es ENone),
       AJac (map (fun rw => cut vzero cols (fst rw)) (full es))
            (map (fun rw => vopp (snd rw)) (full es)) (length cols)).
  Proof.
    intros HI Hsz Hp. destruct (assemble_slice es ENone r cols n HI Hsz eq_refl Hp) as [-> _].
    now rewrite (rows_all es Hsz), !map_nth_map.
  Qed.

  (* the full system and every restricted system, for the same variable selection *)
  Theorem slice_general es a r cols n :
    EInv es -> sized es -> arg_ok es a = true ->
    projection_to s (asm_vars s r) = OProjM cols n ->
    let Af := map (fun rw => cut vzero cols (fst rw)) (full es) in
    let bf := map (fun rw => vopp (snd rw)) (full es) in
    let R := rows_spec es a in
    assemble vzero vopp eval s es true ENone r =
      (with_aei es (ind_spec es ENone), AJac Af bf (length cols)) /\
    assemble vzero vopp eval s es true a r =
      (with_aei es (ind_spec es a),
       AJac (map (fun i => nth i Af []) R) (map (fun i => nth i bf (vopp vzero)) R)
            (length cols)) /\
    StronglySorted lt R /\ Forall (fun i => i < length Af) R /\ length bf = length Af.
  Proof.
    intros HI Hsz Hok Hp Af bf R. split; [now apply (assemble_full es r cols n)|].
    destruct (assemble_slice es a r cols n HI Hsz Hok Hp) as (Ha & Hs & Hb).
    repeat split; auto. unfold bf, Af. now rewrite !map_length.
  Qed.

  Theorem indices_general es a r cols n :
    EInv es -> sized es -> arg_ok es a = true ->
    projection_to s (asm_vars s r) = OProjM cols n ->
    let ind := aei (fst (assemble vzero vopp eval s es true a r)) in
    ind = ind_spec es a /\
    concat (map snd ind) = seq 0 (length (rows_spec es a)) /\
    map fst ind = map fst (filter (fun kv => match kept a (fst kv) with
                                             | Some _ => true | None => false end)
                                  (equations es)) /\
    (forall name rows, In (name, rows) ind ->
       exists start, rows = seq start (length (local_rows es a name))).
  Proof.
    intros HI Hsz Hok Hp. destruct (assemble_slice es a r cols n HI Hsz Hok Hp) as [-> _].
    split; [reflexivity|]. apply ind_from_props.
  Qed.

  (* the argument is rejected: ValueError, nothing changes *)
  Theorem assemble_rejects es jac a r :
    EInv es -> arg_ok es a = false ->
    assemble vzero vopp eval s es jac a r = (es, AErr ValueErr).
  Proof. intros HI Hok. unfold assemble. now rewrite (parse_equations_spec es a HI), Hok. Qed.

  (* residual-only assembly: the right-hand side of the Jacobian assembly, reported indices
     untouched (any state, any argument) *)
  Theorem assemble_residual es a r r' es' A b n :
    assemble vzero vopp eval s es true a r = (es', AJac A b n) ->
    assemble vzero vopp eval s es false a r' = (es, ARes b).
  Proof.
    unfold assemble. destruct (parse_equations es a) as [blocks|e]; [|discriminate].
    rewrite (res_jac_loop (equations es) blocks [] 0 []).
    destruct (jac_loop eval (equations es) blocks [] 0 []) as [[rows ind] [e|]]; [discriminate|].
    destruct (projection_to s (asm_vars s r)); try discriminate. now intros [= _ _ <- _].
  Qed.

  Lemma assemble_keeps es jac a r :
    equations (fst (assemble vzero vopp eval s es jac a r)) = equations es /\
    comp (fst (assemble vzero vopp eval s es jac a r)) = comp es.
  Proof.
    unfold assemble. destruct (parse_equations es a); [|auto]. destruct jac.
    - destruct (jac_loop eval (equations es) l [] 0 []) as [[rows ind] [e|]]; auto.
      destruct (projection_to s (asm_vars s r)); auto.
    - destruct (res_loop eval (equations es) l []) as [rows [e|]]; auto.
  Qed.

  Lemma EInv_keeps es es' :
    equations es' = equations es /\ comp es' = comp es -> EInv es -> EInv es'.
  Proof. intros [H1 H2] [Hn Hc]. constructor; now rewrite ?H1, ?H2. Qed.

  Lemma estep_EInv g es o : EInv es -> EInv (fst (estep vzero vopp eval g s es o)).
  Proof.
    intro HI. destruct o as [name op grids info|name|jac a r]; cbn [estep].
    - pose proof (set_equation_EInv g es name op grids info HI).
      now destruct (set_equation g es name op grids info) as [es' [e|]].
    - pose proof (remove_equation_EInv es name HI).
      now destruct (remove_equation es name) as [es' [e|]].
    - pose proof (EInv_keeps _ _ (assemble_keeps es jac a r) HI).
      now destruct (assemble vzero vopp eval s es jac a r) as [es' []].
  Qed.

  Lemma erun_EInv g : forall ops es, EInv es -> EInv (fst (erun vzero vopp eval g s es ops)).
  Proof.
    induction ops as [|o r IH]; intros es HI; cbn [erun]; auto.
    pose proof (estep_EInv g es o HI) as H.
    destruct (estep vzero vopp eval g s es o) as [es' x]. specialize (IH es' H).
    now destruct (erun vzero vopp eval g s es' r).
  Qed.

  Theorem efinal_EInv g ops : EInv (efinal vzero vopp eval g s ops).
  Proof. apply erun_EInv, EInv_init. Qed.
End AssembleProofs.

Lemma all_registered g s : Inv g s ->
  forall id, In id (parse s (asm_vars s None)) -> In id (block_ids s).
Proof.
  intros HI id. cbn [asm_vars]. rewrite parse_ids, (block_ids_order g s HI), !in_map_iff.
  intros (v & <- & Hv). exists v. now rewrite in_order_Inv.
Qed.

Lemma cols_registered g s r :
  Inv g s -> truthy (asm_vars s r) = true ->
  (r = None \/ forall id, In id (parse s r) -> In id (block_ids s)) ->
  exists cols, projection_to s (asm_vars s r) = OProjM cols (num_dofs s) /\
    StronglySorted le cols /\
    Permutation cols (concat (map (block_of s) (parse s (asm_vars s r)))) /\
    (forall i, In i cols <-> exists id, In id (parse s (asm_vars s r)) /\ In i (block_of s id)).
Proof.
  intros HI Ht Hr.
  destruct (projection_ok g s (asm_vars s r) HI Ht) as (cols & H1 & H2 & H3 & H4 & _); eauto.
  destruct r as [l|]; [|apply (all_registered g s HI)]. now destruct Hr.
Qed.

Lemma thm_cols_null s r : truthy (asm_vars s r) = false ->
  projection_to s (asm_vars s r) = OProjM [] (num_dofs s).
Proof. apply projection_null. Qed.

Theorem set_equation_layout g es name op grids info es' :
  set_equation g es name op grids info = (es', None) ->
  img_of es' name = img_spec g info (filter (fun d => domin d grids) (grid_order g)) 0 /\
  equations es' = equations es ++ [(name, op)] /\
  (forall n, n <> name -> img_of es' n = img_of es n).
Proof.
  destruct (set_equation_cases g es name op grids info) as [(e & ->)|(Hn & ->)];
    [discriminate|]. intros [= <-]. unfold img_of. cbn. rewrite dget_dset, Nat.eqb_refl.
  repeat split; [now apply dset_absent|]. intros n Hne. rewrite dget_dset.
  destruct (Nat.eqb_spec name n); congruence.
Qed.
