(* C35 — rldecode, rlencode and expand_index_pointers.
   rldecode and expand_index_pointers are built the same way: a constant array (zeros, ones) gets
   a few values written at the start positions of consecutive blocks, and the cumulative sum of
   the result is a constant (an arithmetic run) on every block. *)
From Coq Require Import List ZArith Bool Arith Lia.
Import ListNotations.
From PP Require Import Lib.ListFacts Lib.Csr Model.C35 Proofs.C35.

Lemma nth_error_pre : forall {E} (pre : list E) x r, nth_error (pre ++ x :: r) (length pre) = Some x.
Proof. induction pre; simpl; auto. Qed.

Lemma gather_opt_app : forall {E} (l : list E) a b,
  gather_opt l (a ++ b) = match gather_opt l a, gather_opt l b with
                          | Some x, Some y => Some (x ++ y)
                          | _, _ => None
                          end.
Proof.
  induction a as [|k a IH]; intros b; simpl.
  - destruct (gather_opt l b); reflexivity.
  - rewrite IH. destruct (nth_error l k); [|reflexivity].
    destruct (gather_opt l a); [|reflexivity].
    destruct (gather_opt l b); reflexivity.
Qed.

Lemma gather_opt_repeat : forall {E} (l : list E) k x c,
  nth_error l k = Some x -> gather_opt l (repeat k c) = Some (repeat x c).
Proof. induction c as [|c IH]; intros H; simpl; [reflexivity|]. rewrite H, IH by exact H. reflexivity. Qed.

Lemma last_cumsum : forall cs a d, last (a :: cumsum_acc a cs) d = (a + sumZ cs)%Z.
Proof.
  induction cs as [|c cs IH]; intros a d.
  - simpl. lia.
  - change (last (a :: cumsum_acc a (c :: cs)) d) with (last ((a + c)%Z :: cumsum_acc (a + c)%Z cs) d).
    rewrite IH. simpl. lia.
Qed.

(* start positions of the blocks *)
Fixpoint excl (acc : Z) (cs : list Z) : list Z :=
  match cs with [] => [] | c :: r => acc :: excl (acc + c)%Z r end.

Lemma excl_length : forall cs a, length (excl a cs) = length cs.
Proof. induction cs; intros; simpl; auto. Qed.

Lemma removelast_cumsum : forall cs a, removelast (a :: cumsum_acc a cs) = excl a cs.
Proof.
  induction cs as [|c cs IH]; intros a; [reflexivity|].
  change (removelast (a :: cumsum_acc a (c :: cs)))
    with (a :: removelast ((a + c)%Z :: cumsum_acc (a + c)%Z cs)).
  rewrite IH. reflexivity.
Qed.

Lemma cumsum_removelast : forall cs a c, cumsum_acc a (removelast (c :: cs)) = excl (a + c)%Z cs.
Proof.
  induction cs as [|c' cs IH]; intros a c; [reflexivity|].
  change (removelast (c :: c' :: cs)) with (c :: removelast (c' :: cs)).
  cbn [cumsum_acc excl]. rewrite IH. reflexivity.
Qed.

(* block k: the value v_k, then c_k - 1 copies of d *)
Fixpoint gblocks (d : Z) (cs vs : list Z) : list Z :=
  match cs, vs with
  | c :: r, v :: vs' => v :: repeat d (Z.to_nat (c - 1)) ++ gblocks d r vs'
  | _, _ => []
  end.

Lemma sumZ_nonneg : forall cs, Forall (fun c => 1 <= c)%Z cs -> (0 <= sumZ cs)%Z.
Proof. induction 1; simpl; lia. Qed.

Lemma scatter_starts : forall cs vs d pre, length vs = length cs -> Forall (fun c => 1 <= c)%Z cs ->
  scatter (pre ++ repeat d (Z.to_nat (sumZ cs))) (map Z.to_nat (excl (Z.of_nat (length pre)) cs)) vs
  = pre ++ gblocks d cs vs.
Proof.
  induction cs as [|c cs IH]; intros vs d pre Hl H.
  - destruct vs; reflexivity.
  - destruct vs as [|v vs]; [discriminate|]. inversion H as [|c' r' Hc Hr]; subst.
    pose proof (sumZ_nonneg cs Hr) as Hs.
    cbn [excl map scatter gblocks sumZ fold_right]. fold (sumZ cs). rewrite Nat2Z.id.
    replace (Z.to_nat (c + sumZ cs)) with (S (Z.to_nat (c - 1)) + Z.to_nat (sumZ cs)) by lia.
    rewrite repeat_app. cbn [repeat app]. rewrite upd_app_len.
    (* the block just written joins the finished part *)
    pose proof (IH vs d (pre ++ v :: repeat d (Z.to_nat (c - 1)))) as IH'.
    rewrite app_length in IH'. cbn [length] in IH'. rewrite repeat_length, <- app_assoc in IH'.
    replace (Z.of_nat (length pre + S (Z.to_nat (c - 1)))) with (Z.of_nat (length pre) + c)%Z in IH' by lia.
    cbn [app] in IH'. rewrite IH' by (simpl in Hl; auto; lia). rewrite <- app_assoc. reflexivity.
Qed.

Definition rep {T} (ac : T * Z) : list T := repeat (fst ac) (Z.to_nat (snd ac)).

Definition pos (c : Z) : bool := (0 <? c)%Z.

(* np.repeat(np.arange(s, s + len(cs)), cs) *)
Definition idx (s : nat) (cs : list Z) : list nat := flat_map rep (combine (seq s (length cs)) cs).

Lemma idx_cons : forall s c cs, idx s (c :: cs) = repeat s (Z.to_nat c) ++ idx (S s) cs.
Proof. reflexivity. Qed.

(* a one at every block start: the cumulative sum numbers the blocks *)
Lemma cumsum_idx : forall cs s acc, Forall (fun c => 1 <= c)%Z cs -> Z.of_nat s = (acc + 1)%Z ->
  map Z.to_nat (cumsum_acc acc (gblocks 0%Z cs (repeat 1%Z (length cs)))) = idx s cs.
Proof.
  induction cs as [|c cs IH]; intros s acc H Hs; [reflexivity|]. inversion H as [|c' r' Hc Hr]; subst.
  cbn [length repeat gblocks cumsum_acc map].
  rewrite cumsum_acc_app, cumsum_acc_zeros, sumZ_repeat, Z.mul_0_l, map_app, map_repeat', idx_cons.
  rewrite (IH (S s)) by (try exact Hr; lia).
  replace (Z.to_nat (acc + 1)) with s by lia. replace (Z.to_nat c) with (S (Z.to_nat (c - 1))) by lia.
  reflexivity.
Qed.

(* cumsum(j), the block number of every output position *)
Lemma block_index : forall cs, Forall (fun c => 1 <= c)%Z cs ->
  let i := cumsum (0%Z :: cs) in
  let mid := removelast (tl i) in
  map Z.to_nat (cumsum (scatter (repeat 0%Z (Z.to_nat (last i 0%Z))) (map Z.to_nat mid) (repeat 1%Z (length mid))))
  = idx 0 cs.
Proof.
  intros cs H. unfold cumsum. cbn zeta.
  change (cumsum_acc 0 (0%Z :: cs)) with (0%Z :: cumsum_acc 0%Z cs).
  rewrite last_cumsum. cbn [tl].
  destruct cs as [|c0 rest]; [reflexivity|]. inversion H as [|c' r' Hc Hr]; subst.
  pose proof (sumZ_nonneg rest Hr) as Hs.
  change (cumsum_acc 0 (c0 :: rest)) with ((0 + c0)%Z :: cumsum_acc (0 + c0)%Z rest).
  rewrite removelast_cumsum, excl_length.
  change (sumZ (c0 :: rest)) with (c0 + sumZ rest)%Z.
  replace (Z.to_nat (0 + (c0 + sumZ rest))) with (Z.to_nat c0 + Z.to_nat (sumZ rest)) by lia.
  rewrite repeat_app.
  replace (0 + c0)%Z with (Z.of_nat (length (repeat 0%Z (Z.to_nat c0)))) by (rewrite repeat_length; lia).
  rewrite scatter_starts by (rewrite ?repeat_length; auto).
  rewrite cumsum_acc_app, cumsum_acc_zeros, sumZ_repeat, Z.mul_0_l, map_app, map_repeat', idx_cons.
  f_equal. apply cumsum_idx; [exact Hr|reflexivity].
Qed.

Lemma mask_positive : forall n, Forall (fun c => 1 <= c)%Z (mask (map pos n) n).
Proof.
  induction n as [|c n IH]; simpl; [constructor|].
  destruct (pos c) eqn:E; [constructor; [unfold pos in E; lia|exact IH]|exact IH].
Qed.

Lemma argwhere_mask_length : forall n s, length (argwhere_from s (map pos n)) = length (mask (map pos n) n).
Proof. induction n as [|c n IH]; intros s; simpl; [reflexivity|]. destruct (pos c); simpl; rewrite IH; reflexivity. Qed.

(* entries with a count <= 0 contribute nothing, whether or not they are filtered out first *)
Lemma argwhere_idx : forall m s,
  flat_map rep (combine (argwhere_from s (map pos m)) (mask (map pos m) m)) = idx s m.
Proof.
  induction m as [|c m IH]; intros s; [reflexivity|]. cbn [map mask argwhere_from]. rewrite idx_cons.
  destruct (pos c) eqn:E; unfold pos in E; cbn [combine flat_map]; rewrite IH; [reflexivity|].
  replace (Z.to_nat c) with 0 by lia. reflexivity.
Qed.

Section RL.
  Variable T : Type.

  (* positions beyond the operand: fine as long as no positive count asks for them *)
  Lemma gather_beyond : forall (pre : list T) m s, length pre <= s ->
    gather_opt pre (idx s m) = if forallb (fun c => c <=? 0)%Z m then Some [] else None.
  Proof.
    intros pre. induction m as [|c m IH]; intros s Hs; [reflexivity|].
    rewrite idx_cons, gather_opt_app, IH by lia. cbn [forallb].
    destruct (c <=? 0)%Z eqn:E.
    - apply Z.leb_le in E. replace (Z.to_nat c) with 0 by lia. cbn [repeat gather_opt andb].
      destruct (forallb _ m); reflexivity.
    - apply Z.leb_gt in E. replace (Z.to_nat c) with (S (Z.to_nat (c - 1))) by lia.
      cbn [repeat gather_opt andb].
      replace (nth_error pre s) with (@None T); [reflexivity|].
      symmetry. apply nth_error_None. exact Hs.
  Qed.

  Lemma gather_idx : forall (n : list Z) (A pre : list T),
    gather_opt (pre ++ A) (idx (length pre) n)
    = if forallb (fun c => c <=? 0)%Z (skipn (length A) n)
      then Some (flat_map rep (combine A n)) else None.
  Proof.
    induction n as [|c n IH]; intros A pre; [destruct A; reflexivity|].
    destruct A as [|a A].
    - rewrite app_nil_r. cbn [length skipn combine flat_map]. apply gather_beyond. lia.
    - rewrite idx_cons, gather_opt_app, (gather_opt_repeat _ _ a) by apply nth_error_pre.
      replace (pre ++ a :: A) with ((pre ++ [a]) ++ A) by (rewrite <- app_assoc; reflexivity).
      specialize (IH A (pre ++ [a])). rewrite app_length, Nat.add_1_r in IH. rewrite IH.
      cbn [length skipn combine flat_map].
      destruct (forallb _ (skipn (length A) n)); reflexivity.
  Qed.

  Corollary gather_idx0 : forall (n : list Z) (A : list T),
    gather_opt A (idx 0 n)
    = if forallb (fun c => c <=? 0)%Z (skipn (length A) n) then Some (flat_map rep (combine A n)) else None.
  Proof. intros n A. apply (gather_idx n A []). Qed.
End RL.

(* rldecode for operands of any length: np.repeat over the common prefix when no positive
   count lies beyond the end of A, IndexError otherwise *)
Theorem rldecode_any : forall (T : Type) (A : list T) (n : list Z),
  rldecode A n
  = if forallb (fun c => c <=? 0)%Z (skipn (length A) n)
    then Ok (flat_map rep (combine A n)) else Err IndexErr.
Proof.
  intros T A n. unfold rldecode. change (fun c : Z => (0 <? c)%Z) with pos.
  rewrite (block_index (mask (map pos n) n)) by apply mask_positive.
  (* flatnonzero(r)[cumsum(j)]: every block number is in range *)
  rewrite gather_idx0, skipn_all2 by (rewrite argwhere_mask_length; lia). cbn [forallb].
  rewrite argwhere_idx, gather_idx0.
  destruct (forallb _ (skipn (length A) n)); reflexivity.
Qed.

Corollary rldecode_spec : forall (T : Type) (A : list T) (n : list Z),
  length n <= length A -> rldecode A n = Ok (flat_map rep (combine A n)).
Proof. intros T A n Hl. rewrite rldecode_any, skipn_all2 by exact Hl. reflexivity. Qed.

Section Encode.
  Variable T : Type.
  Variable eqb : T -> T -> bool.
  Hypothesis eqb_true : forall x y, eqb x y = true -> x = y.

  (* end position and value of every maximal run; s is the position of the head of l *)
  Fixpoint runs (s : nat) (l : list T) : list (nat * T) :=
    match l with
    | [] => []
    | x :: r => match r with
                | [] => [(s, x)]
                | y :: _ => if eqb x y then runs (S s) r else (s, x) :: runs (S s) r
                end
    end.

  Lemma runs_cons2 : forall s x y r,
    runs s (x :: y :: r) = if eqb x y then runs (S s) (y :: r) else (s, x) :: runs (S s) (y :: r).
  Proof. reflexivity. Qed.

  Lemma index_runs : forall l s, l <> [] ->
    argwhere_from s (neq_adj T eqb l) ++ [s + length l - 1] = map fst (runs s l).
  Proof.
    induction l as [|x l IH]; intros s H; [congruence|].
    destruct l as [|y r]; [simpl; f_equal; lia|].
    specialize (IH (S s) ltac:(discriminate)). rewrite runs_cons2.
    change (neq_adj T eqb (x :: y :: r)) with (negb (eqb x y) :: neq_adj T eqb (y :: r)).
    replace (s + length (x :: y :: r) - 1) with (S s + length (y :: r) - 1) by (simpl; lia).
    destruct (eqb x y); cbn [negb argwhere_from map fst]; rewrite <- IH; reflexivity.
  Qed.

  Lemma gather_runs : forall l pre,
    gather_opt (pre ++ l) (map fst (runs (length pre) l)) = Some (map snd (runs (length pre) l)).
  Proof.
    induction l as [|x l IH]; intros pre; [reflexivity|].
    specialize (IH (pre ++ [x])). rewrite app_length, <- app_assoc, Nat.add_1_r in IH.
    destruct l as [|y r]; [simpl; rewrite nth_error_pre; reflexivity|].
    rewrite runs_cons2. destruct (eqb x y); [exact IH|].
    cbn [map fst snd gather_opt]. rewrite nth_error_pre. cbn [app] in IH. rewrite IH. reflexivity.
  Qed.

  (* a run interrupted at position s - 1 - prev of its value is completed by the decoder *)
  Lemma decode_runs : forall l s prev, (prev <= Z.of_nat s - 1)%Z ->
    flat_map rep (combine (map snd (runs s l)) (diffZ prev (map Z.of_nat (map fst (runs s l)))))
    = match l with
      | [] => []
      | x :: _ => repeat x (Z.to_nat (Z.of_nat s - 1 - prev)) ++ l
      end.
  Proof.
    induction l as [|x l IH]; intros s prev Hp; [reflexivity|].
    assert (Hx : forall u, repeat x (Z.to_nat (Z.of_nat s - 1 - prev)) ++ x :: u
                           = repeat x (Z.to_nat (Z.of_nat (S s) - 1 - prev)) ++ u).
    { intros u. replace (Z.to_nat (Z.of_nat (S s) - 1 - prev)) with (S (Z.to_nat (Z.of_nat s - 1 - prev))) by lia.
      change (repeat x (S ?k)) with (x :: repeat x k). rewrite repeat_cons, <- app_assoc. reflexivity. }
    destruct l as [|y r].
    - simpl. unfold rep. cbn [fst snd]. rewrite app_nil_r, Hx, app_nil_r. f_equal. lia.
    - rewrite runs_cons2. destruct (eqb x y) eqn:E.
      + apply eqb_true in E. subst y. rewrite (IH (S s) prev) by lia. symmetry. apply Hx.
      + cbn [map diffZ combine flat_map fst snd]. rewrite (IH (S s) (Z.of_nat s)) by lia.
        replace (Z.to_nat (Z.of_nat (S s) - 1 - Z.of_nat s)) with 0 by lia.
        rewrite Hx. unfold rep. cbn [repeat app fst snd]. f_equal. f_equal. lia.
  Qed.

  Lemma diffZ_length : forall l p, length (diffZ p l) = length l.
  Proof. induction l; intros; simpl; auto. Qed.

  Lemma counts_positive : forall l s prev, (prev < Z.of_nat s)%Z ->
    Forall (fun c => 1 <= c)%Z (diffZ prev (map Z.of_nat (map fst (runs s l)))).
  Proof.
    induction l as [|x l IH]; intros s prev H; [constructor|].
    destruct l as [|y r]; [simpl; constructor; [lia|constructor]|].
    rewrite runs_cons2. destruct (eqb x y); [apply IH; lia|].
    cbn [map fst diffZ]. constructor; [lia|]. apply IH. lia.
  Qed.

  Lemma hd_runs : forall l s d, hd d (map snd (runs s l)) = hd d l.
  Proof.
    induction l as [|x l IH]; intros s d; [reflexivity|].
    destruct l as [|y r]; [reflexivity|]. rewrite runs_cons2.
    destruct (eqb x y) eqn:E; [|reflexivity].
    apply eqb_true in E. subst. apply IH.
  Qed.

  Lemma runs_distinct : forall l s, forallb (fun b => b) (neq_adj T eqb (map snd (runs s l))) = true.
  Proof.
    induction l as [|x l IH]; intros s; [reflexivity|].
    destruct l as [|y r]; [reflexivity|]. rewrite runs_cons2.
    destruct (eqb x y) eqn:E; [apply IH|].
    pose proof (hd_runs (y :: r) (S s) y) as Hh. specialize (IH (S s)).
    cbn [map snd]. destruct (map snd (runs (S s) (y :: r))) as [|z w]; [reflexivity|].
    cbn [hd] in Hh. subst z.
    change (neq_adj T eqb (x :: y :: w)) with (negb (eqb x y) :: neq_adj T eqb (y :: w)).
    cbn [forallb]. rewrite E. exact IH.
  Qed.

  Lemma rlencode_spec : forall l, l <> [] ->
    rlencode eqb l = Ok (map snd (runs 0 l), diffZ (-1)%Z (map Z.of_nat (map fst (runs 0 l)))).
  Proof.
    intros l H. unfold rlencode. destruct l as [|x r]; [congruence|].
    rewrite <- (Nat.add_0_l (length (x :: r))), (index_runs (x :: r) 0 H).
    pose proof (gather_runs (x :: r) []) as G. cbn [app length] in G. rewrite G. reflexivity.
  Qed.

End Encode.

Definition posb (p : Z * Z) : bool := (fst p + 1 <=? snd p)%Z.
Definition width (q : Z * Z) : Z := (snd q - fst q)%Z.

Lemma zrange_empty : forall l h, (h <= l)%Z -> zrange l h = [].
Proof. intros l h H. unfold zrange. replace (Z.to_nat (h - l)) with 0 by lia. reflexivity. Qed.

Lemma zrange_cons : forall l h, (l < h)%Z ->
  zrange l h = l :: map (fun k => (l + 1 + Z.of_nat k)%Z) (seq 0 (Z.to_nat (h - l - 1))).
Proof.
  intros l h H. unfold zrange.
  replace (Z.to_nat (h - l)) with (S (Z.to_nat (h - l - 1))) by lia.
  simpl. f_equal; [lia|]. rewrite <- seq_shift, map_map. apply map_ext. intros k. lia.
Qed.

Lemma flat_map_filter_pos : forall ps,
  flat_map (fun p => zrange (fst p) (snd p)) (filter posb ps)
  = flat_map (fun p => zrange (fst p) (snd p)) ps.
Proof.
  induction ps as [|p ps IH]; simpl; [reflexivity|].
  destruct (posb p) eqn:E; simpl; rewrite IH; [reflexivity|].
  rewrite zrange_empty; [reflexivity|]. unfold posb in E. lia.
Qed.

(* the increments written at the interval starts: lo_k - (hi_(k-1) - 1) *)
Definition incs (prev : Z) (r : list (Z * Z)) : list Z :=
  map (fun p => (fst p - snd p)%Z) (combine (map fst r) (prev :: map (fun q => (snd q - 1)%Z) r)).

Lemma incs_length : forall prev r, length (incs prev r) = length r.
Proof. intros. unfold incs. rewrite map_length, combine_length. cbn [length]. rewrite !map_length. lia. Qed.

(* ones on every interval except for the jump at its start: the cumulative sum runs through
   the intervals *)
Lemma cumsum_ramps : forall r prev, Forall (fun q => 1 <= width q)%Z r ->
  cumsum_acc prev (gblocks 1%Z (map width r) (incs prev r))
  = flat_map (fun q => zrange (fst q) (snd q)) r.
Proof.
  induction r as [|q r IH]; intros prev H; [reflexivity|].
  inversion H as [|q' r' Hq Hr]; subst. unfold width in Hq.
  change (incs prev (q :: r)) with ((fst q - prev)%Z :: incs (snd q - 1)%Z r).
  cbn [map gblocks cumsum_acc flat_map].
  rewrite cumsum_acc_app, cumsum_acc_ones, sumZ_repeat, Z.mul_1_l.
  rewrite (zrange_cons (fst q) (snd q)) by lia. cbn [app]. unfold width at 1 2.
  f_equal; [lia|]. f_equal.
  - apply map_ext. intros k. lia.
  - rewrite <- (IH (snd q - 1)%Z) by assumption. f_equal. lia.
Qed.

Lemma combine_removelast : forall {A B} (a : list A) (b : list B), length a < length b ->
  combine a (removelast b) = combine a b.
Proof.
  induction a as [|x a IH]; intros [|y b] H; simpl in H; try lia; [reflexivity|].
  destruct b as [|y' b]; [destruct a; simpl in H; lia|].
  change (removelast (y :: y' :: b)) with (y :: removelast (y' :: b)).
  cbn [combine]. rewrite IH by (simpl in *; lia). reflexivity.
Qed.

Lemma existsb_filter : forall {A} (f : A -> bool) l,
  existsb (fun b => b) (map f l) = match filter f l with [] => false | _ => true end.
Proof. induction l as [|a l IH]; cbn; [reflexivity|]. destruct (f a); [reflexivity|exact IH]. Qed.

(* if x.size == 1: x = x * np.ones(y.size) *)
Definition bcast (x y : list Z) : list Z := if length x =? 1 then repeat (hd 0%Z x) (length y) else x.

Lemma bcast_id : forall x y, (length x = 1 -> length y = 1) -> bcast x y = x.
Proof.
  intros x y H. unfold bcast. destruct (length x =? 1) eqn:E; [|reflexivity].
  apply Nat.eqb_eq in E. rewrite (H E). destruct x as [|a [|b x]]; try discriminate. reflexivity.
Qed.

(* the whole function; [lo], [hi] are the bounds after its broadcasting step *)
Theorem expand_bcast : forall lo0 hi0 lo hi, bcast lo0 hi0 = lo -> bcast hi0 lo = hi ->
  expand_index_pointers lo0 hi0
  = if length lo =? length hi then Ok (flat_map (fun p => zrange (fst p) (snd p)) (combine lo hi))
    else Err ValueErr.
Proof.
  intros lo0 hi0 lo hi Hlo Hhi. unfold expand_index_pointers. fold (bcast lo0 hi0). rewrite Hlo.
  fold (bcast hi0 lo). rewrite Hhi. clear lo0 hi0 Hlo Hhi.
  destruct (length lo =? length hi) eqn:H; [|reflexivity]. apply Nat.eqb_eq in H. cbn [negb].
  change (fun p : Z * Z => (fst p + 1 <=? snd p)%Z) with posb.
  rewrite <- flat_map_filter_pos, (mask_fst posb lo hi H), (mask_snd posb lo hi H).
  assert (Hpos : Forall (fun q => 1 <= width q)%Z (filter posb (combine lo hi))).
  { apply Forall_forall. intros q Hq. apply filter_In in Hq. unfold posb, width in *. lia. }
  rewrite existsb_filter. destruct (filter posb (combine lo hi)) as [|q0 rest]; [reflexivity|].
  cbn [negb]. f_equal. rewrite <- (cumsum_ramps (q0 :: rest) 0%Z Hpos).
  assert (Hpos' : Forall (fun c => 1 <= c)%Z (map width (q0 :: rest))) by (apply Forall_map; exact Hpos).
  (* num, the positions and the values in terms of the non-empty intervals *)
  rewrite !map_map, (combine_map_same fst (fun q => (snd q - 1)%Z)), map_map.
  rewrite (map_ext _ width) by (intros x; unfold width; simpl; lia).
  cbn [map hd tl]. unfold cumsum at 2. rewrite cumsum_removelast.
  rewrite combine_removelast by (cbn [length]; rewrite !map_length; lia).
  pose proof (scatter_starts (width q0 :: map width rest) (incs 0 (q0 :: rest)) 1%Z []) as Hsc.
  cbn [app length Z.of_nat] in Hsc. unfold cumsum. rewrite <- Hsc.
  - unfold incs. cbn [map combine fst snd excl scatter Z.to_nat]. rewrite Z.sub_0_r. reflexivity.
  - rewrite incs_length, map_length. reflexivity.
  - exact Hpos'.
Qed.

Corollary expand_main : forall lo hi, length lo = length hi ->
  expand_index_pointers lo hi
  = Ok (flat_map (fun p => zrange (fst p) (snd p)) (combine lo hi)).
Proof.
  intros lo hi H. rewrite (expand_bcast lo hi lo hi), H, Nat.eqb_refl by (apply bcast_id; lia). reflexivity.
Qed.

(* a single bound against bounds of any number, one included *)
Corollary expand_lo : forall a hi, expand_index_pointers [a] hi = Ok (flat_map (fun h => zrange a h) hi).
Proof.
  intros a hi. rewrite (expand_bcast [a] hi (repeat a (length hi)) hi).
  - rewrite repeat_length, Nat.eqb_refl, combine_repeat, flat_map_map. reflexivity.
  - reflexivity.
  - apply bcast_id. rewrite repeat_length. auto.
Qed.

Corollary expand_hi : forall lo b, expand_index_pointers lo [b] = Ok (flat_map (fun l => zrange l b) lo).
Proof.
  intros lo b. rewrite (expand_bcast lo [b] lo (repeat b (length lo))).
  - rewrite repeat_length, Nat.eqb_refl, combine_repeat_r, flat_map_map. reflexivity.
  - apply bcast_id. auto.
  - reflexivity.
Qed.

Lemma zrange_nat : forall a b, map Z.to_nat (zrange (Z.of_nat a) (Z.of_nat b)) = seq a (b - a).
Proof.
  intros a b. unfold zrange. rewrite map_map.
  replace (Z.to_nat (Z.of_nat b - Z.of_nat a)) with (b - a) by lia.
  rewrite (map_ext _ (fun k => a + k)) by (intros k; lia).
  rewrite map_add_seq. f_equal. lia.
Qed.

Lemma expand_nat_spec : forall lo hi, length lo = length hi ->
  expand_nat lo hi = flat_map (fun p => seq (fst p) (snd p - fst p)) (combine lo hi).
Proof.
  intros lo hi H. unfold expand_nat. rewrite expand_main by (rewrite !map_length; exact H).
  clear H. revert hi. induction lo as [|a lo IH]; intros [|b hi]; simpl; try reflexivity.
  rewrite map_app, zrange_nat. f_equal. apply IH.
Qed.
