(* C10 — the clock of the product run.  By Proofs.C10_gen.index_lists_thm the clock trace of
   the product model IS the C09 time loop on the events derived from the solver verdicts;
   here C09's facts about that loop (exact real arithmetic) are read off it. *)
From Coq Require Import List ZArith Bool Arith Lia Reals Lra.
Import ListNotations.
From PP Require Model.C08 Model.C09 Proofs.C09.
From PP Require Import Model.C10 Proofs.C10 Proofs.C10_gen.

Local Open Scope R_scope.

Theorem ends_at_final_time :
  forall (V : Type) (vadd : V -> V -> V) (iti tsi : list Z) (mI mT : nat) (maxit : Z)
         (a : C09.args R) (sched : list R) (v0 : V) (solves : list (list (V * bool * bool)))
         (c : C09.cfg R) (st0 : store V) (tr : list (entry V R)) (sp : stop),
    index_set iti mI -> index_set tsi mT ->
    simulate V vadd R C09.ROps maxit a sched iti tsi v0 solves = inl (c, st0, (tr, sp)) ->
    C09.a_constant a = false ->
    0 < C09.dt_min c -> 0 <= C09.a_rtol a -> 0 <= C09.a_atol a ->
    C09.well_separated (C09.a_rtol a) (C09.a_atol a) sched ->
    C09.a_dt_init a <= nth 1 sched 0 - nth 0 sched 0 ->
    let t_end := C09.time (final_clock (C09.init_state R C09.ROps c sched) tr) in
    (forall e, sp <> RaisedStore e) /\
    (forall e, sp = RaisedClock e -> e = C09.E_recomp_exhausted \/ e = C09.E_dt_at_min) /\
    (sp = Finished ->
       t_end <= last sched 0 /\ C09.isclose R C09.ROps c t_end (last sched 0) = true).
Proof.
  intros V vadd iti tsi mI mT maxit a sched v0 solves c st0 tr sp HI HT Hs Hc Hmin Hrt Hat Hsep
         Hinit t_end.
  destruct (index_lists_thm V vadd R C09.ROps iti tsi mI mT HI HT maxit v0 _ _ _ _ _ _ _ Hs)
    as (Hsp & _ & _ & H09).
  destruct (C09.run_facts a sched _ c _ _ H09 Hc Hmin Hrt Hat Hsep Hinit)
    as (HR & _ & _ & _ & _ & Hend).
  split; [exact Hsp|split].
  - intros e ->. exact (proj2 (C09.Run_errors c sched _ 1 _ _ HR) e eq_refl).
  - intros ->. specialize (Hend eq_refl). cbv zeta in Hend. rewrite map_map in Hend. exact Hend.
Qed.
