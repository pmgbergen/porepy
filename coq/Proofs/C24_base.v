(* C24 — grid ids, key lists and association lists (the Python dictionaries). *)
From Coq Require Import List Arith Bool.
Import ListNotations.
From PP Require Import Lib.ListFacts Model.C24 Model.C24_spec.

Lemma nodup_app {A} (l1 l2 : list A) :
  NoDup l1 -> NoDup l2 -> (forall x, In x l1 -> ~ In x l2) -> NoDup (l1 ++ l2).
Proof.
  induction l1 as [|a r IH]; cbn; intros H1 H2 H; auto.
  inversion H1; subst. constructor.
  - rewrite in_app_iff. intros [HH|HH]; [contradiction | apply (H a); auto].
  - apply IH; auto.
Qed.

Lemma nodup_snoc {A} (l : list A) x : NoDup l -> ~ In x l -> NoDup (l ++ [x]).
Proof.
  intros Hl Hx. apply nodup_app; auto.
  - constructor; [intros [] | constructor].
  - intros y Hy [<-|[]]. contradiction.
Qed.

(* one step of a loop that appends new, distinct items x :: r to S one at a time *)
Lemma fresh_snoc {A} (S : list A) x r :
  NoDup (x :: r) -> (forall y, In y (x :: r) -> ~ In y S) ->
  ~ In x S /\ NoDup r /\ forall y, In y r -> ~ In y (S ++ [x]).
Proof.
  intros Hn Hd. inversion Hn as [|? ? Hx Hr]; subst.
  split; [apply Hd; left; reflexivity|]. split; [exact Hr|].
  intros y Hy Hin. apply in_app_iff in Hin. destruct Hin as [Hin|[<-|[]]]; [|contradiction].
  apply (Hd y); [right|]; assumption.
Qed.

Lemma nodup_map_inj {A B} (f : A -> B) l x y :
  NoDup (map f l) -> In x l -> In y l -> f x = f y -> x = y.
Proof.
  induction l as [|a r IH]; cbn; intros Hn Hx Hy E; [contradiction|].
  inversion Hn as [|? ? Ha Hr]; subst. destruct Hx as [->|Hx], Hy as [->|Hy]; auto.
  - destruct Ha. rewrite E. apply in_map, Hy.
  - destruct Ha. rewrite <- E. apply in_map, Hx.
Qed.

Lemma filter_filter {A} (P Q : A -> bool) l :
  filter P (filter Q l) = filter (fun x => Q x && P x) l.
Proof.
  induction l as [|a r IH]; cbn; auto.
  destruct (Q a); cbn; [destruct (P a)|]; rewrite IH; reflexivity.
Qed.

Lemma existsb_negb_forallb {A} (f : A -> bool) l :
  existsb f l = negb (forallb (fun x => negb (f x)) l).
Proof.
  induction l as [|a r IH]; cbn; auto. rewrite IH, negb_andb, negb_involutive. reflexivity.
Qed.

Lemma geqb_eq a b : geqb a b = true <-> a = b.
Proof.
  destruct a, b. unfold geqb; cbn. rewrite andb_true_iff, !Nat.eqb_eq.
  split; [intros [-> ->] | intros [= -> ->]]; auto.
Qed.

Lemma geqb_refl a : geqb a a = true.
Proof. apply geqb_eq; reflexivity. Qed.

Lemma geqb_neq a b : geqb a b = false <-> a <> b.
Proof. rewrite <- geqb_eq. symmetry. apply not_true_iff_false. Qed.

Lemma pair_eqb_eq p q : pair_eqb p q = true <-> p = q.
Proof.
  unfold pair_eqb. rewrite andb_true_iff, !geqb_eq. destruct p, q; cbn.
  split; [intros [-> ->] | intros [= -> ->]]; auto.
Qed.

(* case split on [a = b], as equations in the context and with [geqb a b] evaluated *)
Ltac gcase a b :=
  let E := fresh "E" in
  destruct (geqb a b) eqn:E; [apply geqb_eq in E | apply geqb_neq in E].

Lemma neqb_true a b : neqb a b = true <-> a <> b.
Proof. unfold neqb. rewrite negb_true_iff. apply geqb_neq. Qed.

Lemma mem_In k l : mem k l = true <-> In k l.
Proof.
  induction l as [|x r IH]; cbn.
  - split; [discriminate | tauto].
  - rewrite orb_true_iff, IH, geqb_eq. tauto.
Qed.

Lemma mem_nIn k l : mem k l = false <-> ~ In k l.
Proof. rewrite <- mem_In. symmetry. apply not_true_iff_false. Qed.

Lemma nodupb_NoDup l : nodupb l = true -> NoDup l.
Proof.
  induction l as [|x r IH]; cbn; intros H; constructor; apply andb_true_iff in H.
  - apply mem_nIn, negb_true_iff, H.
  - apply IH, H.
Qed.

Lemma dupfree_nodupb l : dupfree l = nodupb l.
Proof. induction l as [|x r IH]; cbn; congruence. Qed.

Lemma kadd_fresh k l : ~ In k l -> kadd k l = l ++ [k].
Proof. intros H. unfold kadd. apply mem_nIn in H. rewrite H. reflexivity. Qed.

Lemma kdel_filter k l : NoDup l -> kdel k l = filter (fun x => neqb x k) l.
Proof.
  induction l as [|x r IH]; cbn; intros H; auto. inversion H; subst.
  unfold neqb at 1. gcase x k; cbn.
  - subst. symmetry. apply filter_all. intros y Hy. apply neqb_true. intros ->. contradiction.
  - f_equal. apply IH; auto.
Qed.

Lemma in_filter_neq k l x : In x (filter (fun y => neqb y k) l) <-> In x l /\ x <> k.
Proof. rewrite filter_In, neqb_true. tauto. Qed.

Lemma kdel_nodup k l : NoDup l -> NoDup (kdel k l).
Proof. intros H. rewrite kdel_filter by auto. apply NoDup_filter; auto. Qed.

Lemma kdel_In k l x : NoDup l -> (In x (kdel k l) <-> In x l /\ x <> k).
Proof. intros H. rewrite kdel_filter by auto. apply in_filter_neq. Qed.

Section DictLemmas.
  Context {V : Type}.
  Implicit Types (m : list (gid * V)).

  Lemma lookup_In k m v : lookup k m = Some v -> In (k, v) m.
  Proof.
    induction m as [|[k' v'] r IH]; cbn; [discriminate|].
    gcase k' k; [intros [= ->]; subst|]; auto.
  Qed.

  Lemma lookup_keys k m : lookup k m <> None <-> In k (map fst m).
  Proof.
    induction m as [|[k' v'] r IH]; cbn; [tauto|].
    gcase k' k.
    - split; [auto | discriminate].
    - rewrite IH. tauto.
  Qed.

  Lemma lookup_None k m : lookup k m = None <-> ~ In k (map fst m).
  Proof.
    rewrite <- lookup_keys. destruct (lookup k m); split; try congruence.
    intros H. destruct H. discriminate.
  Qed.

  Lemma In_keys_lookup m k : In k (map fst m) -> exists v, lookup k m = Some v.
  Proof.
    intros H. apply lookup_keys in H. destruct (lookup k m) as [v|]; [eauto | congruence].
  Qed.

  Lemma In_lookup k v m : NoDup (map fst m) -> In (k, v) m -> lookup k m = Some v.
  Proof.
    induction m as [|[k' v'] r IH]; cbn; intros Hn Hi; [contradiction|].
    inversion Hn; subst. destruct Hi as [[= -> ->]|Hi]; [rewrite geqb_refl; reflexivity|].
    gcase k' k; [|auto]. subst. exfalso. apply (in_map fst) in Hi. auto.
  Qed.

  Lemma lookup_dset j k v m :
    lookup j (dset k v m) = if geqb k j then Some v else lookup j m.
  Proof.
    induction m as [|[k' v'] r IH]; cbn; auto.
    gcase k' k; cbn.
    - subst. destruct (geqb k j); reflexivity.
    - gcase k' j; auto. subst. gcase k j; [congruence | reflexivity].
  Qed.

  Lemma dset_fresh k v m : ~ In k (map fst m) -> dset k v m = m ++ [(k, v)].
  Proof.
    induction m as [|[k' v'] r IH]; cbn; intros H; auto.
    gcase k' k; [tauto|]. f_equal. apply IH. tauto.
  Qed.

  Lemma lookup_snoc j k v m :
    ~ In k (map fst m) -> lookup j (m ++ [(k, v)]) = if geqb k j then Some v else lookup j m.
  Proof. intros H. rewrite <- dset_fresh by auto. apply lookup_dset. Qed.

  Lemma dset_keys_present k v m : In k (map fst m) -> map fst (dset k v m) = map fst m.
  Proof.
    induction m as [|[k' v'] r IH]; cbn; intros H; [contradiction|].
    gcase k' k; cbn; auto. f_equal. apply IH. tauto.
  Qed.

  Lemma ddel_keys k m : map fst (ddel k m) = kdel k (map fst m).
  Proof.
    induction m as [|[k' v'] r IH]; cbn; auto. destruct (geqb k' k); cbn; congruence.
  Qed.

  Lemma ddel_absent m k : ~ In k (map fst m) -> ddel k m = m.
  Proof.
    induction m as [|[k' v'] r IH]; cbn; intros H; auto.
    gcase k' k; [tauto|]. f_equal. apply IH. tauto.
  Qed.

  Lemma lookup_ddel j k m :
    NoDup (map fst m) -> lookup j (ddel k m) = if geqb k j then None else lookup j m.
  Proof.
    induction m as [|[k' v'] r IH]; cbn; intros H.
    - destruct (geqb k j); reflexivity.
    - inversion H; subst. gcase k' k.
      + subst. gcase k j; auto. subst. apply lookup_None; auto.
      + cbn. gcase k' j; [|auto]. subst. gcase k j; [congruence | reflexivity].
  Qed.

  Lemma lookup_filter j (P : gid * V -> bool) m :
    NoDup (map fst m) ->
    lookup j (filter P m) =
    match lookup j m with Some w => if P (j, w) then Some w else None | None => None end.
  Proof.
    induction m as [|[k' v'] r IH]; cbn; intros H; auto. inversion H; subst.
    destruct (P (k', v')) eqn:EP; cbn; (gcase k' j; [subst; rewrite EP | auto]); auto.
    rewrite IH by auto. replace (lookup j r) with (@None V); auto.
    symmetry. apply lookup_None; auto.
  Qed.

  Lemma map_fst_filter (P : gid * V -> bool) (Q : gid -> bool) m :
    (forall e, In e m -> P e = Q (fst e)) -> map fst (filter P m) = filter Q (map fst m).
  Proof.
    induction m as [|e r IH]; cbn; intros H; auto.
    rewrite (H e) by auto. destruct (Q (fst e)); cbn; [f_equal|]; apply IH; intros; apply H; auto.
  Qed.
End DictLemmas.

Lemma lookup_map_val {V W} (f : V -> W) j (m : list (gid * V)) :
  lookup j (map (fun e => (fst e, f (snd e))) m) = option_map f (lookup j m).
Proof.
  induction m as [|[k v] r IH]; cbn; auto. destruct (geqb k j); auto.
Qed.

Lemma map_snd_ddel (m : list (gid * gid)) k v :
  NoDup (map snd m) -> lookup k m = Some v -> map snd (ddel k m) = kdel v (map snd m).
Proof.
  induction m as [|[k' v'] r IH]; cbn; intros Hn Hl; [discriminate|].
  inversion Hn; subst. gcase k' k.
  - injection Hl as ->. rewrite geqb_refl. reflexivity.
  - cbn. gcase v' v; [|f_equal; auto].
    subst. exfalso. apply lookup_In, (in_map snd) in Hl. auto.
Qed.

Lemma rev_lookup_spec p m :
  match rev_lookup p m with Some j => In (j, p) m | None => forall j, ~ In (j, p) m end.
Proof.
  induction m as [|[i q] r IH]; cbn; auto.
  destruct (rev_lookup p r) as [k|]; auto.
  destruct (pair_eqb q p) eqn:Ep.
  - apply pair_eqb_eq in Ep. subst. auto.
  - intros j [[= -> ->]|H]; [|apply (IH j H)].
    apply not_true_iff_false in Ep. apply Ep, pair_eqb_eq. reflexivity.
Qed.
