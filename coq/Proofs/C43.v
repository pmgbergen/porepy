(* C43 — proofs about the model PP.Model.C43 (unit conversion): composition of unit strings,
   the conversion as one multiplication by the product of the factors, round trips, material
   constants, and the soundness of dimension normal forms. *)
From Coq Require Import String Ascii List ZArith QArith Qabs Bool Reals Qreals Lra Lia.
Import ListNotations.
From PP Require Import Model.C43.
Open Scope string_scope.

Lemma strip_app : forall a b, strip_spaces (a ++ b) = strip_spaces a ++ strip_spaces b.
Proof.
  induction a as [|c a IH]; intros b; cbn; [reflexivity|].
  destruct (Ascii.eqb c " "); cbn; now rewrite IH.
Qed.

Lemma strip_star : forall a b,
  strip_spaces (a ++ "*" ++ b) = strip_spaces a ++ String "*" (strip_spaces b).
Proof. intros a b. now rewrite strip_app. Qed.

Lemma split_on_nonempty : forall sep s, split_on sep s <> [].
Proof.
  intros sep [|c r]; cbn; [discriminate|].
  destruct (Ascii.eqb c sep); [discriminate|]. destruct (split_on sep r); discriminate.
Qed.

Lemma split_on_app : forall sep a b,
  split_on sep (a ++ String sep b) = (split_on sep a ++ split_on sep b)%list.
Proof.
  intros sep; induction a as [|c a IH]; intros b; cbn.
  - now rewrite Ascii.eqb_refl.
  - rewrite IH. destruct (Ascii.eqb c sep); [reflexivity|].
    pose proof (split_on_nonempty sep a). now destruct (split_on sep a).
Qed.

Lemma marker_app_star : forall a b, is_marker (a ++ String "*" b) = false.
Proof.
  intros [|c [|c' a]] b; [reflexivity| |]; unfold is_marker; cbn;
    destruct (Ascii.eqb c "1"), (Ascii.eqb c "-"); reflexivity.
Qed.

Lemma bind_Ok {A B} (r : res A) (f : A -> res B) y :
  bind r f = Ok y -> exists x, r = Ok x /\ f x = Ok y.
Proof. destruct r; cbn; [eauto|discriminate|discriminate]. Qed.

Lemma assoc_In : forall {A} k (l : list (string * A)) v, assoc k l = Some v -> In (k, v) l.
Proof.
  induction l as [|[k' v'] l IH]; intros v H; cbn in H; [discriminate|].
  destruct (String.eqb_spec k k') as [->|]; [injection H as <-; now left|right; auto].
Qed.

Lemma mem_assoc : forall {A} (env : list (string * A)) b,
  mem b (map fst env) = true -> exists x, assoc b env = Some x.
Proof.
  induction env as [|[k v] env IH]; intros b H; cbn in *; [discriminate|].
  destruct (String.eqb b k); [eauto|auto].
Qed.

Lemma not_mem_assoc : forall {A} (env : list (string * A)) b,
  mem b (map fst env) = false -> assoc b env = None.
Proof.
  induction env as [|[k v] env IH]; intros b H; cbn in *; [reflexivity|].
  apply orb_false_iff in H as [-> Hr]. auto.
Qed.

(* what getattr answers for a name that is neither a base unit nor a property: it does not
   depend on the number type *)
Definition unknown_attr {A} (other : list string) (name : string) : res A :=
  if mem name other then Unmodelled
  else match name with String "_" _ => Unmodelled | _ => Err AttrErr end.

Lemma unknown_attr_cases other name :
  (forall A, @unknown_attr A other name = Unmodelled) \/
  (forall A, @unknown_attr A other name = Err AttrErr).
Proof.
  unfold unknown_attr. destruct (mem name other); [now left|].
  destruct name as [|[b0 b1 b2 b3 b4 b5 b6 b7] r]; [now right|].
  (* "_" is the one character on which the match does not fall through *)
  destruct b0; [|now right]. destruct b1; [|now right]. destruct b2; [|now right].
  destruct b3; [|now right]. destruct b4; [|now right]. destruct b5; [now right|].
  destruct b6; [|now right]. destruct b7; [now right|now left].
Qed.

Section Generic.
  Context {T : Type} (ops : numops T).
  Variable derived : list (string * uexpr).
  Variable other : list string.
  Variable env : list (string * T).

  Lemma getattr_eq name :
    getattr ops derived other env name =
    match assoc name env with
    | Some x => Ok x
    | None => match assoc name derived with
              | Some e => eval ops env e
              | None => unknown_attr other name
              end
    end.
  Proof. reflexivity. Qed.

  Lemma getattr_base b x : assoc b env = Some x -> getattr ops derived other env b = Ok x.
  Proof. intros H. now rewrite getattr_eq, H. Qed.

  Lemma convert_loop_app : forall l1 l2 ts v,
    convert_loop ops derived other env (l1 ++ l2)%list ts v =
    bind (convert_loop ops derived other env l1 ts v)
         (convert_loop ops derived other env l2 ts).
  Proof.
    induction l1 as [|s l1 IH]; intros l2 ts v; cbn; [reflexivity|].
    destruct (sub_factor ops derived other env s); cbn; [apply IH|reflexivity|reflexivity].
  Qed.

End Generic.

Open Scope R_scope.

(* x ** float(p) on positive reals is the real power; pi_ stands for the constant np.pi *)
Definition ROps (pi_ : R) : numops R := {|
  tmul := Rmult; tdiv := Rdiv; tpowZ := powerRZ;
  tpowQ := fun x q => Some (Rpower x (Q2R q));
  tofQ := Q2R; tpi := pi_ |}.

Definition env_pos (env : list (string * R)) : Prop := Forall (fun p => 0 < snd p) env.

Fixpoint expr_pos (e : uexpr) : bool :=
  match e with
  | UBase _ | UPi => true
  | UConst q => (0 <? Qnum q)%Z
  | UMul a b | UDiv a b => expr_pos a && expr_pos b
  | UPow a _ => expr_pos a
  end.

Definition table_pos (derived : list (string * uexpr)) : bool :=
  forallb (fun p => expr_pos (snd p)) derived.

Definition apply_factor (ts : bool) (P : R) (v : list R) : list R :=
  map (fun x => if ts then x * P else x / P) v.

Lemma Q2R_pos : forall q, (0 < Qnum q)%Z -> 0 < Q2R q.
Proof.
  intros [n d] H. apply Rlt_mult_inv_pos; apply IZR_lt; [exact H|reflexivity].
Qed.

Lemma assoc_pos : forall env k x, env_pos env -> assoc k env = Some x -> 0 < x.
Proof. intros env k x Hp H. apply assoc_In in H. exact (proj1 (Forall_forall _ _) Hp _ H). Qed.

Lemma table_pos_assoc derived name e :
  table_pos derived = true -> assoc name derived = Some e -> expr_pos e = true.
Proof. intros Hp H. apply assoc_In in H. exact (proj1 (forallb_forall _ _) Hp _ H). Qed.

Section Real.
  Variable pi_ : R.
  Variable derived : list (string * uexpr).
  Variable other : list string.
  Variable env : list (string * R).
  Notation ops := (ROps pi_).

  (* the product of the factors of the "*"-split, first failure wins *)
  Fixpoint factor (subs : list string) : res R :=
    match subs with
    | [] => Ok 1
    | s :: r => bind (sub_factor ops derived other env s)
                     (fun f => bind (factor r) (fun P => Ok (f * P)))
    end.

  Definition unit_factor (units : string) : res R :=
    let u := strip_spaces units in
    if is_marker u then Ok 1 else factor (split_on "*" u).

  Lemma apply_factor_1 ts v : apply_factor ts 1 v = v.
  Proof.
    unfold apply_factor. rewrite <- (map_id v) at 2. apply map_ext.
    intros x. destruct ts; unfold Rdiv; rewrite ?Rinv_1; ring.
  Qed.

  (* the loop: every value is multiplied / divided by the product of the factors;
     exceptions depend neither on the value nor on the direction *)
  Lemma loop_closed : forall subs ts v,
    convert_loop ops derived other env subs ts v =
    bind (factor subs) (fun P => Ok (apply_factor ts P v)).
  Proof.
    induction subs as [|s r IH]; intros ts v; cbn [convert_loop factor bind].
    - now rewrite apply_factor_1.
    - destruct (sub_factor ops derived other env s) as [f| |]; cbn [bind]; try reflexivity.
      rewrite IH. destruct (factor r) as [P| |]; cbn [bind]; try reflexivity.
      f_equal. unfold apply_factor. rewrite map_map. apply map_ext. intros x.
      unfold scale. destruct ts; cbn [tmul tdiv ROps]; unfold Rdiv; rewrite ?Rinv_mult; ring.
  Qed.

  Lemma convert_closed : forall v units ts,
    convert ops derived other env v units ts =
    bind (unit_factor units) (fun P => Ok (apply_factor ts P v)).
  Proof.
    intros v units ts. unfold convert, unit_factor.
    destruct (is_marker (strip_spaces units)); [|apply loop_closed]. cbn. now rewrite apply_factor_1.
  Qed.

  Hypothesis pi_pos : 0 < pi_.
  Hypothesis derived_pos : table_pos derived = true.
  Hypothesis Henv : env_pos env.

  Lemma eval_pos : forall e x, expr_pos e = true -> eval ops env e = Ok x -> 0 < x.
  Proof.
    induction e as [b|q| |a IHa b IHb|a IHa b IHb|a IHa n]; intros x Hp H; cbn in Hp, H.
    - destruct (assoc b env) eqn:E; [|discriminate]. injection H as <-. eapply assoc_pos; eauto.
    - injection H as <-. apply Q2R_pos. now apply Z.ltb_lt.
    - now injection H as <-.
    - apply andb_true_iff in Hp as [Ha Hb].
      apply bind_Ok in H as (xa & Ea & H). apply bind_Ok in H as (xb & Eb & [= <-]).
      apply Rmult_lt_0_compat; auto.
    - apply andb_true_iff in Hp as [Ha Hb].
      apply bind_Ok in H as (xa & Ea & H). apply bind_Ok in H as (xb & Eb & [= <-]).
      apply Rdiv_lt_0_compat; auto.
    - apply bind_Ok in H as (xa & Ea & [= <-]). apply powerRZ_lt; auto.
  Qed.

  Lemma getattr_pos : forall name x, getattr ops derived other env name = Ok x -> 0 < x.
  Proof.
    intros name x. rewrite getattr_eq.
    destruct (assoc name env) eqn:E; [intros [= <-]; eapply assoc_pos; eauto|].
    destruct (assoc name derived) as [e|] eqn:Ed; [apply eval_pos; eapply table_pos_assoc; eauto|].
    destruct (unknown_attr_cases other name) as [U|U]; rewrite U; discriminate.
  Qed.

  Lemma sub_factor_pos : forall sub f, sub_factor ops derived other env sub = Ok f -> 0 < f.
  Proof.
    intros sub f H. unfold sub_factor in H.
    destruct (tokenize sub) as [s|s p|]; [eapply getattr_pos; eauto| |discriminate].
    apply bind_Ok in H as (x & _ & H). destruct (parse_float p); try discriminate.
    injection H as <-. apply exp_pos.
  Qed.

  Lemma factor_pos : forall subs P, factor subs = Ok P -> 0 < P.
  Proof.
    induction subs as [|s r IH]; intros P H; cbn in H; [injection H as <-; lra|].
    apply bind_Ok in H as (f & Ef & H). apply bind_Ok in H as (P' & EP & [= <-]).
    apply Rmult_lt_0_compat; [eapply sub_factor_pos|]; eauto.
  Qed.

  Lemma unit_factor_pos : forall units P, unit_factor units = Ok P -> 0 < P.
  Proof.
    intros units P. unfold unit_factor.
    destruct (is_marker (strip_spaces units)); [intros [= <-]; lra|apply factor_pos].
  Qed.

  Lemma apply_inverse : forall ts P v, 0 < P ->
    apply_factor (negb ts) P (apply_factor ts P v) = v.
  Proof.
    intros ts P v HP. unfold apply_factor. rewrite map_map.
    rewrite <- (map_id v) at 2. apply map_ext. intros x. destruct ts; cbn; field; lra.
  Qed.

  (* round trip, both directions, any value list, any unit string (any power the model
     parses, integer or decimal); the outcome class does not depend on value/direction *)
  Lemma roundtrip_lemma : forall v units ts,
    (forall w, convert ops derived other env v units ts = Ok w ->
               convert ops derived other env w units (negb ts) = Ok v) /\
    (forall e v', convert ops derived other env v units ts = Err e ->
                  convert ops derived other env v' units (negb ts) = Err e) /\
    (forall w, convert ops derived other env v units ts = Ok w -> length w = length v).
  Proof.
    intros v units ts. setoid_rewrite convert_closed.
    destruct (unit_factor units) as [P| |] eqn:E; cbn; repeat split; try discriminate; auto.
    - intros w [= <-]. f_equal. apply apply_inverse. eapply unit_factor_pos; eauto.
    - intros w [= <-]. apply map_length.
  Qed.

  (* Constants.__post_init__ undone: the attributes convert back to the SI values *)
  Lemma constants_back : forall si cs cs',
    convert_constants ops derived other env si cs false = Ok cs' ->
    convert_constants ops derived other env si cs' true = Ok cs.
  Proof.
    intros si cs. induction cs as [|[k v] r IH]; intros cs' H; cbn in H; [now injection H as <-|].
    destruct (assoc k si) as [u|] eqn:Eu; [|discriminate].
    apply bind_Ok in H as (w & Ec & H). apply bind_Ok in H as (r' & Er & [= <-]).
    destruct (roundtrip_lemma [v] u false) as (Hrt & _ & Hlen).
    specialize (Hlen _ Ec). destruct w as [|w0 [|]]; try discriminate.
    specialize (Hrt _ Ec). cbn in Hrt |- *. now rewrite Eu, Hrt, (IH _ Er).
  Qed.
End Real.

(* From a sound normal form of the sub-units to the conversion with a unit string; used for
   the integer-power forms below and for the rational-power forms of C43_qdims. *)
Section NormalForm.
  Variable pi_ : R.
  Variable derived : list (string * uexpr).
  Variable other : list string.
  Variable env : list (string * R).
  Notation ops := (ROps pi_).
  (* forms, their value and the invariant under which the value is meaningful *)
  Variables (M : Type) (val : M -> R) (ok : M -> Prop).
  Variables (of_sub : string -> option M) (mul : M -> M -> M) (one : M) (eqb : M -> M -> bool).
  Record sound_forms : Prop := {
    ok_pos : forall m, ok m -> 0 < val m;
    sub_sound : forall s m, of_sub s = Some m ->
      sub_factor ops derived other env s = Ok (val m) /\ ok m;
    mul_sound : forall a b, ok a -> ok b -> val (mul a b) = val a * val b /\ ok (mul a b);
    one_sound : val one = 1 /\ ok one;
    eqb_sound : forall a b, eqb a b = true -> val a = val b }.
  Hypothesis sound : sound_forms.

  Fixpoint nf_subs (subs : list string) : option M :=
    match subs with
    | [] => Some one
    | s :: r => match of_sub s, nf_subs r with
                | Some a, Some b => Some (mul a b)
                | _, _ => None
                end
    end.

  Definition nf_units (units : string) : option M :=
    let u := strip_spaces units in
    if is_marker u then Some one else nf_subs (split_on "*" u).

  Lemma nf_subs_sound : forall subs m, nf_subs subs = Some m ->
    factor pi_ derived other env subs = Ok (val m) /\ ok m.
  Proof.
    induction subs as [|s r IH]; intros m H; cbn in H.
    - injection H as <-. destruct (one_sound sound) as [E W]. cbn. now rewrite E.
    - destruct (of_sub s) as [a|] eqn:Ea; [|discriminate].
      destruct (nf_subs r) as [b|]; [|discriminate]. injection H as <-.
      destruct (sub_sound sound _ _ Ea) as [Es Wa], (IH _ eq_refl) as [Er Wb].
      cbn. rewrite Es, Er. cbn. now destruct (mul_sound sound a b Wa Wb) as [-> W].
  Qed.

  Lemma nf_units_sound : forall units m, nf_units units = Some m ->
    0 < val m /\
    forall v ts, convert ops derived other env v units ts = Ok (apply_factor ts (val m) v).
  Proof.
    intros units m H.
    assert (unit_factor pi_ derived other env units = Ok (val m) /\ ok m) as [E W].
    { unfold nf_units in H. unfold unit_factor.
      destruct (is_marker (strip_spaces units)); [|now apply nf_subs_sound].
      injection H as <-. destruct (one_sound sound) as [E W]. now rewrite E. }
    split; [now apply (ok_pos sound)|]. intros v ts. now rewrite convert_closed, E.
  Qed.

  Lemma nf_dimension : forall u1 m1, nf_units u1 = Some m1 ->
    0 < val m1 /\
    (forall v ts, convert ops derived other env v u1 ts = Ok (apply_factor ts (val m1) v)) /\
    (forall u2 m2, nf_units u2 = Some m2 -> eqb m1 m2 = true ->
       forall v ts, convert ops derived other env v u1 ts = convert ops derived other env v u2 ts).
  Proof.
    intros u1 m1 H1. destruct (nf_units_sound _ _ H1) as [P1 C1]. repeat split; auto.
    intros u2 m2 H2 He v ts. destruct (nf_units_sound _ _ H2) as [_ C2].
    now rewrite C1, C2, (eqb_sound sound _ _ He).
  Qed.

  Definition same_nf (ab : string * string) : bool :=
    match nf_units (fst ab), nf_units (snd ab) with
    | Some x, Some y => eqb x y
    | _, _ => false
    end.

  Lemma nf_spellings : forall l, forallb same_nf l = true ->
    Forall (fun ab => forall v ts,
              convert ops derived other env v (fst ab) ts =
              convert ops derived other env v (snd ab) ts) l.
  Proof.
    intros l H. rewrite forallb_forall in H. apply Forall_forall. intros ab Hin.
    specialize (H _ Hin). unfold same_nf in H.
    destruct (nf_units (fst ab)) as [x|] eqn:Ea; [|discriminate].
    destruct (nf_units (snd ab)) as [y|] eqn:Eb; [|discriminate].
    destruct (nf_dimension _ _ Ea) as (_ & _ & Hd). now apply (Hd _ y).
  Qed.
End NormalForm.

Fixpoint dims_val (xs : list R) (d : list Z) : R :=
  match xs, d with
  | x :: xs', k :: d' => powerRZ x k * dims_val xs' d'
  | _, _ => 1
  end.

Definition eval_mono (pi_ : R) (xs : list R) (m : mono) : R :=
  Q2R (coef m) * powerRZ pi_ (pi_exp m) * dims_val xs (dims m).

Lemma powerRZ_powerRZ : forall x m n, 0 < x -> powerRZ (powerRZ x m) n = powerRZ x (m * n).
Proof.
  intros x m n Hx.
  rewrite (powerRZ_Rpower (powerRZ x m)), (powerRZ_Rpower x m) by auto using powerRZ_lt.
  rewrite Rpower_mult, <- mult_IZR. symmetry. now apply powerRZ_Rpower.
Qed.

(* an integer-valued power string: float(p) with Qred q = n # 1 *)
Lemma Rpower_integer : forall x q, 0 < x -> Qden (Qred q) = 1%positive ->
  Rpower x (Q2R q) = powerRZ x (Qnum (Qred q)).
Proof.
  intros x q Hx Hd. rewrite powerRZ_Rpower by assumption. f_equal.
  rewrite <- (Qeq_eqR _ _ (Qred_correct q)). unfold Q2R. rewrite Hd. field.
Qed.

Lemma Q2R_Qred : forall q, Q2R (Qred q) = Q2R q.
Proof. intros q. apply Qeq_eqR, Qred_correct. Qed.

Lemma Q2R_pos_nonzero : forall q, 0 < Q2R q -> ~ (q == 0)%Q.
Proof. intros q H E. apply Qeq_eqR in E. rewrite E, RMicromega.Q2R_0 in H. lra. Qed.

Definition all_pos (xs : list R) : Prop := Forall (fun x => 0 < x) xs.

Lemma dims_val_pos : forall xs, all_pos xs -> forall d, 0 < dims_val xs d.
Proof.
  induction 1 as [|x l Hx Hl IH]; intros [|k d]; cbn; try lra.
  apply Rmult_lt_0_compat; [now apply powerRZ_lt|apply IH].
Qed.

Lemma dims_val_vadd : forall xs, all_pos xs ->
  forall a b, dims_val xs (vadd a b) = dims_val xs a * dims_val xs b.
Proof.
  induction 1 as [|x l Hx Hl IH]; intros [|p a] [|q b]; cbn; try lra.
  rewrite IH, powerRZ_add by lra. ring.
Qed.

Lemma dims_val_scale : forall xs, all_pos xs -> forall d n,
  dims_val xs (map (fun m => (m * n)%Z) d) = powerRZ (dims_val xs d) n.
Proof.
  induction 1 as [|x l Hx Hl IH]; intros [|k d] n; cbn; rewrite ?powerRZ_R1; try reflexivity.
  now rewrite IH, powerRZ_mult, powerRZ_powerRZ.
Qed.

Lemma dims_val_zero : forall xs (A : Type) (l : list A),
  dims_val xs (map (fun _ => 0%Z) l) = 1.
Proof. induction xs as [|x xs IH]; intros A [|a l]; cbn; rewrite ?IH; try reflexivity. lra. Qed.

Lemma dims_val_vunit_absent : forall env b,
  mem b (map fst env) = false -> dims_val (map snd env) (vunit (map fst env) b) = 1.
Proof.
  unfold vunit. induction env as [|[k v] env IH]; intros b H; cbn in *; [reflexivity|].
  apply orb_false_iff in H as [-> Hr]. cbn. rewrite (IH _ Hr). lra.
Qed.

Lemma dims_val_vunit : forall (env : list (string * R)) b x,
  nodupb (map fst env) = true -> assoc b env = Some x ->
  dims_val (map snd env) (vunit (map fst env) b) = x.
Proof.
  induction env as [|[k v] env IH]; intros b x Hnd H; [discriminate|].
  cbn in Hnd, H. apply andb_true_iff in Hnd as [Hk Hr]. unfold vunit in *. cbn [map fst snd dims_val].
  destruct (String.eqb_spec b k) as [->|].
  - injection H as <-. fold (vunit (map fst env) k).
    rewrite dims_val_vunit_absent, powerRZ_1 by now apply negb_true_iff. lra.
  - rewrite (IH _ _ Hr H). cbn. lra.
Qed.

Section Mono.
  Variable pi_ : R.
  Hypothesis pi_pos : 0 < pi_.
  Variable derived : list (string * uexpr).
  Variable other : list string.
  Variable env : list (string * R).
  Hypothesis Henv : env_pos env.
  Hypothesis Hnd : nodupb (map fst env) = true.
  Notation ops := (ROps pi_).
  Notation bases := (map fst env).
  Notation xs := (map snd env).
  Notation ev := (eval_mono pi_ xs).

  Definition wf (m : mono) : Prop := 0 < Q2R (coef m).

  Lemma xs_pos : all_pos xs.
  Proof. apply Forall_map. exact Henv. Qed.

  Lemma ev_pos : forall m, wf m -> 0 < ev m.
  Proof.
    intros m H. unfold eval_mono. apply Rmult_lt_0_compat; [apply Rmult_lt_0_compat|];
      [exact H|now apply powerRZ_lt|apply dims_val_pos, xs_pos].
  Qed.

  Lemma ev_mul : forall a b, wf a -> wf b ->
    ev (mono_mul a b) = ev a * ev b /\ wf (mono_mul a b).
  Proof.
    intros a b Ha Hb. unfold eval_mono, wf, mono_mul; cbn [coef pi_exp dims].
    rewrite Q2R_Qred, Q2R_mult, powerRZ_add, dims_val_vadd by (apply xs_pos || lra).
    split; [ring|now apply Rmult_lt_0_compat].
  Qed.

  Lemma ev_pow : forall a n, wf a -> ev (mono_pow a n) = powerRZ (ev a) n /\ wf (mono_pow a n).
  Proof.
    intros a n Ha. unfold eval_mono, wf, mono_pow; cbn [coef pi_exp dims].
    rewrite Q2R_Qred, RMicromega.Q2RpowerRZ by (left; now apply Q2R_pos_nonzero).
    split; [|now apply powerRZ_lt].
    now rewrite dims_val_scale, !powerRZ_mult, powerRZ_powerRZ by (apply xs_pos || assumption).
  Qed.

  Lemma ev_unit : forall d, ev {| coef := 1; pi_exp := 0; dims := d |} = dims_val xs d /\
                            wf {| coef := 1; pi_exp := 0; dims := d |}.
  Proof. intros d. unfold eval_mono, wf. cbn. rewrite RMicromega.Q2R_1. split; lra. Qed.

  Lemma ev_one : ev (mono_one bases) = 1 /\ wf (mono_one bases).
  Proof.
    unfold mono_one. destruct (ev_unit (vzero bases)) as [-> W]. split; [apply dims_val_zero|exact W].
  Qed.

  Lemma ev_base : forall b x, assoc b env = Some x ->
    ev (mono_base bases b) = x /\ wf (mono_base bases b).
  Proof.
    intros b x H. unfold mono_base. destruct (ev_unit (vunit bases b)) as [-> W].
    split; [now apply dims_val_vunit|exact W].
  Qed.

  Lemma mono_of_sound : forall e m, mono_of bases e = Some m ->
    eval ops env e = Ok (ev m) /\ wf m.
  Proof.
    induction e as [b|q| |a IHa b IHb|a IHa b IHb|a IHa n]; intros m H; cbn in H.
    - destruct (mem b bases) eqn:Eb; [|discriminate]. injection H as <-.
      destruct (mem_assoc env b Eb) as [x Hx]. cbn. rewrite Hx.
      now destruct (ev_base b x Hx) as [-> W].
    - destruct (0 <? Qnum q)%Z eqn:Eq; [|discriminate]. injection H as <-.
      apply Z.ltb_lt, Q2R_pos in Eq. unfold eval_mono, wf, vzero; cbn [coef pi_exp dims].
      rewrite dims_val_zero, Q2R_Qred. cbn. split; [f_equal; ring|exact Eq].
    - injection H as <-. unfold eval_mono, wf, vzero; cbn [coef pi_exp dims].
      rewrite dims_val_zero, RMicromega.Q2R_1, powerRZ_1. cbn. split; [f_equal; ring|lra].
    - destruct (mono_of bases a) as [x|]; [|discriminate].
      destruct (mono_of bases b) as [y|]; [|discriminate]. injection H as <-.
      destruct (IHa _ eq_refl) as [Ea Wa], (IHb _ eq_refl) as [Eb Wb].
      cbn. rewrite Ea, Eb. cbn. now destruct (ev_mul x y Wa Wb) as [-> W].
    - destruct (mono_of bases a) as [x|]; [|discriminate].
      destruct (mono_of bases b) as [y|]; [|discriminate]. injection H as <-.
      destruct (IHa _ eq_refl) as [Ea Wa], (IHb _ eq_refl) as [Eb Wb].
      cbn. rewrite Ea, Eb. cbn.
      destruct (ev_pow y (-1) Wb) as [Ep Wp], (ev_mul x _ Wa Wp) as [-> W].
      split; [|exact W]. rewrite Ep. generalize (ev x) (ev y). intros u w.
      unfold Rdiv, powerRZ. simpl. now rewrite Rmult_1_r.
    - destruct (mono_of bases a) as [x|]; [|discriminate]. injection H as <-.
      destruct (IHa _ eq_refl) as [Ea Wa]. cbn. rewrite Ea. cbn.
      now destruct (ev_pow x n Wa) as [-> W].
  Qed.

  Lemma mono_of_name_sound : forall name m, mono_of_name bases derived name = Some m ->
    getattr ops derived other env name = Ok (ev m) /\ wf m.
  Proof.
    intros name m H. unfold mono_of_name in H. rewrite getattr_eq.
    destruct (mem name bases) eqn:Eb.
    - injection H as <-. destruct (mem_assoc env name Eb) as [x Hx]. rewrite Hx.
      now destruct (ev_base name x Hx) as [-> W].
    - rewrite (not_mem_assoc env name Eb).
      destruct (assoc name derived) as [e|]; [now apply mono_of_sound|discriminate].
  Qed.

  Lemma mono_of_sub_sound : forall sub m, mono_of_sub bases derived sub = Some m ->
    sub_factor ops derived other env sub = Ok (ev m) /\ wf m.
  Proof.
    intros sub m H. unfold mono_of_sub in H. unfold sub_factor.
    destruct (tokenize sub) as [s|s p|]; [now apply mono_of_name_sound| |discriminate].
    destruct (mono_of_name bases derived s) as [m0|] eqn:E0; [|discriminate].
    destruct (mono_of_name_sound _ _ E0) as [-> W0]. cbn.
    destruct (parse_float p) as [q| |]; try discriminate.
    destruct (Pos.eqb_spec (Qden (Qred q)) 1) as [Ed|]; [|discriminate]. injection H as <-.
    destruct (ev_pow m0 (Qnum (Qred q)) W0) as [-> W]. split; [|exact W].
    cbn. now rewrite Rpower_integer by auto using ev_pos.
  Qed.

  Lemma mono_eqb_sound : forall a b, mono_eqb a b = true -> ev a = ev b.
  Proof.
    intros a b H. unfold mono_eqb in H.
    apply andb_true_iff in H as [H Hd]. apply andb_true_iff in H as [Hc Hp].
    apply Qeq_bool_iff, Qeq_eqR in Hc. apply Z.eqb_eq in Hp.
    assert (dims a = dims b) as Ed.
    { revert Hd. generalize (dims a) (dims b).
      induction l as [|x l IH]; intros [|y l'] H; cbn in H; try discriminate; auto.
      apply andb_true_iff in H as [Hx Hl]. apply Z.eqb_eq in Hx. f_equal; auto. }
    unfold eval_mono. now rewrite Hc, Hp, Ed.
  Qed.

  Lemma mono_forms : sound_forms pi_ derived other env mono ev wf
                       (mono_of_sub bases derived) mono_mul (mono_one bases) mono_eqb.
  Proof. constructor; auto using ev_pos, ev_mul, ev_one, mono_eqb_sound, mono_of_sub_sound. Qed.
End Mono.

Lemma mono_of_units_nf bases derived units :
  mono_of_units bases derived units =
  nf_units mono (mono_of_sub bases derived) mono_mul (mono_one bases) units.
Proof.
  unfold mono_of_units, nf_units. destruct (is_marker _); [reflexivity|].
  induction (split_on "*" _) as [|s r IH]; cbn; [|rewrite IH]; reflexivity.
Qed.

(* What follows is about the GENERATED tables (Gen/C43_tables.v, regenerated from units.py /
   materials.py on every run). *)
From PP Require Import Gen.C43_tables.

(* a Units object as the theorems see it: one positive real per base unit *)
Definition valid_env (env : list (string * R)) : Prop :=
  map fst env = base_names /\ env_pos env.

Lemma gen_table_pos : table_pos derived_table = true.
Proof. vm_compute. reflexivity. Qed.

Lemma gen_bases_nodup : nodupb base_names = true.
Proof. vm_compute. reflexivity. Qed.

Definition g (env : list (string * R)) (b : string) : R :=
  match assoc b env with Some x => x | None => 0 end.

(* the unit strings that spell a derived unit over base units (and over each other)
   convert exactly as the derived unit does *)
Definition derived_spellings : list (string * string) :=
  [("Pa", "kg*m^-1*s^-2"); ("J", "kg*m^2*s^-2"); ("N", "kg*m*s^-2"); ("W", "kg*m^2*s^-3");
   ("Pa", "N * m^-2"); ("J", "N*m"); ("W", "J*s^-1"); ("Pa^-1", "m*s^2*kg^-1");
   ("J * kg^-1 * K^-1", "m^2*s^-2*K^-1"); ("W * m^-1 * K^-1", "kg*m*s^-3*K^-1")].

Definition fields_declared (tab : list (string * string)) (cs : list (string * R)) : Prop :=
  Forall (fun kv => assoc (fst kv) tab <> None) cs.

Lemma env_as_table : forall env : list (string * R), nodupb (map fst env) = true ->
  env = map (fun b => (b, g env b)) (map fst env).
Proof.
  induction env as [|[k v] env IH]; intros Hnd; [reflexivity|].
  cbn in Hnd. apply andb_true_iff in Hnd as [Hk Hr]. apply negb_true_iff in Hk.
  unfold g. cbn. rewrite String.eqb_refl. f_equal.
  rewrite (IH Hr) at 1. apply map_ext_in. intros b Hb. f_equal.
  destruct (String.eqb_spec b k) as [->|]; [|reflexivity].
  unfold mem in Hk. rewrite (proj2 (existsb_exists _ _)) in Hk; [discriminate|].
  exists k. split; [exact Hb|apply String.eqb_refl].
Qed.

Lemma g_assoc (env : list (string * R)) b : mem b (map fst env) = true -> assoc b env = Some (g env b).
Proof. intros H. unfold g. now destruct (mem_assoc env b H) as [x ->]. Qed.

Lemma g_pos env : env_pos env -> Forall (fun b => 0 < g env b) (map fst env).
Proof.
  intros Hp. apply Forall_forall. intros b Hin. apply (assoc_pos env b _ Hp), g_assoc, existsb_exists.
  exists b. split; [exact Hin|apply String.eqb_refl].
Qed.

Section Generated.
  Variables (pi_ : R) (env : list (string * R)).
  Hypothesis pi_pos : 0 < pi_.
  Hypothesis Hv : valid_env env.

  Lemma valid_env_nodup : nodupb (map fst env) = true.
  Proof. rewrite (proj1 Hv). apply gen_bases_nodup. Qed.

  Lemma constants_total : forall tab cs ts,
    si_table_ok base_names derived_table tab = true -> fields_declared tab cs ->
    exists cs', convert_constants (ROps pi_) derived_table other_attrs env tab cs ts = Ok cs'.
  Proof.
    intros tab cs ts Hok. induction cs as [|[k v] r IH]; intros Hd; [now exists []|].
    inversion Hd as [|? ? Hk Hr]; subst. cbn in Hk |- *.
    destruct (assoc k tab) as [u|] eqn:Eu; [|congruence].
    unfold si_table_ok in Hok. rewrite forallb_forall in Hok.
    specialize (Hok _ (assoc_In _ _ _ Eu)). cbv beta iota in Hok.
    destruct (mono_of_units base_names derived_table u) as [m|] eqn:Em; [|discriminate].
    rewrite mono_of_units_nf, <- (proj1 Hv) in Em.
    pose proof (mono_forms pi_ pi_pos derived_table other_attrs env (proj2 Hv) valid_env_nodup) as S.
    destruct (nf_units_sound _ _ _ _ _ _ _ _ _ _ _ S u m Em) as [_ ->]. cbn.
    destruct (IH Hr) as [r' ->]. cbn. eauto.
  Qed.

  Lemma make_constants_total : forall tab cs,
    si_table_ok base_names derived_table tab = true -> fields_declared tab cs ->
    exists a, make_constants (ROps pi_) derived_table other_attrs env tab cs
              = Ok {| in_SI := cs; attrs := a |} /\
              convert_constants (ROps pi_) derived_table other_attrs env tab a true = Ok cs.
  Proof.
    intros tab cs Hok Hd. destruct (constants_total tab cs false Hok Hd) as [a Ea].
    exists a. unfold make_constants. rewrite Ea. split; [reflexivity|].
    eapply constants_back; eauto using gen_table_pos. apply Hv.
  Qed.
End Generated.
