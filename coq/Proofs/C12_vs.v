(* C12 — vector-source matrix of Tpfa.discretize: hydrostatic consistency.
   For a constant vector source g and the pressure p = g.x + b (first vsd components), the
   pressure flux and the vector-source flux cancel on every face, on ANY grid. *)
From Coq Require Import List ZArith Bool Arith Lia Reals Lra.
Import ListNotations.
From PP Require Import Model.C12 Proofs.C12.

Local Open Scope R_scope.

Notation rvector_source := (vector_source R 0 1 Rplus Rminus Rmult Rdiv IZR).

Definition gdot (n : nat) (g : nat -> R) (v : vec R) : R :=
  lsum (fun k => g k * vnth R v k) (seq 0 n).

Lemma vnth_vsub x y k : vnth R (rvsub x y) k = vnth R x k - vnth R y k.
Proof.
  destruct x as [[x1 x2] x3], y as [[y1 y2] y3]. unfold vnth, vsub, vx, vy, vz. cbn [fst snd].
  destruct k as [|[|k]]; reflexivity.
Qed.

Lemma gdot_vsub n g x y : gdot n g (rvsub x y) = gdot n g x - gdot n g y.
Proof.
  unfold gdot. induction (seq 0 n) as [|k l IH]; [rewrite !lsum_nil; lra|].
  rewrite !lsum_cons, IH, vnth_vsub. lra.
Qed.

Section VS.
  Variable I : input R.
  Variable n : nat.                 (* vector_source_dim *)
  Variable g : nat -> R.            (* constant vector source, component k *)
  Variable gv : nat -> R.           (* the cell-wise vector, index c * n + k *)
  Hypothesis gv_const : forall c k, (k < n)%nat -> gv (c * n + k)%nat = g k.

  Lemma row_apply_vs f :
    row_apply (rvector_source I n) gv f =
    lsum (fun e => rt_flux I f * IZR (ts e) * gdot n g (rdvec I e)) (on_face I f).
  Proof.
    unfold row_apply, vector_source, on_face. rewrite lsum_flat_map, <- lsum_filter.
    apply lsum_ext. intros e _. rewrite lsum_map. unfold mrow, mcol, mval. cbn [fst snd].
    destruct (Nat.eqb_spec (tf e) f) as [->|_].
    - unfold gdot. rewrite <- lsum_scal. apply lsum_ext. intros k Hk. apply in_seq in Hk.
      rewrite gv_const by lia. ring.
    - apply lsum_zero. reflexivity.
  Qed.

  Definition hydro (b : R) (x : vec R) : R := gdot n g x + b.

  Lemma hydro_diff b x y : gdot n g (rvsub x y) = hydro b x - hydro b y.
  Proof. unfold hydro. rewrite gdot_vsub. ring. Qed.

  Theorem hydrostatic_interior b f c1 c2 s bv :
    interior I f c1 c2 s ->
    face_flux I (fun c => hydro b (ccen I c)) bv f + row_apply (rvector_source I n) gv f = 0.
  Proof.
    intros Hi. rewrite (face_flux_interior I f c1 c2 s _ bv Hi), row_apply_vs.
    destruct Hi as (H & _ & Hn). unfold t_flux, dvec. rewrite H, Hn, !lsum_cons, !lsum_nil, !(hydro_diff b).
    cbn [tc ts tg geo fst snd]. rewrite opp_IZR. ring.
  Qed.

  Theorem hydrostatic_dirichlet b f c s bv :
    boundary I f c s -> neu' R I f = false -> dir' R I f = true ->
    bv f = hydro b (fcen I f) ->
    face_flux I (fun c => hydro b (ccen I c)) bv f + row_apply (rvector_source I n) gv f = 0.
  Proof.
    intros Hbd Hn Hd Hv. rewrite (face_flux_boundary I f c s _ bv Hbd), row_apply_vs, Hv.
    destruct Hbd as ((H & _) & _). unfold t_flux, t_b, dvec.
    rewrite H, Hn, Hd, lsum_cons, lsum_nil, (hydro_diff b). cbn [tc ts tg geo fst snd]. ring.
  Qed.

  Theorem hydrostatic_neumann b f c s bv :
    boundary I f c s -> neu' R I f = true -> bv f = 0 ->
    face_flux I (fun c => hydro b (ccen I c)) bv f + row_apply (rvector_source I n) gv f = 0.
  Proof.
    intros Hbd Hn Hv. rewrite (face_flux_boundary I f c s _ bv Hbd), row_apply_vs, Hv.
    destruct Hbd as ((H & _) & _). unfold t_flux. rewrite H, Hn, lsum_cons, lsum_nil. ring.
  Qed.
End VS.
