(* C15 — proofs (over exact rationals).  The face-sum form of the divergence is a sum over the
   parameters of a linear field (face_div_moments, gmom_exact, gmom_bound, face_sum_bound); rows
   on linear fields through Lib.RowLin (linear_fields, trace_target_2d/_3d); soundness of the
   checker, and of its form with reduced sums for float data (check_red_sound). *)
From Coq Require Import List ZArith QArith Qabs Bool Arith Lia Lqa.
Import ListNotations.
From PP Require Import Lib.ListFacts Lib.RowLin Model.C15.
Local Open Scope Q_scope.

(* evaluates the closed index arithmetic (m <? nd * nd, m / nd, m mod nd, m - nd * nd) that
   the model's parameter numbering leaves behind once nd and m are numerals *)
Ltac index_eval :=
  cbn [Nat.ltb Nat.leb Nat.eqb Nat.mul Nat.add Nat.sub Nat.div Nat.modulo Nat.divmod fst snd].

Definition theta3 (A : m3) (b : v3) : list Q :=
  [cmp 0 (mrow 0 A); cmp 1 (mrow 0 A); cmp 2 (mrow 0 A);
   cmp 0 (mrow 1 A); cmp 1 (mrow 1 A); cmp 2 (mrow 1 A);
   cmp 0 (mrow 2 A); cmp 1 (mrow 2 A); cmp 2 (mrow 2 A); cmp 0 b; cmp 1 b; cmp 2 b].

(* The moment that parameter m of theta = [A row-major; b] multiplies in the face sum, its
   value under the divergence-theorem identities, and the tolerance geo_ok grants it
   (d = dimension; same numbering as div_target and basis). *)
Definition gmom (d : nat) (fs : list face) (m : nat) : Q :=
  if m <? d * d then Mom fs (m / d) (m mod d) else Nrm fs (m - d * d).
Definition gtgt (d : nat) (V : Q) (m : nat) : Q :=
  if m <? d * d then (if m / d =? m mod d then V else 0) else 0.
Definition geps (d : nat) (tol : Q) (I : inst) (c m : nat) : Q :=
  if m <? d * d then eps_mom tol I c (m / d) (m mod d) else eps_nrm tol I c (m - d * d).

Lemma face_div_moments : forall fs A b,
  face_div fs A b == tsum 0 (theta3 A b) (gmom 3 fs).
Proof.
  intros fs A b. unfold face_div, gmom, Mom, Nrm, theta3, tsum. index_eval.
  induction fs as [|f fs IH]; cbn [fsum]; [ring|].
  rewrite IH.
  destruct f as [[s [[n0 n1] n2]] [[y0 y1] y2]].
  destruct A as [[[[a00 a01] a02] [[a10 a11] a12]] [[a20 a21] a22]].
  destruct b as [[b0 b1] b2].
  unfold vdot, vadd, mulmv, cmp, mrow, f_s, f_n, f_x, x0, x1, x2. cbn [fst snd]. ring.
Qed.

(* 2-D: the field and the geometry have no third component *)
Lemma face_div_moments_2d : forall fs a00 a01 a10 a11 b0 b1,
  face_div fs ((a00, a01, 0), (a10, a11, 0), (0, 0, 0)) (b0, b1, 0)
  == tsum 0 [a00; a01; a10; a11; b0; b1] (gmom 2 fs).
Proof.
  intros. rewrite face_div_moments. unfold theta3, tsum, gmom, cmp, mrow, x0, x1, x2.
  index_eval. ring.
Qed.

Lemma trace_gtgt : forall A b V, trace A * V == tsum 0 (theta3 A b) (gtgt 3 V).
Proof.
  intros [[[[a00 a01] a02] [[a10 a11] a12]] [[a20 a21] a22]] b V.
  unfold theta3, tsum, gtgt, trace, cmp, mrow, x0, x1, x2. index_eval. ring.
Qed.

Lemma trace_gtgt_2d : forall a00 a01 a10 a11 b0 b1 V,
  (a00 + a11) * V == tsum 0 [a00; a01; a10; a11; b0; b1] (gtgt 2 V).
Proof. intros. unfold tsum, gtgt. index_eval. ring. Qed.

Lemma index_split : forall d m, (m < d * d)%nat -> (m / d < d)%nat /\ (m mod d < d)%nat.
Proof.
  intros d m H. assert (d <> 0)%nat by lia.
  split; [apply Nat.div_lt_upper_bound|apply Nat.mod_upper_bound]; assumption.
Qed.

Lemma gmom_exact : forall d fs V m,
  (forall i, (i < d)%nat -> Nrm fs i == 0) ->
  (forall i j, (i < d)%nat -> (j < d)%nat -> Mom fs i j == if Nat.eqb i j then V else 0) ->
  (m < d * d + d)%nat -> gmom d fs m == gtgt d V m.
Proof.
  intros d fs V m HN HM Hm. unfold gmom, gtgt.
  destruct (Nat.ltb_spec m (d * d)) as [Hlt|Hge].
  - apply HM; apply (index_split d m Hlt).
  - apply HN. lia.
Qed.

Lemma cmp_v3_of : forall i l, (i < 3)%nat -> cmp i (v3_of l) = nth i l 0.
Proof. intros i l Hi. destruct i as [|[|[|i]]]; try reflexivity. lia. Qed.

Lemma Nrm_cell : forall I c i, (i < 3)%nat ->
  Nrm (cell_faces_of I c) i == isum (nth c (i_inc I) []) (fun f => coord (i_normals I) f i).
Proof.
  intros I c i Hi. unfold Nrm, cell_faces_of.
  induction (nth c (i_inc I) []) as [|fs ic IH]; cbn [map fsum isum]; [reflexivity|].
  rewrite IH. unfold f_s, f_n. cbn [fst snd]. rewrite (cmp_v3_of i _ Hi). reflexivity.
Qed.

Lemma Mom_cell : forall I c i j, (i < 3)%nat -> (j < 3)%nat ->
  Mom (cell_faces_of I c) i j
  == isum (nth c (i_inc I) []) (fun f => coord (i_fc I) f j * coord (i_normals I) f i).
Proof.
  intros I c i j Hi Hj. unfold Mom, cell_faces_of.
  induction (nth c (i_inc I) []) as [|fs ic IH]; cbn [map fsum isum]; [reflexivity|].
  rewrite IH. unfold f_s, f_n, f_x. cbn [fst snd].
  rewrite (cmp_v3_of i _ Hi), (cmp_v3_of j _ Hj). reflexivity.
Qed.

Lemma geo_ok_parts : forall tol I c i,
  geo_ok tol I = true -> (c < i_nc I)%nat -> (i < i_nd I)%nat ->
  Qabs (isum (nth c (i_inc I) []) (fun f => coord (i_normals I) f i) - 0) <= eps_nrm tol I c i
  /\ forall j, (j < i_nd I)%nat ->
     Qabs (isum (nth c (i_inc I) []) (fun f => coord (i_fc I) f j * coord (i_normals I) f i)
           - (if Nat.eqb i j then nth c (i_vols I) 0 else 0)) <= eps_mom tol I c i j.
Proof.
  intros tol I c i H Hc Hi.
  pose proof (forallb_seq2 _ _ _ H c i Hc Hi) as Hi'. cbv beta zeta in Hi'.
  apply andb_prop in Hi'. destruct Hi' as [HN HM].
  split; [exact (near_sound _ _ _ _ HN)|].
  intros j Hj. exact (near_sound _ _ _ _ (proj1 (forallb_seq _ _) HM j Hj)).
Qed.

Lemma gmom_bound : forall tol I c d m,
  geo_ok tol I = true -> i_nd I = d -> (d <= 3)%nat -> (c < i_nc I)%nat -> (m < d * d + d)%nat ->
  Qabs (gmom d (cell_faces_of I c) m - gtgt d (nth c (i_vols I) 0) m) <= geps d tol I c m.
Proof.
  intros tol I c d m H Hnd Hd Hc Hm. unfold gmom, gtgt, geps. subst d.
  destruct (Nat.ltb_spec m (i_nd I * i_nd I)) as [Hlt|Hge].
  - destruct (index_split _ _ Hlt) as [Hi Hj].
    rewrite Mom_cell by lia. exact (proj2 (geo_ok_parts tol I c _ H Hc Hi) _ Hj).
  - assert (Hi : (m - i_nd I * i_nd I < i_nd I)%nat) by lia.
    rewrite Nrm_cell by lia. exact (proj1 (geo_ok_parts tol I c _ H Hc Hi)).
Qed.

Lemma geo_eps3_geps : forall tol I c m, (m < 12)%nat -> geo_eps3 tol I c m = geps 3 tol I c m.
Proof. intros tol I c m Hm. do 12 (destruct m as [|m]; [reflexivity|]). lia. Qed.

Lemma geo_eps2_geps : forall tol I c m, (m < 6)%nat -> geo_eps2 tol I c m = geps 2 tol I c m.
Proof. intros tol I c m Hm. do 6 (destruct m as [|m]; [reflexivity|]). lia. Qed.

Lemma face_sum_bound : forall tol I c d theta (eps : nat -> Q),
  check tol I = true -> i_planar I = true -> i_nd I = d -> (d <= 3)%nat -> (c < i_nc I)%nat ->
  length theta = (d * d + d)%nat ->
  (forall m, (m < d * d + d)%nat -> eps m = geps d tol I c m) ->
  Qabs (tsum 0 theta (gmom d (cell_faces_of I c)) - tsum 0 theta (gtgt d (nth c (i_vols I) 0)))
  <= tsum 0 (map Qabs theta) eps.
Proof.
  intros tol I c d theta eps H Hpl Hnd Hd Hc Hlen Heps.
  apply andb_prop in H as [[_ Hgeo]%andb_prop _]. rewrite Hpl in Hgeo.
  rewrite <- tsum_minus. apply tsum_abs_bound. intros m Hm.
  rewrite Heps by lia. apply gmom_bound; try assumption. lia.
Qed.

Lemma linear_fields : forall I r g theta,
  length theta = nparam I ->
  (forall m, (m < nparam I)%nat -> rdot r (basis I m) == g m) ->
  rdot r (ustate I theta) == tsum 0 theta g.
Proof.
  intros I r g theta Hlen H. unfold ustate. apply lin_exact.
  intros m Hm. apply H. lia.
Qed.

Lemma trace_target_2d : forall I c a00 a01 a10 a11 b0 b1,
  i_nd I = 2%nat ->
  tsum 0 [a00; a01; a10; a11; b0; b1] (div_target I c)
  == (al I 0 0 * a00 + al I 0 1 * a01 + al I 1 0 * a10 + al I 1 1 * a11) * nth c (i_vols I) 0.
Proof. intros * Hnd. unfold tsum, div_target. rewrite Hnd. index_eval. ring. Qed.

Lemma trace_target_3d : forall I c a00 a01 a02 a10 a11 a12 a20 a21 a22 b0 b1 b2,
  i_nd I = 3%nat ->
  tsum 0 [a00; a01; a02; a10; a11; a12; a20; a21; a22; b0; b1; b2] (div_target I c)
  == (al I 0 0 * a00 + al I 0 1 * a01 + al I 0 2 * a02
      + al I 1 0 * a10 + al I 1 1 * a11 + al I 1 2 * a12
      + al I 2 0 * a20 + al I 2 1 * a21 + al I 2 2 * a22) * nth c (i_vols I) 0.
Proof. intros * Hnd. unfold tsum, div_target. rewrite Hnd. index_eval. ring. Qed.

Definition scalar_alpha (I : inst) (a : Q) : Prop :=
  forall k l, (k < i_nd I)%nat -> (l < i_nd I)%nat -> al I k l == if Nat.eqb k l then a else 0.

Lemma rdot_const : forall r p, rdot r (fun _ => p) == p * rdot r ones.
Proof.
  intros r p. induction r as [|[j a] r IH]; cbn [rdot fst snd]; [ring|].
  rewrite IH. unfold ones. ring.
Qed.

(* the bound of C15_certificate_sound for the divergence row of cell c *)
Definition div_bound (tol : Q) (I : inst) (c : nat) (theta : list Q) : Q :=
  tsum 0 (map Qabs theta) (fun m => tol * (1 + rabs (nth c (i_drows I) []) (basis I m))).

(* A concrete instance: the real pp.Biot matrices on CartGrid([2, 1]) (2 cells, 7 faces),
   mu = 1, lambda = 2, alpha = 1/2, all boundary faces Dirichlet.  Every entry is dyadic and
   the certificates hold exactly (tolerance 0). *)
Definition ex_inst : inst :=
(mk_inst 2%nat 2%nat 7%nat [[(1 # 2); (0 # 1); (0 # 1)]; [(0 # 1); (1 # 2); (0 # 1)]; [(0 # 1); (0 #
1); (1 # 2)]] [[(1 # 2); (1 # 2)]; [(3 # 2); (1 # 2)]] [[(0 # 1); (1 # 2)]; [(1 # 1); (1 # 2)]; [(2
# 1); (1 # 2)]; [(1 # 2); (0 # 1)]; [(3 # 2); (0 # 1)]; [(1 # 2); (1 # 1)]; [(3 # 2); (1 # 1)]] [[(1
# 1); (0 # 1)]; [(1 # 1); (0 # 1)]; [(1 # 1); (0 # 1)]; [(0 # 1); (1 # 1)]; [(0 # 1); (1 # 1)]; [(0
# 1); (1 # 1)]; [(0 # 1); (1 # 1)]] [(1 # 1); (1 # 1)] [[(0%nat, ((-1) # 1)); (1%nat, (1 # 1));
(3%nat, ((-1) # 1)); (5%nat, (1 # 1))]; [(1%nat, ((-1) # 1)); (2%nat, (1 # 1)); (4%nat, ((-1) # 1));
(6%nat, (1 # 1))]] [true; false; true; true; true; true; true] true [[(0%nat, (1 # 4)); (2%nat, (1 #
4)); (4%nat, ((-1) # 2)); (11%nat, ((-7) # 16)); (13%nat, ((-1) # 16)); (15%nat, (7 # 16)); (17%nat,
(1 # 16))]; [(0%nat, ((-1) # 4)); (2%nat, ((-1) # 4)); (8%nat, (1 # 2)); (11%nat, ((-1) # 16));
(13%nat, ((-7) # 16)); (15%nat, (1 # 16)); (17%nat, (7 # 16))]] [[(0%nat, ((-1) # 2))]; []; [(0%nat,
((-1) # 4)); (1%nat, ((-1) # 4))]; []; [(1%nat, ((-1) # 2))]; []; []; [(0%nat, ((-7) # 16)); (1%nat,
((-1) # 16))]; []; [(0%nat, ((-1) # 16)); (1%nat, ((-7) # 16))]; []; [(0%nat, ((-7) # 16)); (1%nat,
((-1) # 16))]; []; [(0%nat, ((-1) # 16)); (1%nat, ((-7) # 16))]]).

Lemma ex_inst_check : check 0 ex_inst = true.
Proof. vm_compute. reflexivity. Qed.

(* check_red tests what check tests, with each row sum computed once and kept reduced
   (rsums_red); it is what the examples on real float data evaluate. *)
Definition row_red (tol : Q) (r : row) (v : vec) (extra target : Q) : bool :=
  let s := rsums_red r v in let e := Qabs (Qplus_dl (fst s) (- target)) in
  Qle_bool_dl e (tol * (1 + snd s)) && Qle_bool_dl e (tol * (snd s + extra)).

Lemma row_red_sound : forall tol r v extra target, row_red tol r v extra target = true ->
  near tol (rabs r v) (rdot r v) target = true /\
  nearr tol (rabs r v + extra) (rdot r v) target = true.
Proof.
  intros tol r v extra target H. unfold row_red in H.
  rewrite !Qle_bool_dl_eq, Qplus_dl_eq in H. apply andb_prop in H as [H1 H2].
  split; [rewrite <- H1|rewrite <- H2]; apply Qle_bool_Qeq;
    rewrite ?(proj1 (rsums_red_eq r v)), ?(proj2 (rsums_red_eq r v)); reflexivity.
Qed.

Definition check_red (tol : Q) (I : inst) : bool :=
  shape_ok I && (if i_planar I then geo_ok tol I else true)
  && forallb (fun c => forallb (fun m =>
       row_red tol (nth c (i_drows I) []) (basis I m) (Qabs (div_target I c m)) (div_target I c m))
       (seq 0 (nparam I))) (seq 0 (i_nc I))
  && forallb (fun q =>
       row_red tol (nth q (i_grows I) []) ones (Qabs (grad_target I q) + face_mag I q)
               (grad_target I q)) (seq 0 (i_nd I * i_nf I)).

Lemma check_red_sound : forall tol I, check_red tol I = true -> check tol I = true.
Proof.
  intros tol I H. apply andb_prop in H as [[[Hs Hg]%andb_prop Hd]%andb_prop Hq].
  pose proof (fun c m Hc Hm => row_red_sound _ _ _ _ _ (forallb_seq2 _ _ _ Hd c m Hc Hm)) as D.
  pose proof (fun q Hq' => row_red_sound _ _ _ _ _ (proj1 (forallb_seq _ _) Hq q Hq')) as G.
  cbv beta in D, G.
  assert (Hdiv : div_ok tol I = true).
  { apply forallb_seq. intros c Hc. apply forallb_seq. intros m Hm. apply (D c m Hc Hm). }
  assert (Hgrad : grad_ok tol I = true).
  { apply forallb_seq. intros q Hq'. apply (G q Hq'). }
  unfold check. rewrite Hs, Hg, Hdiv, Hgrad. cbn [andb]. apply andb_true_intro. split.
  - apply forallb_seq. intros c Hc. apply forallb_seq. intros m Hm. apply (D c m Hc Hm).
  - apply forallb_seq. intros q Hq'. rewrite <- (proj2 (G q Hq')).
    apply Qle_bool_Qeq; [reflexivity|rewrite Qplus_assoc; reflexivity].
Qed.

(* the unit square as a list of signed faces: (sign, normal, centre) *)
Definition ex_square : list face :=
  [(-(1), (1, 0, 0), (0, 1 # 2, 0)); (1, (1, 0, 0), (1, 1 # 2, 0));
   (-(1), (0, 1, 0), (1 # 2, 0, 0)); (1, (0, 1, 0), (1 # 2, 1, 0))].

(* a single hexahedron with moved corners (non-planar faces), real pp.Biot matrices and geometry:
   the Biot certificates hold, the first-moment identity sum_f s x_f n_f^T = |K| I does NOT *)
Definition ex_nonplanar : inst :=
(mk_inst 3%nat 1%nat 6%nat [[(1 # 1); (0 # 1); (0 # 1)]; [(0 # 1); (1 # 1); (0 # 1)]; [(0 # 1); (0 #
1); (1 # 1)]] [[(4457534659807883 # 9007199254740992); (1164972763819645 # 2251799813685248);
(8762609675741783 # 18014398509481984)]] [[(0 # 1); (4890720067780953 # 9007199254740992);
(4701592524374317 # 9007199254740992)]; [(8995070874345297 # 9007199254740992); (4602041655147643 #
9007199254740992); (8453901458645105 # 18014398509481984)]; [(2388561666776301 # 4503599627370496);
(0 # 1); (8854534860592839 # 18014398509481984)]; [(2111679344664055 # 4503599627370496);
(4647837378263327 # 4503599627370496); (4397357712577169 # 9007199254740992)]; [(4686420371643975 #
9007199254740992); (4686420371643975 # 9007199254740992); (4700908092244849 # 144115188075855872)];
[(4233455233209203 # 9007199254740992); (8796146254890791 # 18014398509481984); (8718813193364747 #
9007199254740992)]] [[(127 # 128); (0 # 1); (0 # 1)]; [(15 # 16); (7 # 64); (1 # 8)]; [(0 # 1); (59
# 64); (0 # 1)]; [(1 # 16); (15 # 16); (1 # 16)]; [(9 # 128); (9 # 128); (9 # 8)]; [(1 # 16); ((-7)
# 128); (15 # 16)]] [(1965 # 2048)] [[(0%nat, ((-1) # 1)); (1%nat, (1 # 1)); (2%nat, ((-1) # 1));
(3%nat, (1 # 1)); (4%nat, ((-1) # 1)); (5%nat, (1 # 1))]] [true; true; true; true; true; true] false
[[(0%nat, (3546574085291215 # 144115188075855872)); (1%nat, ((-4943310868242709) #
2305843009213693952)); (2%nat, (1118327745558369 # 18014398509481984)); (3%nat, ((-8793947799834383)
# 9007199254740992)); (4%nat, ((-8404825397342747) # 144115188075855872)); (5%nat,
((-7854809991206561) # 144115188075855872)); (6%nat, (4300203819938355 # 4503599627370496)); (7%nat,
(8219354185515693 # 144115188075855872)); (8%nat, (1920480043477865 # 36028797018963968)); (9%nat,
((-2290195742976497) # 72057594037927936)); (10%nat, ((-4187426478084909) # 4503599627370496));
(11%nat, ((-4726440826259105) # 144115188075855872)); (12%nat, (2299038477954627 #
72057594037927936)); (13%nat, (4204615090667555 # 4503599627370496)); (14%nat, (1186096916828789 #
36028797018963968)); (15%nat, ((-1015883944051329) # 18014398509481984)); (16%nat,
((-3893577156582803) # 576460752303423488)); (17%nat, ((-298461221560655) # 281474976710656));
(18%nat, (7659454556485933 # 144115188075855872)); (19%nat, (229446706898315 # 36028797018963968));
(20%nat, (4500639576588359 # 4503599627370496))]] [[(0%nat, ((-127) # 128))]; []; []; [(0%nat,
((-15) # 16))]; [(0%nat, ((-7) # 64))]; [(0%nat, ((-1) # 8))]; []; [(0%nat, ((-59) # 64))]; [];
[(0%nat, ((-1) # 16))]; [(0%nat, ((-15) # 16))]; [(0%nat, ((-1) # 16))]; [(0%nat, ((-9) # 128))];
[(0%nat, ((-9) # 128))]; [(0%nat, ((-9) # 8))]; [(0%nat, ((-1) # 16))]; [(0%nat, (7 # 128))];
[(0%nat, ((-15) # 16))]]).
