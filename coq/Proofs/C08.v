(* C08 — the positional dictionary as a finite map, the shift loop as a parallel
   assignment, the facts about single calls, and the specification of the window of a
   fixed depth.  The refinement proofs are in Proofs/C08_var.v. *)
From Coq Require Import List ZArith Bool Arith Lia.
Import ListNotations.
From PP Require Import Model.C08.

Lemma nth_error_nil (A : Type) i : @nth_error A [] i = None.
Proof. destruct i; reflexivity. Qed.

Lemma nth_error_firstn_if (A : Type) (l : list A) : forall d i,
    nth_error (firstn d l) i = if i <? d then nth_error l i else None.
Proof.
  induction l as [|a l IH]; intros d i.
  - rewrite firstn_nil, nth_error_nil. destruct (i <? d); reflexivity.
  - destruct d as [|d], i as [|i]; try reflexivity. exact (IH d i).
Qed.

Lemma nth_error_skipn_add (A : Type) (l : list A) : forall n i,
    nth_error (skipn n l) i = nth_error l (n + i).
Proof.
  induction l as [|a l IH]; intros n i.
  - rewrite skipn_nil, !nth_error_nil. reflexivity.
  - destruct n as [|n]; [reflexivity|]. apply IH.
Qed.

Lemma nth_error_tl (A : Type) (l : list A) i : nth_error (tl l) i = nth_error l (S i).
Proof. destruct l; [apply nth_error_nil|reflexivity]. Qed.

Section Proofs.
  Variable V : Type.
  Variable vadd : V -> V -> V.
  Notation dict := (C08.dict V).

  Lemma lookup_nil i : @lookup V [] i = None.
  Proof. destruct i; reflexivity. Qed.

  Lemma lookup_cons_S (x : option V) r i : lookup (x :: r) (S i) = lookup r i.
  Proof. reflexivity. Qed.

  Lemma lookup_update (d : dict) i j v :
    lookup (update d i v) j = if Nat.eqb i j then Some v else lookup d j.
  Proof.
    revert d j; induction i as [|i IH]; intros [|x r] [|j]; cbn [update Nat.eqb];
      rewrite ?lookup_cons_S, ?IH, ?lookup_nil; reflexivity.
  Qed.

  Lemma lookup_update_neq (d : dict) i j v : i <> j -> lookup (update d i v) j = lookup d j.
  Proof. intros H. rewrite lookup_update. apply Nat.eqb_neq in H. rewrite H. reflexivity. Qed.

  Lemma num_stored_of_lookup : forall (d : dict) (w : list V),
      (forall i, lookup d i = nth_error w i) -> num_stored d = length w.
  Proof.
    induction d as [|x r IH]; intros w H; pose proof (H 0) as H0.
    - destruct w; [reflexivity|discriminate].
    - destruct x as [v|], w as [|a w]; try discriminate; cbn [num_stored length].
      + f_equal. apply IH. intros i. apply (H (S i)).
      + apply (IH []). intros i. rewrite nth_error_nil. apply (H (S i)).
  Qed.

  Lemma shift_loop_lookup : forall k (d : dict),
      (forall j, j < k -> lookup d j <> None) ->
      exists d', shift_loop d (down k) = (d', true) /\
                 forall i, lookup d' i =
                           if (1 <=? i) && (i <=? k) then lookup d (i - 1) else lookup d i.
  Proof.
    induction k as [|k IH]; intros d Hd.
    - exists d. split; [reflexivity|]. intros i.
      destruct (Nat.leb_spec 1 i), (Nat.leb_spec i 0); try reflexivity. lia.
    - change (down (S k)) with (S k :: down k). cbn [shift_loop]. rewrite Nat.sub_succ, Nat.sub_0_r.
      destruct (lookup d k) as [v|] eqn:Ek; [|destruct (Hd k); [lia|exact Ek]].
      destruct (IH (update d (S k) v)) as (d' & Hrun & Hlk).
      { intros j Hj. rewrite lookup_update_neq by lia. apply Hd. lia. }
      exists d'. split; [exact Hrun|]. intros i. rewrite Hlk, !lookup_update.
      (* only i = S k reads the value just written: it moved up from k *)
      destruct (Nat.leb_spec 1 i), (Nat.leb_spec i k), (Nat.leb_spec i (S k)),
        (Nat.eqb_spec (S k) i), (Nat.eqb_spec (S k) (i - 1)); cbn [andb];
        try reflexivity; try lia.
      subst i. rewrite Nat.sub_succ, Nat.sub_0_r, Ek. reflexivity.
  Qed.

  Lemma step_shift (d : dict) m :
    match m with Some mz => (0 <= mz)%Z | None => True end ->
    step vadd (Some d) (OpShift m)
    = let (d', ok) := shift_loop d (shift_range (num_stored d) m) in
      (Some d', if ok then ODone else OErr KeyErr).
  Proof.
    intros Hm. destruct m as [mz|]; cbn [step]; [|reflexivity].
    destruct (Z.ltb_spec mz 0); [lia|reflexivity].
  Qed.

  Definition R (d : nat) (s : option dict) (h : list V) : Prop :=
    match s with
    | None => h = []
    | Some dct => forall i, lookup dct i = nth_error (firstn d h) i
    end.

  Definition disciplined (d : nat) (o : @op V) : Prop :=
    match o with
    | OpSet i _ => i = 0%Z
    | OpAdd i _ => i = 0%Z
    | OpGet i => (0 <= i)%Z
    | OpShift m => m = Some (Z.of_nat d)
    end.

  Definition hout (d : nat) (h : list V) (o : @op V) : @out V :=
    match o with
    | OpSet _ _ => ODone
    | OpAdd _ _ => match h with [] => OErr ValueErr | _ => ODone end
    | OpGet i => match nth_error (firstn d h) (Z.to_nat i) with
                 | Some v => OVal v | None => OErr KeyErr end
    | OpShift _ => ODone
    end.

  Definition hrun (h : list V) (ops : list (@op V)) : list V := fold_left (hstep vadd) ops h.

  Fixpoint houts (d : nat) (h : list V) (ops : list (@op V)) : list (@out V) :=
    match ops with
    | [] => []
    | o :: r => hout d h o :: houts d (hstep vadd h o) r
    end.

  Theorem get_pure s i : fst (step vadd s (OpGet i)) = s.
  Proof.
    cbn [step]. destruct (i <? 0)%Z; [reflexivity|].
    destruct s as [d|]; [|reflexivity]. destruct (lookup d (Z.to_nat i)); reflexivity.
  Qed.

  Theorem set_is_map_update s i v j :
    (0 <= i)%Z ->
    match fst (step vadd s (OpSet i v)) with
    | Some d' => lookup d' j = if Nat.eqb (Z.to_nat i) j then Some v
                               else match s with Some d => lookup d j | None => None end
    | None => False
    end.
  Proof.
    intros Hi. cbn [step]. destruct (Z.ltb_spec i 0); [lia|].
    cbn [fst]. rewrite lookup_update. destruct (Nat.eqb _ _); [reflexivity|].
    destruct s; [reflexivity|apply lookup_nil].
  Qed.
End Proofs.
