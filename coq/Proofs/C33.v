(* C33 — proofs about PP.Model.C33.  The value reported for two cells is the length of the
   intersection of their intervals (seg_overlap_ilen).  The loops of line_tessellation and of
   triangulations list the entries of a table over pairs of positions (Section Table,
   lt_outer_spec, triangulations_table), so a row or column sum is the sum of one cell's
   overlaps (table_row, table_col; lt_table_row, lt_table_col); against a tessellation of the
   same interval these add up to the cell's length (chain_sum, tess_cell_sum). *)
From Coq Require Import List QArith Bool Arith Lia Lqa Permutation.
Import ListNotations.
From PP Require Import Lib.ListFacts Model.C33.
Open Scope Q_scope.

Lemma filter_map_swap {A B} (p : B -> bool) (f : A -> B) l :
  filter p (map f l) = map f (filter (fun x => p (f x)) l).
Proof.
  induction l as [|x l IH]; cbn [map filter]; [reflexivity|].
  destruct (p (f x)); cbn [map]; rewrite IH; reflexivity.
Qed.

Definition enum {A} (s : nat) (l : list A) : list (nat * A) := combine (seq s (length l)) l.

Lemma enum_fst {A} (l : list A) s : map fst (enum s l) = seq s (length l).
Proof. apply map_fst_combine, seq_length. Qed.

Lemma enum_snd {A} (l : list A) s : map snd (enum s l) = l.
Proof. apply map_snd_combine, seq_length. Qed.

Lemma enum_nth_In {A} (l : list A) d i : (i < length l)%nat -> In (i, nth i l d) (enum 0 l).
Proof.
  intros Hi. unfold enum. rewrite <- (seq_nth 0 0 Hi) at 1.
  rewrite <- combine_nth by apply seq_length.
  apply nth_In. rewrite combine_length, seq_length. lia.
Qed.

Lemma Qle_bool_spec a b : BoolSpec (a <= b) (b < a) (Qle_bool a b).
Proof.
  destruct (Qle_bool a b) eqn:H; constructor.
  - apply Qle_bool_iff, H.
  - apply Qnot_le_lt. rewrite <- Qle_bool_iff, H. discriminate.
Qed.

Lemma Qeq_bool_spec a b : BoolSpec (a == b) (~ a == b) (Qeq_bool a b).
Proof.
  destruct (Qeq_bool a b) eqn:H; constructor.
  - apply Qeq_bool_iff, H.
  - apply Qeq_bool_neq, H.
Qed.

(* [qcase]: case analysis on every comparison in the goal, innermost first, discarding the
   cases that contradict the hypotheses; what is left is linear arithmetic *)
Ltac no_cmp t :=
  lazymatch t with
  | context [Qle_bool _ _] => fail
  | context [Qeq_bool _ _] => fail
  | _ => idtac
  end.

Ltac qcase :=
  repeat match goal with
  | |- context [Qle_bool ?a ?b] =>
      no_cmp a; no_cmp b; destruct (Qle_bool_spec a b);
      cbn [negb eqb nth insert]; try (exfalso; lra)
  | |- context [Qeq_bool ?a ?b] =>
      no_cmp a; no_cmp b; destruct (Qeq_bool_spec a b);
      cbn [negb eqb nth insert]; try (exfalso; lra)
  end.

Lemma cmin_le_cmax : forall c, cmin c <= cmax c.
Proof. intros c. unfold cmin, cmax, qmin, qmax. qcase; lra. Qed.

Lemma clen_abs : forall a : cell, cmax a - cmin a == qabs (fst a - snd a).
Proof. intros a. unfold cmin, cmax, qmin, qmax, qabs. qcase; lra. Qed.

Lemma qabs_nonneg : forall a, 0 <= qabs a.
Proof. intros a. unfold qabs. qcase; lra. Qed.

Definition ilen (a b : cell) : Q :=
  qmax 0 (qmin (cmax a) (cmax b) - qmax (cmin a) (cmin b)).

Definition val (nrm : Q) (a b : cell) : Q :=
  match seg_overlap a b with OSeg x y => seg_len nrm x y | _ => 0 end.

Lemma ilen_nonneg : forall a b, 0 <= ilen a b.
Proof. intros a b. unfold ilen, qmax. qcase; lra. Qed.

Lemma qmin_sym : forall a b, qmin a b == qmin b a.
Proof. intros. unfold qmin. qcase; lra. Qed.

Lemma qmax_sym : forall a b, qmax a b == qmax b a.
Proof. intros. unfold qmax. qcase; lra. Qed.

Lemma ilen_sym : forall a b, ilen a b == ilen b a.
Proof.
  intros a b. unfold ilen.
  pose proof (qmin_sym (cmax a) (cmax b)) as Hm. pose proof (qmax_sym (cmin a) (cmin b)) as HM.
  revert Hm HM. generalize (qmin (cmax a) (cmax b)) (qmin (cmax b) (cmax a))
                           (qmax (cmin a) (cmin b)) (qmax (cmin b) (cmin a)).
  intros. unfold qmax. qcase; lra.
Qed.

Lemma ilen_le_len : forall a b, ilen a b <= cmax a - cmin a.
Proof.
  intros a b. pose proof (cmin_le_cmax a) as Ha. pose proof (cmin_le_cmax b) as Hb.
  revert Ha Hb. unfold ilen. generalize (cmin a) (cmax a) (cmin b) (cmax b). intros.
  unfold qmax, qmin. qcase; lra.
Qed.

Lemma point_cell : forall c : cell, fst c == snd c -> cmin c == cmax c.
Proof. intros c. unfold cmin, cmax, qmin, qmax. qcase; lra. Qed.

Lemma ilen_point : forall a b, fst a == snd a -> ilen a b == 0.
Proof.
  intros a b H. apply point_cell in H.
  pose proof (ilen_le_len a b). pose proof (ilen_nonneg a b). lra.
Qed.

Lemma ilen_disjoint : forall a b, cmax a < cmin b -> ilen a b == 0.
Proof.
  intros a b. pose proof (cmin_le_cmax a) as Ha. pose proof (cmin_le_cmax b) as Hb.
  revert Ha Hb. unfold ilen. generalize (cmin a) (cmax a) (cmin b) (cmax b). intros.
  unfold qmax, qmin. qcase; lra.
Qed.

Lemma isort_pair : forall s e, isort [s; e] = [qmin s e; qmax s e].
Proof. intros s e. unfold isort, qmin, qmax. cbn. destruct (Qle_bool s e); reflexivity. Qed.

Lemma isort_middle : forall s1 e1 s2 e2,
    qmin s2 e2 <= qmax s1 e1 -> qmin s1 e1 <= qmax s2 e2 ->
    qabs (nth 1 (isort [s1; e1; s2; e2]) 0 - nth 2 (isort [s1; e1; s2; e2]) 0)
    == ilen (s1, e1) (s2, e2).
Proof.
  intros s1 e1 s2 e2.
  change (isort [s1; e1; s2; e2]) with (insert s1 (insert e1 (isort [s2; e2]))).
  rewrite isort_pair. pose proof (cmin_le_cmax (s2, e2)) as H. revert H.
  unfold ilen, cmin, cmax. cbn [fst snd]. generalize (qmin s2 e2) (qmax s2 e2). intros l2 h2.
  unfold qmin, qmax, qabs. cbn [insert].
  (* the hypotheses enter the context as linear facts, so that they cut the case analysis *)
  destruct (Qle_bool_spec s1 e1); cbn iota; intros; qcase; lra.
Qed.

(* single points have no length, whether they meet or not; two proper segments overlap in
   nothing when one ends before the other begins, and else between the middle end points *)
Lemma seg_overlap_ilen : forall a b,
    match seg_overlap a b with
    | OSeg x y => qabs (x - y) == ilen a b
    | _ => ilen a b == 0
    end.
Proof.
  intros a b.
  pose proof (ilen_point a b) as Pa. pose proof (ilen_point b a) as Pb.
  pose proof (ilen_disjoint a b) as Da. pose proof (ilen_disjoint b a) as Db.
  rewrite <- (ilen_sym a b) in Pb, Db. revert Pa Pb Da Db.
  destruct a as [s1 e1], b as [s2 e2]. unfold seg_overlap, qltb, cmin, cmax. cbn [fst snd].
  intros Pa Pb Da Db.
  destruct (Qeq_bool_spec s1 e1), (Qeq_bool_spec s2 e2); cbn [negb eqb]; auto.
  - destruct (Qeq_bool s1 s2); auto.
  - destruct (Qle_bool_spec (qmin s2 e2) (qmax s1 e1)); cbn [negb]; [|auto].
    destruct (Qle_bool_spec (qmin s1 e1) (qmax s2 e2)); cbn [negb]; [|auto].
    apply isort_middle; assumption.
Qed.

Lemma val_ilen : forall nrm a b, val nrm a b == ilen a b * nrm.
Proof.
  intros nrm a b. unfold val, seg_len. pose proof (seg_overlap_ilen a b) as H.
  destruct (seg_overlap a b); rewrite H; ring.
Qed.

Lemma val_sym : forall nrm a b, val nrm a b == val nrm b a.
Proof. intros. rewrite !val_ilen, ilen_sym. reflexivity. Qed.

Lemma val_nonneg : forall nrm a b, 0 <= nrm -> 0 <= val nrm a b.
Proof.
  intros nrm a b Hn. rewrite val_ilen. apply Qmult_le_0_compat; [apply ilen_nonneg | exact Hn].
Qed.

Lemma qsum_cons : forall x l, qsum (x :: l) == x + qsum l.
Proof. intros. unfold qsum. cbn [fold_right]. apply Qred_correct. Qed.

Lemma qsum_nil : qsum [] == 0.
Proof. reflexivity. Qed.

Lemma qsum_app : forall l1 l2, qsum (l1 ++ l2) == qsum l1 + qsum l2.
Proof.
  induction l1 as [|x l1 IH]; intros l2; cbn [app]; [|rewrite !qsum_cons, IH]; cbn; lra.
Qed.

Lemma qsum_map_ext : forall (A : Type) (f g : A -> Q) l,
    (forall x, In x l -> f x == g x) -> qsum (map f l) == qsum (map g l).
Proof.
  induction l as [|x l IH]; intros H; cbn [map]; [reflexivity|].
  rewrite !qsum_cons, IH, (H x) by (intros; try apply H; cbn; auto). reflexivity.
Qed.

Lemma qsum_map_perm : forall (A : Type) (f : A -> Q) l l',
    Permutation l l' -> qsum (map f l) == qsum (map f l').
Proof.
  intros A f l l' P. induction P; cbn [map]; rewrite ?qsum_cons; lra.
Qed.

Lemma qsum_map_add : forall (A : Type) (f g : A -> Q) l,
    qsum (map (fun x => f x + g x) l) == qsum (map f l) + qsum (map g l).
Proof.
  induction l as [|x l IH]; cbn [map]; [|rewrite !qsum_cons, IH]; cbn; lra.
Qed.

Lemma qsum_map_scale : forall (A : Type) (f : A -> Q) k l,
    qsum (map (fun x => f x * k) l) == qsum (map f l) * k.
Proof.
  induction l as [|x l IH]; cbn [map]; [|rewrite !qsum_cons, IH]; cbn; lra.
Qed.

Lemma qsum_nonneg : forall l, Forall (fun x => 0 <= x) l -> 0 <= qsum l.
Proof.
  induction 1 as [|x l Hx Hl IH].
  - cbn. lra.
  - rewrite qsum_cons. lra.
Qed.

Lemma qsum_zero : forall (A : Type) (f : A -> Q) l,
    (forall x, In x l -> f x == 0) -> qsum (map f l) == 0.
Proof.
  intros A f l H. rewrite (qsum_map_ext _ f (fun _ => 0)) by exact H. clear H.
  induction l; cbn [map]; [|rewrite qsum_cons, IHl]; cbn; lra.
Qed.

Lemma qsum_swap : forall (A B : Type) (f : A -> B -> Q) la lb,
    qsum (map (fun a => qsum (map (f a) lb)) la) ==
    qsum (map (fun b => qsum (map (fun a => f a b) la)) lb).
Proof.
  induction la as [|a la IH]; intros lb; cbn [map].
  - symmetry. apply qsum_zero. reflexivity.
  - rewrite qsum_cons, IH, <- qsum_map_add. apply qsum_map_ext. intros b _.
    rewrite qsum_cons. reflexivity.
Qed.

Lemma qsum_filter : forall (A : Type) (p : A -> bool) (f : A -> Q) l,
    qsum (map f (filter p l)) == qsum (map (fun x => if p x then f x else 0) l).
Proof.
  induction l as [|x l IH]; cbn [filter map]; [reflexivity|].
  rewrite qsum_cons, <- IH. destruct (p x); cbn [map]; rewrite ?qsum_cons; lra.
Qed.

Lemma qsum_single : forall (A : Type) (key : A -> nat) (f : A -> Q) l x0,
    NoDup (map key l) -> In x0 l ->
    qsum (map (fun x => if (key x =? key x0)%nat then f x else 0) l) == f x0.
Proof.
  induction l as [|x l IH]; intros x0 N Hin; [destruct Hin|].
  cbn [map] in *. apply NoDup_cons_iff in N. destruct N as [Nx N]. rewrite qsum_cons.
  destruct Hin as [->|Hin].
  - rewrite Nat.eqb_refl, qsum_zero; [lra|]. intros y Hy.
    destruct (Nat.eqb_spec (key y) (key x0)) as [E|]; [|reflexivity].
    destruct Nx. rewrite <- E. apply in_map, Hy.
  - rewrite (IH x0 N Hin). destruct (Nat.eqb_spec (key x) (key x0)) as [E|]; [|lra].
    destruct Nx. rewrite E. apply in_map, Hin.
Qed.

Fixpoint chain (cs : list cell) (lo hi : Q) : Prop :=
  match cs with
  | [] => lo == hi
  | c :: r => cmin c == lo /\ chain r (cmax c) hi
  end.

(* the cells, in any order and orientation, tile [lo, hi] *)
Definition tessellates (cs : list cell) (lo hi : Q) : Prop :=
  exists cs', Permutation cs cs' /\ chain cs' lo hi.

Lemma chain_le : forall cs lo hi, chain cs lo hi -> lo <= hi.
Proof.
  induction cs as [|c r IH]; intros lo hi H; cbn [chain] in H.
  - lra.
  - destruct H as [H1 H2]. apply IH in H2. pose proof (cmin_le_cmax c). lra.
Qed.

Lemma chain_bounds : forall cs lo hi, chain cs lo hi ->
    forall c, In c cs -> lo <= cmin c /\ cmax c <= hi.
Proof.
  induction cs as [|c0 r IH]; intros lo hi H c Hin; cbn [chain] in H; [destruct Hin|].
  destruct H as [H1 H2]. pose proof (chain_le _ _ _ H2). pose proof (cmin_le_cmax c0).
  destruct Hin as [->|Hin]; [|apply (IH _ _ H2) in Hin]; lra.
Qed.

Definition clamp (u v x : Q) : Q := qmax u (qmin v x).

Lemma clamp_comp : forall u v x y, x == y -> clamp u v x == clamp u v y.
Proof. intros. unfold clamp, qmax, qmin. qcase; lra. Qed.

(* the part of [u,v] inside [l,h] lies between the end points of [l,h] brought into [u,v] *)
Lemma overlap_clamp : forall u v l h, u <= v -> l <= h ->
    qmax 0 (qmin v h - qmax u l) == clamp u v h - clamp u v l.
Proof. intros. unfold clamp, qmax, qmin. qcase; lra. Qed.

(* so along a chain the overlaps telescope *)
Lemma chain_sum_clamp : forall a cs lo hi, chain cs lo hi ->
    qsum (map (ilen a) cs) == clamp (cmin a) (cmax a) hi - clamp (cmin a) (cmax a) lo.
Proof.
  intros a. pose proof (cmin_le_cmax a) as Ha.
  induction cs as [|c r IH]; intros lo hi H; cbn [chain map] in *.
  - rewrite (clamp_comp _ _ lo hi H), qsum_nil. ring.
  - destruct H as [H1 H2]. rewrite qsum_cons, (IH _ _ H2). unfold ilen.
    rewrite (overlap_clamp _ _ _ _ Ha (cmin_le_cmax c)), (clamp_comp _ _ _ _ H1). ring.
Qed.

Lemma chain_sum : forall cs lo hi a, chain cs lo hi ->
    qsum (map (ilen a) cs) == qmax 0 (qmin (cmax a) hi - qmax (cmin a) lo).
Proof.
  intros cs lo hi a H. rewrite (chain_sum_clamp a _ _ _ H). symmetry.
  apply overlap_clamp; [apply cmin_le_cmax | exact (chain_le _ _ _ H)].
Qed.

Lemma tess_cell_sum : forall nrm A B lo hi a,
    tessellates A lo hi -> tessellates B lo hi -> In a A ->
    qsum (map (val nrm a) B) == cell_vol nrm a.
Proof.
  intros nrm A B lo hi a [A' [PA CA]] [B' [PB CB]] Hin.
  destruct (chain_bounds _ _ _ CA a (Permutation_in _ PA Hin)) as [H1 H2].
  rewrite (qsum_map_ext _ _ (fun b => ilen a b * nrm)) by (intros; apply val_ilen).
  rewrite qsum_map_scale, (qsum_map_perm _ _ _ _ PB), (chain_sum _ _ _ a CB).
  unfold cell_vol. rewrite <- clen_abs. apply Qmult_comp; [|reflexivity].
  pose proof (cmin_le_cmax a) as Ha. revert H1 H2 Ha.
  generalize (cmin a) (cmax a). intros u v H1 H2 Ha. unfold qmax, qmin. qcase; lra.
Qed.

(* Both tessellation loops list, for row items I and column items J, the entry
   (r x, c y, w x y) of every pair that passes the test [keep]. *)
Section Table.
  Context {X Y : Type} (r : X -> nat) (c : Y -> nat) (keep : X -> Y -> bool) (w : X -> Y -> Q).

  Definition block (J : list Y) (x : X) : list entry :=
    map (fun y => (r x, c y, w x y)) (filter (keep x) J).
  Definition table (I : list X) (J : list Y) : list entry := flat_map (block J) I.

  Lemma table_sum : forall (p : nat -> nat -> bool) I J,
      qsum (map ewt (filter (fun e => p (erow e) (ecol e)) (table I J))) ==
      qsum (map (fun x => qsum (map (fun y => if keep x y && p (r x) (c y)
                                              then w x y else 0) J)) I).
  Proof.
    intros p I J. induction I as [|x I IH]; cbn [table flat_map map]; [reflexivity|].
    rewrite filter_app, map_app, qsum_app, qsum_cons. fold (table I J). rewrite IH.
    unfold block. rewrite filter_map_swap, map_map, !qsum_filter.
    apply Qplus_comp; [|reflexivity]. apply qsum_map_ext. intros y _.
    cbn [erow ecol ewt fst snd]. destruct (keep x y), (p (r x) (c y)); reflexivity.
  Qed.

  Lemma table_nonneg : forall I J,
      (forall x y, In x I -> In y J -> 0 <= w x y) -> Forall (fun e => 0 <= ewt e) (table I J).
  Proof.
    intros I J H. apply Forall_flat_map, Forall_forall. intros x Hx.
    apply Forall_map, Forall_forall. intros y Hy. apply filter_In in Hy. apply H; tauto.
  Qed.

  Variables (I : list X) (J : list Y).
  Hypothesis keep_all : forall x y, In x I -> In y J -> keep x y = false -> w x y == 0.

  Lemma table_sum_all : forall p : nat -> nat -> bool,
      qsum (map ewt (filter (fun e => p (erow e) (ecol e)) (table I J))) ==
      qsum (map (fun x => qsum (map (fun y => if p (r x) (c y) then w x y else 0) J)) I).
  Proof.
    intros p. rewrite table_sum. apply qsum_map_ext. intros x Hx.
    apply qsum_map_ext. intros y Hy. destruct (keep x y) eqn:K; cbn [andb]; [reflexivity|].
    destruct (p _ _); [symmetry; apply keep_all; assumption | reflexivity].
  Qed.

  Lemma table_row : forall x0 i, NoDup (map r I) -> In x0 I -> r x0 = i ->
      row_sum (table I J) i == qsum (map (w x0) J).
  Proof.
    intros x0 i N Hin <-. unfold row_sum. rewrite (table_sum_all (fun i _ => i =? r x0)%nat).
    rewrite <- (qsum_single _ r (fun x => qsum (map (w x) J)) I x0 N Hin).
    apply qsum_map_ext. intros x _.
    destruct (r x =? r x0)%nat; [reflexivity|]. apply qsum_zero. reflexivity.
  Qed.

  Lemma table_col : forall y0 j, NoDup (map c J) -> In y0 J -> c y0 = j ->
      col_sum (table I J) j == qsum (map (fun x => w x y0) I).
  Proof.
    intros y0 j N Hin <-. unfold col_sum. rewrite (table_sum_all (fun _ j => j =? c y0)%nat).
    apply qsum_map_ext. intros x _. exact (qsum_single _ c (w x) J y0 N Hin).
  Qed.

  Lemma table_row_none : forall i, ~ In i (map r I) -> row_sum (table I J) i == 0.
  Proof.
    intros i H. unfold row_sum. rewrite (table_sum_all (fun i' _ => i' =? i)%nat).
    apply qsum_zero. intros x Hx. apply qsum_zero. intros y _.
    destruct (Nat.eqb_spec (r x) i) as [<-|]; [|reflexivity]. destruct H. apply in_map, Hx.
  Qed.

  Lemma table_col_none : forall j, ~ In j (map c J) -> col_sum (table I J) j == 0.
  Proof.
    intros j H. unfold col_sum. rewrite (table_sum_all (fun _ j' => j' =? j)%nat).
    apply qsum_zero. intros x _. apply qsum_zero. intros y Hy.
    destruct (Nat.eqb_spec (c y) j) as [<-|]; [|reflexivity]. destruct H. apply in_map, Hy.
  Qed.
End Table.
Arguments table_row {X Y r c keep w I J} keep_all.
Arguments table_col {X Y r c keep w I J} keep_all.
Arguments table_row_none {X Y r c keep w I J} keep_all.
Arguments table_col_none {X Y r c keep w I J} keep_all.

Definition no_err (a b : cell) : Prop := seg_overlap a b <> OErr IndexErr.

Definition degenerate (c : cell) : Prop := fst c == snd c.

Lemma seg_overlap_err : forall a b e,
    seg_overlap a b = OErr e <-> degenerate a /\ degenerate b /\ fst a == fst b.
Proof.
  intros [s1 e1] [s2 e2] []. unfold seg_overlap, degenerate. cbn [fst snd].
  destruct (Qeq_bool_spec s1 e1), (Qeq_bool_spec s2 e2); cbn [negb eqb];
    [destruct (Qeq_bool_spec s1 s2) | | | destruct (qltb _ _); [|destruct (qltb _ _)]];
    (split; [discriminate || tauto | tauto || reflexivity]).
Qed.

Definition is_seg (a b : cell) : bool :=
  match seg_overlap a b with OSeg _ _ => true | _ => false end.

Definition lt_table (nrm : Q) (I J : list (nat * cell)) : list entry :=
  table fst fst (fun x y => is_seg (snd x) (snd y)) (fun x y => val nrm (snd x) (snd y)) I J.

Lemma lt_keep_all nrm (I J : list (nat * cell)) : forall x y, In x I -> In y J ->
    is_seg (snd x) (snd y) = false -> val nrm (snd x) (snd y) == 0.
Proof.
  intros x y _ _. unfold is_seg, val.
  destruct (seg_overlap _ _); [reflexivity|discriminate|reflexivity].
Qed.

Lemma lt_table_row nrm A B i : (i < length A)%nat ->
    row_sum (lt_table nrm (enum 0 A) (enum 0 B)) i == qsum (map (val nrm (nth i A (0, 0))) B).
Proof.
  intros Hi. unfold lt_table.
  rewrite (table_row (lt_keep_all nrm _ _) (i, nth i A (0, 0)) i);
    [|rewrite enum_fst; apply seq_NoDup | apply enum_nth_In, Hi | reflexivity].
  cbn [snd]. rewrite <- (map_map snd (val nrm _)), enum_snd. reflexivity.
Qed.

Lemma lt_table_col nrm A B j : (j < length B)%nat ->
    col_sum (lt_table nrm (enum 0 A) (enum 0 B)) j == qsum (map (val nrm (nth j B (0, 0))) A).
Proof.
  intros Hj. unfold lt_table.
  rewrite (table_col (lt_keep_all nrm _ _) (j, nth j B (0, 0)) j);
    [|rewrite enum_fst; apply seq_NoDup | apply enum_nth_In, Hj | reflexivity].
  cbn [snd]. rewrite <- (map_map snd (fun a => val nrm a _)), enum_snd.
  apply qsum_map_ext. intros. apply val_sym.
Qed.

Lemma lt_inner_spec : forall nrm i a bs j,
    match lt_inner nrm i a j bs with
    | inl _ => Exists (fun b => seg_overlap a b = OErr IndexErr) bs
    | inr l => Forall (no_err a) bs /\ l = lt_table nrm [(i, a)] (enum j bs)
    end.
Proof.
  intros nrm i a. unfold lt_table, table, block, enum, is_seg, val, no_err.
  induction bs as [|b r IH]; intros j;
    cbn [lt_inner length seq combine flat_map filter map fst snd] in *.
  - split; constructor.
  - specialize (IH (S j)). destruct (seg_overlap a b) as [|x y|[]] eqn:E.
    + destruct (lt_inner nrm i a (S j) r); [right; exact IH|]. destruct IH as [F ->].
      split; [constructor; [congruence|exact F] | reflexivity].
    + destruct (lt_inner nrm i a (S j) r); [right; exact IH|]. destruct IH as [F ->].
      split; [constructor; [congruence|exact F] | cbn [map app fst snd]; rewrite E; reflexivity].
    + left. exact E.
Qed.

Lemma lt_outer_spec : forall nrm bs cs i,
    match lt_outer nrm i cs bs with
    | inl _ => Exists (fun a => Exists (fun b => seg_overlap a b = OErr IndexErr) bs) cs
    | inr l => Forall (fun a => Forall (no_err a) bs) cs /\
               l = lt_table nrm (enum i cs) (enum 0 bs)
    end.
Proof.
  intros nrm bs. induction cs as [|a r IH]; intros i; cbn [lt_outer].
  - split; constructor.
  - pose proof (lt_inner_spec nrm i a bs 0) as R. specialize (IH (S i)).
    destruct (lt_inner nrm i a 0 bs); [left; exact R|]. destruct R as [F ->].
    destruct (lt_outer nrm (S i) r bs); [right; exact IH|]. destruct IH as [F' ->].
    split; [constructor; assumption|]. unfold lt_table, table. cbn [flat_map]. rewrite app_nil_r.
    reflexivity.
Qed.

Lemma lt_outer_nonneg : forall nrm bs cs i l, 0 <= nrm ->
    lt_outer nrm i cs bs = inr l -> Forall (fun e => 0 <= ewt e) l.
Proof.
  intros nrm bs cs i l Hn H. pose proof (lt_outer_spec nrm bs cs i) as R. rewrite H in R.
  destruct R as [_ ->]. apply table_nonneg. intros. apply val_nonneg, Hn.
Qed.

Lemma lt_outer_err : forall nrm bs cs i e,
    lt_outer nrm i cs bs = inl e <->
    exists a b, In a cs /\ In b bs /\ degenerate a /\ degenerate b /\ fst a == fst b.
Proof.
  intros nrm bs cs i []. pose proof (lt_outer_spec nrm bs cs i) as R.
  destruct (lt_outer nrm i cs bs) as [[]|l].
  - split; [intros _|reflexivity]. apply Exists_exists in R. destruct R as [a [Ha R]].
    apply Exists_exists in R. destruct R as [b [Hb R]]. apply seg_overlap_err in R. eauto.
  - split; [discriminate|]. intros [a [b [Ha [Hb D]]]]. destruct R as [F _].
    rewrite Forall_forall in F. specialize (F a Ha). rewrite Forall_forall in F.
    destruct (F b Hb). apply seg_overlap_err, D.
Qed.

Definition lines_ok (p : list Q) (l : list (nat * nat)) : Prop :=
  Forall (fun ab => (fst ab < length p)%nat /\ (snd ab < length p)%nat) l.

Lemma cells_of_length : forall p l, length (cells_of p l) = length l.
Proof. intros. apply map_length. Qed.

Lemma cells_partition : forall nrm A B lo hi l,
    tessellates A lo hi -> tessellates B lo hi ->
    lt_outer nrm 0 A B = inr l ->
    (forall i, (i < length A)%nat -> row_sum l i == cell_vol nrm (nth i A (0, 0))) /\
    (forall j, (j < length B)%nat -> col_sum l j == cell_vol nrm (nth j B (0, 0))) /\
    (forall i, (length A <= i)%nat -> row_sum l i == 0) /\
    (forall j, (length B <= j)%nat -> col_sum l j == 0).
Proof.
  intros nrm A B lo hi l TA TB H. pose proof (lt_outer_spec nrm B A 0) as R. rewrite H in R.
  destruct R as [_ ->]. repeat split.
  - intros i Hi. rewrite lt_table_row by exact Hi.
    apply (tess_cell_sum nrm A B lo hi); auto using nth_In.
  - intros j Hj. rewrite lt_table_col by exact Hj.
    apply (tess_cell_sum nrm B A lo hi); auto using nth_In.
  - intros i Hi. apply (table_row_none (lt_keep_all nrm _ _)). rewrite enum_fst, in_seq. lia.
  - intros j Hj. apply (table_col_none (lt_keep_all nrm _ _)). rewrite enum_fst, in_seq. lia.
Qed.

Lemma scale_avg_row : forall vn vo tol l i,
    row_sum (scale_entries vn vo tol Averaged l) i == row_sum l i / vn i.
Proof.
  intros vn vo tol l i. unfold scale_entries, row_sum, Qdiv.
  rewrite filter_map_swap, map_map, <- qsum_map_scale. apply qsum_map_ext.
  intros e He. apply filter_In in He. destruct He as [_ He]. apply Nat.eqb_eq in He.
  cbn [erow fst] in He. rewrite <- He. reflexivity.
Qed.

Lemma scale_int_col : forall vn vo tol l j,
    col_sum (scale_entries vn vo tol Integrated l) j == col_sum l j / vo j.
Proof.
  intros vn vo tol l j. unfold scale_entries, col_sum, Qdiv.
  rewrite filter_map_swap, map_map, <- qsum_map_scale. apply qsum_map_ext.
  intros e He. apply filter_In in He. destruct He as [_ He]. apply Nat.eqb_eq in He.
  cbn [ecol fst snd] in He. rewrite <- He. reflexivity.
Qed.

Lemma avg_unit_row : forall vn vo tol l i, row_sum l i == vn i -> ~ vn i == 0 ->
    row_sum (scale_entries vn vo tol Averaged l) i == 1.
Proof. intros vn vo tol l i H Hv. rewrite scale_avg_row, H. field. exact Hv. Qed.

Lemma int_unit_col : forall vn vo tol l j, col_sum l j == vo j -> ~ vo j == 0 ->
    col_sum (scale_entries vn vo tol Integrated l) j == 1.
Proof. intros vn vo tol l j H Hv. rewrite scale_int_col, H. field. exact Hv. Qed.

Lemma scale_nonneg : forall vn vo tol sc l,
    (forall i, 0 <= vn i) -> (forall j, 0 <= vo j) ->
    Forall (fun e => 0 <= ewt e) l ->
    Forall (fun e => 0 <= ewt e) (scale_entries vn vo tol sc l).
Proof.
  intros vn vo tol sc l Hn Ho H.
  assert (D : forall a b, 0 <= a -> 0 <= b -> 0 <= a / b).
  { intros a b Ha Hb. apply Qmult_le_0_compat; [exact Ha | apply Qinv_le_0_compat, Hb]. }
  destruct sc; cbn [scale_entries]; apply Forall_map.
  1, 2: eapply Forall_impl; [|exact H]; intros e He; apply D; auto.
  apply Forall_forall. intros e _. cbn. lra.
Qed.

Lemma cell_vol_nonneg : forall nrm c, 0 <= nrm -> 0 <= cell_vol nrm c.
Proof. intros nrm c Hn. apply Qmult_le_0_compat; [apply qabs_nonneg | exact Hn]. Qed.

Lemma cell_vol_nonzero : forall nrm c, 0 < nrm -> ~ degenerate c -> ~ cell_vol nrm c == 0.
Proof.
  intros nrm c Hn Hd C. apply Qmult_integral in C. destruct C as [C|C]; [|lra].
  apply Hd. revert C. unfold degenerate, qabs. qcase; lra.
Qed.

(* the weights of match_1d between two tessellations of one interval *)
Lemma cells_unit_sums : forall nrm tol A B lo hi l,
    0 < nrm -> tessellates A lo hi -> tessellates B lo hi -> lt_outer nrm 0 A B = inr l ->
    let vn i := cell_vol nrm (nth i A (0, 0)) in
    let vo j := cell_vol nrm (nth j B (0, 0)) in
    (forall sc, Forall (fun e => 0 <= ewt e) (scale_entries vn vo tol sc l)) /\
    (forall i, (i < length A)%nat -> ~ degenerate (nth i A (0, 0)) ->
       row_sum (scale_entries vn vo tol Averaged l) i == 1) /\
    (forall j, (j < length B)%nat -> ~ degenerate (nth j B (0, 0)) ->
       col_sum (scale_entries vn vo tol Integrated l) j == 1).
Proof.
  intros nrm tol A B lo hi l Hn TA TB H vn vo.
  destruct (cells_partition _ _ _ _ _ _ TA TB H) as [R [C _]]. assert (Hn' : 0 <= nrm) by lra.
  repeat split.
  - intros sc. apply scale_nonneg; try (intros; apply cell_vol_nonneg, Hn').
    exact (lt_outer_nonneg _ _ _ _ _ Hn' H).
  - intros i Hi Hd. apply avg_unit_row; [apply R, Hi | apply cell_vol_nonzero; assumption].
  - intros j Hj Hd. apply int_unit_col; [apply C, Hj | apply cell_vol_nonzero; assumption].
Qed.

Section Tri.
  Variables is_polygon candidate : nat -> nat -> bool.
  Variable isect_area : nat -> nat -> Q.
  Variables n1 n2 : nat.
  Variables area1 area2 : nat -> Q.

  (* contract of shapely + "two tessellations of one polygon":
     isect_area i j is the area of (triangle i of the first) ∩ (triangle j of the second) *)
  Definition tri_contract : Prop :=
    (forall i j, (i < n1)%nat -> (j < n2)%nat -> 0 <= isect_area i j) /\
    (* disjoint bounding boxes: no common area *)
    (forall i j, (i < n1)%nat -> (j < n2)%nat -> candidate i j = false -> isect_area i j == 0) /\
    (* an intersection that is not a Polygon (empty, point, line) has no area *)
    (forall i j, (i < n1)%nat -> (j < n2)%nat -> is_polygon i j = false -> isect_area i j == 0) /\
    (* additivity of area: the second tessellation covers every triangle of the first ... *)
    (forall i, (i < n1)%nat -> qsum (map (isect_area i) (seq 0 n2)) == area1 i) /\
    (* ... and vice versa *)
    (forall j, (j < n2)%nat -> qsum (map (fun i => isect_area i j) (seq 0 n1)) == area2 j).

  Lemma triangulations_table :
    triangulations is_polygon isect_area candidate n1 n2 =
    table (fun i => i) (fun j => j) (fun i j => candidate i j && is_polygon i j) isect_area
          (seq 0 n1) (seq 0 n2).
  Proof.
    apply flat_map_ext. intros i. unfold block.
    induction (seq 0 n2) as [|j r IH]; cbn [tri_inner filter map]; [reflexivity|].
    destruct (candidate i j && is_polygon i j); cbn [map]; rewrite IH; reflexivity.
  Qed.

  Lemma tri_entries_nonneg : tri_contract ->
      Forall (fun e => 0 <= ewt e) (triangulations is_polygon isect_area candidate n1 n2).
  Proof.
    intros [Hnn _]. rewrite triangulations_table. apply table_nonneg.
    intros i j Hi Hj. apply in_seq in Hi, Hj. apply Hnn; lia.
  Qed.

  Lemma tri_sums : tri_contract ->
      let l := triangulations is_polygon isect_area candidate n1 n2 in
      (forall i, (i < n1)%nat -> row_sum l i == area1 i) /\
      (forall j, (j < n2)%nat -> col_sum l j == area2 j).
  Proof.
    intros [_ [Hc [Hp [A1 A2]]]] l. unfold l. rewrite triangulations_table.
    assert (K : forall i j, In i (seq 0 n1) -> In j (seq 0 n2) ->
                candidate i j && is_polygon i j = false -> isect_area i j == 0).
    { intros i j Hi Hj H. apply in_seq in Hi, Hj. apply andb_false_iff in H.
      destruct H; [apply Hc | apply Hp]; auto; lia. }
    split.
    - intros i Hi. rewrite <- (A1 i Hi).
      apply (table_row K); [rewrite map_id; apply seq_NoDup | apply in_seq; lia | reflexivity].
    - intros j Hj. rewrite <- (A2 j Hj).
      apply (table_col K); [rewrite map_id; apply seq_NoDup | apply in_seq; lia | reflexivity].
  Qed.

  (* match_2d: new_g.cell_volumes / old_g.cell_volumes are the triangle areas *)
  Lemma match_2d_sums : tri_contract -> forall tol,
      let l := triangulations is_polygon isect_area candidate n1 n2 in
      (forall i, (i < n1)%nat -> ~ area1 i == 0 ->
         row_sum (scale_entries area1 area2 tol Averaged l) i == 1) /\
      (forall j, (j < n2)%nat -> ~ area2 j == 0 ->
         col_sum (scale_entries area1 area2 tol Integrated l) j == 1).
  Proof.
    intros Hc tol l. destruct (tri_sums Hc) as [R C].
    split; intros; [apply avg_unit_row | apply int_unit_col]; auto.
  Qed.
End Tri.
