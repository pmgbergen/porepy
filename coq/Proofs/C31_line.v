(* C31 — sort_points_on_line: the stable argsort of the model returns a permutation of the
   indices that lists the sort keys in non-decreasing order; for points on a line the key is
   an affine function of the line parameter. *)
From Coq Require Import List QArith Bool ZArith Arith Lia Lqa Permutation.
Import ListNotations.
From PP Require Import Lib.ListFacts Model.C28 Model.C31 Proofs.C28 Proofs.C31_planar Proofs.C31_plane.
Open Scope Q_scope.

Fixpoint nondecr (l : list Q) : Prop :=
  match l with
  | [] => True
  | x :: r => match r with [] => True | y :: _ => x <= y end /\ nondecr r
  end.

Definition sort_points_on_line_idx (pts : list v3) : list nat := argsort (line_keys pts).

(* the argsort of C28 is the comparison-based one for qltb *)
Lemma argsort_aux_by : forall l i acc, argsort_aux l i acc = argsort_by_aux qltb l i acc.
Proof.
  induction l as [|v l IH]; intros i acc; cbn; [reflexivity|]. rewrite IH. f_equal.
  induction acc as [|[w j] r IHr]; cbn; [|rewrite IHr]; reflexivity.
Qed.

Lemma qltb_asym : forall x y, qltb x y = true -> qltb y x = false.
Proof. intros x y. rewrite qltb_true, qltb_false. lra. Qed.

Lemma no_descent_nondecr : forall l, no_descent _ qltb l -> nondecr l.
Proof.
  induction l as [|x [|y r] IH]; cbn [no_descent nondecr] in *; [tauto ..|].
  rewrite qltb_false. tauto.
Qed.

Lemma argsort_spec : forall keys,
  Permutation (argsort keys) (seq 0 (length keys)) /\
  nondecr (map (fun i => nth i keys 0) (argsort keys)).
Proof.
  intro keys. unfold argsort. rewrite argsort_aux_by.
  destruct (argsort_by_spec _ qltb qltb_asym keys 0) as [P N].
  split; [exact P|exact (no_descent_nondecr _ N)].
Qed.

(* the key is the z-coordinate of the centred point when the tangent (the longest centred
   vector, first maximiser) is parallel to e_z, its component along the tangent otherwise *)
Lemma line_keys_eq : forall pts,
  let rel := map (fun p => sub3 p (mean3 pts)) pts in
  let t := nth (argmax_list (map (fun w => dot3 w w) rel)) rel (0, 0, 0) in
  line_keys pts = if Qeq_bool (fst (fst t)) 0 && Qeq_bool (snd (fst t)) 0
                  then map snd rel else map (fun w => dot3 w t) rel.
Proof.
  intro pts. unfold line_keys, argmax_list. cbv zeta.
  destruct (nth _ (map (fun p => sub3 p (mean3 pts)) pts) (0, 0, 0)) as [[tx ty] tz]. reflexivity.
Qed.

Lemma line_keys_length : forall pts, length (line_keys pts) = length pts.
Proof.
  intro pts. rewrite line_keys_eq. cbv zeta. destruct (_ && _); rewrite !map_length; reflexivity.
Qed.

(* argmax_first returns a maximiser; pre is the part of the list already inspected *)
Lemma argmax_first_spec : forall r pre best bi,
  (bi < length pre)%nat -> best = nth bi (pre ++ r) 0 ->
  (forall j, (j < length pre)%nat -> nth j (pre ++ r) 0 <= best) ->
  let k := argmax_first r (length pre) best bi in
  (k < length (pre ++ r))%nat /\
  forall j, (j < length (pre ++ r))%nat -> nth j (pre ++ r) 0 <= nth k (pre ++ r) 0.
Proof.
  induction r as [|x r IH]; intros pre best bi Hb Hbest Hmax; cbn [argmax_first].
  - rewrite app_nil_r in *. split; [exact Hb|]. rewrite <- Hbest. exact Hmax.
  - assert (Ex : nth (length pre) (pre ++ x :: r) 0 = x) by apply nth_middle.
    replace (pre ++ x :: r) with ((pre ++ [x]) ++ r) in * by (rewrite <- app_assoc; reflexivity).
    rewrite <- (last_length pre x).
    assert (Hlt : forall j, (j < length (pre ++ [x]))%nat -> (j < length pre)%nat \/ j = length pre)
      by (intro j; rewrite last_length; lia).
    destruct (qltb best x) eqn:Q; [apply qltb_true in Q|apply qltb_false in Q]; apply IH;
      try (rewrite last_length; lia); try (symmetry; exact Ex); try exact Hbest;
      intros j Hj; (destruct (Hlt j Hj) as [L | ->]; [specialize (Hmax j L)|rewrite Ex]); lra.
Qed.

Lemma argmax_list_spec : forall l, l <> [] ->
  (argmax_list l < length l)%nat /\
  forall j, (j < length l)%nat -> nth j l 0 <= nth (argmax_list l) l 0.
Proof.
  intros [|x r] H; [contradiction|].
  apply (argmax_first_spec r [x] x 0%nat); cbn; [lia|reflexivity|].
  intros j Hj. replace j with 0%nat by lia. lra.
Qed.

Definition eq3 (a b : v3) : Prop :=
  fst (fst a) == fst (fst b) /\ snd (fst a) == snd (fst b) /\ snd a == snd b.

Definition lpt (a v : v3) (s : Q) : v3 :=
  (fst (fst a) + s * fst (fst v), snd (fst a) + s * snd (fst v), snd a + s * snd v).

Definition scale3 (c : Q) (v : v3) : v3 := (c * fst (fst v), c * snd (fst v), c * snd v).

Definition qsum (l : list Q) : Q := fold_right Qplus 0 l.
Definition qlen (l : list Q) : Q := inject_Z (Z.of_nat (length l)).

Lemma sum3_line : forall a v ss,
  eq3 (sum3 (map (lpt a v) ss)) (lpt (scale3 (qlen ss) a) v (qsum ss)).
Proof.
  intros a v ss. induction ss as [|s ss IH].
  - unfold eq3, qlen, qsum. cbn. repeat split; ring.
  - cbn [map sum3 fold_right]. fold (sum3 (map (lpt a v) ss)).
    destruct (sum3 (map (lpt a v) ss)) as [[x y] z].
    unfold eq3 in *. cbn [fst snd lpt scale3] in *. destruct IH as (Hx & Hy & Hz).
    rewrite (nlen_cons s ss : qlen (s :: ss) == qlen ss + 1). unfold qsum in *. cbn [fold_right].
    rewrite Hx, Hy, Hz. repeat split; ring.
Qed.

Lemma mean3_line : forall a v ss, ss <> [] ->
  eq3 (mean3 (map (lpt a v) ss)) (lpt a v (qsum ss / qlen ss)).
Proof.
  intros a v ss Hne. unfold mean3. pose proof (sum3_line a v ss) as H.
  destruct (sum3 (map (lpt a v) ss)) as [[x y] z]. rewrite map_length.
  fold (qlen ss). pose proof (nlen_pos ss Hne : 0 < qlen ss) as P.
  unfold eq3, lpt, scale3 in *. cbn [fst snd] in *.
  destruct H as (Hx & Hy & Hz). rewrite Hx, Hy, Hz.
  repeat split; field; lra.
Qed.

Lemma sub3_line : forall a v s m sb, eq3 m (lpt a v sb) ->
  eq3 (sub3 (lpt a v s) m) (scale3 (s - sb) v).
Proof.
  intros [[ax ay] az] [[vx vy] vz] s [[mx my] mz] sb. unfold eq3, lpt, sub3, scale3. cbn [fst snd].
  intros (Hx & Hy & Hz). rewrite Hx, Hy, Hz. repeat split; ring.
Qed.

Lemma dot3_eq3 : forall a b a' b', eq3 a a' -> eq3 b b' -> dot3 a b == dot3 a' b'.
Proof.
  intros [[a0 a1] a2] [[b0 b1] b2] [[c0 c1] c2] [[d0 d1] d2]. unfold eq3, dot3. cbn [fst snd].
  intros (H0 & H1 & H2) (K0 & K1 & K2). rewrite H0, H1, H2, K0, K1, K2. reflexivity.
Qed.

Lemma dot3_scale : forall c c' v, dot3 (scale3 c v) (scale3 c' v) == c * c' * dot3 v v.
Proof. intros c c' [[vx vy] vz]. unfold dot3, scale3. cbn [fst snd]. ring. Qed.

(* for points a + s_i v the tangent is (s_k - mean s) v for an index k that maximises
   |s_i - mean s| |v|, and the sort keys are one multiple of s_i - mean s: by the
   z-coordinate of v when the tangent is parallel to e_z, by (s_k - mean s) v.v otherwise *)
Lemma line_keys_line : forall a v ss, ss <> [] ->
  let sb := qsum ss / qlen ss in
  exists k, (k < length ss)%nat /\
    (forall j, (j < length ss)%nat ->
       (nth j ss 0 - sb) * (nth j ss 0 - sb) * dot3 v v
       <= (nth k ss 0 - sb) * (nth k ss 0 - sb) * dot3 v v) /\
    exists c,
      (c == snd v /\ (nth k ss 0 - sb) * fst (fst v) == 0 /\ (nth k ss 0 - sb) * snd (fst v) == 0
       \/ c == (nth k ss 0 - sb) * dot3 v v) /\
      forall i, (i < length ss)%nat ->
        nth i (line_keys (map (lpt a v) ss)) 0 == c * (nth i ss 0 - sb).
Proof.
  intros a v ss Hne sb. pose proof (mean3_line a v ss Hne) as Hm. fold sb in Hm.
  rewrite line_keys_eq. cbv zeta. set (m := mean3 (map (lpt a v) ss)) in *.
  set (rel := map (fun p => sub3 p m) (map (lpt a v) ss)).
  assert (Lrel : length rel = length ss) by (unfold rel; rewrite !map_length; reflexivity).
  assert (Hrel : forall i, (i < length ss)%nat ->
            eq3 (nth i rel (0, 0, 0)) (scale3 (nth i ss 0 - sb) v)).
  { intros i Hi. unfold rel. rewrite map_map.
    rewrite (nth_map_lt _ ss i 0 _ Hi). apply sub3_line. exact Hm. }
  set (norms := map (fun w : v3 => dot3 w w) rel).
  assert (Hnorm : forall i, (i < length ss)%nat ->
            nth i norms 0 == (nth i ss 0 - sb) * (nth i ss 0 - sb) * dot3 v v).
  { intros i Hi. unfold norms. rewrite (nth_map_lt _ rel i (0, 0, 0)) by lia.
    rewrite (dot3_eq3 _ _ _ _ (Hrel i Hi) (Hrel i Hi)). apply dot3_scale. }
  assert (Ln : length norms = length ss) by (unfold norms; rewrite map_length; exact Lrel).
  destruct (argmax_list_spec norms) as [Hk Hmax].
  { intro E. rewrite E in Ln. destruct ss; [contradiction|discriminate]. }
  rewrite Ln in Hk, Hmax. set (k := argmax_list norms) in *. exists k. split; [exact Hk|]. split.
  { intros j Hj. rewrite <- (Hnorm j Hj), <- (Hnorm k Hk). exact (Hmax j Hj). }
  pose proof (Hrel k Hk) as Ht.
  destruct (nth k rel (0, 0, 0)) as [[tx ty] tz]. pose proof Ht as (Hx & Hy & _). cbn [fst snd scale3] in Hx, Hy |- *.
  destruct (Qeq_bool tx 0 && Qeq_bool ty 0) eqn:EB.
  - apply andb_prop in EB. destruct EB as [E1 E2]. apply Qeq_bool_iff in E1, E2.
    exists (snd v). split; [left; rewrite <- Hx, <- Hy; auto with qarith|].
    intros i Hi. rewrite (nth_map_lt _ rel i (0, 0, 0)) by lia.
    destruct (Hrel i Hi) as (_ & _ & Hz). cbn [fst snd scale3] in Hz. rewrite Hz. ring.
  - exists ((nth k ss 0 - sb) * dot3 v v). split; [right; reflexivity|].
    intros i Hi. rewrite (nth_map_lt _ rel i (0, 0, 0)) by lia.
    rewrite (dot3_eq3 _ _ _ _ (Hrel i Hi) Ht), dot3_scale. ring.
Qed.

Lemma line_keys_affine : forall a v ss, ss <> [] ->
  exists c, forall i, (i < length ss)%nat ->
    nth i (line_keys (map (lpt a v) ss)) 0 == c * (nth i ss 0 - qsum ss / qlen ss).
Proof.
  intros a v ss Hne. destruct (line_keys_line a v ss Hne) as (k & _ & _ & c & _ & H).
  exists c. exact H.
Qed.

Fixpoint all_eq (l : list Q) (x : Q) : Prop :=
  match l with [] => True | y :: r => y == x /\ all_eq r x end.

Lemma all_eq_nth : forall l x, (forall i, (i < length l)%nat -> nth i l 0 == x) -> all_eq l x.
Proof.
  induction l as [|y r IH]; intros x H; cbn; [exact I|]. split.
  - apply (H 0%nat). cbn. lia.
  - apply IH. intros i Hi. apply (H (S i)). cbn. lia.
Qed.

(* unless all points coincide, the common factor is not zero *)
Lemma line_keys_affine_nz : forall a v ss, ss <> [] ->
  ~ (fst (fst v) == 0 /\ snd (fst v) == 0 /\ snd v == 0) ->
  ~ all_eq ss (qsum ss / qlen ss) ->
  exists c, ~ c == 0 /\ forall i, (i < length ss)%nat ->
    nth i (line_keys (map (lpt a v) ss)) 0 == c * (nth i ss 0 - qsum ss / qlen ss).
Proof.
  intros a v ss Hne Hv Hns.
  destruct (line_keys_line a v ss Hne) as (k & Hk & Hmax & c & Hc & H).
  pose proof (dot3_self_pos v Hv) as NV.
  set (sb := qsum ss / qlen ss) in *. set (sg := nth k ss 0 - sb) in *.
  assert (SG : ~ sg == 0).
  { intro Z0. apply Hns. apply all_eq_nth. intros i Hi.
    specialize (Hmax i Hi). rewrite Z0 in Hmax.
    assert (S1 : (nth i ss 0 - sb) * (nth i ss 0 - sb) <= 0) by nra. nra. }
  exists c. split; [|exact H]. intro Z0. destruct Hc as [(Ec & P1 & P2) | Ec]; rewrite Z0 in Ec.
  - apply Hv. destruct (Qmult_integral _ _ P1), (Qmult_integral _ _ P2); try contradiction.
    auto with qarith.
  - symmetry in Ec. destruct (Qmult_integral _ _ Ec); [contradiction|lra].
Qed.

Lemma nondecr_shift : forall (f g : nat -> Q) (k : Q) (idx : list nat),
  (forall i, In i idx -> f i == g i - k) ->
  nondecr (map f idx) -> nondecr (map g idx).
Proof.
  intros f g k idx. induction idx as [|x r IH]; intros H N; cbn [map nondecr] in *; [exact I|].
  destruct N as [N1 N2]. split.
  - destruct r as [|y r']; [exact I|]. cbn [map] in *.
    rewrite (H x (or_introl eq_refl)), (H y (or_intror (or_introl eq_refl))) in N1. lra.
  - apply IH; [|exact N2]. intros i Hi. apply H. right. exact Hi.
Qed.

(* sort_points_on_line on points a + s_i v (v <> 0, not all equal): the returned order is a
   permutation along which the line parameter is monotone (c * s non-decreasing, c <> 0) *)
Lemma sort_on_line_monotone : forall a v ss, ss <> [] ->
  ~ (fst (fst v) == 0 /\ snd (fst v) == 0 /\ snd v == 0) ->
  ~ all_eq ss (qsum ss / qlen ss) ->
  let idx := sort_points_on_line_idx (map (lpt a v) ss) in
  Permutation idx (seq 0 (length ss)) /\
  exists c, ~ c == 0 /\ nondecr (map (fun i => c * nth i ss 0) idx).
Proof.
  intros a v ss Hne Hv Hns idx.
  destruct (argsort_spec (line_keys (map (lpt a v) ss))) as [P N].
  fold (sort_points_on_line_idx (map (lpt a v) ss)) in P, N. fold idx in P, N.
  rewrite line_keys_length, map_length in P. split; [exact P|].
  destruct (line_keys_affine_nz a v ss Hne Hv Hns) as (c & Hc & Hk).
  exists c. split; [exact Hc|].
  apply (nondecr_shift (fun i => nth i (line_keys (map (lpt a v) ss)) 0)
                       (fun i => c * nth i ss 0) (c * (qsum ss / qlen ss)) idx); [|exact N].
  intros i Hi. apply (Permutation_in _ P) in Hi. apply in_seq in Hi.
  rewrite (Hk i ltac:(lia)). ring.
Qed.
