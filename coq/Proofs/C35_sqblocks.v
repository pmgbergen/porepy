(* C35 — block diagonal matrices with square blocks: block_diag_matrix and
   csr/csc_matrix_from_dense_blocks. *)
From Coq Require Import List ZArith Bool Arith Lia.
Import ListNotations.
From PP Require Import Lib.ListFacts Lib.Csr Model.C35 Proofs.C35 Proofs.C35_rl Proofs.C35_csr Proofs.C35_bdi.

(* one descriptor (first column, width) per matrix row *)
Fixpoint row_descr (off : nat) (sz : list nat) : list (nat * nat) :=
  match sz with [] => [] | s :: r => repeat (off, s) s ++ row_descr (off + s) r end.

Definition seqd (d : nat * nat) : list nat := seq (fst d) (snd d).

Fixpoint chunks {E} (lens : list nat) (l : list E) : list (list E) :=
  match lens with [] => [] | n :: r => firstn n l :: chunks r (skipn n l) end.

(* dense reference: row t holds its piece of the values in the columns of its block *)
Definition sq_dense (N : nat) (ds : list (nat * nat)) (vals : list Z) : list (list Z) :=
  map2 (fun d c => repeat 0%Z (fst d) ++ c ++ repeat 0%Z (N - fst d - snd d)) ds (chunks (map snd ds) vals).

(* the matrix both constructors build, and its lines *)
Definition sq_csr (N : nat) (ds : list (nat * nat)) (vals : list Z) : csr :=
  {| nmaj := length ds; nmin := N; indptr := 0 :: cumsumN 0 (map snd ds);
     indices := concat (map seqd ds); data := vals |}.

Definition sq_lines (ds : list (nat * nat)) (vals : list Z) : list (list (nat * Z)) :=
  map2 (fun d c => combine (seqd d) c) ds (chunks (map snd ds) vals).

Lemma sq_storage : forall ds (vals : list Z), length vals = sum_nat (map snd ds) ->
  combine (concat (map seqd ds)) vals = concat (sq_lines ds vals) /\
  map (@length _) (sq_lines ds vals) = map snd ds.
Proof.
  unfold sq_lines. induction ds as [|d r IH]; intros vals H; [split; reflexivity|].
  cbn [map concat chunks map2] in *. rewrite sum_nat_cons in H.
  destruct (IH (skipn (snd d) vals)) as [IH1 IH2]; [rewrite skipn_length; lia|].
  assert (Hl : length (seqd d) = length (firstn (snd d) vals))
    by (unfold seqd; rewrite seq_length, firstn_length; lia).
  split.
  - etransitivity; [apply f_equal; symmetry; apply (firstn_skipn (snd d))|].
    rewrite combine_app', IH1 by exact Hl. reflexivity.
  - rewrite IH2, combine_length, <- Hl. unfold seqd. rewrite seq_length, Nat.min_id. reflexivity.
Qed.

Lemma sq_rows : forall N ds vals, length vals = sum_nat (map snd ds) ->
  rows (sq_csr N ds vals) = sq_lines ds vals.
Proof.
  intros N ds vals H. destruct (sq_storage ds vals H) as [He Hl].
  unfold rows, entries, sq_csr. cbn [indptr indices data]. rewrite He, <- Hl.
  apply rows_of_lines.
Qed.

Lemma entry_sum_mid : forall (chunk : list Z) off,
  map (fun j => entry_sum j (combine (seq off (length chunk)) chunk)) (seq off (length chunk)) = chunk.
Proof.
  induction chunk as [|v chunk IH]; intros off; [reflexivity|].
  cbn [length seq combine map]. f_equal.
  - cbn [entry_sum fold_right fst snd]. rewrite Nat.eqb_refl.
    fold (entry_sum off (combine (seq (S off) (length chunk)) chunk)).
    rewrite entry_sum_out; [lia|].
    apply Forall_forall. intros [j w] Hin. apply in_combine_l in Hin. apply in_seq in Hin. cbn [fst]. lia.
  - rewrite <- (IH (S off)) at 2. apply map_ext_in. intros j Hj. apply in_seq in Hj.
    cbn [entry_sum fold_right fst snd].
    replace (off =? j) with false by (symmetry; apply Nat.eqb_neq; lia). reflexivity.
Qed.

Lemma dense_row_sq : forall N off k (chunk : list Z), length chunk = k -> off + k <= N ->
  dense_row N (combine (seq off k) chunk) = repeat 0%Z off ++ chunk ++ repeat 0%Z (N - off - k).
Proof.
  intros N off k chunk <- H. unfold dense_row.
  assert (Hin : Forall (fun e : nat * Z => off <= fst e < off + length chunk)
                       (combine (seq off (length chunk)) chunk)).
  { apply Forall_forall. intros [j w] Hin. apply in_combine_l in Hin. apply in_seq in Hin. exact Hin. }
  replace N with (off + (length chunk + (N - off - length chunk))) at 1 by lia.
  rewrite !seq_app, !map_app. cbn [Nat.add]. f_equal; [|f_equal].
  - apply dense_zero. eapply Forall_impl; [|exact Hin]. cbn. intros; lia.
  - apply entry_sum_mid.
  - apply dense_zero. eapply Forall_impl; [|exact Hin]. cbn. intros; lia.
Qed.

Theorem sq_to_dense : forall N ds vals, length vals = sum_nat (map snd ds) ->
  Forall (fun d => fst d + snd d <= N) ds ->
  to_dense (sq_csr N ds vals) = sq_dense N ds vals.
Proof.
  intros N ds vals H HN. unfold to_dense, sq_dense. rewrite sq_rows by exact H. cbn [nmin sq_csr].
  unfold sq_lines. revert vals H. induction ds as [|d r IH]; intros vals H; [reflexivity|].
  inversion HN as [|d' r' Hd Hr]; subst d' r'.
  cbn [map chunks map2] in *. rewrite sum_nat_cons in H. f_equal.
  - apply dense_row_sq; [rewrite firstn_length|]; lia.
  - apply IH; [exact Hr|]. rewrite skipn_length. lia.
Qed.

Lemma row_descr_bounds : forall sz off N, off + sum_nat sz = N ->
  Forall (fun d => fst d + snd d <= N) (row_descr off sz).
Proof.
  induction sz as [|s r IH]; intros off N H; [constructor|]. rewrite sum_nat_cons in H.
  cbn [row_descr]. apply Forall_app. split; [|apply IH; lia].
  apply Forall_forall. intros d Hd. apply repeat_spec in Hd. subst d. cbn [fst snd]. lia.
Qed.

Lemma row_descr_length : forall sz off, length (row_descr off sz) = sum_nat sz.
Proof.
  induction sz as [|s r IH]; intros off; [reflexivity|]. cbn [row_descr].
  rewrite app_length, repeat_length, IH. reflexivity.
Qed.

Lemma row_descr_widths : forall sz off, map snd (row_descr off sz) = flat_map (fun s => repeat s s) sz.
Proof.
  induction sz as [|s r IH]; intros off; [reflexivity|]. cbn [row_descr flat_map].
  rewrite map_app, map_repeat', IH. reflexivity.
Qed.

Lemma row_descr_indices : forall sz off, concat (map seqd (row_descr off sz)) = bdi1_spec off sz.
Proof.
  induction sz as [|s r IH]; intros off; [reflexivity|]. cbn [row_descr bdi1_spec].
  rewrite map_app, concat_app, map_repeat', IH. reflexivity.
Qed.

Lemma widths_sum : forall sz, sum_nat (flat_map (fun s => repeat s s) sz) = sum_nat (map (fun s => s * s) sz).
Proof.
  induction sz as [|s r IH]; [reflexivity|]. cbn [flat_map map].
  rewrite sum_nat_app, sum_repeat, sum_nat_cons, IH. reflexivity.
Qed.

Lemma rldecode_sizes : forall sz : list nat,
  rldecode sz (map Z.of_nat sz) = Ok (flat_map (fun s => repeat s s) sz).
Proof.
  intros sz. rewrite rldecode_spec by (rewrite map_length; lia). f_equal.
  induction sz as [|s r IH]; [reflexivity|]. cbn [map combine flat_map]. unfold rep at 1. cbn [fst snd].
  rewrite Nat2Z.id, IH. reflexivity.
Qed.

Lemma bdm_csr : forall vals sz,
  block_diag_matrix vals sz = Ok (sq_csr (sum_nat sz) (row_descr 0 sz) vals).
Proof.
  intros vals sz. unfold block_diag_matrix, sq_csr. rewrite rldecode_sizes.
  rewrite row_descr_length, row_descr_widths, row_descr_indices, bdi1_closed_form. reflexivity.
Qed.

Lemma arange_step : forall bs n a,
  map (fun k => k * bs) (seq a (S n)) = (a * bs) :: cumsumN (a * bs) (repeat bs n).
Proof.
  induction n as [|n IH]; intros a; [reflexivity|].
  change (seq a (S (S n))) with (a :: seq (S a) (S n)). cbn [map repeat cumsumN].
  rewrite IH. f_equal. f_equal; [lia|]. f_equal. lia.
Qed.

Lemma widths_uniform : forall bs nb, flat_map (fun s => repeat s s) (repeat bs nb) = repeat bs (nb * bs).
Proof.
  induction nb as [|nb IH]; [reflexivity|]. cbn [repeat flat_map]. rewrite IH, <- repeat_app. reflexivity.
Qed.

Lemma map2_add_const : forall (X : list nat) c n, length X = n ->
  map2 Nat.add X (repeat c n) = map (fun k => k + c) X.
Proof. induction X as [|x X IH]; intros c n <-; simpl; [reflexivity|]. rewrite IH; reflexivity. Qed.

(* tile(tile(arange(bs), bs), nb) + bs * (block number, bs * bs times each) *)
Lemma dense_indices_gen : forall bs nb a,
  map2 Nat.add (tile (tile (seq 0 bs) bs) nb)
       (flat_map (fun j => repeat (j * bs) (bs * bs)) (seq a nb))
  = bdi1_spec (a * bs) (repeat bs nb).
Proof.
  intros bs. induction nb as [|nb IH]; intros a; [reflexivity|].
  unfold tile in *. cbn [repeat concat seq flat_map bdi1_spec].
  assert (HX : length (concat (repeat (seq 0 bs) bs)) = bs * bs)
    by (rewrite concat_repeat_length, seq_length; reflexivity).
  rewrite map2_app by (rewrite repeat_length; exact HX).
  rewrite map2_add_const, concat_map, map_repeat' by exact HX.
  rewrite (map_ext _ (fun k => a * bs + k)) by (intros; lia). rewrite map_add_seq, Nat.add_0_r.
  f_equal. rewrite IH. f_equal. lia.
Qed.

(* the F-ravel of bs * bs equal rows arange(nb), times bs *)
Lemma incr_form : forall bs nb,
  map (fun b => b * bs)
      (flat_map (fun j => map (fun r => nth j r 0) (repeat (seq 0 nb) (bs * bs))) (seq 0 nb))
  = flat_map (fun j => repeat (j * bs) (bs * bs)) (seq 0 nb).
Proof.
  intros bs nb. rewrite !flat_map_concat_map, concat_map, map_map. f_equal.
  apply map_ext_in. intros j Hj. apply in_seq in Hj.
  rewrite !map_repeat'. f_equal. rewrite seq_nth by lia. reflexivity.
Qed.

Lemma indices_unit : forall nb a, bdi1_spec a (repeat 1 nb) = seq a nb.
Proof.
  induction nb as [|nb IH]; intros a; [reflexivity|]. cbn [repeat bdi1_spec seq concat app].
  f_equal. rewrite IH. f_equal. lia.
Qed.

Lemma dense_blocks_csr : forall vals bs nb, 1 <= bs -> length vals = bs * bs * nb ->
  csx_from_dense_blocks vals bs nb = Ok (sq_csr (nb * bs) (row_descr 0 (repeat bs nb)) vals).
Proof.
  intros vals bs nb Hbs Hlen. unfold csx_from_dense_blocks, sq_csr.
  rewrite (proj2 (Nat.eqb_eq _ _) Hlen). cbn [negb].
  rewrite row_descr_length, row_descr_widths, row_descr_indices, widths_uniform, sum_repeat.
  rewrite Nat.add_1_r, arange_step, (Nat.mul_comm bs nb). do 2 f_equal.
  destruct (1 <? bs) eqn:E.
  - rewrite incr_form. apply (dense_indices_gen bs nb 0).
  - apply Nat.ltb_ge in E. assert (bs = 1) by lia. subst bs. symmetry. apply indices_unit.
Qed.
