(* C13 — proofs about the MPSA-W interaction-region model and the matrix-level residuals
   (PP.Model.C13) at the reals. *)
From Coq Require Import List ZArith Bool Arith Lia Reals Lra.
Import ListNotations.
From PP Require Import Model.C11 Model.C13 Model.C13_local Proofs.C11.

Local Open Scope R_scope.

Notation rsumn := (sumn R RO).
Notation rhooke := (hooke R RO).
Notation rhookeW := (hookeW R RO).
Notation rmulmvf := (mulmvf R RO).
Notation rvsubf := (vsubf R RO).
Notation rwavg := (wavg R RO).
Notation rtractionW := (tractionW R RO).
Notation rsubdisp := (subdisp R RO).
Notation rlocal_systemV := (local_systemV R RO).
Notation rulin := (ulin R RO).
Notation rkeep_asym := (keep_asym R).

Notation rufield := (ufield R RO).
Notation rexactT := (exactT R RO).
Notation rucellV := (ucellV R RO).
Notation rbdataV := (bdataV R RO).
Notation rstress_of := (stress_of R RO).
Notation rdisp_of := (disp_of R RO).
Notation rexactT_row := (exactT_row R RO).
Notation rexactU_row := (exactU_row R RO).
Notation rres_T := (res_T R RO).
Notation rres_U := (res_U R RO).
Notation rcadd := (cadd R RO).
Notation rcscale := (cscale R RO).
Notation rczero := (czero R RO).
Notation rbasisV := (basisV R RO).
Notation rcomb := (comb R RO).

Lemma sumn_ext n (f g : nat -> R) : (forall j, (j < n)%nat -> f j = g j) -> rsumn n f = rsumn n g.
Proof.
  induction n as [|n IH]; intros H; [reflexivity|]. cbn [sumn]; ro.
  rewrite IH by (intros; apply H; lia). rewrite H by lia. reflexivity.
Qed.

Lemma sumn_minus n (f g : nat -> R) : rsumn n (fun j => f j - g j) = rsumn n f - rsumn n g.
Proof. induction n as [|n IH]; cbn [sumn]; ro; [ring|]. rewrite IH. ring. Qed.

Lemma sumn_scal_r n (f : nat -> R) (c : R) : rsumn n (fun j => f j * c) = rsumn n f * c.
Proof. induction n as [|n IH]; cbn [sumn]; ro; [ring|]. rewrite IH. ring. Qed.

Lemma sumn_zero n (f : nat -> R) : (forall j, (j < n)%nat -> f j = 0) -> rsumn n f = 0.
Proof.
  induction n as [|n IH]; intros H; [reflexivity|]. cbn [sumn]; ro.
  rewrite IH by (intros; apply H; lia). rewrite H by lia. ring.
Qed.

Lemma sumn_plus n (f g : nat -> R) : rsumn n (fun j => f j + g j) = rsumn n f + rsumn n g.
Proof. induction n as [|n IH]; cbn [sumn]; ro; [ring|]. rewrite IH. ring. Qed.

Lemma sumn_scal_l n (f : nat -> R) (c : R) : rsumn n (fun j => c * f j) = c * rsumn n f.
Proof. induction n as [|n IH]; cbn [sumn]; ro; [ring|]. rewrite IH. ring. Qed.

Lemma sumn_le n (f g : nat -> R) : (forall j, (j < n)%nat -> f j <= g j) -> rsumn n f <= rsumn n g.
Proof.
  induction n as [|n IH]; intros H; cbn [sumn]; ro; [lra|].
  pose proof (IH (fun j Hj => H j ltac:(lia))). pose proof (H n ltac:(lia)). lra.
Qed.

Lemma sumn_abs n (f : nat -> R) : Rabs (rsumn n f) <= rsumn n (fun j => Rabs (f j)).
Proof.
  induction n as [|n IH]; cbn [sumn]; ro; [rewrite Rabs_R0; lra|].
  pose proof (Rabs_triang (rsumn n f) (f n)). lra.
Qed.

Lemma sumn_abs_bound n (e x : nat -> R) M :
  (forall j, (j < n)%nat -> Rabs (x j) <= M) ->
  Rabs (rsumn n (fun j => e j * x j)) <= rsumn n (fun j => Rabs (e j)) * M.
Proof.
  intros H. eapply Rle_trans; [apply sumn_abs|]. rewrite <- sumn_scal_r. apply sumn_le.
  intros j Hj. rewrite Rabs_mult. apply Rmult_le_compat_l; [apply Rabs_pos | apply H, Hj].
Qed.

Lemma sumn_swap n m (f : nat -> nat -> R) :
  rsumn n (fun i => rsumn m (fun j => f i j)) = rsumn m (fun j => rsumn n (fun i => f i j)).
Proof.
  induction n as [|n IH]; cbn [sumn]; ro.
  - symmetry. apply sumn_zero. reflexivity.
  - rewrite IH. rewrite <- sumn_plus. reflexivity.
Qed.

Lemma sumn_delta n (x : nat -> R) i :
  (i < n)%nat -> rsumn n (fun j => (if (i =? j)%nat then 1 else 0) * x j) = x i.
Proof.
  induction n as [|n IH]; intros Hi; [lia|]. cbn [sumn]; ro.
  destruct (Nat.eq_dec i n) as [E|NE].
  - subst i. rewrite Nat.eqb_refl. rewrite sumn_zero; [ring|].
    intros j Hj. destruct (n =? j)%nat eqn:Ej; [apply Nat.eqb_eq in Ej; lia | ring].
  - rewrite IH by lia. destruct (i =? n)%nat eqn:Ei; [apply Nat.eqb_eq in Ei; lia | ring].
Qed.

Lemma mulmvf_ext d (G A : nat -> nat -> R) (n : nat -> R) i :
  (forall j, (j < d)%nat -> G i j = A i j) -> rmulmvf d G n i = rmulmvf d A n i.
Proof. intros H. apply sumn_ext. intros j Hj. ro. rewrite H by assumption. reflexivity. Qed.

Lemma mulmvf_zero d (S : nat -> nat -> R) (n : nat -> R) i :
  (forall j, (j < d)%nat -> S i j = 0) -> rmulmvf d S n i = 0.
Proof. intros H. apply sumn_zero. intros j Hj. ro. rewrite H by assumption. ring. Qed.

Lemma mulmvf_vsubf d (A : nat -> nat -> R) (x y : nat -> R) i :
  rmulmvf d A (rvsubf x y) i = rmulmvf d A x i - rmulmvf d A y i.
Proof.
  unfold mulmvf, vsubf. rewrite <- sumn_minus. apply sumn_ext. intros j _. ro. ring.
Qed.

Lemma ulin_diff d (b : nat -> R) (A : nat -> nat -> R) (x y : nat -> R) i :
  rmulmvf d A (rvsubf x y) i = rulin d b A x i - rulin d b A y i.
Proof. rewrite mulmvf_vsubf. unfold ulin; ro. ring. Qed.

Definition agrees (d : nat) (G A : nat -> nat -> R) : Prop :=
  forall i j, (i < d)%nat -> (j < d)%nat -> G i j = A i j.

Lemma wavg_agrees d m (w : nat -> R) (G : nat -> nat -> nat -> R) (A : nat -> nat -> R) :
  rsumn m w = 1 -> (forall k, (k < m)%nat -> agrees d (G k) A) -> agrees d (rwavg m w G) A.
Proof.
  intros Hw HG i j Hi Hj. unfold wavg.
  rewrite (sumn_ext m _ (fun k => w k * A i j)).
  - rewrite sumn_scal_r, Hw. ring.
  - intros k Hk. ro. rewrite HG by assumption. reflexivity.
Qed.

(* with the averaged part kept, the weakly symmetric law is Hooke's law on constant gradients *)
Lemma hookeW_agrees d mu la (G Gavg A : nat -> nat -> R) :
  agrees d G A -> agrees d Gavg A -> agrees d (rhookeW d mu la true G Gavg) (rhooke d mu la A).
Proof.
  intros HG HA i j Hi Hj. unfold hookeW, hookeS, hookeA, hooke, trace.
  rewrite (sumn_ext d _ (fun l => A l l)) by (intros; apply HG; assumption).
  rewrite (HG i j Hi Hj).
  destruct (Nat.eqb_spec i j) as [->|_]; ro; [|rewrite (HA j i Hj Hi)]; ring.
Qed.

Lemma hooke_skew d mu la (A : nat -> nat -> R) :
  (forall i j, (i < d)%nat -> (j < d)%nat -> A j i = - A i j) ->
  forall i j, (i < d)%nat -> (j < d)%nat -> rhooke d mu la A i j = 0.
Proof.
  intros HA i j Hi Hj. unfold hooke, trace.
  rewrite (sumn_zero d (fun l => A l l)).
  - rewrite (HA i j) by assumption. ro. ring.
  - intros l Hl. pose proof (HA l l Hl Hl). lra.
Qed.

Definition cell_okV (d : nat) (mu la : R) (b : nat -> R) (A : nat -> nat -> R) (c : subcellV R) : Prop :=
  sv_mu c = mu /\ sv_la c = la /\ forall i, (i < d)%nat -> sv_u c i = rulin d b A (sv_x c) i.

Definition face_okV (d m : nat) (mu la : R) (b : nat -> R) (A : nat -> nat -> R)
           (sf : subfaceV R) : Prop :=
  match sf with
  | InteriorV k1 k2 _ _ => (k1 < m)%nat /\ (k2 < m)%nat
  | DirichletV k _ xc uD => (k < m)%nat /\ forall i, (i < d)%nat -> uD i = rulin d b A xc i
  | NeumannV k n t => (k < m)%nat /\ forall i, (i < d)%nat -> t i = rmulmvf d (rhooke d mu la A) n i
  end.

Lemma tractionW_agrees d m w cells mu la (G : nat -> nat -> nat -> R) (A : nat -> nat -> R) k n i :
  rsumn m w = 1 -> sv_mu (cells k) = mu -> sv_la (cells k) = la ->
  (forall k, (k < m)%nat -> agrees d (G k) A) -> (k < m)%nat -> (i < d)%nat ->
  rtractionW d m w cells true G k n i = rmulmvf d (rhooke d mu la A) n i.
Proof.
  intros Hw <- <- HG Hk Hi. apply mulmvf_ext. intros j Hj.
  apply hookeW_agrees; [apply HG | apply wavg_agrees | |]; assumption.
Qed.

Lemma linear_solves_local :
  forall (d m : nat) (w : nat -> R) (cells : nat -> subcellV R) (faces : list (subfaceV R))
         (mu la : R) (b : nat -> R) (A : nat -> nat -> R),
    rsumn m w = 1 ->
    (forall k, (k < m)%nat -> cell_okV d mu la b A (cells k)) ->
    Forall (face_okV d m mu la b A) faces ->
    rkeep_asym m faces = true ->
    forall e, In e (rlocal_systemV d m w cells (rkeep_asym m faces) faces) ->
              elhs e (fun _ => A) = erhs e.
Proof.
  intros d m w cells faces mu la b A Hw Hc Hf Hadm e He. rewrite Hadm in He.
  apply in_flat_map in He. destruct He as [sf [Hsf He]].
  rewrite Forall_forall in Hf. specialize (Hf sf Hsf).
  destruct sf as [k1 k2 n xc | k n xc uD | k n t]; cbn [face_eqsV face_okV] in *;
    rewrite ?in_app_iff, !in_map_iff in He.
  - destruct Hf as [Hk1 Hk2].
    destruct (Hc k1 Hk1) as (Hmu1 & Hla1 & Hu1), (Hc k2 Hk2) as (Hmu2 & Hla2 & Hu2).
    destruct He as [(i & <- & Hi) | (i & <- & Hi)]; apply in_seq in Hi; cbn [elhs erhs]; ro.
    + (* traction continuity *) unfold tractionS. rewrite Hmu1, Hla1, Hmu2, Hla2. ring.
    + (* displacement continuity *) rewrite !(ulin_diff d b), Hu1, Hu2 by lia. ring.
  - (* Dirichlet *)
    destruct Hf as [Hk HuD], (Hc k Hk) as (_ & _ & Hu), He as (i & <- & Hi). apply in_seq in Hi.
    cbn [elhs erhs]; ro. rewrite (ulin_diff d b), Hu, HuD by lia. ring.
  - (* Neumann *)
    destruct Hf as [Hk Ht], (Hc k Hk) as (Hmu & Hla & _), He as (i & <- & Hi). apply in_seq in Hi.
    cbn [elhs erhs]. rewrite Ht by lia.
    apply (tractionW_agrees d m w cells mu la (fun _ => A) A); try assumption; [|lia].
    intros k' _ i' j' _ _. reflexivity.
Qed.

(* A region with data from u = b + A x whose local system has the left inverse Inv. *)
Section Region.
  Variables (d m : nat) (w : nat -> R) (cells : nat -> subcellV R) (faces : list (subfaceV R))
            (mu la : R) (b : nat -> R) (A : nat -> nat -> R)
            (Inv : list R -> nat -> nat -> nat -> R).
  Hypotheses (Hw : rsumn m w = 1)
             (Hc : forall k, (k < m)%nat -> cell_okV d mu la b A (cells k))
             (Hf : Forall (face_okV d m mu la b A) faces)
             (Hadm : rkeep_asym m faces = true).
  Let sys := rlocal_systemV d m w cells (rkeep_asym m faces) faces.
  Hypothesis Hinv : forall G k i j, (k < m)%nat -> (i < d)%nat -> (j < d)%nat ->
                                    Inv (lhs_allV R sys G) k i j = G k i j.

  Lemma unique_exact :
    let Gc := Inv (rhs_allV R sys) in
    (forall k i j, (k < m)%nat -> (i < d)%nat -> (j < d)%nat -> Gc k i j = A i j) /\
    (forall k n i, (k < m)%nat -> (i < d)%nat ->
                   rtractionW d m w cells true Gc k n i = rmulmvf d (rhooke d mu la A) n i) /\
    (forall k x i, (k < m)%nat -> (i < d)%nat -> rsubdisp d cells Gc k x i = rulin d b A x i).
  Proof.
    intros Gc.
    assert (HG : forall k, (k < m)%nat -> agrees d (Gc k) A).
    { intros k Hk i j Hi Hj. unfold Gc.
      replace (rhs_allV R sys) with (lhs_allV R sys (fun _ => A)); [apply Hinv; assumption|].
      apply map_ext_in. intros e He.
      exact (linear_solves_local d m w cells faces mu la b A Hw Hc Hf Hadm e He). }
    split; [intros k i j Hk; exact (HG k Hk i j)|]. split.
    - intros k n i Hk Hi. destruct (Hc k Hk) as (Hmu & Hla & _).
      apply (tractionW_agrees d m w cells mu la Gc A); assumption.
    - intros k x i Hk Hi. destruct (Hc k Hk) as (_ & _ & Hu). unfold subdisp.
      rewrite (mulmvf_ext d (Gc k) A), (ulin_diff d b), Hu by (intros; try apply HG; assumption). ro. ring.
  Qed.

  Lemma bound_displacement :
    forall k x i, (k < m)%nat -> (i < d)%nat ->
                  rsubdisp d cells (Inv (rhs_allV R sys)) k x i = rulin d b A x i.
  Proof. exact (proj2 (proj2 unique_exact)). Qed.

  (* fields without stress (rigid motions) give zero traction *)
  Lemma zero_traction :
    (forall i j, (i < d)%nat -> (j < d)%nat -> rhooke d mu la A i j = 0) ->
    let Gc := Inv (rhs_allV R sys) in
    forall k n i, (k < m)%nat -> (i < d)%nat -> rtractionW d m w cells true Gc k n i = 0.
  Proof.
    intros H0 Gc k n i Hk Hi. rewrite (proj1 (proj2 unique_exact)) by assumption.
    apply mulmvf_zero. intros j Hj. apply H0; assumption.
  Qed.
End Region.

(* translations: u = b everywhere, Dirichlet data b, zero Neumann traction *)
Definition cell_transl (d : nat) (mu la : R) (b : nat -> R) (c : subcellV R) : Prop :=
  sv_mu c = mu /\ sv_la c = la /\ forall i, (i < d)%nat -> sv_u c i = b i.
Definition face_transl (d m : nat) (b : nat -> R) (sf : subfaceV R) : Prop :=
  match sf with
  | InteriorV k1 k2 _ _ => (k1 < m)%nat /\ (k2 < m)%nat
  | DirichletV k _ _ uD => (k < m)%nat /\ forall i, (i < d)%nat -> uD i = b i
  | NeumannV k _ t => (k < m)%nat /\ forall i, (i < d)%nat -> t i = 0
  end.

(* a translation is the linear field with A = 0 *)
Lemma ulin_zero d (b : nat -> R) x i : rulin d b (fun _ _ => 0) x i = b i.
Proof. unfold ulin; ro. rewrite mulmvf_zero by reflexivity. ring. Qed.

Lemma hooke_zero d mu la i j : (i < d)%nat -> (j < d)%nat -> rhooke d mu la (fun _ _ => 0) i j = 0.
Proof. apply hooke_skew. intros; ring. Qed.

Lemma cell_transl_okV d mu la b c :
  cell_transl d mu la b c -> cell_okV d mu la b (fun _ _ => 0) c.
Proof.
  intros (H1 & H2 & H3). repeat split; try assumption. intros i Hi. rewrite ulin_zero. apply H3, Hi.
Qed.

Lemma face_transl_okV d m mu la b sf :
  face_transl d m b sf -> face_okV d m mu la b (fun _ _ => 0) sf.
Proof.
  destruct sf as [k1 k2 n xc | k n xc uD | k n t]; cbn [face_transl face_okV]; [tauto | |];
    intros [Hk H]; (split; [exact Hk|]); intros i Hi; rewrite H by exact Hi; symmetry.
  - apply ulin_zero.
  - apply mulmvf_zero. intros j Hj. apply hooke_zero; assumption.
Qed.

(* vector fields: c = (b, A) stands for b + A x *)
Notation linV := (linear (coefV R) rcadd rcscale).

Ltac dcoef c :=
  let b1 := fresh "b" in let b2 := fresh "b" in let b3 := fresh "b" in
  destruct c as [[[b1 b2] b3] [[[[? ?] ?] [[? ?] ?]] [[? ?] ?]]].

Lemma cadd_czero : rcadd (rcscale 1 rczero) rczero = rczero.
Proof. unfold czero, zm, z3, cadd, cscale, vadd3, vscale3; ro. repeat f_equal; ring. Qed.

Lemma linV_ufield (x : vec3 R) i : linV (fun c => comp R (rufield c x) i).
Proof.
  intros s c1 c2. dcoef c1. dcoef c2. destruct x as [[x1 x2] x3].
  destruct i as [|[|i]]; unfold ufield, cadd, cscale, vadd3, vscale3, mulmv3, dot3, comp;
    cbn [fst snd]; ro; ring.
Qed.

Definition bound_of (eps : nat -> R) (terms : list (R * nat)) : R :=
  fold_right (fun st acc => Rabs (fst st) * eps (snd st) + acc) 0 terms.

Lemma comb_bound (F : coefV R -> R) : linV F ->
  forall (eps : nat -> R) (terms : list (R * nat)),
    (forall st, In st terms -> Rabs (F (rbasisV (snd st))) <= eps (snd st)) ->
    Rabs (F (rcomb terms)) <= bound_of eps terms.
Proof.
  intros HF eps terms. induction terms as [|[s t] terms IH]; intros H; cbn [comb fold_right bound_of].
  - rewrite (linear_zero _ _ _ _ cadd_czero F HF), Rabs_R0. lra.
  - fold (rcomb terms) (bound_of eps terms). cbn [fst snd]. rewrite HF.
    pose proof (Rabs_triang (s * F (rbasisV t)) (F (rcomb terms))).
    pose proof (Rabs_scal_le s _ _ (H (s, t) (or_introl eq_refl))).
    pose proof (IH (fun st Hst => H st (or_intror Hst))). cbn [snd] in *. lra.
Qed.

Lemma linV_gstarV nd col : linV (fun c => gstarV R c nd col).
Proof.
  intros s c1 c2. dcoef c1. dcoef c2. unfold gstarV.
  destruct ((col mod (nd * nd)) / nd)%nat as [|[|i]];
    destruct ((col mod (nd * nd)) mod nd)%nat as [|[|j]]; reflexivity.
Qed.

Section MatrixLevel.
  Variable I : instV R.

  Lemma linV_exactT f i : linV (fun c => comp R (rexactT I c f) i).
  Proof.
    intros s c1 c2. dcoef c1. dcoef c2. unfold exactT. destruct (normalV I f) as [[n1 n2] n3].
    destruct i as [|[|i]]; unfold cadd, cscale, vadd3, vscale3, sigma3, mulmv3, dot3, comp;
      cbn [fst snd]; ro; ring.
  Qed.

  Lemma linV_ucellV col : linV (fun c => rucellV I c col).
  Proof. apply linV_ufield. Qed.

  Lemma linV_bdataV col : linV (fun c => rbdataV I c col).
  Proof.
    unfold bdataV. destruct (btypeV I (col / ndV I));
      [apply linear_null | apply linV_ufield | apply linear_scal, linV_exactT].
  Qed.

  Lemma linV_stress_of r : linV (fun c => rstress_of I c r).
  Proof.
    apply linear_plus; apply linear_row_apply; intros k; [apply linV_ucellV | apply linV_bdataV].
  Qed.

  Lemma linV_disp_of r : linV (fun c => rdisp_of I c r).
  Proof.
    apply linear_plus; apply linear_row_apply; intros k; [apply linV_ucellV | apply linV_bdataV].
  Qed.

  Lemma linV_res_T r : linV (fun c => rres_T I c r).
  Proof. apply linear_minus; [apply linV_stress_of | apply linV_exactT]. Qed.

  Lemma linV_res_U r : linV (fun c => rres_U I c r).
  Proof. apply linear_minus; [apply linV_disp_of | apply linV_ufield]. Qed.

  (* the residual of the captured local equations (LA = local matrix, nd = gradient components
     per row of a sub-cell's gradient; the right-hand side matrices sit in the ST / BS slots
     of I) *)
  Lemma linV_res_localV (LA : coo R) nd r : linV (fun c => res_localV R RO I LA nd c r).
  Proof.
    apply linear_minus; [|apply linV_stress_of]. apply linear_row_apply. intros k. apply linV_gstarV.
  Qed.
End MatrixLevel.

(* every linear field is such a combination: all twelve coefficients in 3-D ... *)
Definition terms3 (b : vec3 R) (A : mat3 R) : list (R * nat) :=
  let '(b1, b2, b3) := b in
  let '((a11, a12, a13), (a21, a22, a23), (a31, a32, a33)) := A in
  [(b1, 0); (b2, 1); (b3, 2); (a11, 3); (a12, 4); (a13, 5); (a21, 6); (a22, 7); (a23, 8);
   (a31, 9); (a32, 10); (a33, 11)]%nat.
(* ... and the six in-plane ones in 2-D *)
Definition terms2 (b1 b2 a11 a12 a21 a22 : R) : list (R * nat) :=
  [(b1, 0); (b2, 1); (a11, 3); (a12, 4); (a21, 6); (a22, 7)]%nat.

(* Interaction region at the boundary vertex (1,0) of a 2 x 1 Cartesian grid (mu = 1,
   lambda = 2, equal sub-cell volumes): two sub-cells, one interior, one Dirichlet and one
   Neumann sub-face; u = b + A x with a non-symmetric A. *)
Definition vec2 (a b : R) : nat -> R := fun i => match i with O => a | S O => b | _ => 0 end.
Definition mat2 (a b c d : R) : nat -> nat -> R :=
  fun i j => match i, j with
             | O, O => a | O, S O => b | S O, O => c | S O, S O => d | _, _ => 0
             end.
Definition exbV := vec2 1 (-2).
Definition exAV := mat2 1 2 (-1) 3.
Definition exw : nat -> R := fun _ => 1/2.
Definition excellsV : nat -> subcellV R :=
  fun k => match k with
           | O => {| sv_x := vec2 (1/2) (1/2); sv_u := rulin 2 exbV exAV (vec2 (1/2) (1/2));
                     sv_mu := 1; sv_la := 2 |}
           | _ => {| sv_x := vec2 (3/2) (1/2); sv_u := rulin 2 exbV exAV (vec2 (3/2) (1/2));
                     sv_mu := 1; sv_la := 2 |}
           end.
Definition exfacesV : list (subfaceV R) :=
  [ InteriorV 0 1 (vec2 (1/2) 0) (vec2 1 (1/2));
    DirichletV 0 (vec2 0 (-1/2)) (vec2 (1/2) 0) (rulin 2 exbV exAV (vec2 (1/2) 0));
    NeumannV 1 (vec2 0 (-1/2)) (rmulmvf 2 (rhooke 2 1 2 exAV) (vec2 0 (-1/2))) ].
Definition exInvM : list (list R) :=
  [[2/7; 0; 6/7; 0; 0; 4/7; 0; -1/7];
   [0; 0; 0; 0; -2; 0; 0; 0];
   [0; 1; 0; 1; 0; 0; 0; 0];
   [0; 0; 0; 0; 0; -2; 0; 0];
   [-2/7; 0; 8/7; 0; 0; -4/7; 0; 1/7];
   [0; 0; 0; -1; 0; 0; -2; 0];
   [0; -1; 0; 1; 0; 0; 0; 0];
   [1/7; 0; -4/7; 0; 0; 2/7; 0; -4/7]].
Definition exInvV (r : list R) : nat -> nat -> nat -> R :=
  fun k i j => rdotl (nth (k * 4 + i * 2 + j) exInvM []) r.


(* A valid corner region (two triangles of the grid of corpus/C13/singular_local_system.json,
   lengths in units of 1/64): the two cell centres (28,7), (6,29) and the centres (35,0),
   (2,33) of the two Dirichlet boundary faces lie on the line x + y = 35.  All data
   hypotheses of unique_exact hold, but gradients with rows orthogonal to (1,-1) are
   invisible to every local equation: the local system has no left inverse. *)
Definition sgw : nat -> R := fun _ => 1/2.
Definition sgcells : nat -> subcellV R :=
  fun k => match k with
           | O => {| sv_x := vec2 28 7; sv_u := rulin 2 exbV exAV (vec2 28 7); sv_mu := 1; sv_la := 2 |}
           | _ => {| sv_x := vec2 6 29; sv_u := rulin 2 exbV exAV (vec2 6 29); sv_mu := 1; sv_la := 2 |}
           end.
Definition sgfaces : list (subfaceV R) :=
  [ InteriorV 0 1 (vec2 11 (-6)) (vec2 6 (19/3));
    DirichletV 1 (vec2 (-17) 0) (vec2 2 33) (rulin 2 exbV exAV (vec2 2 33));
    DirichletV 0 (vec2 (1/2) (-33/2)) (vec2 35 0) (rulin 2 exbV exAV (vec2 35 0)) ].
Definition sgG1 : nat -> nat -> nat -> R := fun _ => mat2 1 1 0 0.
Definition sgG0 : nat -> nat -> nat -> R := fun _ _ _ => 0.
