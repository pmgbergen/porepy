(* C08 — the refinement.  For histories whose shifts use ARBITRARY, changing depths
   (including max_index = None, 0 and 1) the transcribed code refines a contiguous window
   [w] (keys 0..len-1, no holes) that evolves by [wstep].  Two corollaries: every index
   below the smallest depth used holds the i-th most recent value; and when every shift
   uses the same depth d the window is exactly the first d entries of the history view
   (the window of Proofs/C08.v). *)
From Coq Require Import List ZArith Bool Arith Lia.
Import ListNotations.
From PP Require Import Model.C08 Proofs.C08.

Section ProofsVar.
  Variable V : Type.
  Variable vadd : V -> V -> V.
  Notation dict := (C08.dict V).

  Lemma wshift_cons m (c : V) r :
    wshift m (c :: r) = firstn m (c :: c :: r) ++ skipn m (c :: r).
  Proof.
    unfold wshift. destruct (Nat.ltb_spec (length (c :: r)) m) as [H|H]; [|reflexivity].
    cbn [length] in H. rewrite firstn_all2, skipn_all2, app_nil_r by (cbn [length]; lia).
    reflexivity.
  Qed.

  (* number of moves the loop makes: range(k, 0, -1) *)
  Definition kdepth (n m : nat) : nat := if n <? m then n else m - 1.

  Lemma kdepth_le n m : kdepth n m <= n.
  Proof. unfold kdepth. destruct (Nat.ltb_spec n m); lia. Qed.

  Lemma wshift_kdepth m (c : V) r :
    let k := kdepth (length (c :: r)) m in
    wshift m (c :: r) = firstn (S k) (c :: c :: r) ++ skipn (S k) (c :: r).
  Proof.
    cbv zeta. rewrite wshift_cons. unfold kdepth.
    destruct (Nat.ltb_spec (length (c :: r)) m) as [H|H].
    - cbn [length] in H. rewrite !firstn_all2, !skipn_all2 by (cbn [length]; lia). reflexivity.
    - destruct m; [reflexivity|]. rewrite Nat.sub_succ, Nat.sub_0_r. reflexivity.
  Qed.

  Lemma wshift_nth m (w : list V) i :
    nth_error (wshift m w) i =
    if (1 <=? i) && (i <=? kdepth (length w) m) then nth_error w (i - 1) else nth_error w i.
  Proof.
    destruct w as [|c r].
    { cbn [wshift]. rewrite !nth_error_nil. destruct (_ && _); reflexivity. }
    rewrite wshift_kdepth. pose proof (kdepth_le (length (c :: r)) m) as Hk.
    set (k := kdepth (length (c :: r)) m) in *.
    assert (Hl : length (firstn (S k) (c :: c :: r)) = S k)
      by (apply firstn_length_le; cbn [length] in *; lia).
    destruct (Nat.leb_spec i k).
    - rewrite nth_error_app1, nth_error_firstn_if, (proj2 (Nat.ltb_lt i (S k))) by lia.
      destruct i; [reflexivity|]. rewrite Nat.sub_succ, Nat.sub_0_r. reflexivity.
    - rewrite andb_false_r, nth_error_app2, Hl, nth_error_skipn_add by lia. f_equal. lia.
  Qed.

  Lemma firstn_wshift d m (w : list V) :
    d <= m \/ length w < m ->
    firstn d (wshift m w) = firstn d (match w with [] => [] | c :: _ => c :: w end).
  Proof.
    intros H. destruct w as [|c r]; [reflexivity|]. unfold wshift.
    destruct (Nat.ltb_spec (length (c :: r)) m) as [Hm|Hm]; [reflexivity|].
    rewrite firstn_app, firstn_firstn, Nat.min_l, firstn_length_le
      by (cbn [length] in *; lia).
    replace (d - m) with 0 by lia. apply app_nil_r.
  Qed.

  Definition Rw (s : option dict) (w : list V) : Prop :=
    match s with
    | None => w = []
    | Some dct => forall i, lookup dct i = nth_error w i
    end.

  Lemma Rw_lookup s w i :
    Rw s w -> lookup (match s with None => [] | Some d => d end) i = nth_error w i.
  Proof.
    destruct s; cbn [Rw]; [auto|]. intros ->. rewrite lookup_nil, nth_error_nil. reflexivity.
  Qed.

  Definition disciplined_var (o : @op V) : Prop :=
    match o with
    | OpSet i _ => i = 0%Z
    | OpAdd i _ => i = 0%Z
    | OpGet i => (0 <= i)%Z
    | OpShift (Some m) => (0 <= m)%Z
    | OpShift None => True
    end.

  Definition depth_of (w : list V) (m : option Z) : nat :=
    match m with Some m => Z.to_nat m | None => S (length w) end.

  Definition wstep (w : list V) (o : @op V) : list V :=
    match o with
    | OpSet _ v => v :: tl w
    | OpAdd _ v => match w with [] => [] | c :: r => vadd c v :: r end
    | OpGet _ => w
    | OpShift m => wshift (depth_of w m) w
    end.

  Definition wout (w : list V) (o : @op V) : @out V :=
    match o with
    | OpSet _ _ => ODone
    | OpAdd _ _ => match w with [] => OErr ValueErr | _ => ODone end
    | OpGet i => match nth_error w (Z.to_nat i) with
                 | Some v => OVal v | None => OErr KeyErr end
    | OpShift _ => ODone
    end.

  Lemma shift_range_kdepth m (w : list V) :
    match m with Some mz => (0 <= mz)%Z | None => True end ->
    shift_range (length w) m = down (kdepth (length w) (depth_of w m)).
  Proof.
    intros Hm. unfold shift_range, kdepth, depth_of. destruct m as [mz|].
    - destruct (Z.ltb_spec (Z.of_nat (length w)) mz), (Nat.ltb_spec (length w) (Z.to_nat mz));
        try reflexivity; lia.
    - rewrite (proj2 (Nat.ltb_lt _ _) (Nat.lt_succ_diag_r _)). reflexivity.
  Qed.

  Lemma step_refines_var s w o :
    Rw s w -> disciplined_var o ->
    Rw (fst (step vadd s o)) (wstep w o) /\ snd (step vadd s o) = wout w o.
  Proof.
    intros HR Hdis. pose proof (fun i => Rw_lookup s w i HR) as Hlk.
    destruct o as [i v|i v|i|m]; cbn [disciplined_var wstep wout] in *; try subst i.
    - (* overwrite at index 0 *)
      cbn [step Z.ltb Z.compare Z.to_nat]. split; [|reflexivity].
      intros [|i]; rewrite lookup_update; [reflexivity|].
      cbn [Nat.eqb nth_error]. rewrite Hlk. symmetry. apply nth_error_tl.
    - (* additive write at index 0 *)
      cbn [step Z.ltb Z.compare Z.to_nat]. rewrite Hlk.
      destruct w as [|c r]; (split; [|reflexivity]); [exact Hlk|].
      intros [|i]; rewrite lookup_update; [reflexivity|apply Hlk].
    - (* read *)
      cbn [step]. destruct (Z.ltb_spec i 0); [lia|]. destruct s as [dct|]; cbn [Rw] in HR.
      + rewrite HR. destruct (nth_error w (Z.to_nat i)); split; trivial.
      + subst w. rewrite nth_error_nil. split; reflexivity.
    - (* shift with any depth *)
      destruct s as [dct|]; cbn [Rw] in HR; [|subst w; split; reflexivity].
      rewrite step_shift, (num_stored_of_lookup V dct w HR), shift_range_kdepth by exact Hdis.
      pose proof (kdepth_le (length w) (depth_of w m)).
      destruct (shift_loop_lookup V (kdepth (length w) (depth_of w m)) dct) as (d' & -> & Hd').
      { intros j Hj. rewrite HR. apply nth_error_Some. lia. }
      split; [|reflexivity]. intros i. cbn [fst]. rewrite Hd', wshift_nth, !HR. reflexivity.
  Qed.

  Definition wrun (w : list V) (ops : list (@op V)) : list V := fold_left wstep ops w.

  Fixpoint wouts (w : list V) (ops : list (@op V)) : list (@out V) :=
    match ops with
    | [] => []
    | o :: r => wout w o :: wouts (wstep w o) r
    end.

  Lemma run_refines_var : forall ops s w,
      Rw s w -> Forall disciplined_var ops ->
      Rw (fst (run vadd s ops)) (wrun w ops) /\ snd (run vadd s ops) = wouts w ops.
  Proof.
    induction ops as [|o ops IH]; intros s w HR Hall; [split; [exact HR|reflexivity]|].
    inversion Hall as [|o' ops' Ho Hops]; subst.
    destruct (step_refines_var s w o HR Ho) as [HR' Hout].
    cbn [run wrun fold_left wouts]. destruct (step vadd s o) as [s' x]. cbn [fst snd] in *.
    destruct (IH s' (wstep w o) HR' Hops) as [IH1 IH2].
    destruct (run vadd s' ops) as [s'' xs]. cbn [fst snd] in *.
    split; [exact IH1|]. rewrite Hout, IH2. reflexivity.
  Qed.

  Lemma Rw_fresh s0 : s0 = None \/ s0 = Some [] -> Rw s0 [].
  Proof.
    intros [-> | ->]; [reflexivity|]. intros i. rewrite lookup_nil, nth_error_nil. reflexivity.
  Qed.

  Definition deep_enough (d : nat) (o : @op V) : Prop :=
    match o with
    | OpShift (Some m) => (Z.of_nat d <= m)%Z
    | _ => True
    end.

  Definition fresh (d : nat) (w h : list V) : Prop := firstn d w = firstn d h.

  Lemma fresh_le d d' w h : d' <= d -> fresh d w h -> fresh d' w h.
  Proof.
    unfold fresh. intros Hd Hf. rewrite <- (Nat.min_l d' d), <- !firstn_firstn, Hf by exact Hd.
    reflexivity.
  Qed.

  Lemma fresh_nth d w h i : fresh d w h -> i < d -> nth_error w i = nth_error h i.
  Proof.
    intros Hf Hi. apply (f_equal (fun l => nth_error l i)) in Hf.
    rewrite !nth_error_firstn_if, (proj2 (Nat.ltb_lt i d) Hi) in Hf. exact Hf.
  Qed.

  Lemma firstn_eq_nil d (h : list V) : 1 <= d -> firstn d h = [] -> h = [].
  Proof. destruct d, h; cbn; try lia; [reflexivity|discriminate]. Qed.

  Lemma firstn_tl d (l : list V) : firstn d (tl l) = tl (firstn (S d) l).
  Proof. destruct l; [apply firstn_nil|reflexivity]. Qed.

  Lemma fresh_step d w h o :
    1 <= d -> fresh d w h -> disciplined_var o -> deep_enough d o ->
    fresh d (wstep w o) (hstep vadd h o).
  Proof.
    intros Hd Hf Hdis Hdeep. destruct d as [|d]; [lia|].
    destruct o as [j v|j v|j|m]; unfold fresh in *; cbn [wstep hstep].
    - cbn [firstn]. rewrite !firstn_tl, Hf. reflexivity.
    - destruct w, h; try discriminate Hf; [reflexivity|]. cbn [firstn] in *. congruence.
    - exact Hf.
    - rewrite firstn_wshift.
      + destruct w as [|c w], h as [|c' h]; try discriminate Hf; [reflexivity|].
        assert (c = c') by (cbn [firstn] in Hf; congruence). subst c'.
        cbn [firstn]. f_equal. apply (fresh_le (S d)); [lia|exact Hf].
      + destruct m; cbn [deep_enough disciplined_var depth_of] in *; lia.
  Qed.

  Lemma fresh_run d : 1 <= d -> forall ops w h,
      fresh d w h -> Forall disciplined_var ops -> Forall (deep_enough d) ops ->
      fresh d (wrun w ops) (hrun V vadd h ops).
  Proof.
    intros Hd. induction ops as [|o ops IH]; intros w h Hf Hdis Hdeep; [exact Hf|].
    inversion Hdis; inversion Hdeep; subst.
    apply IH; [apply fresh_step|..]; assumption.
  Qed.

  Lemma R_Rw d s h : 1 <= d -> R V d s h <-> Rw s (firstn d h).
  Proof.
    intros Hd. destruct s; [reflexivity|]. cbn [R Rw].
    destruct d, h; try lia; [tauto|split; discriminate].
  Qed.

  Lemma disciplined_var_of d o :
    disciplined V d o -> disciplined_var o /\ deep_enough d o.
  Proof. destruct o as [| | |[m|]]; cbn; intros H; try injection H as ->; auto; lia. Qed.

  Lemma wstep_firstn d h o :
    1 <= d -> disciplined V d o -> wstep (firstn d h) o = firstn d (hstep vadd h o).
  Proof.
    intros Hd Ho. destruct d as [|d]; [lia|].
    destruct o as [j v|j v|j|m]; cbn [wstep hstep disciplined] in *.
    - cbn [firstn]. rewrite firstn_tl. reflexivity.
    - destruct h; reflexivity.
    - reflexivity.
    - subst m. cbn [depth_of]. rewrite Nat2Z.id. destruct h as [|c r]; [reflexivity|].
      cbn [firstn]. pose proof (firstn_le_length d r).
      rewrite wshift_cons, skipn_all2, app_nil_r by (cbn [length]; lia).
      cbn [firstn]. f_equal.
      change (c :: firstn d r) with (firstn (S d) (c :: r)).
      rewrite firstn_firstn, Nat.min_l by lia. reflexivity.
  Qed.

  Lemma wout_firstn d h o : 1 <= d -> wout (firstn d h) o = hout V d h o.
  Proof. intros Hd. destruct o, d, h; try lia; reflexivity. Qed.

  Lemma step_refines d s h o :
    1 <= d -> R V d s h -> disciplined V d o ->
    R V d (fst (step vadd s o)) (hstep vadd h o) /\ snd (step vadd s o) = hout V d h o.
  Proof.
    intros Hd HR Ho. apply (R_Rw d s h Hd) in HR.
    destruct (step_refines_var _ _ o HR (proj1 (disciplined_var_of d o Ho))) as [HR' Hout].
    rewrite wstep_firstn in HR' by assumption. rewrite wout_firstn in Hout by assumption.
    split; [apply R_Rw|]; assumption.
  Qed.

  Lemma window_of_history d : 1 <= d -> forall ops h,
      Forall (disciplined V d) ops ->
      wrun (firstn d h) ops = firstn d (hrun V vadd h ops) /\
      wouts (firstn d h) ops = houts V vadd d h ops.
  Proof.
    intros Hd. induction ops as [|o ops IH]; intros h Hall; [split; reflexivity|].
    inversion Hall as [|o' ops' Ho Hops]; subst.
    cbn [wrun hrun fold_left wouts houts].
    rewrite wstep_firstn, wout_firstn by assumption.
    destruct (IH (hstep vadd h o) Hops) as [IH1 IH2]. split; [exact IH1|]. f_equal. exact IH2.
  Qed.
End ProofsVar.
