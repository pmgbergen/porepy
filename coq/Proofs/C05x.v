(* C05 — proofs about the extended model PP.Model.C05x: write/read round trip for arbitrary id
   lists, and update_variable_num_dofs restoring [Inv] w.r.t. changed grid sizes ([update_Inv],
   [xfinal_Inv] over [synced] histories). *)
From Coq Require Import List ZArith Bool Arith Lia Sorted Permutation.
Import ListNotations.
From PP Require Import Model.C05 Proofs.C05_lists Proofs.C05 Proofs.C05b Model.C05x.

Lemma set_values_ids_eq s r values w additive :
  set_values s r values w additive = set_values_ids s (parse s r) values w additive.
Proof. reflexivity. Qed.

Lemma get_values_ids_eq s r l : get_values s r l = get_values_ids s (parse s r) l.
Proof. reflexivity. Qed.

Lemma dofs_ids_eq s r : dofs_out s r = dofs_ids s (parse s r).
Proof. reflexivity. Qed.

Lemma projection_ids_eq s r : projection_to s r = projection_ids s (truthy r) (parse s r).
Proof. reflexivity. Qed.

(* the number of values a write to / read of ANY id list handles (whatever produced it:
   objects, names, md-variables, md_variable(), get_variables(), stale or repeated ids) *)
Definition need_ids (s : st) (ids : list nat) : nat :=
  length (concat (map (block_of s) (filter (fun id => memb id ids) (block_ids s)))).

Lemma set_get_ids_roundtrip g s ids xs w :
  Inv2 g s -> length xs = need_ids s ids ->
  exists s', set_values_ids s ids xs w false = (s', ODone) /\
    vars s' = vars s /\ numbers s' = numbers s /\ sizes s' = sizes s /\
    forall l, In l (wlocs w) -> get_values_ids s' ids l = OVals xs.
Proof.
  intros HI Hlen. destruct (set_get_ids g s ids xs w HI) as (sto' & E & G & _).
  exists (with_store s sto'). unfold set_values_ids, get_values_ids. rewrite E.
  change (need_of s ids) with (need_ids s ids) in *. rewrite <- Hlen, Nat.eqb_refl in *.
  repeat split; auto. intros l Hl. cbn [with_store numbers]. now rewrite (G l Hl), slice_all.
Qed.

Lemma set_nth_length : forall l k x, length (set_nth l k x) = length l.
Proof. induction l as [|y r IH]; intros [|k] x; cbn; auto. Qed.

Lemma nth_set_nth : forall l k k' x, k < length l ->
  nth_error (set_nth l k x) k' = if Nat.eqb k k' then Some x else nth_error l k'.
Proof.
  induction l as [|y r IH]; intros [|k] [|k'] x H; cbn in *; try lia; auto.
  apply IH. lia.
Qed.

Lemma update_loop_ok g nums : forall vs szs,
  (forall v, In v vs -> exists k, lookup nums (vid v) = Some k /\ k < length szs) ->
  exists szs', update_loop g vs nums szs = (szs', None) /\ length szs' = length szs /\
    (forall k, (forall v, In v vs -> lookup nums (vid v) <> Some k) ->
               nth_error szs' k = nth_error szs k) /\
    (NoDup (map (fun v => lookup nums (vid v)) vs) ->
     forall v k, In v vs -> lookup nums (vid v) = Some k ->
                 nth_error szs' k = Some (ndof g (vdom v) (vdof v))).
Proof.
  induction vs as [|v r IH]; intros szs H.
  - exists szs. cbn. repeat split; auto. intros _ v k [].
  - destruct (H v (or_introl eq_refl)) as (k & Hk & Hlt). cbn [update_loop].
    rewrite Hk, (proj2 (Nat.ltb_lt _ _) Hlt).
    destruct (IH (set_nth szs k (ndof g (vdom v) (vdof v)))) as (szs' & E & Hl & HA & HB).
    { intros u Hu. rewrite set_nth_length. apply H. now right. }
    exists szs'. rewrite set_nth_length in Hl. repeat split; auto.
    + intros k' Hk'. rewrite HA by (intros u Hu; apply Hk'; now right).
      rewrite nth_set_nth by exact Hlt. destruct (Nat.eqb_spec k k') as [<-|]; auto.
      now destruct (Hk' v (or_introl eq_refl)).
    + intros Hnd u ku Hu Hku. inversion Hnd as [|? ? Hn Hnd']; subst.
      destruct Hu as [<-|Hu]; [|now apply HB].
      rewrite Hk in Hku. injection Hku as <-. rewrite HA, nth_set_nth, Nat.eqb_refl; auto.
      intros u Hu Eu. apply Hn. rewrite Hk, <- Eu. now apply (in_map (fun v => lookup nums (vid v))).
Qed.

(* the md-grid keeps its lists of subdomains and interfaces, only their sizes change *)
Definition same_shape (g g' : mdgrid) : Prop :=
  length (sds g) = length (sds g') /\ length (intfs g) = length (intfs g').

Lemma order_same_shape g g' vs : same_shape g g' -> order g' vs = order g vs.
Proof. intros [H1 H2]. unfold order, grid_order. now rewrite H1, H2. Qed.

Lemma dom_ok_same_shape g g' d : same_shape g g' -> dom_ok g d -> dom_ok g' d.
Proof. intros [H1 H2]. destruct d; cbn; lia. Qed.

Lemma update_Inv g g' s :
  Inv g s -> same_shape g g' ->
  exists s', update_num_dofs g' s = (s', ODone) /\ Inv g' s' /\
             vars s' = vars s /\ numbers s' = numbers s /\ store s' = store s /\
             next_id s' = next_id s.
Proof.
  intros HI Hsh.
  assert (Hpos : forall v, In v (vars s) -> exists k,
            nth_error (order g (vars s)) k = Some v /\ lookup (numbers s) (vid v) = Some k).
  { intros v Hv. apply (in_order_Inv g s v HI), In_nth_error in Hv. destruct Hv as [k Hk].
    exists k. split; [exact Hk|apply (order_nth g s k v HI Hk)]. }
  destruct (update_loop_ok g' (numbers s) (vars s) (sizes s)) as (szs' & E & Hl & _ & HB).
  { intros v Hv. destruct (Hpos v Hv) as (k & Hk & Hn). exists k. split; auto.
    rewrite (sizes_length g s HI). apply nth_error_Some. congruence. }
  unfold update_num_dofs. rewrite E. eexists. split; [reflexivity|].
  split; [|cbn; auto]. pose proof HI as [[Hn Hs] Hd Hso Hnx].
  constructor; cbn [vars numbers sizes next_id]; auto.
  - unfold clustered. cbn [vars numbers sizes]. rewrite (order_same_shape g g' _ Hsh).
    split; auto. symmetry. apply map_eq_nth.
    + now rewrite Hl, Hs, map_length.
    + intros k v Hk. apply HB.
      * (* different variables have different block numbers *)
        apply NoDup_map_of_inj; [apply (NoDup_map_inv vid), SS_lt_NoDup, Hso|].
        intros a b Ha Hb Eab. destruct (Hpos a Ha) as (ka & Ha1 & Ha2).
        destruct (Hpos b Hb) as (kb & Hb1 & Hb2). congruence.
      * eapply in_order, nth_error_In, Hk.
      * apply (order_nth g s k v HI Hk).
  - apply (Forall_impl _ (fun v => dom_ok_same_shape g g' _ Hsh) Hd).
Qed.

(* x-histories in which every change of the grid sizes is followed by
   update_variable_num_dofs: the layout invariant holds w.r.t. the CURRENT grid sizes *)
Definition xwf (g : mdgrid) (o : xop) : Prop :=
  match o with
  | XBase o => wf_op g o
  | XRegrid _ => False
  | _ => True
  end.

Inductive synced : mdgrid -> list xop -> Prop :=
| synced_nil g : synced g []
| synced_op g o r : xwf g o -> synced g r -> synced g (o :: r)
| synced_regrid g g' r : same_shape g g' -> synced g' r ->
                         synced g (XRegrid g' :: XUpdate :: r).

Definition XInv (x : xst) : Prop := Inv2 (xg x) (xs x).

Lemma wf_op_same_shape g g' o : same_shape g g' -> wf_op g o -> wf_op g' o.
Proof. intros [H1 H2]. destruct o; cbn; auto. now rewrite H1, H2. Qed.

Lemma update_XInv x g' : XInv x -> same_shape (xg x) g' ->
  Inv2 g' (fst (update_num_dofs g' (xs x))).
Proof.
  intros [HI Hk] Hsh. destruct (update_Inv _ g' _ HI Hsh) as (s' & -> & HI' & Hv & _).
  split; [exact HI'|]. cbn [fst]. now rewrite Hv.
Qed.

Lemma xstep_XInv x o : xwf (xg x) o -> XInv x ->
  XInv (fst (xstep x o)) /\ xg (fst (xstep x o)) = xg x.
Proof.
  intros Hw HX. unfold XInv.
  destruct o; cbn [xstep xwf] in *; try contradiction;
    try (destruct (xparse x r) as [[t ids]|e]; [|now split]); try now split.
  - pose proof (step_Inv2 _ _ o Hw HX). now destruct (step (xg x) (xs x) o).
  - pose proof (remove_loop_Inv2 (xg x) ids _ HX). now destruct (remove_loop (xg x) (xs x) ids).
  - unfold set_values_ids.
    destruct (set_loop (xs x) (numbers (xs x)) ids values w additive 0 0 (store (xs x)))
      as [[sto de] [e|]]; cbn; (split; [now apply with_store_Inv2|reflexivity]).
  - pose proof (update_XInv x (xg x) HX (conj eq_refl eq_refl)).
    now destruct (update_num_dofs (xg x) (xs x)).
Qed.

Lemma xrun_cons x o r : fst (xrun x (o :: r)) = fst (xrun (fst (xstep x o)) r).
Proof. cbn [xrun]. destruct (xstep x o) as [x' y]. cbn [fst]. now destruct (xrun x' r). Qed.

Lemma xrun_XInv : forall g ops, synced g ops -> forall x, xg x = g -> XInv x ->
  XInv (fst (xrun x ops)).
Proof.
  induction 1 as [g|g o r Hw Hs IH|g g' r Hsh Hs IH]; intros x <- HX; [exact HX|..];
    rewrite !xrun_cons.
  - destruct (xstep_XInv x o Hw HX). now apply IH.
  - pose proof (update_XInv x g' HX Hsh). cbn [xstep fst xg xs].
    destruct (update_num_dofs g' (xs x)). now apply IH.
Qed.

Theorem xfinal_Inv g ops : synced g ops ->
  let x := fst (xrun (xinit g) ops) in Inv2 (xg x) (xs x).
Proof.
  intro H. apply (xrun_XInv g ops H (xinit g) eq_refl). split; [apply Inv_init|constructor].
Qed.

Definition layout_ok (g : mdgrid) (s : st) : Prop :=
  exists ord : list var,
    block_ids s = map vid ord /\
    map snd (numbers s) = seq 0 (length (numbers s)) /\
    (forall v, In v ord <-> In v (vars s)) /\
    NoDup (block_ids s) /\
    StronglySorted (lexlt g) ord /\
    StronglySorted lt (map vid (vars s)) /\
    concat (map (block_of s) (block_ids s)) = seq 0 (num_dofs s) /\
    (forall v, In v (vars s) ->
       find_var s (vid v) = Some v /\ length (block_of s (vid v)) = ndofv g v).

Lemma Inv_layout_ok g s : Inv g s -> layout_ok g s.
Proof.
  intro HI. destruct (layout g s HI) as (H1 & H2 & H3 & H4 & H5 & H6 & H7).
  exists (order g (vars s)).
  exact (conj H1 (conj H2 (conj H3 (conj H4 (conj H5 (conj (inv_sorted g s HI) (conj H6 H7))))))).
Qed.

Lemma update_layout g g' s :
  Inv g s -> same_shape g g' ->
  exists s', update_num_dofs g' s = (s', ODone) /\
             vars s' = vars s /\ numbers s' = numbers s /\ store s' = store s /\
             layout_ok g' s'.
Proof.
  intros HI Hsh. destruct (update_Inv g g' s HI Hsh) as (s' & E & HI' & H1 & H2 & H3 & _).
  exists s'. repeat split; auto using Inv_layout_ok.
Qed.
