(* C44 — proofs: Cyrus-Beck clipping is exact; the glue of lines_by_polygon keeps exactly
   the line pieces shapely reports that are not on the boundary. *)
From Coq Require Import List ZArith QArith Qabs Qminmax Bool Arith Lia Lqa Sorted.
Import ListNotations.
From PP Require Import Model.C44.
Open Scope Q_scope.

Lemma hval_affine : forall h p0 p1 t,
    hval h (seg_pt p0 p1 t) == hval h p0 + (hval h p1 - hval h p0) * t.
Proof. intros h [x0 y0] [x1 y1] t. unfold hval, seg_pt, px, py. cbn [fst snd]. lra. Qed.

Definition in_state (st : option (Q * Q)) (t : Q) : Prop :=
  match st with Some (t0, t1) => t0 <= t /\ t <= t1 | None => False end.

(* the bound - a / b of the half-line a + b t <= 0 *)
Lemma bound_sign : forall a b t, ~ b == 0 ->
    (0 < b -> (t <= - a / b <-> a + b * t <= 0)) /\
    (b < 0 -> (- a / b <= t <-> a + b * t <= 0)).
Proof.
  intros a b t Hb. assert (E : b * (- a / b) == - a) by (field; exact Hb).
  revert E. generalize (- a / b). intros q E. split; intros; split; intros; nra.
Qed.

Lemma Qle_bool_false : forall a b, Qle_bool a b = false -> b < a.
Proof.
  intros a b H. apply Qnot_le_lt. intro H1. apply Qle_bool_iff in H1. congruence.
Qed.

(* an interval with its ends in the wrong order is as empty as no interval *)
Lemma in_state_guard : forall u v t,
    in_state (if Qle_bool u v then Some (u, v) else None) t <-> u <= t /\ t <= v.
Proof.
  intros u v t. destruct (Qle_bool u v) eqn:E; cbn [in_state]; [tauto|].
  apply Qle_bool_false in E. split; [tauto | lra].
Qed.

Lemma step_spec : forall p0 p1 st h t,
    in_state (clip_step p0 p1 st h) t
    <-> in_state st t /\ hval h (seg_pt p0 p1 t) <= 0.
Proof.
  intros p0 p1 st h t. rewrite hval_affine.
  destruct st as [[t0 t1]|]; cbn [clip_step in_state]; [|tauto].
  generalize (hval h p0) (hval h p1 - hval h p0). intros a b.
  destruct (Qeq_bool b 0) eqn:Eb.
  - apply Qeq_bool_iff in Eb. rewrite Eb.
    destruct (Qle_bool a 0) eqn:Ea; cbn [in_state];
      [apply Qle_bool_iff in Ea | apply Qle_bool_false in Ea]; split; try tauto; lra.
  - apply Qeq_bool_neq in Eb. destruct (bound_sign a b t Eb) as [Bp Bn].
    destruct (Qle_bool 0 b) eqn:Ep; rewrite in_state_guard.
    + apply Qle_bool_iff in Ep. rewrite Q.min_glb_iff, Bp by lra. tauto.
    + apply Qle_bool_false in Ep. rewrite Q.max_lub_iff, Bn by lra. tauto.
Qed.

Lemma fold_spec : forall p0 p1 hs st t,
    in_state (fold_left (clip_step p0 p1) hs st) t
    <-> in_state st t /\ (forall h, In h hs -> hval h (seg_pt p0 p1 t) <= 0).
Proof.
  intros p0 p1 hs. induction hs as [|h hs IH]; intros st t; cbn [fold_left].
  - split; [intro H; split; [exact H|intros h []]|tauto].
  - rewrite IH, step_spec. cbn [In]. split.
    + intros [[A B] C]. split; [exact A|]. intros h' [<-|E]; auto.
    + intros [A C]. auto.
Qed.

Definition nonempty (st : option (Q * Q)) : Prop :=
  match st with Some (a, b) => a <= b | None => True end.

Lemma guard_nonempty : forall u v, nonempty (if Qle_bool u v then Some (u, v) else None).
Proof. intros u v. destruct (Qle_bool u v) eqn:E; [apply Qle_bool_iff, E | exact I]. Qed.

Lemma fold_nonempty : forall p0 p1 hs st,
    nonempty st -> nonempty (fold_left (clip_step p0 p1) hs st).
Proof.
  intros p0 p1 hs. induction hs as [|h hs IH]; intros st H; [exact H|]. apply IH.
  destruct st as [[u v]|]; cbn [clip_step]; [|exact I].
  destruct (Qeq_bool _ 0); [destruct (Qle_bool _ 0); [exact H | exact I]|].
  destruct (Qle_bool 0 _); apply guard_nonempty.
Qed.

(* the returned interval is a sub-interval of [0, 1], all of it inside the half-planes *)
Lemma clip_inside : forall p0 p1 hs t0 t1,
    clip p0 p1 hs = Some (t0, t1) ->
    0 <= t0 /\ t0 <= t1 /\ t1 <= 1 /\
    forall t, t0 <= t -> t <= t1 -> forall h, In h hs -> hval h (seg_pt p0 p1 t) <= 0.
Proof.
  intros p0 p1 hs t0 t1 H. unfold clip in H.
  pose proof (fold_nonempty p0 p1 hs (Some (0, 1))) as N.
  pose proof (fold_spec p0 p1 hs (Some (0, 1))) as F. rewrite H in N, F.
  cbn [in_state nonempty] in N, F.
  assert (N' : t0 <= t1) by (apply N; lra).
  destruct (proj1 (F t0)) as [[A _] _]; [lra|]. destruct (proj1 (F t1)) as [[_ B] _]; [lra|].
  repeat split; try assumption. intros t Ha Hb. apply F. lra.
Qed.

Section GlueProofs.
  Variable piece : Type.
  Variable isect : nat -> geom piece.
  Variables nonempty touches poslen : piece -> bool.

  Notation lines_of := (lines_of piece).
  Notation keep := (keep piece nonempty touches poslen).
  Notation edge_result := (edge_result piece isect nonempty touches poslen).
  Notation result := (result piece isect nonempty touches poslen).
  Notation kept := (kept piece isect nonempty touches poslen).

  Lemma in_result : forall ne p ei,
      In (p, ei) (result ne)
      <-> (ei < ne)%nat /\ In p (lines_of (isect ei)) /\ keep p = true.
  Proof.
    intros ne p ei. unfold Model.C44.result, Model.C44.edge_result.
    rewrite in_flat_map. split.
    - intros [e [He H]]. apply in_map_iff in H. destruct H as [q [Eq Hq]].
      inversion Eq; subst. apply filter_In in Hq. apply in_seq in He. split; [lia|exact Hq].
    - intros [Hlt [Hin Hk]]. exists ei. split; [apply in_seq; lia|].
      apply in_map_iff. exists p. split; [reflexivity|]. apply filter_In. split; assumption.
  Qed.

  Lemma sorted_block : forall (s : nat) (l1 l2 : list nat),
      Forall (eq s) l1 -> Forall (le s) l2 -> StronglySorted le l2 ->
      StronglySorted le (l1 ++ l2).
  Proof.
    intros s l1 l2 H1 H2 H3. induction H1 as [|x l1 <- Hl IH]; cbn [app]; [exact H3|].
    constructor; [exact IH|]. apply Forall_app. split; [|exact H2].
    eapply Forall_impl; [|exact Hl]. intros a <-. apply le_n.
  Qed.

  Lemma kept_from : forall n s,
      StronglySorted le (map snd (flat_map edge_result (seq s n)))
      /\ Forall (le s) (map snd (flat_map edge_result (seq s n))).
  Proof.
    induction n as [|n IH]; intros s; cbn [seq flat_map map].
    - split; constructor.
    - destruct (IH (S s)) as [A B]. rewrite map_app.
      assert (E : Forall (eq s) (map snd (edge_result s))).
      { unfold Model.C44.edge_result. rewrite map_map. apply Forall_map, Forall_forall.
        reflexivity. }
      assert (B' : Forall (le s) (map snd (flat_map edge_result (seq (S s) n)))).
      { eapply Forall_impl; [|exact B]. intros a Ha. lia. }
      split; [apply (sorted_block s); assumption|].
      apply Forall_app. split; [|exact B'].
      eapply Forall_impl; [|exact E]. intros a <-. apply le_n.
  Qed.

  (* the kept-edge indices come out in non-decreasing order (so the code's sort of
     edges_kept does not move anything and piece k carries the tags of edge kept[k]) *)
  Lemma kept_sorted : forall ne, StronglySorted le (kept ne).
  Proof. intros ne. apply (kept_from ne 0). Qed.

  Lemma tags_follow : forall (T : Type) (tag : nat -> T) ne,
      tags_out piece isect nonempty touches poslen tag ne = map (fun r => tag (snd r)) (result ne).
  Proof. intros T tag ne. unfold tags_out, Model.C44.kept. apply map_map. Qed.

  (* geometric reading, under shapely's contract *)
  Variable P : Type.
  Variable on_piece : piece -> P -> Prop.
  Variable on_seg : nat -> P -> Prop.
  Variables in_poly interior : P -> Prop.
  Variable isolated : nat -> P -> Prop.   (* x is a Point part of the intersection *)
  Hypothesis sh_inside : forall ei p x,
      In p (lines_of (isect ei)) -> on_piece p x -> on_seg ei x /\ in_poly x.
  Hypothesis sh_covers : forall ei x,
      on_seg ei x -> in_poly x ->
      (exists p, In p (lines_of (isect ei)) /\ on_piece p x) \/ isolated ei x.
  Hypothesis sh_isolated : forall ei x, isolated ei x -> ~ interior x.
  Hypothesis sh_touches : forall p x, touches p = true -> on_piece p x -> ~ interior x.
  Hypothesis sh_poslen : forall p x, poslen p = false -> on_piece p x -> ~ interior x.
  Hypothesis sh_nonempty : forall p x, on_piece p x -> nonempty p = true.
  Hypothesis interior_in : forall x, interior x -> in_poly x.

  Lemma glue_inside : forall ne p ei x,
      In (p, ei) (result ne) -> on_piece p x -> on_seg ei x /\ in_poly x.
  Proof.
    intros ne p ei x H Hx. apply in_result in H. destruct H as [_ [Hin _]].
    exact (sh_inside ei p x Hin Hx).
  Qed.

  Lemma glue_covers : forall ne ei x,
      (ei < ne)%nat -> on_seg ei x -> interior x ->
      exists p, In (p, ei) (result ne) /\ on_piece p x.
  Proof.
    intros ne ei x Hlt Hs Hi.
    destruct (sh_covers ei x Hs (interior_in x Hi)) as [[p [Hin Hx]]|Hiso];
      [|destruct (sh_isolated ei x Hiso Hi)].
    exists p. split; [|exact Hx]. apply in_result. split; [exact Hlt|]. split; [exact Hin|].
    unfold Model.C44.keep. rewrite (sh_nonempty p x Hx).
    destruct (touches p) eqn:Et; [destruct (sh_touches p x Et Hx Hi)|].
    destruct (poslen p) eqn:El; [reflexivity | destruct (sh_poslen p x El Hx Hi)].
  Qed.
End GlueProofs.
