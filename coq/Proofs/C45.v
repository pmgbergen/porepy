(* C45 — proofs: the key of an operator tree is a prefix code. *)
From Coq Require Import List ZArith Bool String.
Import ListNotations.
From PP Require Import Model.C45.

Lemma map_inj : forall (X Y : Type) (f : X -> Y), (forall a b, f a = f b -> a = b) ->
  forall l1 l2, map f l1 = map f l2 -> l1 = l2.
Proof.
  intros X Y f Hf; induction l1 as [| a l1 IH]; intros [| b l2] H; try discriminate; auto.
  injection H as H1 H2. f_equal; auto.
Qed.

Lemma opname_inj : forall o1 o2, opname o1 = opname o2 -> o1 = o2.
Proof. intros [] []; try reflexivity; discriminate. Qed.

Lemma opname_not_evaluate : forall o, opname o <> evaluate_name.
Proof. intros []; discriminate. Qed.

(* induction principle for the nested tree type *)
Section TreeInd.
  Variable L : Type.
  Variable P : tree L -> Prop.
  Hypothesis HL : forall l, P (Leaf l).
  Hypothesis HB : forall o a b, P a -> P b -> P (Bin o a b).
  Hypothesis HE : forall f args, Forall P args -> P (Eval f args).

  Fixpoint tree_ind' (t : tree L) : P t :=
    match t with
    | Leaf l => HL l
    | Bin o a b => HB o a b (tree_ind' a) (tree_ind' b)
    | Eval f args =>
        HE f args ((fix go (l : list (tree L)) : Forall P l :=
                      match l with
                      | [] => Forall_nil P
                      | x :: r => Forall_cons x (tree_ind' x) (go r)
                      end) args)
    end.
End TreeInd.

Section Prefix.
  Variables (L T : Type) (leafkey : L -> T) (optok : string -> T) (functok : string -> nat -> T).
  Hypothesis leafkey_inj : forall a b, leafkey a = leafkey b -> a = b.
  Hypothesis optok_inj : forall s t, optok s = optok t -> s = t.
  Hypothesis functok_inj : forall f g n m, functok f n = functok g m -> f = g /\ n = m.
  Hypothesis leaf_not_op : forall a s, leafkey a <> optok s.

  Notation K := (key leafkey optok functok).

  Definition prefix_prop (t1 : tree L) : Prop :=
    forall t2 r1 r2, K t1 ++ r1 = K t2 ++ r2 -> t1 = t2 /\ r1 = r2.

  Lemma args_prefix :
    forall l1, Forall prefix_prop l1 ->
      forall l2 r1 r2, List.length l1 = List.length l2 ->
        flat_map K l1 ++ r1 = flat_map K l2 ++ r2 -> l1 = l2 /\ r1 = r2.
  Proof.
    induction 1 as [| x l1 Hx _ IH]; intros [| y l2] r1 r2 Hlen H; try discriminate Hlen.
    - cbn in H. auto.
    - cbn [flat_map] in H. rewrite <- !app_assoc in H.
      destruct (Hx y _ _ H) as [-> H'].
      injection Hlen as Hlen. destruct (IH l2 r1 r2 Hlen H') as [-> ->]. auto.
  Qed.

  (* the first token tells the constructor (and, for Bin, the operation); the rest of the
     key then splits by the prefix property of the children *)
  Lemma key_prefix_all : forall t1, prefix_prop t1.
  Proof.
    apply tree_ind'; unfold prefix_prop.
    - intros l1 [l2 | o2 a2 b2 | f2 args2] r1 r2 H; injection H as Hk Hr;
        [|destruct (leaf_not_op _ _ Hk)..].
      apply leafkey_inj in Hk. subst. auto.
    - intros o1 a1 b1 IHa IHb [l2 | o2 a2 b2 | f2 args2] r1 r2 H; injection H as Hk Hr;
        [destruct (leaf_not_op _ _ (eq_sym Hk)) |
        | destruct (opname_not_evaluate _ (optok_inj _ _ Hk))].
      apply optok_inj, opname_inj in Hk. subst o2. rewrite <- !app_assoc in Hr.
      destruct (IHa a2 _ _ Hr) as [-> Hr']. destruct (IHb b2 _ _ Hr') as [-> ->]. auto.
    - intros f1 args1 IH [l2 | o2 a2 b2 | f2 args2] r1 r2 H; injection H as Hk Hr;
        [destruct (leaf_not_op _ _ (eq_sym Hk))
        | destruct (opname_not_evaluate _ (eq_sym (optok_inj _ _ Hk))) |].
      apply functok_inj in Hk as [-> Hn].
      destruct (args_prefix args1 IH args2 r1 r2 Hn Hr) as [-> ->]. auto.
  Qed.

  Lemma key_injective_all : forall t1 t2, K t1 = K t2 -> t1 = t2.
  Proof.
    intros t1 t2 H. destruct (key_prefix_all t1 t2 [] []) as [Ht _];
      [now rewrite !app_nil_r | exact Ht].
  Qed.
End Prefix.

Section Join.
  Variables (A T : Type) (render : T -> list A) (sep : list A).
  Hypothesis prefix_free :
    forall x y r1 r2, render x ++ r1 = render y ++ r2 -> x = y.
  Hypothesis sep_nonempty : sep <> [].

  (* " ".join(tokens) *)
  Fixpoint join (ts : list T) : list A :=
    match ts with
    | [] => []
    | [x] => render x
    | x :: r => render x ++ sep ++ join r
    end.

  Lemma join_cons : forall x r,
      join (x :: r) = render x ++ match r with [] => [] | _ => sep ++ join r end.
  Proof. intros x []; [symmetry; apply app_nil_r | reflexivity]. Qed.

  Lemma join_injective :
    forall ts1 ts2, ts1 <> [] -> ts2 <> [] -> join ts1 = join ts2 -> ts1 = ts2.
  Proof.
    induction ts1 as [| x r IH]; intros [| y s] N1 N2 H; try contradiction.
    rewrite !join_cons in H. assert (x = y) as -> by (eapply prefix_free; exact H).
    apply app_inv_head in H. f_equal.
    destruct r, s; try reflexivity.
    - symmetry in H. apply app_eq_nil in H as [H _]. contradiction.
    - apply app_eq_nil in H as [H _]. contradiction.
    - apply app_inv_head in H. apply IH; [discriminate | discriminate | exact H].
  Qed.
End Join.

Section Leaves.
  Variable digest : Type.
  Variable sha : buffer -> digest.
  Hypothesis sha_inj : forall a b, sha a = sha b -> a = b.

  Lemma proj_key_inj : forall p q, proj_key digest sha p = proj_key digest sha q -> p = q.
  Proof.
    intros [r1 d1 ds1 rs1 t1] [r2 d2 ds2 rs2 t2] H. injection H as Hr Hd -> -> ->.
    apply sha_inj in Hr, Hd. injection Hr as ->. injection Hd as ->. reflexivity.
  Qed.

  Lemma leaf_key_inj : forall l1 l2, leaf_key digest sha l1 = leaf_key digest sha l2 -> l1 = l2.
  Proof.
    intros l1 l2 H; destruct l1, l2; try discriminate H; unfold leaf_key in H; try congruence.
    - f_equal; [|apply sha_inj]; congruence.
    - f_equal; [| |apply (map_inj _ _ sha sha_inj)]; congruence.
    - f_equal. apply proj_key_inj. congruence.
    - f_equal. apply (map_inj _ _ _ proj_key_inj). congruence.
  Qed.

  Lemma leaf_key_not_op : forall l s, leaf_key digest sha l <> TOp s.
  Proof. intros l s; destruct l; cbn; discriminate. Qed.

  Lemma top_inj : forall s t : string, @TOp digest s = TOp t -> s = t.
  Proof. intros s t H; injection H; auto. Qed.

  Lemma tfunc_inj : forall f g n m, @TFunc digest f n = TFunc g m -> f = g /\ n = m.
  Proof. intros f g n m H; injection H; auto. Qed.

  (* the key identifies the tree: all trees, function nodes included *)
  Lemma okey_injective :
    forall t1 t2 : tree leaf, okey digest sha t1 = okey digest sha t2 -> t1 = t2.
  Proof.
    intros t1 t2. unfold okey.
    apply key_injective_all;
      [exact leaf_key_inj | exact top_inj | exact tfunc_inj | exact leaf_key_not_op].
  Qed.

  Lemma okey_iff :
    forall t1 t2 : tree leaf, okey digest sha t1 = okey digest sha t2 <-> t1 = t2.
  Proof. intros t1 t2; split; [apply okey_injective | intros ->; reflexivity]. Qed.

  (* a context: a path of operation / function nodes down to one hole *)
  Inductive frame :=
  | FBinL (o : binop) (s : tree leaf)                  (* Bin o [] s *)
  | FBinR (o : binop) (s : tree leaf)                  (* Bin o s [] *)
  | FEval (f : string) (before after : list (tree leaf)).

  Fixpoint plug (ctx : list frame) (t : tree leaf) : tree leaf :=
    match ctx with
    | [] => t
    | FBinL o s :: c => Bin o (plug c t) s
    | FBinR o s :: c => Bin o s (plug c t)
    | FEval f bf af :: c => Eval f (bf ++ plug c t :: af)
    end.

  Lemma plug_inj : forall ctx t1 t2, plug ctx t1 = plug ctx t2 -> t1 = t2.
  Proof.
    induction ctx as [| fr c IH]; intros t1 t2 H; cbn in H; [exact H|].
    destruct fr; injection H as H; auto.
    apply app_inv_head in H. injection H as H. auto.
  Qed.
End Leaves.

Definition wit_x : tree leaf := Leaf (LVar "x" 0 0 (-1) (-1)).
Definition wit_y : tree leaf := Leaf (LVar "y" 0 0 (-1) (-1)).

(* the key construction before the repair: neither function nor arity *)
Fixpoint old_key {L T} (leafkey : L -> T) (optok : string -> T) (t : tree L) : list T :=
  match t with
  | Leaf l => [leafkey l]
  | Bin o a b => optok (opname o) :: old_key leafkey optok a ++ old_key leafkey optok b
  | Eval f args => optok evaluate_name :: flat_map (old_key leafkey optok) args
  end.

Lemma key_eqb_spec : forall t1 t2, key_eqb t1 t2 = true <-> ikey t1 = ikey t2.
Proof.
  intros t1 t2; unfold key_eqb.
  destruct (list_eq_dec itoken_eq_dec (ikey t1) (ikey t2)); split; auto; discriminate.
Qed.

Lemma key_eqb_is_tree_equality :
  forall t1 t2, key_eqb t1 t2 = true <-> t1 = t2.
Proof.
  intros t1 t2. rewrite key_eqb_spec. unfold ikey. apply okey_iff. intros a b H; exact H.
Qed.
