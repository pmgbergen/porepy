(* C09 — the equations of the time loop [drive], for any instance of the operations. *)
From Coq Require Import List ZArith Bool.
Import ListNotations.
From PP Require Import Model.C09.

Lemma last_cons (A : Type) (x : A) l d : last (x :: l) d = last l x.
Proof.
  revert x d. induction l as [|y l IH]; intros x d; [reflexivity|].
  change (last (x :: y :: l) d) with (last (y :: l) d). rewrite (IH y d), (IH y x).
  reflexivity.
Qed.

Lemma last_nth (A : Type) (l : list A) (d : A) : last l d = nth (length l - 1) l d.
Proof.
  induction l as [|a [|b l] IH]; [reflexivity|reflexivity|].
  change (last (a :: b :: l) d) with (last (b :: l) d). rewrite IH.
  cbn [length Nat.sub]. rewrite Nat.sub_0_r. reflexivity.
Qed.

Section Loop.
  Variable T : Type.
  Variable O : numops T.
  Variable c : cfg T.
  Variable sched : list T.

  Notation final := (final_time_reached T O c sched).
  Notation loop := (drive T O c sched).

  (* what one event does to the clock [s1] that has already been advanced *)
  Definition cstep (s1 : state T) (ev : event) : state T * out T :=
    match ev with
    | Converged k => if constant c then (s1, OUnit)
                     else compute_time_step T O c sched s1 (Some k) false
    | Failed => if constant c then (s1, OErr E_not_converged)
                else compute_time_step T O c sched s1 None true
    end.

  Lemma drive_final s evs : final s = true -> loop s evs = ([], Finished).
  Proof. intros H. destruct evs; cbn [drive]; rewrite H; reflexivity. Qed.

  Lemma drive_nil s : final s = false -> loop s [] = ([], OutOfEvents).
  Proof. intros H. cbn [drive]. rewrite H. reflexivity. Qed.

  Lemma drive_cons s ev evs s2 o :
    final s = false -> cstep (increase_time_index T (increase_time T O s)) ev = (s2, o) ->
    loop s (ev :: evs)
    = match o with
      | OErr e => ([(ev, s2, o)], Raised e)
      | _ => let (tr, st) := loop s2 evs in ((ev, s2, o) :: tr, st)
      end.
  Proof.
    intros H E. cbn [drive]. rewrite H.
    fold (cstep (increase_time_index T (increase_time T O s)) ev). rewrite E. reflexivity.
  Qed.
End Loop.
