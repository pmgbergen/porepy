(* C24 — what the loops of add_subdomains, remove_subdomain and
   replace_subdomains_and_interfaces compute; every well-formed call succeeds and preserves
   the invariant; rejected calls raise and leave the container untouched. *)
From Coq Require Import List Arith Bool Lia Permutation.
Import ListNotations.
From PP Require Import Lib.ListFacts Model.C24 Model.C24_spec Proofs.C24_base Proofs.C24_sort
  Proofs.C24_inv.

(* first loop of add_subdomains, the grids being new and distinct *)
Lemma fold_kadd l : forall S,
  NoDup l -> (forall x, In x l -> ~ In x S) -> fold_left (fun acc s => kadd s acc) l S = S ++ l.
Proof.
  induction l as [|x r IH]; intros S Hn Hd; cbn.
  - rewrite app_nil_r; reflexivity.
  - destruct (fresh_snoc S x r Hn Hd) as (Hx & Hr & Hd').
    rewrite kadd_fresh, IH, <- app_assoc by auto. reflexivity.
Qed.

(* second loop of add_subdomains *)
Lemma add_bgs_spec l : forall m b n S,
  Bnd m b n S -> NoDup l -> (forall x, In x l -> ~ In x S) ->
  exists m' b' n', add_bgs l m b n = (m', b', n') /\ Bnd m' b' n' (S ++ l).
Proof.
  induction l as [|x r IH]; intros m b n S HB Hn Hd; cbn [add_bgs].
  - exists m, b, n. rewrite app_nil_r. auto.
  - destruct (fresh_snoc S x r Hn Hd) as (HxS & Hr & Hd').
    rewrite (app_assoc S [x] r : S ++ x :: r = _).
    unfold gdim. destruct (Nat.ltb_spec 0 (fst x)); apply IH; auto.
    + apply Bnd_add; auto.
    + apply (Bnd_ext _ _ _ S); auto.
      intros s Hs. rewrite in_app_iff. cbn. intuition (subst; lia).
Qed.

Lemma collect_spec m s L :
  (forall i, In i L -> In i (map fst m)) -> collect m s L = Ok (filter (tch m s) L).
Proof.
  induction L as [|i r IH]; cbn; intros H; auto.
  destruct (In_keys_lookup m i) as (p & E); auto.
  unfold tch at 1. rewrite E, IH by auto. reflexivity.
Qed.

Lemma del_intfs_spec rm : forall k m,
  NoDup k -> map fst m = k ->
  exists k' m', del_intfs rm k m = (k', m') /\ map fst m' = k' /\
    k' = filter (fun x => negb (mem x rm)) k /\
    (forall j, lookup j m' = if mem j rm then None else lookup j m).
Proof.
  induction rm as [|i r IH]; intros k m Hn Hk; cbn [del_intfs].
  - exists k, m. repeat split; auto. symmetry. apply filter_all. reflexivity.
  - destruct (IH (kdel i k) (ddel i m)) as (k' & m' & -> & H1 & H2 & H3).
    + apply kdel_nodup; auto.
    + rewrite ddel_keys. congruence.
    + exists k', m'. repeat split; auto.
      * rewrite H2, kdel_filter, filter_filter by auto. apply filter_ext. intros x. cbn [mem].
        unfold neqb. gcase x i; gcase i x; cbn; congruence.
      * intros j. rewrite H3, lookup_ddel by (rewrite Hk; auto). cbn [mem].
        destruct (geqb i j), (mem j r); reflexivity.
Qed.

(* remove_subdomain deletes the interfaces it collected from a listing L of all of them *)
Lemma del_touching m k s L :
  NoDup k -> map fst m = k -> Permutation L k ->
  exists k' m', del_intfs (filter (tch m s) L) k m = (k', m') /\ map fst m' = k' /\
    k' = filter (fun i => negb (tch m s i)) k /\
    (forall j, lookup j m' = if tch m s j then None else lookup j m).
Proof.
  intros Hn Hk HL.
  assert (Hrm : forall x, mem x (filter (tch m s) L) = tch m s x).
  { intros x. apply eq_true_iff_eq. rewrite mem_In, filter_In. split; [tauto|].
    intros E. split; auto. apply (Permutation_in _ (Permutation_sym HL)).
    rewrite <- Hk. apply (tch_keys _ _ _ E). }
  destruct (del_intfs_spec (filter (tch m s) L) k m Hn Hk) as (k' & m' & Ed & Hk1 & Hk2 & Hm').
  exists k', m'. repeat split; auto.
  - rewrite Hk2. apply filter_ext. intros x. rewrite Hrm. reflexivity.
  - intros j. rewrite Hm', Hrm. reflexivity.
Qed.

(* the body of the loop in replace, for an interface of the old grid whose stored pair sorts
   to (hi, lo): the pair is renamed, whichever items are the old grid *)
Lemma rename_pair o n i hi lo (m : list (gid * (gid * gid))) :
  In i (map fst m) -> touches o (hi, lo) = true ->
  let m1 := if geqb hi o then dset i (n, lo) m else m in
  let m2 := if geqb lo o then dset i (if geqb hi o then n else hi, n) m1 else m1 in
  map fst m2 = map fst m /\
  forall j, lookup j m2 = if geqb i j then Some (renp o n (hi, lo)) else lookup j m.
Proof.
  intros Hk. unfold touches, renp, ren. cbn [fst snd].
  destruct (geqb hi o), (geqb lo o); try discriminate; intros _.
  - split; [rewrite !dset_keys_present; rewrite ?dset_keys_present; auto|].
    intros j. rewrite !lookup_dset. destruct (geqb i j); reflexivity.
  - split; [apply dset_keys_present, Hk | intros j; apply lookup_dset].
  - split; [apply dset_keys_present, Hk | intros j; apply lookup_dset].
Qed.

Lemma rename_loop_spec s o n : n <> o -> forall L m,
  NoDup L ->
  (forall i, In i L -> exists a b, lookup i m = Some (a, b) /\ In a s /\ In b s /\
                                   touches o (a, b) = true) ->
  (forall j p, lookup j m = Some p -> touches o p = true -> In j L) ->
  exists m', rename_loop s o n L m = (m', None) /\ map fst m' = map fst m /\
             forall j, orel (option_map (renp o n) (lookup j m)) (lookup j m').
Proof.
  intros Hno. induction L as [|i r IH]; intros m Hn Hp Hc.
  - exists m. repeat split; auto. intros j. destruct (lookup j m) as [p|] eqn:E; cbn; auto.
    rewrite renp_id; [apply unord_refl|].
    destruct (touches o p) eqn:Et; auto. destruct (Hc j p E Et).
  - inversion Hn as [|? ? Hir Hnr]; subst.
    destruct (Hp i (or_introl eq_refl)) as (a & b & Hl & Ha & Hb & Ht).
    cbn [rename_loop]. rewrite Hl.
    destruct (sort_tuple_ok s a b Ha Hb) as (hi & lo & -> & _ & Hor). cbv zeta.
    rewrite <- (touches_unord o (hi, lo) (a, b) Hor) in Ht.
    destruct (rename_pair o n i hi lo m) as (Hk & Hm2); auto.
    { apply lookup_keys. congruence. }
    set (m2 := if geqb lo o then _ else _) in *.
    (* the renamed pair does not contain the old grid any more *)
    pose proof (touches_renp o n (hi, lo) Hno) as Hnv.
    destruct (IH m2 Hnr) as (m' & -> & Hk' & Hrel).
    + intros i' Hi'. rewrite Hm2. gcase i i'; [subst; contradiction | apply Hp; right; auto].
    + intros j p. rewrite Hm2. gcase i j; [intros [= <-]; congruence|].
      intros Hj Ht'. destruct (Hc j p Hj Ht'); [contradiction | auto].
    + exists m'. split; auto. split; [congruence|]. intros j.
      specialize (Hrel j). rewrite Hm2 in Hrel. gcase i j; auto.
      subst j. rewrite Hl. cbn [option_map] in *. rewrite renp_id in Hrel by auto.
      eapply orel_trans; [|exact Hrel]. apply unord_sym, (unord_ren o n (hi, lo) (a, b)), Hor.
Qed.

Lemma stored_pair g sp i :
  Inv g sp -> In i (intfs g) ->
  exists a b a' b', lookup i (pI sp) = Some (a, b) /\ lookup i (i2s g) = Some (a', b') /\
                    unord (a, b) (a', b') /\ In a' (sds g) /\ In b' (sds g) /\
                    fst i <= fst a' /\ fst i <= fst b'.
Proof.
  intros HI Hi. rewrite (inv_intfs _ _ HI) in Hi.
  destruct (In_keys_lookup _ _ Hi) as ([a b] & Hl).
  pose proof (inv_rel _ _ HI i) as Hr. rewrite Hl in Hr.
  destruct (lookup i (i2s g)) as [[a' b']|]; [|contradiction].
  destruct (inv_wf _ _ HI i a b Hl) as (Ha & Hb & Hda & Hdb & _).
  exists a, b, a', b'. rewrite (inv_sds _ _ HI). repeat split; auto;
    destruct Hr as [[? ?]|[? ?]]; cbn [fst snd] in *; subst; auto.
Qed.

(* argsort_grids on interfaces of the container, [S] being the subdomains or more: every
   interface has a subdomain of at least its dimension *)
Lemma argsort_intfs g sp S l :
  Inv g sp -> incl (sds g) S -> NoDup l -> incl l (intfs g) ->
  lists (argsort S l) l.
Proof.
  intros HI HS Hn Hl. apply argsort_ok; auto. intros i Hi.
  destruct (stored_pair g sp i HI (Hl i Hi)) as (_ & _ & a' & _ & _ & _ & _ & Ha & _ & Hd & _).
  eauto.
Qed.

Lemma step_add g sp l :
  Inv g sp -> okb sp (AddSd l) = true ->
  exists g', step g (AddSd l) = (g', Done) /\ Inv g' (sstep sp (AddSd l)).
Proof.
  intros HI Hok. cbn in Hok. apply andb_true_iff in Hok. destruct Hok as [Hnd Hfr].
  cbn [step]. unfold add_subdomains.
  rewrite existsb_negb_forallb, (inv_sds _ _ HI), Hfr, dupfree_nodupb, Hnd. cbn [negb].
  apply nodupb_NoDup in Hnd.
  assert (Hfresh : forall x, In x l -> ~ In x (pS sp)).
  { intros x Hx. rewrite forallb_forall in Hfr. apply mem_nIn, negb_true_iff, Hfr, Hx. }
  pose proof (Inv_Bnd _ _ HI) as HB. rewrite (inv_sds _ _ HI) in HB.
  destruct (add_bgs_spec l _ _ _ _ HB Hnd Hfresh) as (m' & b' & n' & -> & HB1 & HB2).
  rewrite fold_kadd by auto. eexists; split; [reflexivity|].
  split; cbn [sds intfs i2s s2b bgs nbg sstep pS pI]; try apply HI; auto.
  - apply nodup_app; auto; [apply HI|]. intros x Hx Hl. apply (Hfresh x Hl Hx).
  - apply WfI_add, HI.
Qed.

Lemma step_intf g sp i a b :
  Inv g sp -> okb sp (AddIntf i a b) = true ->
  exists g', step g (AddIntf i a b) = (g', Done) /\ Inv g' (sstep sp (AddIntf i a b)).
Proof.
  intros HI Hok. cbn [okb] in Hok. rewrite !andb_true_iff in Hok.
  destruct Hok as ((((((Hi & Ha) & Hb) & Hda) & Hdb) & Hco) & Hj).
  apply negb_true_iff in Hi, Hj. apply mem_In in Ha, Hb. apply Nat.leb_le in Hda, Hdb.
  cbn [step]. unfold add_interface, gdim.
  rewrite (inv_intfs _ _ HI), Hi, Hco, (inv_sds _ _ HI).
  destruct (sort_tuple_ok (pS sp) a b Ha Hb) as (x & y & -> & _ & Hor).
  eexists; split; [reflexivity|]. apply mem_nIn in Hi.
  assert (Hi2 : ~ In i (map fst (i2s g))).
  { rewrite (inv_keys _ _ HI), (inv_intfs _ _ HI); auto. }
  split; cbn [sds intfs i2s s2b bgs nbg sstep pS pI]; try apply HI; auto.
  - rewrite kadd_fresh, map_app by auto. reflexivity.
  - rewrite map_app. apply nodup_snoc; auto. apply HI.
  - rewrite dset_fresh, map_app, kadd_fresh, (inv_keys _ _ HI), (inv_intfs _ _ HI) by auto.
    reflexivity.
  - intros j. rewrite lookup_dset, lookup_snoc by auto.
    destruct (geqb i j); [apply unord_sym, Hor | apply HI].
  - apply WfI_intf; auto. apply HI.
  - intros s. rewrite <- (inv_sds _ _ HI). apply HI.
Qed.

(* first part of remove_subdomain: all interfaces are listed, those whose stored pair
   contains s are collected *)
Lemma remove_scan g sp s :
  Inv g sp ->
  exists L, interfaces g None = Ok L /\ Permutation L (intfs g) /\
            collect (i2s g) s L = Ok (filter (tch (i2s g) s) L).
Proof.
  intros HI.
  destruct (argsort_intfs g sp (sds g) (intfs g) HI) as (L & HL & HLp & _);
    auto using incl_refl, (Inv_nd_intfs g sp).
  exists L. repeat split; auto. apply collect_spec. intros i Hi.
  rewrite (inv_keys _ _ HI). apply (Permutation_in _ HLp Hi).
Qed.

Lemma tch_filter g sp s (f : bool -> bool) :
  Inv g sp ->
  map fst (filter (fun e => f (touches s (snd e))) (pI sp))
  = filter (fun i => f (tch (i2s g) s i)) (intfs g).
Proof.
  intros HI. rewrite (inv_intfs _ _ HI). apply map_fst_filter. intros [i p] Hin. cbn [fst snd].
  rewrite (tch_spec g sp s i p HI Hin). reflexivity.
Qed.

Definition removed_exactly (g g' : st) (s : gid) : Prop :=
  sds g' = filter (fun x => neqb x s) (sds g) /\
  intfs g' = filter (fun i => negb (tch (i2s g) s i)) (intfs g) /\
  (forall j, lookup j (i2s g') = if tch (i2s g) s j then None else lookup j (i2s g)) /\
  (forall s', sd_to_bg g' s' = if geqb s s' then None else sd_to_bg g s') /\
  bgs g' = match sd_to_bg g s with
           | Some bg => filter (fun x => neqb x bg) (bgs g)
           | None => bgs g
           end.

Lemma step_remove g sp s :
  Inv g sp -> okb sp (RemoveSd s) = true ->
  exists g', step g (RemoveSd s) = (g', Done) /\ Inv g' (sstep sp (RemoveSd s)) /\
             removed_exactly g g' s.
Proof.
  intros HI Hok. cbn [okb] in Hok. rewrite <- (inv_sds _ _ HI) in Hok.
  pose proof (Inv_nd_sds _ _ HI) as Hn. pose proof (Inv_nd_intfs _ _ HI) as HnI.
  pose proof (Inv_Bnd _ _ HI) as HB.
  destruct (remove_scan g sp s HI) as (L & HL & HLp & Hcol).
  destruct (del_touching (i2s g) (intfs g) s L HnI (inv_keys _ _ HI) HLp)
    as (k' & m' & Ed & Hk & Hk' & Hm').
  set (b' := match lookup s (s2b g) with Some bg => kdel bg (bgs g) | None => bgs g end).
  exists (mk (filter (fun x => neqb x s) (sds g)) k' m' (ddel s (s2b g)) b' (nbg g)).
  split; [|split].
  - cbn [step]. unfold remove_subdomain. rewrite HL, Hcol, Hok.
    cbn [negb sds intfs i2s s2b bgs nbg]. rewrite Ed, kdel_filter by auto.
    apply mem_In in Hok. unfold gdim, b'. destruct (Nat.ltb_spec 0 (fst s)) as [Hpos|Hpos].
    + destruct (Bnd_lookup _ _ _ _ s HB Hok Hpos) as (bg & -> & Hbg).
      apply mem_In in Hbg. rewrite Hbg. reflexivity.
    + assert (Hsk : ~ In s (map fst (s2b g))) by (rewrite (proj2 HB); lia).
      rewrite ddel_absent, (proj2 (lookup_None _ _) Hsk); auto.
  - destruct (Bnd_remove _ _ _ _ s HB) as [HB1 HB2].
    split; cbn [sds intfs i2s s2b bgs nbg sstep pS pI]; auto.
    + rewrite (inv_sds _ _ HI). reflexivity.
    + apply NoDup_filter, HI.
    + rewrite Hk'. symmetry. apply (tch_filter g sp s negb HI).
    + rewrite (tch_filter g sp s negb HI). apply NoDup_filter, HnI.
    + intros j. rewrite lookup_filter, Hm', (tch_orel _ s _ _ (inv_rel _ _ HI j)) by apply HI.
      pose proof (inv_rel _ _ HI j) as Hr. cbn [snd].
      destruct (lookup j (pI sp)) as [p|]; [destruct (touches s p); cbn; auto | exact Hr].
    + apply WfI_remove; apply HI.
  - destruct HB as [(B1 & B2 & B3 & _) _]. unfold removed_exactly, sd_to_bg, b'.
    cbn [sds intfs i2s s2b bgs nbg]. repeat split; auto.
    + intros s'. apply lookup_ddel, B1.
    + destruct (lookup s (s2b g)); auto. apply kdel_filter, B3.
Qed.

(* the interface part of one replacement: subdomain_to_interfaces(sd_old), the new grid
   being a key already, then the renaming loop over its result *)
Lemma replace_rename g sp o n :
  Inv g sp -> n <> o ->
  let s1 := sds g ++ [n] in
  exists L m', argsort s1 (filter (tch (i2s g) o) (intfs g)) = Ok L /\
               rename_loop s1 o n L (i2s g) = (m', None) /\ map fst m' = intfs g /\
               forall j, orel (lookup j (map (ren_entry o n) (pI sp))) (lookup j m').
Proof.
  intros HI Hno s1.
  destruct (argsort_intfs g sp s1 (filter (tch (i2s g) o) (intfs g)) HI)
    as (L & HL & HLp & HLn & _).
  { apply incl_appl, incl_refl. }
  { apply NoDup_filter, (Inv_nd_intfs g sp HI). }
  { apply incl_filter. }
  destruct (rename_loop_spec s1 o n Hno L (i2s g) HLn) as (m' & Hr & Hk & Hrel).
  - intros i Hi. apply (Permutation_in _ HLp), filter_In in Hi. destruct Hi as [Hi Ht].
    destruct (stored_pair g sp i HI Hi) as (_ & _ & a' & b' & _ & Hl' & _ & Ha & Hb & _).
    exists a', b'. unfold tch in Ht. rewrite Hl' in Ht. unfold s1. rewrite !in_app_iff. auto.
  - intros j p Hj Ht. apply (Permutation_in _ (Permutation_sym HLp)), filter_In.
    unfold tch. rewrite Hj. split; auto.
    rewrite <- (inv_keys _ _ HI). apply lookup_keys. congruence.
  - exists L, m'. repeat split; auto.
    + rewrite Hk. apply HI.
    + intros j. rewrite lookup_ren. eapply orel_trans; [apply orel_ren, HI | apply Hrel].
Qed.

Lemma step_replace_one g sp o n :
  Inv g sp -> In o (pS sp) -> ~ In n (pS sp) -> fst n = fst o ->
  exists g', replace_one g o n = (g', Done) /\ Inv g' (s_replace1 sp o n).
Proof.
  intros HI Ho Hn Hdim.
  assert (Hno : n <> o) by (intros ->; contradiction).
  pose proof Hn as HnS. rewrite <- (inv_sds _ _ HI) in Ho, HnS.
  pose proof (Inv_Bnd _ _ HI) as HB.
  destruct (replace_rename g sp o n HI Hno) as (L & m' & HL & Hr & Hk & Hrel).
  set (s1 := sds g ++ [n]) in *.
  assert (Hn1 : NoDup s1) by (apply nodup_snoc; eauto using Inv_nd_sds).
  assert (Hs1 : kdel o s1 = filter (fun x => neqb x o) (pS sp) ++ [n]).
  { rewrite kdel_filter by auto. unfold s1. rewrite filter_app, (inv_sds _ _ HI). cbn.
    rewrite (proj2 (neqb_true n o)); auto. }
  (* the invariant, whatever happens to the boundary grids *)
  assert (HInv : forall m b k, Bnd m b k (kdel o s1) ->
            Inv (mk (kdel o s1) (intfs g) m' m b k) (s_replace1 sp o n)).
  { intros m b k [HB1 HB2]. split; cbn [sds intfs i2s s2b bgs nbg s_replace1 pS pI]; auto.
    - rewrite <- Hs1. apply kdel_nodup, Hn1.
    - rewrite ren_entry_keys. apply HI.
    - rewrite ren_entry_keys. apply HI.
    - apply WfI_replace; auto. apply HI. }
  unfold replace_one, sd_to_intfs. rewrite (proj2 (mem_In _ _) Ho).
  cbn [negb sds intfs i2s s2b bgs nbg].
  rewrite collect_spec by (rewrite (inv_keys _ _ HI); auto).
  rewrite kadd_fresh by auto. fold s1. rewrite HL, Hr. unfold gdim.
  destruct (Nat.ltb_spec 0 (fst o)) as [Hpos|Hpos].
  - destruct (Bnd_lookup _ _ _ _ o HB Ho Hpos) as (bgo & Hbgo & Hbm). rewrite Hbgo.
    rewrite (proj2 (Nat.eqb_neq (fst n) 0)) by lia.
    apply mem_In in Hbm. rewrite Hbm. cbn [negb].
    eexists; split; [reflexivity|]. apply HInv. rewrite (kdel_filter o s1 Hn1).
    apply Bnd_del; [apply Bnd_add; auto; lia|].
    rewrite lookup_dset. apply geqb_neq in Hno. rewrite Hno. exact Hbgo.
  - eexists; split; [reflexivity|]. apply HInv, (Bnd_ext _ _ _ _ _ HB).
    intros s Hs. rewrite kdel_In by auto. unfold s1. rewrite in_app_iff. cbn.
    intuition (subst; lia).
Qed.

Lemma step_replace_all sm : forall g sp,
  Inv g sp -> ok_replace (pS sp) sm = true ->
  exists g', replace_all g sm = (g', Done) /\
             Inv g' (fold_left (fun sp e => s_replace1 sp (fst e) (snd e)) sm sp).
Proof.
  induction sm as [|[o n] r IH]; intros g sp HI Hok; cbn [replace_all fold_left].
  - exists g. split; auto.
  - cbn [ok_replace] in Hok. rewrite !andb_true_iff in Hok.
    destruct Hok as (((H1 & H2) & H3) & H4).
    apply mem_In in H1. apply negb_true_iff, mem_nIn in H2. apply Nat.eqb_eq in H3.
    destruct (step_replace_one g sp o n HI H1 H2 H3) as (g1 & -> & HI1).
    cbn [fst snd]. apply IH; auto.
Qed.

Lemma step_ok g sp o :
  Inv g sp -> okb sp o = true -> exists g', step g o = (g', Done) /\ Inv g' (sstep sp o).
Proof.
  intros HI Hok. destruct o as [l|i a b|s|im sm].
  - apply step_add; auto.
  - apply step_intf; auto.
  - destruct (step_remove g sp s HI Hok) as (g' & H1 & H2 & _). eauto.
  - cbn [step sstep]. apply step_replace_all; auto.
Qed.

Lemma replace_one_absent g o n :
  mem o (sds g) = false -> replace_one g o n = (g, Raised KeyErr).
Proof. intros H. unfold replace_one. rewrite H. reflexivity. Qed.

Lemma step_rej g sp o e :
  Inv g sp -> rejb sp o = Some e -> step g o = (g, Raised e).
Proof.
  intros HI Hr. destruct o as [l|i a b|s|im sm]; cbn [rejb] in Hr; cbn [step].
  - unfold add_subdomains. rewrite (inv_sds _ _ HI).
    destruct (existsb _ l); cbn [orb] in Hr; [inversion Hr; reflexivity|].
    destruct (negb (dupfree l)); inversion Hr; reflexivity.
  - unfold add_interface, gdim. rewrite (inv_intfs _ _ HI).
    destruct (mem i (map fst (pI sp))); [inversion Hr; reflexivity|].
    destruct (absdiff (fst a) (fst b) <? 3); [discriminate | inversion Hr; reflexivity].
  - unfold remove_subdomain. destruct (remove_scan g sp s HI) as (L & -> & _ & ->).
    rewrite (inv_sds _ _ HI).
    destruct (mem s (pS sp)); [discriminate | inversion Hr; reflexivity].
  - destruct sm as [|[o n] r]; [discriminate|]. cbn [replace_all].
    destruct (mem o (pS sp)) eqn:E; [discriminate|]. injection Hr as <-.
    rewrite replace_one_absent; [reflexivity | rewrite (inv_sds _ _ HI); exact E].
Qed.
