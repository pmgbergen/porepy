(* C20 — proofs: rigid motions commute with the geometry formulas.  Generic over a
   commutative ring with Leibniz equality (reals, Qc, Z, ... ).  The one non-trivial step is
   the cross product: (M u) x (M v) = cof(M) (u x v) for every M ([cross_cof]), and cof M = M
   for a rotation ([cof_rotation]).  [expr_equivariant] covers all well-formed expressions. *)
From Coq Require Import List ZArith Arith Lia Ring.
Import ListNotations.
From PP Require Import Model.C20.

Section GenericProofs.
  Variable F : Type.
  Variables (f0 f1 : F) (fadd fmul fsub : F -> F -> F) (fopp : F -> F).
  Hypothesis Fth : ring_theory f0 f1 fadd fmul fsub fopp eq.
  Add Ring Fring : Fth.

  Local Infix "+" := fadd.  Local Infix "*" := fmul.  Local Infix "-" := fsub.

  Notation vec := (vec F).
  Notation mat := (mat F).
  Notation vzero := (vzero F f0).
  Notation vadd := (vadd F fadd).
  Notation vsub := (vsub F fsub).
  Notation vscale := (vscale F fmul).
  Notation dot := (dot F fadd fmul).
  Notation cross := (cross F fmul fsub).
  Notation vsum := (vsum F f0 fadd).
  Notation ssum := (ssum F f0 fadd).
  Notation mapply := (mapply F fadd fmul).
  Notation col1 := (col1 F).  Notation col2 := (col2 F).  Notation col3 := (col3 F).
  Notation det := (det F fadd fmul fsub).
  Notation cof := (cof F fmul fsub).
  Notation motion := (motion F fadd fmul).

  Definition gram (M : mat) : mat :=
    (mkv (dot (col1 M) (col1 M)) (dot (col1 M) (col2 M)) (dot (col1 M) (col3 M)),
     mkv (dot (col1 M) (col2 M)) (dot (col2 M) (col2 M)) (dot (col2 M) (col3 M)),
     mkv (dot (col1 M) (col3 M)) (dot (col2 M) (col3 M)) (dot (col3 M) (col3 M))).

  Definition imat : mat := (mkv f1 f0 f0, mkv f0 f1 f0, mkv f0 f0 f1).

  Ltac vdestruct :=
    repeat match goal with
           | v : Model.C20.vec F |- _ => destruct v as [[? ?] ?]
           | M : Model.C20.mat F |- _ => destruct M as [[? ?] ?]
           end.
  (* identities of vectors and matrices: split everything into components and let [ring]
     check each coordinate ([cbv] with an explicit list: [cbn] on these terms is slow) *)
  Ltac vring :=
    intros; vdestruct;
    cbv [gram imat Model.C20.motion Model.C20.mapply Model.C20.cof Model.C20.det
         Model.C20.cross Model.C20.dot Model.C20.vadd Model.C20.vsub
         Model.C20.vscale Model.C20.vzero Model.C20.col1 Model.C20.col2
         Model.C20.col3 row1 row2 row3 mkv vx vy vz fst snd];
    match goal with
    | |- (_, _, _) = (_, _, _) => f_equal; [f_equal|]; ring
    | |- _ => ring
    end.

  Lemma mapply_vadd : forall M (u v : vec), mapply M (vadd u v) = vadd (mapply M u) (mapply M v).
  Proof. vring. Qed.
  Lemma mapply_vsub : forall M (u v : vec), mapply M (vsub u v) = vsub (mapply M u) (mapply M v).
  Proof. vring. Qed.
  Lemma mapply_vscale : forall M k (u : vec), mapply M (vscale k u) = vscale k (mapply M u).
  Proof. vring. Qed.
  Lemma mapply_vzero : forall M, mapply M vzero = vzero.
  Proof. vring. Qed.
  Lemma vadd_zero_r : forall u : vec, vadd u vzero = u.
  Proof. vring. Qed.

  Lemma cross_cof : forall (M : mat) (u v : vec),
      cross (mapply M u) (mapply M v) = mapply (cof M) (cross u v).
  Proof. vring. Qed.

  Definition is_rotation (M : mat) : Prop :=
    dot (col1 M) (col1 M) = f1 /\ dot (col2 M) (col2 M) = f1 /\ dot (col3 M) (col3 M) = f1 /\
    dot (col1 M) (col2 M) = f0 /\ dot (col1 M) (col3 M) = f0 /\ dot (col2 M) (col3 M) = f0 /\
    det M = f1.

  Lemma gram_rotation : forall M : mat, is_rotation M -> gram M = imat.
  Proof.
    intros M (H11 & H22 & H33 & H12 & H13 & H23 & _). unfold gram.
    rewrite H11, H22, H33, H12, H13, H23. reflexivity.
  Qed.

  Lemma mapply_imat : forall r : vec, mapply imat r = r.
  Proof. vring. Qed.

  Lemma dot_gram : forall (M : mat) (u v : vec),
      dot (mapply M u) (mapply M v) = dot u (mapply (gram M) v).
  Proof. vring. Qed.

  Lemma dot_rotation : forall (M : mat) (u v : vec),
      is_rotation M -> dot (mapply M u) (mapply M v) = dot u v.
  Proof. intros M u v H. rewrite dot_gram, (gram_rotation M H), mapply_imat. reflexivity. Qed.

  (* (M^T M) r = M^T (M r), the inner product as a combination of the columns *)
  Lemma cof_gram_1 : forall (M : mat) (r : vec),
      mkv (dot r (mkv (dot (col1 M) (col1 M)) (dot (col1 M) (col2 M)) (dot (col1 M) (col3 M))))
          (dot r (mkv (dot (col1 M) (col2 M)) (dot (col2 M) (col2 M)) (dot (col2 M) (col3 M))))
          (dot r (mkv (dot (col1 M) (col3 M)) (dot (col2 M) (col3 M)) (dot (col3 M) (col3 M))))
      = mapply (col1 M, col2 M, col3 M) (vadd (vadd (vscale (vx r) (col1 M)) (vscale (vy r) (col2 M)))
                                               (vscale (vz r) (col3 M))).
  Proof. vring. Qed.

  (* cof(M) (M^T M) = det(M) M, row by row, for every matrix *)
  Lemma cof_gram : forall M : mat,
      mapply (gram M) (row1 (cof M)) = vscale (det M) (row1 M) /\
      mapply (gram M) (row2 (cof M)) = vscale (det M) (row2 M) /\
      mapply (gram M) (row3 (cof M)) = vscale (det M) (row3 M).
  Proof. intros M. repeat split; vring. Qed.

  (* with M^T M = I the left sides above are the rows of cof(M), with det M = 1 the right
     sides are the rows of M *)
  Lemma cof_rotation : forall M : mat, is_rotation M -> cof M = M.
  Proof.
    intros M H. pose proof (gram_rotation M H) as G. destruct H as (_ & _ & _ & _ & _ & _ & Hd).
    destruct (cof_gram M) as (E1 & E2 & E3). rewrite G, mapply_imat, Hd in E1, E2, E3.
    assert (V : forall r : vec, vscale f1 r = r) by vring.
    rewrite V in E1, E2, E3.
    destruct M as [[r1 r2] r3]. unfold Model.C20.cof in *. cbn [row1 row2 row3 fst snd] in *.
    rewrite E1, E2, E3. reflexivity.
  Qed.

  Lemma cross_rotation : forall (M : mat) (u v : vec),
      is_rotation M -> cross (mapply M u) (mapply M v) = mapply M (cross u v).
  Proof. intros M u v H. rewrite cross_cof, (cof_rotation M H). reflexivity. Qed.

  Lemma motion_sub : forall M t (p q : vec),
      vsub (motion M t p) (motion M t q) = mapply M (vsub p q).
  Proof. vring. Qed.
  Lemma motion_shift : forall M t (p v : vec),
      vadd (motion M t p) (mapply M v) = motion M t (vadd p v).
  Proof. vring. Qed.
  Lemma motion_comb : forall M t w1 w2 (p q : vec),
      w1 + w2 = f1 ->
      vadd (vscale w1 (motion M t p)) (vscale w2 (motion M t q))
      = motion M t (vadd (vscale w1 p) (vscale w2 q)).
  Proof.
    intros M t w1 w2 p q H.
    assert (E : vadd (vscale w1 (motion M t p)) (vscale w2 (motion M t q))
                = vadd (mapply M (vadd (vscale w1 p) (vscale w2 q))) (vscale (w1 + w2) t)) by vring.
    rewrite E, H. vring.
  Qed.

  Lemma scale_motion : forall M t k v (m : vec),
      k * v = f1 -> vscale k (vadd (mapply M m) (vscale v t)) = motion M t (vscale k m).
  Proof.
    intros M t k v m H.
    assert (E : vscale k (vadd (mapply M m) (vscale v t))
                = vadd (mapply M (vscale k m)) (vscale (k * v) t)) by vring.
    rewrite E, H. vring.
  Qed.

  Notation sexp := (sexp F).  Notation vexp := (vexp F).  Notation pexp := (pexp F).
  Notation seval := (seval F fadd fmul fsub).
  Notation veval := (veval F fadd fmul fsub).
  Notation peval := (peval F fadd fmul fsub).

  (* affine combinations must have weights summing to one *)
  Fixpoint swf (e : sexp) : Prop :=
    match e with
    | SConst _ => True
    | SDot a b => vwf a /\ vwf b
    | SAdd a b | SMul a b | SFun2 _ a b => swf a /\ swf b
    | SFun1 _ a => swf a
    end
  with vwf (e : vexp) : Prop :=
    match e with
    | VDiff p q => pwf p /\ pwf q
    | VCross a b | VAdd a b => vwf a /\ vwf b
    | VScale s a => swf s /\ vwf a
    end
  with pwf (e : pexp) : Prop :=
    match e with
    | PNode _ => True
    | PShift p v => pwf p /\ vwf v
    | PComb w1 w2 p q => w1 + w2 = f1 /\ pwf p /\ pwf q
    end.

  Scheme sexp_mut := Induction for Model.C20.sexp Sort Prop
    with vexp_mut := Induction for Model.C20.vexp Sort Prop
    with pexp_mut := Induction for Model.C20.pexp Sort Prop.
  Combined Scheme exp_mutind from sexp_mut, vexp_mut, pexp_mut.

  Lemma expr_equivariant : forall (M : mat) (t : vec) (nodes : nat -> vec),
      is_rotation M ->
      let moved := fun i => motion M t (nodes i) in
      (forall e : sexp, swf e -> seval moved e = seval nodes e) /\
      (forall e : vexp, vwf e -> veval moved e = mapply M (veval nodes e)) /\
      (forall e : pexp, pwf e -> peval moved e = motion M t (peval nodes e)).
  Proof.
    intros M t nodes HR moved.
    apply (exp_mutind F
             (fun e => swf e -> seval moved e = seval nodes e)
             (fun e => vwf e -> veval moved e = mapply M (veval nodes e))
             (fun e => pwf e -> peval moved e = motion M t (peval nodes e))).
    (* each case: congruence with the induction hypotheses (the goals are left unreduced:
       the mutual fixpoints do not fold back), then one lemma of linear algebra *)
    - reflexivity.
    - intros a IHa b IHb [Ha Hb].
      etransitivity; [apply (f_equal2 dot (IHa Ha) (IHb Hb))|apply dot_rotation, HR].
    - intros a IHa b IHb [Ha Hb]. apply (f_equal2 fadd (IHa Ha) (IHb Hb)).
    - intros a IHa b IHb [Ha Hb]. apply (f_equal2 fmul (IHa Ha) (IHb Hb)).
    - intros f a IHa Ha. apply (f_equal f (IHa Ha)).
    - intros f a IHa b IHb [Ha Hb]. apply (f_equal2 f (IHa Ha) (IHb Hb)).
    - intros p IHp q IHq [Hp Hq].
      etransitivity; [apply (f_equal2 vsub (IHp Hp) (IHq Hq))|apply motion_sub].
    - intros a IHa b IHb [Ha Hb].
      etransitivity; [apply (f_equal2 cross (IHa Ha) (IHb Hb))|apply cross_rotation, HR].
    - intros s IHs a IHa [Hs Ha].
      etransitivity; [apply (f_equal2 vscale (IHs Hs) (IHa Ha))|symmetry; apply mapply_vscale].
    - intros a IHa b IHb [Ha Hb].
      etransitivity; [apply (f_equal2 vadd (IHa Ha) (IHb Hb))|symmetry; apply mapply_vadd].
    - reflexivity.
    - intros p IHp v IHv [Hp Hv].
      etransitivity; [apply (f_equal2 vadd (IHp Hp) (IHv Hv))|apply motion_shift].
    - intros w1 w2 p IHp q IHq (Hw & Hp & Hq).
      etransitivity; [|apply motion_comb, Hw].
      apply (f_equal2 vadd (f_equal (vscale w1) (IHp Hp)) (f_equal (vscale w2) (IHq Hq))).
  Qed.

  Lemma vsum_nil : vsum [] = vzero.
  Proof. reflexivity. Qed.

  Lemma vsum_cons : forall (x : vec) l, vsum (x :: l) = vadd x (vsum l).
  Proof. reflexivity. Qed.

  Lemma vsum_rot : forall M (l : list vec), vsum (map (mapply M) l) = mapply M (vsum l).
  Proof.
    intros M l. induction l as [|x l IH]; cbn [map]; rewrite ?vsum_nil, ?vsum_cons, ?IH; symmetry.
    - apply mapply_vzero.
    - apply mapply_vadd.
  Qed.

  Fixpoint natF (n : nat) : F := match n with O => f0 | S k => f1 + natF k end.

  Lemma vsum_motion : forall M t (l : list vec),
      vsum (map (motion M t) l) = vadd (mapply M (vsum l)) (vscale (natF (length l)) t).
  Proof.
    intros M t l. induction l as [|x l IH]; cbn [map length natF]; rewrite ?vsum_nil, ?vsum_cons, ?IH.
    - vring.
    - generalize (vsum l) (natF (length l)). vring.
  Qed.

  Lemma mean_motion : forall M t w (l : list vec),
      w * natF (length l) = f1 ->
      vscale w (vsum (map (motion M t) l)) = motion M t (vscale w (vsum l)).
  Proof.
    intros M t w l H. rewrite vsum_motion. apply scale_motion, H.
  Qed.

  Lemma weighted_motion_sum : forall M t (l : list (F * vec)),
      vsum (map (fun x => vscale (fst x) (motion M t (snd x))) l)
      = vadd (mapply M (vsum (map (fun x => vscale (fst x) (snd x)) l)))
             (vscale (ssum (map fst l)) t).
  Proof.
    intros M t l. induction l as [|[k p] l IH]; cbn [map fst snd]; rewrite ?vsum_nil, ?vsum_cons, ?IH.
    - change (ssum []) with f0. vring.
    - change (ssum (k :: map fst l)) with (k + ssum (map fst l)).
      generalize (vsum (map (fun x => vscale (fst x) (snd x)) l)) (ssum (map fst l)). vring.
  Qed.

  Variables (half third : F).
  Hypothesis half_ok : half + half = f1.
  Hypothesis third_ok : third + third + third = f1.

  Notation edge := (edge F).
  Notation tangent := (tangent F fsub).
  Notation fcenter := (fcenter F fadd fmul half).
  Notation temp_center := (temp_center F f0 fadd fmul half).
  Notation subnormal := (subnormal F fadd fmul fsub half).
  Notation cell_normal_sum := (cell_normal_sum F f0 fadd fmul fsub half).
  Notation fnormal := (fnormal F fmul fsub).
  Notation subvol := (subvol F fadd fmul fsub half).
  Notation cell_volume := (cell_volume F f0 fadd fmul fsub half).
  Notation cell_moment := (cell_moment F f0 fadd fmul fsub half third).
  Notation sub_normal3 := (sub_normal3 F fmul fsub half).
  Notation face_normal3 := (face_normal3 F f0 fadd fmul fsub half).

  Definition move_edge (M : mat) (t : vec) (e : edge) : edge :=
    (motion M t (e_a e), motion M t (e_b e), e_s e).

  Lemma tangent_move : forall M t e, tangent (move_edge M t e) = mapply M (tangent e).
  Proof. intros M t e. apply motion_sub. Qed.

  Lemma fcenter_move : forall M t e, fcenter (move_edge M t e) = motion M t (fcenter e).
  Proof.
    intros M t e. unfold Model.C20.fcenter, move_edge. cbn [e_a e_b fst snd].
    assert (E : forall p q : vec, vscale half (vadd p q) = vadd (vscale half p) (vscale half q)) by vring.
    rewrite !E. apply motion_comb, half_ok.
  Qed.

  Lemma temp_center_move : forall M t w (es : list edge),
      w * natF (length es) = f1 ->
      temp_center w (map (move_edge M t) es) = motion M t (temp_center w es).
  Proof.
    intros M t w es H. unfold Model.C20.temp_center. rewrite map_map.
    erewrite map_ext by (intros; apply fcenter_move).
    rewrite <- (map_map fcenter (motion M t)).
    apply mean_motion. rewrite map_length. exact H.
  Qed.

  Lemma subnormal_move : forall M t tc e,
      is_rotation M ->
      subnormal (motion M t tc) (move_edge M t e) = mapply M (subnormal tc e).
  Proof.
    intros M t tc e HR. unfold Model.C20.subnormal.
    rewrite fcenter_move, tangent_move, motion_sub.
    change (e_s (move_edge M t e)) with (e_s e).
    rewrite <- mapply_vscale, (cross_rotation M _ _ HR), <- mapply_vscale. reflexivity.
  Qed.

  Lemma cell_normal_sum_move : forall M t w (es : list edge),
      is_rotation M -> w * natF (length es) = f1 ->
      cell_normal_sum w (map (move_edge M t) es) = mapply M (cell_normal_sum w es).
  Proof.
    intros M t w es HR H. unfold Model.C20.cell_normal_sum.
    rewrite (temp_center_move M t w es H), map_map.
    erewrite map_ext by (intros; apply subnormal_move, HR).
    rewrite <- (map_map (subnormal (temp_center w es)) (mapply M)). apply vsum_rot.
  Qed.

  Lemma fnormal_move : forall M t n e,
      is_rotation M -> fnormal (mapply M n) (move_edge M t e) = mapply M (fnormal n e).
  Proof.
    intros M t n e HR. unfold Model.C20.fnormal. rewrite tangent_move.
    apply cross_rotation, HR.
  Qed.

  Lemma subvol_move : forall M t n tc e,
      is_rotation M ->
      subvol (mapply M n) (motion M t tc) (move_edge M t e) = subvol n tc e.
  Proof.
    intros M t n tc e HR. unfold Model.C20.subvol.
    rewrite (subnormal_move M t tc e HR). apply dot_rotation, HR.
  Qed.

  Lemma cell_volume_move : forall M t n w (es : list edge),
      is_rotation M -> w * natF (length es) = f1 ->
      cell_volume (mapply M n) w (map (move_edge M t) es) = cell_volume n w es.
  Proof.
    intros M t n w es HR H. unfold Model.C20.cell_volume.
    rewrite (temp_center_move M t w es H), map_map. f_equal.
    apply map_ext. intros e. apply subvol_move, HR.
  Qed.

  Lemma cell_moment_move : forall M t n w (es : list edge),
      is_rotation M -> w * natF (length es) = f1 ->
      cell_moment (mapply M n) w (map (move_edge M t) es)
      = vadd (mapply M (cell_moment n w es)) (vscale (cell_volume n w es) t).
  Proof.
    intros M t n w es HR H. unfold Model.C20.cell_moment, Model.C20.cell_volume.
    rewrite (temp_center_move M t w es H).
    set (tc := temp_center w es).
    set (pt := fun e : edge => vscale third (vadd tc (vadd (fcenter e) (fcenter e)))).
    assert (E : forall a b : vec,
               vscale third (vadd (motion M t a) (vadd (motion M t b) (motion M t b)))
               = vadd (mapply M (vscale third (vadd a (vadd b b))))
                      (vscale (third + third + third) t)) by vring.
    rewrite map_map.
    erewrite map_ext with (g := fun e => vscale (subvol n tc e) (motion M t (pt e))).
    2:{ intros e. rewrite (subvol_move M t n tc e HR), fcenter_move, E, third_ok.
        f_equal. unfold pt. vring. }
    rewrite <- (map_map (fun e => (subvol n tc e, pt e))
                        (fun x => vscale (fst x) (motion M t (snd x)))).
    rewrite weighted_motion_sum, !map_map. reflexivity.
  Qed.

  (* the centroid moves with the grid, for ANY reciprocal r of the volume (F has no division) *)
  Lemma cell_center_move : forall M t n w (es : list edge) (r : F),
      is_rotation M -> w * natF (length es) = f1 -> r * cell_volume n w es = f1 ->
      vscale r (cell_moment (mapply M n) w (map (move_edge M t) es))
      = motion M t (vscale r (cell_moment n w es)).
  Proof.
    intros M t n w es r HR H Hr. rewrite (cell_moment_move M t n w es HR H).
    apply scale_motion, Hr.
  Qed.

  Definition move_pair (M : mat) (t : vec) (ab : vec * vec) : vec * vec :=
    (motion M t (fst ab), motion M t (snd ab)).

  Lemma sub_normal3_move : forall M t c ab,
      is_rotation M ->
      sub_normal3 (motion M t c) (move_pair M t ab) = mapply M (sub_normal3 c ab).
  Proof.
    intros M t c ab HR. unfold Model.C20.sub_normal3, move_pair. cbn [fst snd].
    rewrite !motion_sub, (cross_rotation M _ _ HR), <- mapply_vscale. reflexivity.
  Qed.

  Lemma face_normal3_move : forall M t w (loop : list (vec * vec)),
      is_rotation M -> w * natF (length loop) = f1 ->
      face_normal3 w (map (move_pair M t) loop) = mapply M (face_normal3 w loop).
  Proof.
    intros M t w loop HR H. unfold Model.C20.face_normal3. cbv zeta.
    rewrite !map_map. cbn [move_pair fst].
    rewrite <- (map_map fst (motion M t)).
    rewrite (mean_motion M t w (map fst loop)) by (rewrite map_length; exact H).
    erewrite map_ext by (intros; apply sub_normal3_move, HR).
    rewrite <- (map_map (sub_normal3 (vscale w (vsum (map fst loop)))) (mapply M)).
    apply vsum_rot.
  Qed.
End GenericProofs.
