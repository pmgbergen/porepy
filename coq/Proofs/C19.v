(* C19 — proofs about the 2-D and 1-D geometry model (PP.Model.C19).  Built around [telescope]:
   over a closed set of traversed faces the differences of a potential between face ends sum
   to zero.  Each 2-D cell identity (normals_sum_zero, volume_shoelace, gauss, moment_x/y) is
   proved by naming the potential whose differences the faces contribute. *)
From Coq Require Import List ZArith QArith Qabs Qfield Bool Arith Lia Lqa Permutation.
Import ListNotations.
From PP Require Import Model.C19.
Open Scope Q_scope.

Lemma sumQ_cons a l : sumQ (a :: l) = a + sumQ l.
Proof. reflexivity. Qed.

Lemma sumQ_perm l l' : Permutation l l' -> sumQ l == sumQ l'.
Proof.
  induction 1 as [|x l l' H IH|x y l|l l' l'' H1 IH1 H2 IH2]; rewrite ?sumQ_cons.
  - reflexivity.
  - rewrite IH. reflexivity.
  - ring.
  - rewrite IH1. exact IH2.
Qed.

Lemma sumQ_map_ext {A} (f g : A -> Q) l :
  (forall x, In x l -> f x == g x) -> sumQ (map f l) == sumQ (map g l).
Proof.
  induction l as [|a l IH]; intro H; cbn [map]; rewrite ?sumQ_cons; [reflexivity|].
  rewrite (H a) by (left; reflexivity). rewrite IH by (intros; apply H; right; assumption).
  reflexivity.
Qed.

Lemma sumQ_map_sub {A} (f g : A -> Q) l :
  sumQ (map (fun x => f x - g x) l) == sumQ (map f l) - sumQ (map g l).
Proof.
  induction l as [|a l IH]; cbn [map]; rewrite ?sumQ_cons; [cbn; ring|]. rewrite IH. ring.
Qed.

Lemma sumQ_map_scale {A} (k : Q) (f : A -> Q) l :
  sumQ (map (fun x => k * f x) l) == k * sumQ (map f l).
Proof.
  induction l as [|a l IH]; cbn [map]; rewrite ?sumQ_cons; [cbn; ring|]. rewrite IH. ring.
Qed.

Lemma sumQ_map_add {A} (f g : A -> Q) l :
  sumQ (map (fun x => f x + g x) l) == sumQ (map f l) + sumQ (map g l).
Proof.
  induction l as [|a l IH]; cbn [map]; rewrite ?sumQ_cons; [cbn; ring|]. rewrite IH. ring.
Qed.

Lemma sumQ_app l l' : sumQ (l ++ l') == sumQ l + sumQ l'.
Proof. induction l as [|a l IH]; cbn [app]; rewrite ?sumQ_cons; [cbn; ring|]. rewrite IH. ring. Qed.

Lemma sumQ_flat_map {A B} (g : B -> Q) (h : A -> list B) l :
  sumQ (map g (flat_map h l)) == sumQ (map (fun x => sumQ (map g (h x))) l).
Proof.
  induction l as [|a l IH]; [reflexivity|]. cbn [flat_map map].
  rewrite map_app, sumQ_app, sumQ_cons, IH. reflexivity.
Qed.

Lemma sumQ_telescope {A B} (src dst : A -> B) (Phi : B -> Q) es :
  Permutation (map src es) (map dst es) ->
  sumQ (map (fun e => Phi (dst e) - Phi (src e)) es) == 0.
Proof.
  intro HP. rewrite (sumQ_map_sub (fun e => Phi (dst e)) (fun e => Phi (src e))).
  rewrite <- (map_map dst Phi), <- (map_map src Phi).
  rewrite (sumQ_perm _ _ (Permutation_map Phi HP)). ring.
Qed.

Lemma sumQ_nonneg l : (forall x, In x l -> 0 <= x) -> 0 <= sumQ l.
Proof.
  induction l as [|a l IH]; intro H; rewrite ?sumQ_cons; [cbn; apply Qle_refl|].
  apply (Qplus_le_compat 0 a 0 (sumQ l)); [apply H; left; reflexivity|].
  apply IH. intros; apply H; right; assumption.
Qed.

Lemma sumQ_pos l : l <> [] -> (forall x, In x l -> 0 < x) -> 0 < sumQ l.
Proof.
  destruct l as [|a l]; [congruence|]. intros _ H. rewrite sumQ_cons.
  apply (Qplus_lt_le_compat 0 a 0 (sumQ l)); [apply H; left; reflexivity|].
  apply sumQ_nonneg. intros x Hx. apply Qlt_le_weak. apply H. right. assumption.
Qed.

Lemma sumQ_pos_one l : (forall x, In x l -> 0 <= x) -> (exists x, In x l /\ 0 < x) -> 0 < sumQ l.
Proof.
  induction l as [|a t IH]; intros Hn [x [Hx Hp]]; [inversion Hx|].
  rewrite sumQ_cons.
  assert (0 <= a) by (apply Hn; left; reflexivity).
  assert (0 <= sumQ t) by (apply sumQ_nonneg; intros y Hy; apply Hn; right; exact Hy).
  destruct Hx as [->|Hx]; [lra|].
  assert (0 < sumQ t) by (apply IH; [intros y Hy; apply Hn; right; exact Hy|exists x; split; assumption]).
  lra.
Qed.

(* oriented traversal of a face by its cell *)
Definition o_from (e : sface) : pt := if (snd e =? 1)%Z then f_start e else f_end e.
Definition o_to (e : sface) : pt := if (snd e =? 1)%Z then f_end e else f_start e.

Definition sign_ok (e : sface) : Prop := snd e = 1%Z \/ snd e = (-1)%Z.
Definition signs_ok (es : list sface) : Prop := forall e, In e es -> sign_ok e.
Definition closed (es : list sface) : Prop := Permutation (map o_from es) (map o_to es).

Lemma telescope (D : sface -> Q) (Phi : pt -> Q) es :
  (forall e, sign_ok e -> D e == Phi (o_to e) - Phi (o_from e)) ->
  signs_ok es -> closed es -> sumQ (map D es) == 0.
Proof.
  intros HD Hs Hc.
  rewrite (sumQ_map_ext D (fun e => Phi (o_to e) - Phi (o_from e))) by (intros; apply HD; apply Hs; assumption).
  exact (sumQ_telescope o_from o_to Phi es Hc).
Qed.

Lemma telescope_eq (D E : sface -> Q) (Phi : pt -> Q) es :
  (forall e, sign_ok e -> D e - E e == Phi (o_to e) - Phi (o_from e)) ->
  signs_ok es -> closed es -> sumQ (map D es) == sumQ (map E es).
Proof.
  intros HD Hs Hc. pose proof (telescope (fun e => D e - E e) Phi es HD Hs Hc) as H.
  rewrite sumQ_map_sub in H. lra.
Qed.

Definition shoe (sigma : Q) (e : sface) : Q := sigma * ((1 # 2) * cross (o_from e) (o_to e)).
Definition shoelace (sigma : Q) (es : list sface) : Q := sumQ (map (shoe sigma) es).

(* for a per-face identity under [sign_ok e]: both signs, everything unfolded, [ring] *)
Ltac edge e :=
  destruct e as [[[p1 p2] [q1 q2]] s];
  unfold sign_ok in *; cbn [snd] in *;
  match goal with H : _ \/ _ |- _ => destruct H as [-> | ->] end;
  unfold shoe, o_from, o_to, subvol, subnormal, fnormal, fcenter, tangent, farea2, f_start, f_end, f_sgn,
         cross, dot, psub, padd, pscale, px, py; cbn [fst snd Z.eqb Pos.eqb inject_Z];
  try ring.

Lemma normals_sum_zero sigma es : signs_ok es -> closed es ->
  sumQ (map (fun e => f_sgn e * px (fnormal sigma e)) es) == 0 /\
  sumQ (map (fun e => f_sgn e * py (fnormal sigma e)) es) == 0.
Proof.
  intros Hs Hc. split.
  - apply (telescope _ (fun r => py r * sigma)); auto. intros e He. edge e.
  - apply (telescope _ (fun r => - (px r * sigma))); auto. intros e He. edge e.
Qed.

Lemma volume_shoelace sigma t es : signs_ok es -> closed es ->
  cell_volume sigma t es == shoelace sigma es.
Proof.
  apply (telescope_eq _ _ (fun r => - ((1 # 2) * sigma * cross t r))). intros e He. edge e.
Qed.

Lemma volume_indep sigma t t' es : signs_ok es -> closed es ->
  cell_volume sigma t es == cell_volume sigma t' es.
Proof. intros Hs Hc. rewrite !volume_shoelace by assumption. reflexivity. Qed.

Lemma gauss sigma t es : signs_ok es -> closed es ->
  sumQ (map (fun e => f_sgn e * dot (fcenter e) (fnormal sigma e)) es) == 2 * cell_volume sigma t es.
Proof.
  intros Hs Hc. rewrite volume_shoelace by assumption. unfold shoelace.
  rewrite <- sumQ_map_scale. apply sumQ_map_ext. intros e He. apply Hs in He. edge e.
Qed.

Definition phi_cx (sigma : Q) (t r : pt) : Q :=
  sigma * ((1 # 2) * px t * cross t r + (1 # 2) * px t * (px r * py r) - (1 # 2) * py t * (px r * px r)).
Definition phi_cy (sigma : Q) (t r : pt) : Q :=
  sigma * ((1 # 2) * py t * cross t r + (1 # 2) * px t * (py r * py r) - (1 # 2) * py t * (px r * py r)).

Lemma moment_x sigma t es : signs_ok es -> closed es ->
  sumQ (map (fun e => f_sgn e * dot (fcenter e) (fnormal sigma e) * px (fcenter e)) es)
  == 3 * sumQ (map (fun e => subvol sigma t e * ((px t + 2 * px (fcenter e)) / 3)) es).
Proof.
  rewrite <- sumQ_map_scale. apply (telescope_eq _ _ (phi_cx sigma t)).
  intros e He. unfold phi_cx, Qdiv. change (/ 3) with (1 # 3). edge e.
Qed.

Lemma moment_y sigma t es : signs_ok es -> closed es ->
  sumQ (map (fun e => f_sgn e * dot (fcenter e) (fnormal sigma e) * py (fcenter e)) es)
  == 3 * sumQ (map (fun e => subvol sigma t e * ((py t + 2 * py (fcenter e)) / 3)) es).
Proof.
  rewrite <- sumQ_map_scale. apply (telescope_eq _ _ (phi_cy sigma t)).
  intros e He. unfold phi_cy, Qdiv. change (/ 3) with (1 # 3). edge e.
Qed.

Lemma centroid sigma t es : signs_ok es -> closed es -> ~ cell_volume sigma t es == 0 ->
  sumQ (map (fun e => f_sgn e * dot (fcenter e) (fnormal sigma e) * px (fcenter e)) es)
    == 3 * cell_volume sigma t es * px (cell_center sigma t es) /\
  sumQ (map (fun e => f_sgn e * dot (fcenter e) (fnormal sigma e) * py (fcenter e)) es)
    == 3 * cell_volume sigma t es * py (cell_center sigma t es).
Proof.
  intros Hs Hc Hv. rewrite (moment_x sigma t), (moment_y sigma t) by assumption.
  unfold cell_center, cell_moment, px, py. cbn [fst snd].
  split; field; exact Hv.
Qed.

Lemma normal_length sigma e : sigma * sigma == 1 ->
  dot (fnormal sigma e) (fnormal sigma e) == farea2 e.
Proof.
  intro H. destruct e as [[[p1 p2] [q1 q2]] s].
  unfold fnormal, farea2, tangent, dot, psub, f_start, f_end, px, py. cbn [fst snd].
  transitivity (sigma * sigma * ((q1 - p1) * (q1 - p1) + (q2 - p2) * (q2 - p2))); [ring|].
  rewrite H. ring.
Qed.

Lemma volume_pos_star sigma t es : es <> [] -> (forall e, In e es -> 0 < subvol sigma t e) ->
  0 < cell_volume sigma t es.
Proof.
  intros Hne H. unfold cell_volume. apply sumQ_pos.
  - destruct es; [congruence|discriminate].
  - intros x Hx. apply in_map_iff in Hx. destruct Hx as (e & <- & He). apply H. exact He.
Qed.

Lemma oriented1_spec g :
  oriented1 g = true <->
  (forall x, In x (g_cf g) -> snd x = 1%Z \/ snd x = (-1)%Z) /\
  (forall c, (c < g_nc g)%nat -> balanced g c = true).
Proof.
  unfold oriented1. rewrite andb_true_iff, !forallb_forall.
  split; intros [Hs Hb]; split; intros x Hx.
  - apply Hs, orb_true_iff in Hx. rewrite !Z.eqb_eq in Hx. exact Hx.
  - apply Hb, in_seq. lia.
  - apply orb_true_iff. rewrite !Z.eqb_eq. apply Hs, Hx.
  - apply Hb. apply in_seq in Hx. lia.
Qed.

Lemma entry_sign g c x : oriented1 g = true -> In x (cell_entries g c) ->
  snd x = 1%Z \/ snd x = (-1)%Z.
Proof.
  intros H Hx. apply oriented1_spec in H. destruct H as [H _].
  unfold cell_entries in Hx. apply in_map_iff in Hx. destruct Hx as (y & <- & Hy).
  apply filter_In in Hy. apply (H y), Hy.
Qed.

Lemma oriented_signs g c : oriented1 g = true -> signs_ok (cell_sfaces g c).
Proof.
  intros H e He. unfold cell_sfaces in He. apply in_map_iff in He. destruct He as (x & <- & Hx).
  apply (entry_sign g c x H Hx).
Qed.

Lemma balanced_perm l1 l2 :
  forallb (fun n => Nat.eqb (count l1 n) (count l2 n)) (l1 ++ l2) = true -> Permutation l1 l2.
Proof.
  intro H. apply (Permutation_count_occ Nat.eq_dec). intro n. rewrite forallb_forall in H.
  destruct (in_dec Nat.eq_dec n (l1 ++ l2)) as [Hin|Hn].
  - apply Nat.eqb_eq. apply (H n Hin).
  - rewrite in_app_iff in Hn.
    rewrite (proj1 (count_occ_not_In Nat.eq_dec l1 n)), (proj1 (count_occ_not_In Nat.eq_dec l2 n)); tauto.
Qed.

Lemma oedge_nodes g x : snd x = 1%Z \/ snd x = (-1)%Z ->
  o_from (face_of g (fst x) (snd x)) = node g (fst (oedge_idx g x)) /\
  o_to (face_of g (fst x) (snd x)) = node g (snd (oedge_idx g x)).
Proof.
  unfold o_from, o_to, face_of, oedge_idx, f_start, f_end. cbn [fst snd].
  intros [-> | ->]; split; reflexivity.
Qed.

Lemma oriented_closed g c : oriented1 g = true -> (c < g_nc g)%nat -> closed (cell_sfaces g c).
Proof.
  intros H Hc. unfold closed, cell_sfaces. rewrite !map_map.
  rewrite (map_ext_in _ (fun x => node g (fst (oedge_idx g x)))),
          (map_ext_in (fun x => o_to _) (fun x => node g (snd (oedge_idx g x))));
    try (intros x Hx; apply oedge_nodes, (entry_sign g c x H Hx)).
  apply oriented1_spec in H. destruct H as [_ H]. specialize (H c Hc).
  apply balanced_perm, (Permutation_map (node g)) in H. rewrite !map_map in H. exact H.
Qed.

Lemma qsign_pm S : ~ S == 0 -> qsign S = 1 \/ qsign S = -1.
Proof.
  intro H. unfold qsign. destruct (Qlt_le_dec 0 S); auto. destruct (Qlt_le_dec S 0); auto.
  exfalso. apply H. apply Qle_antisym; assumption.
Qed.

Lemma qsign_scaled sigma x : sigma = 1 \/ sigma = -1 -> 0 < sigma * x -> qsign x = sigma /\ ~ x == 0.
Proof.
  intros [-> | ->] H; unfold qsign.
  - destruct (Qlt_le_dec 0 x); [split; [reflexivity|lra]|lra].
  - destruct (Qlt_le_dec 0 x); [lra|]. destruct (Qlt_le_dec x 0); [split; [reflexivity|lra]|lra].
Qed.

Lemma plane_sum_volumes sigma g :
  sigma * plane_sum g
  == sumQ (map (fun c => cell_volume sigma (temp_center (cell_sfaces g c)) (cell_sfaces g c))
               (seq 0 (g_nc g))).
Proof.
  unfold plane_sum. rewrite <- sumQ_map_scale. apply sumQ_map_ext. intros c _.
  unfold cell_volume. rewrite <- sumQ_map_scale. reflexivity.
Qed.

Lemma no_negative l :
  existsb (fun v => if Qlt_le_dec v 0 then true else false) l = false <-> forall v, In v l -> 0 <= v.
Proof.
  rewrite <- not_true_iff_false, existsb_exists. split.
  - intros H v Hv. destruct (Qlt_le_dec v 0) as [Hlt|Hle] eqn:E; [|exact Hle].
    exfalso. apply H. exists v. rewrite E. auto.
  - intros H [v [Hv E]]. specialize (H v Hv). destruct (Qlt_le_dec v 0); [lra|discriminate].
Qed.

Lemma geometry2_ok g r : geometry2 g = GOk r ->
  oriented1 g = true /\
  let sigma := qsign (plane_sum g) in
  let cs := fun c => cell_sfaces g c in
  (sigma = 1 \/ sigma = -1) /\
  o_vol r = map (fun c => cell_volume sigma (temp_center (cs c)) (cs c)) (seq 0 (g_nc g)) /\
  o_cc r = map (fun c => cell_center sigma (temp_center (cs c)) (cs c)) (seq 0 (g_nc g)) /\
  o_fn r = map (fun f => fnormal sigma (face_of g f 1%Z)) (seq 0 (length (g_faces g))) /\
  o_fc r = map (fun f => fcenter (face_of g f 1%Z)) (seq 0 (length (g_faces g))) /\
  o_area2 r = map (fun f => farea2 (face_of g f 1%Z)) (seq 0 (length (g_faces g))) /\
  (forall v, In v (o_vol r) -> 0 <= v).
Proof.
  unfold geometry2. destruct (oriented1 g); cbn [negb]; [|discriminate].
  destruct (Qeq_bool (plane_sum g) 0) eqn:ES; [discriminate|].
  destruct (existsb _ _) eqn:EV; [discriminate|].
  intros [= <-]. cbn [o_vol o_cc o_fn o_fc o_area2]. rewrite !map_map.
  split; [reflexivity|]. split.
  { apply qsign_pm. intro Hq. apply Qeq_bool_iff in Hq. congruence. }
  repeat (split; [reflexivity|]). apply no_negative, EV.
Qed.

Lemma geometry2_GOk g :
  oriented1 g = true -> ~ plane_sum g == 0 ->
  (forall v, In v (map (fun c => cell_volume (qsign (plane_sum g)) (temp_center (cell_sfaces g c))
                                             (cell_sfaces g c)) (seq 0 (g_nc g))) -> 0 <= v) ->
  exists r, geometry2 g = GOk r.
Proof.
  intros Ho Hs Hv. unfold geometry2. rewrite Ho. cbn [negb].
  destruct (Qeq_bool (plane_sum g) 0) eqn:ES; [apply Qeq_bool_iff in ES; contradiction|].
  cbv zeta. apply no_negative in Hv. rewrite Hv. eauto.
Qed.

Lemma abs_elim x : (0 <= x /\ Qabs x == x) \/ (x <= 0 /\ Qabs x == - x).
Proof.
  destruct (Qlt_le_dec x 0) as [H|H].
  - right. split; [lra|apply Qabs_neg; lra].
  - left. split; [lra|apply Qabs_pos; lra].
Qed.

(* the flip rule makes sign * normal point from the cell centre to the face *)
Lemma flip_outward v n s : (n = 1 \/ n = -1) -> (s = 1%Z \/ s = (-1)%Z) -> ~ v == 0 ->
  0 < inject_Z s * (if flip_rule v n s then - n else n) * v.
Proof.
  intros Hn Hs Hv. unfold flip_rule.
  remember (Qabs v) as a eqn:Ea.
  remember (v + a * n * (1 # 1000)) as vn eqn:Evn.
  assert (vn == v + a * n * (1 # 1000)) as Hvn by (subst vn; reflexivity). clear Evn.
  assert ((v < 0 /\ a == - v) \/ (0 < v /\ a == v)) as [[Sv Ev]|[Sv Ev]].
  { subst a. destruct (Q_dec v 0) as [[H|H]|H]; [left|right|contradiction];
      (split; [exact H|]); [apply Qabs_neg|apply Qabs_pos]; lra. }
  (* v and n fix the sign of vn, hence which of |vn| < |v|, |v| < |vn| holds *)
  all: destruct Hn as [-> | ->];
    (destruct (abs_elim vn) as [[Svn Eavn]|[Svn Eavn]]; try (exfalso; lra));
    destruct (Qlt_le_dec (Qabs vn) a) as [L1|L1]; destruct (Qlt_le_dec a (Qabs vn)) as [L2|L2];
    rewrite Eavn in L1, L2; try (exfalso; lra);
    destruct Hs as [-> | ->]; cbn [Z.ltb Z.compare andb orb inject_Z]; unfold inject_Z; lra.
Qed.

Lemma unit_sign o x : (o == 1 \/ o == -1) -> 0 < o * x -> (o == 1 /\ 0 < x) \/ (o == -1 /\ x < 0).
Proof. intros [H|H] P; rewrite H in P; [left|right]; (split; [exact H|lra]). Qed.

Lemma ident_1d x1 x2 o1 o2 : ~ x1 == x2 -> (o1 == 1 \/ o1 == -1) -> (o2 == 1 \/ o2 == -1) ->
  0 < o1 * (x1 - (1 # 2) * (x1 + x2)) -> 0 < o2 * (x2 - (1 # 2) * (x1 + x2)) ->
  0 < Qabs (x1 - x2) /\ o1 + o2 == 0 /\
  o1 * x1 + o2 * x2 == 1 * Qabs (x1 - x2) /\
  o1 * x1 * x1 + o2 * x2 * x2 == 2 * Qabs (x1 - x2) * ((1 # 2) * (x1 + x2)).
Proof.
  intros _ H1 H2 O1 O2.
  destruct (unit_sign _ _ H1 O1) as [[E1 P1]|[E1 P1]]; destruct (unit_sign _ _ H2 O2) as [[E2 P2]|[E2 P2]];
    try (exfalso; lra); rewrite E1, E2; [rewrite Qabs_pos by lra|rewrite Qabs_neg by lra];
    repeat split; try lra; ring.
Qed.

Lemma cell1_form h c f1 s1 f2 s2 : cell_faces1 h c = [(f1, s1); (f2, s2)] ->
  vol1 h c = Qabs (xface h f1 - xface h f2) /\ cc1 h c = (1 # 2) * (xface h f1 + xface h f2).
Proof. intro H. unfold vol1, cc1. rewrite H. split; reflexivity. Qed.

Lemma normal1_form h f e c s : first_entry h f = Some (e, c, s) ->
  normal1 h f = if flip_rule (xface h f - cc1 h c) (tangent1 h) s then - tangent1 h else tangent1 h.
Proof. intro H. unfold normal1. rewrite H. reflexivity. Qed.

(* convex cells are star-shaped w.r.t. the temporary centre (mean of the face centres) *)
Definition c0 (sigma : Q) (e : sface) : Q :=
  sigma * (1 # 2) * cross (fcenter e) (pscale (f_sgn e) (tangent e)).
Definition c1 (sigma : Q) (e : sface) : Q := - (sigma * (1 # 2) * py (pscale (f_sgn e) (tangent e))).
Definition c2 (sigma : Q) (e : sface) : Q := sigma * (1 # 2) * px (pscale (f_sgn e) (tangent e)).

Lemma subvol_affine sigma t e :
  subvol sigma t e == c0 sigma e + c1 sigma e * px t + c2 sigma e * py t.
Proof.
  unfold subvol, subnormal, c0, c1, c2, cross, psub, px, py. cbn [fst snd]. ring.
Qed.

Lemma sumQ_affine {A} (a b c : Q) (f g : A -> Q) l :
  sumQ (map (fun x => a + b * f x + c * g x) l)
  == inject_Z (Z.of_nat (length l)) * a + b * sumQ (map f l) + c * sumQ (map g l).
Proof.
  induction l as [|x l IH].
  - cbn. ring.
  - cbn [map length]. rewrite !sumQ_cons, IH. rewrite Nat2Z.inj_succ. unfold Z.succ.
    rewrite inject_Z_plus. ring.
Qed.

Lemma length_pos_Q {A} (l : list A) : l <> [] -> 0 < inject_Z (Z.of_nat (length l)).
Proof.
  destruct l; [congruence|]. intros _. cbn [length]. rewrite Nat2Z.inj_succ, <- (Zlt_Qlt 0). lia.
Qed.

(* an affine function of the mean of points is the mean of its values *)
Lemma subvol_mean sigma es e : es <> [] ->
  inject_Z (Z.of_nat (length es)) * subvol sigma (temp_center es) e
  == sumQ (map (fun e' => subvol sigma (fcenter e') e) es).
Proof.
  intros Hne.
  rewrite (sumQ_map_ext _ (fun e' => c0 sigma e + c1 sigma e * px (fcenter e') + c2 sigma e * py (fcenter e')))
    by (intros; apply subvol_affine).
  rewrite sumQ_affine, subvol_affine. unfold temp_center, px, py. cbn [fst snd].
  pose proof (length_pos_Q es Hne). field. lra.
Qed.

Lemma convex_star sigma es e : es <> [] ->
  (forall e', In e' es -> 0 <= subvol sigma (fcenter e') e) ->
  (exists e', In e' es /\ 0 < subvol sigma (fcenter e') e) ->
  0 < subvol sigma (temp_center es) e.
Proof.
  intros Hne Hall (e0 & Hin0 & Hpos).
  apply (Qmult_lt_l 0 _ _ (length_pos_Q es Hne)). rewrite Qmult_0_r, (subvol_mean sigma es e Hne).
  apply sumQ_pos_one.
  - intros x Hx. apply in_map_iff in Hx. destruct Hx as (e' & <- & He'). apply Hall, He'.
  - exists (subvol sigma (fcenter e0) e). split; [|exact Hpos].
    apply (in_map (fun e' => subvol sigma (fcenter e') e) es e0 Hin0).
Qed.
