(* C39 — proofs about PP.Model.C39.  A call of set_faces either hands the components back or
   runs the loop over the named faces (set_faces_cases); the loop sends every component through
   [assigns fs (parsed cds)] (loop_fst), which keeps the Dirichlet/Neumann/Robin flags a
   partition (assigns_wf), leaves the faces not named alone (assigns_notin) and gives a named
   face the type listed last for it (assigns_flags).  The constructors and every history of
   calls keep the partition (constructor_partition, history_partition). *)
From Coq Require Import List Bool Arith Lia.
Import ListNotations.
From PP Require Import Lib.ListFacts Model.C39.

Definition one3 (a b c : bool) : bool :=
  (a && negb b && negb c) || (negb a && b && negb c) || (negb a && negb b && c).

Definition fdir (c : comp) f := nth f (c_dir c) false.
Definition fneu (c : comp) f := nth f (c_neu c) false.
Definition frob (c : comp) f := nth f (c_rob c) false.

Definition lens (g : grid) (c : comp) : Prop :=
  length (c_dir c) = nf g /\ length (c_neu c) = nf g /\ length (c_rob c) = nf g.

Definition wfcomp (g : grid) (c : comp) : Prop :=
  lens g c /\
  forall f, (is_bf g f = true -> one3 (fdir c f) (fneu c f) (frob c f) = true) /\
            (is_bf g f = false -> fdir c f = false /\ fneu c f = false /\ frob c f = false).

Definition Inv (g : grid) (cs : list comp) : Prop := Forall (wfcomp g) cs.

Definition triple (t : ty) : bool * bool * bool :=
  match t with Dir => (true, false, false) | Neu => (false, true, false) | Rob => (false, false, true) end.
Definition flags (c : comp) f := (fdir c f, fneu c f, frob c f).

Lemma setb_length l i v : length (setb l i v) = length l.
Proof. revert i; induction l as [|a r IH]; intros [|i]; cbn; auto. Qed.

Lemma nth_setb_eq l i v : i < length l -> nth i (setb l i v) false = v.
Proof.
  revert i; induction l as [|a r IH]; intros [|i] H; cbn in *; try lia; auto. apply IH. lia.
Qed.

Lemma nth_setb_neq l i j v : i <> j -> nth j (setb l i v) false = nth j l false.
Proof.
  revert i j; induction l as [|a r IH]; intros [|i] [|j] H; cbn; try reflexivity; try lia.
  apply IH. lia.
Qed.

Lemma is_bf_lt g f : is_bf g f = true -> f < nf g.
Proof. unfold is_bf. intros H. apply andb_true_iff in H. apply Nat.ltb_lt, H. Qed.

Lemma assign_lens g f t c : lens g c -> lens g (assign f t c).
Proof. intros [A [B C]]. destruct t; unfold lens; cbn; rewrite !setb_length; auto. Qed.

Lemma assign_flags_eq g f t c : lens g c -> f < nf g -> flags (assign f t c) f = triple t.
Proof.
  intros [A [B C]] Hf. unfold flags, fdir, fneu, frob.
  destruct t; cbn; rewrite !nth_setb_eq by lia; reflexivity.
Qed.

Lemma assign_flags_neq f f' t c : f <> f' -> flags (assign f t c) f' = flags c f'.
Proof.
  intros Hn. unfold flags, fdir, fneu, frob.
  destruct t; cbn; rewrite !nth_setb_neq by exact Hn; reflexivity.
Qed.

Lemma flags_eq c f d n r :
  flags c f = (d, n, r) -> fdir c f = d /\ fneu c f = n /\ frob c f = r.
Proof. intros [= -> -> ->]. auto. Qed.

Lemma assign_wf g f t c : is_bf g f = true -> wfcomp g c -> wfcomp g (assign f t c).
Proof.
  intros Hbf [Hl Hw]. split; [apply assign_lens, Hl|]. intros f'.
  destruct (Nat.eq_dec f f') as [<-|Hne].
  - pose proof (assign_flags_eq g f t c Hl (is_bf_lt g f Hbf)) as H.
    destruct t; destruct (flags_eq _ _ _ _ _ H) as [-> [-> ->]];
      (split; [reflexivity | congruence]).
  - destruct (flags_eq _ _ _ _ _ (assign_flags_neq f f' t c Hne)) as [-> [-> ->]]. apply Hw.
Qed.

Lemma Inv_map g F cs : (forall c, wfcomp g c -> wfcomp g (F c)) -> Inv g cs -> Inv g (map F cs).
Proof. intros HF H. apply Forall_map. exact (Forall_impl _ HF H). Qed.

(* what the loop does to one component: the assignments in the order given *)
Fixpoint assigns (fs : list nat) (ts : list ty) (c : comp) : comp :=
  match fs, ts with
  | f :: fr, t :: tr => assigns fr tr (assign f t c)
  | _, _ => c
  end.

Fixpoint parsed (cds : list cstr) : list ty :=
  match cds with
  | [] => []
  | c :: r => match parse c with Some t => t :: parsed r | None => [] end
  end.

Lemma loop_fst : forall fs cs cds,
    fst (loop assign cs fs cds) = map (assigns fs (parsed cds)) cs.
Proof.
  induction fs as [|f fr IH]; intros cs [|c cr]; cbn [loop parsed assigns fst];
    try (symmetry; apply map_id).
  destruct (parse c); [rewrite IH, map_map; reflexivity | destruct fr; symmetry; apply map_id].
Qed.

Lemma loop_snd : forall fs cs cds, length fs = length cds ->
    snd (loop assign cs fs cds) = None -> Forall2 (fun c t => parse c = Some t) cds (parsed cds).
Proof.
  induction fs as [|f fr IH]; intros cs [|c cr] Hl H; try discriminate; [constructor|].
  cbn [loop parsed] in *. destruct (parse c) eqn:E; [|discriminate].
  constructor; [exact E|]. injection Hl as Hl. exact (IH _ _ Hl H).
Qed.

Fixpoint last_ty (fs : list nat) (ts : list ty) (f : nat) : option ty :=
  match fs, ts with
  | a :: fr, t :: tr =>
      match last_ty fr tr f with
      | Some t' => Some t'
      | None => if a =? f then Some t else None
      end
  | _, _ => None
  end.

Lemma assigns_flags g : forall fs ts c f,
    Forall (fun f => f < nf g) fs -> lens g c ->
    flags (assigns fs ts c) f = match last_ty fs ts f with
                                | Some t => triple t
                                | None => flags c f
                                end.
Proof.
  induction fs as [|a fr IH]; intros [|t tr] c f Hfs Hl; cbn [assigns last_ty]; try reflexivity.
  inversion Hfs as [|? ? Ha Hfr]; subst. rewrite (IH tr _ f Hfr (assign_lens g a t c Hl)).
  destruct (last_ty fr tr f); [reflexivity|]. destruct (Nat.eqb_spec a f) as [->|Hne].
  - apply (assign_flags_eq g); assumption.
  - apply assign_flags_neq, Hne.
Qed.

Lemma assigns_notin : forall fs ts c f, ~ In f fs -> flags (assigns fs ts c) f = flags c f.
Proof.
  induction fs as [|a fr IH]; intros [|t tr] c f H; cbn [assigns]; try reflexivity.
  rewrite IH by (intros ?; apply H; right; assumption).
  apply assign_flags_neq. intros ->. apply H. left. reflexivity.
Qed.

Lemma assigns_uniform g t : forall fs c f,
    Forall (fun f => f < nf g) fs -> lens g c -> In f fs ->
    flags (assigns fs (repeat t (length fs)) c) f = triple t.
Proof.
  induction fs as [|a fr IH]; intros c f Hfs Hl Hin; [destruct Hin|].
  inversion Hfs; subst. cbn [length repeat assigns].
  destruct (in_dec Nat.eq_dec f fr) as [Hfr|Hn]; [apply IH; auto using assign_lens|].
  destruct Hin as [->|]; [|contradiction].
  rewrite assigns_notin by exact Hn. apply (assign_flags_eq g); assumption.
Qed.

Lemma parsed_repeat c t n : parse c = Some t -> parsed (repeat c n) = repeat t n.
Proof. intros H. induction n; cbn [repeat parsed]; [|rewrite H, IHn]; reflexivity. Qed.

Lemma assigns_wf g : forall fs ts c,
    Forall (fun f => is_bf g f = true) fs -> wfcomp g c -> wfcomp g (assigns fs ts c).
Proof.
  induction fs as [|f fr IH]; intros [|t tr] c Hfs H; cbn [assigns]; try exact H.
  inversion Hfs; subst. apply IH; [assumption|]. apply assign_wf; assumption.
Qed.

Definition named (fs : option faces) : list nat :=
  match fs with None => [] | Some (FIdx l) => l | Some (FMask m) => argwhere m end.

Lemma set_faces_cases w g cs fs cd cs' r :
  set_faces assign w g cs fs cd = (cs', r) ->
  (cs' = cs /\ forall x, r = Done x -> fs = None) \/
  exists cd0 cds, cd = Some cd0 /\ forallb (is_bf g) (named fs) = true /\
    cds = match cd0 with COne c => repeat c (length (named fs)) | CList cl => cl end /\
    length (named fs) = length cds /\ cs' = fst (loop assign cs (named fs) cds) /\
    forall x, r = Done x -> snd (loop assign cs (named fs) cds) = None.
Proof.
  unfold set_faces. destruct fs as [fs|]; [|intros [= <- <-]; left; auto].
  destruct cd as [cd|]; [|intros [= <- <-]; left; split; [reflexivity|discriminate]].
  destruct (match fs with FIdx _ => _ | FMask _ => _ end) as [l|] eqn:El; [|intros [= <- <-]; left; split; [reflexivity|discriminate]].
  assert (l = named (Some fs)) as ->.
  { destruct fs as [l'|m]; cbn; [congruence|]. destruct (_ =? _); congruence. }
  destruct (forallb _ _) eqn:Hb; cbn [negb];
    [|intros [= <- <-]; left; split; [reflexivity|discriminate]].
  destruct (_ =? _) eqn:Hl; cbn [negb];
    [|intros [= <- <-]; left; split; [reflexivity|discriminate]].
  apply Nat.eqb_eq in Hl. intros H. right. exists cd. eexists.
  do 3 (split; [reflexivity|]). split; [exact Hl|].
  destruct (loop assign cs _ _) as [cs2 [e|]]; injection H as <- <-; split; auto; discriminate.
Qed.

Lemma forallb_bf g l : forallb (is_bf g) l = true -> Forall (fun f => is_bf g f = true) l.
Proof. intros H. apply Forall_forall. apply forallb_forall, H. Qed.

Lemma set_faces_fst w g cs fs cd :
  exists F, fst (set_faces assign w g cs fs cd) = map F cs /\
            (forall c, wfcomp g c -> wfcomp g (F c)) /\
            (forall c f, ~ In f (named fs) -> flags (F c) f = flags c f).
Proof.
  destruct (set_faces assign w g cs fs cd) as [cs' r] eqn:E. cbn [fst].
  destruct (set_faces_cases _ _ _ _ _ _ _ E) as [[-> _]|[cd0 [cds [_ [Hb [_ [_ [-> _]]]]]]]].
  - exists (fun c => c). rewrite map_id. auto.
  - apply forallb_bf in Hb. eexists. split; [apply loop_fst|]. split.
    + intros c. apply assigns_wf, Hb.
    + intros c f. apply assigns_notin.
Qed.

Lemma set_faces_done g w cs fs cd cs' x :
  set_faces assign w g cs (Some fs) (Some cd) = (cs', Done x) ->
  let cds := match cd with COne c => repeat c (length (named (Some fs))) | CList cl => cl end in
  Forall (fun f => f < nf g) (named (Some fs)) /\
  Forall2 (fun c t => parse c = Some t) cds (parsed cds) /\
  cs' = map (assigns (named (Some fs)) (parsed cds)) cs.
Proof.
  intros Hs.
  destruct (set_faces_cases _ _ _ _ _ _ _ Hs) as [[_ H]|[cd0 [cds [[= <-] [Hb [-> [Hl [-> Hn]]]]]]]];
    [discriminate (H x eq_refl)|].
  split; [exact (Forall_impl _ (is_bf_lt g) (forallb_bf _ _ Hb))|].
  split; [exact (loop_snd _ _ _ Hl (Hn x eq_refl)) | apply loop_fst].
Qed.

Lemma set_faces_inv g w cs fs cd : Inv g cs -> Inv g (fst (set_faces assign w g cs fs cd)).
Proof.
  destruct (set_faces_fst w g cs fs cd) as [F [-> [HF _]]]. apply Inv_map, HF.
Qed.

Lemma init_flags g f : flags (init_comp g) f = (false, is_bf g f, false).
Proof.
  unfold flags, fdir, fneu, frob, init_comp. cbn [c_dir c_neu c_rob]. rewrite !nth_repeat.
  f_equal. f_equal. destruct (Nat.lt_ge_cases f (nf g)) as [H|H].
  - rewrite nth_map_seq by exact H. reflexivity.
  - rewrite nth_overflow by (rewrite map_length, seq_length; exact H).
    unfold is_bf. rewrite (proj2 (Nat.ltb_ge _ _) H). reflexivity.
Qed.

Lemma init_comp_wf g : wfcomp g (init_comp g).
Proof.
  split.
  - unfold lens, init_comp. cbn. rewrite !repeat_length, map_length, seq_length. auto.
  - intros f. destruct (flags_eq _ _ _ _ _ (init_flags g f)) as [-> [-> ->]].
    split; intros ->; auto.
Qed.

Lemma init_comps g (vect : bool) dim c :
  In c (if vect then repeat (init_comp g) dim else [init_comp g]) -> c = init_comp g.
Proof. destruct vect; [apply repeat_spec | intros [<-|[]]; reflexivity]. Qed.

Lemma construct_comps g vect dim fs cd o x :
  construct assign g vect dim fs cd = (Some o, x) ->
  vectorial o = vect /\
  exists F, comps o = map F (if vect then repeat (init_comp g) dim else [init_comp g]) /\
            (forall c, wfcomp g c -> wfcomp g (F c)) /\
            (forall c f, ~ In f (named fs) -> flags (F c) f = flags c f).
Proof.
  unfold construct.
  destruct (set_faces_fst (negb vect) g (if vect then repeat (init_comp g) dim else [init_comp g]) fs cd)
    as [F [E HF]].
  destruct (set_faces _ _ _ _ _ _) as [cs [w|w e]]; [|discriminate].
  intros [= <- _]. split; [reflexivity|]. exists F. split; [exact E | exact HF].
Qed.

Theorem constructor_partition g vect dim fs cd o x :
  construct assign g vect dim fs cd = (Some o, x) ->
  Inv g (comps o) /\ vectorial o = vect /\ length (comps o) = (if vect then dim else 1).
Proof.
  intros H. destruct (construct_comps _ _ _ _ _ _ _ H) as [Hv [F [-> [HF _]]]].
  split; [|split; [exact Hv|]].
  - apply Inv_map; [exact HF|]. apply Forall_forall. intros c Hc.
    rewrite (init_comps _ _ _ _ Hc). apply init_comp_wf.
  - rewrite map_length. destruct vect; [apply repeat_length | reflexivity].
Qed.

Theorem default_neumann g vect dim fs cd o x :
  construct assign g vect dim fs cd = (Some o, x) ->
  forall c f, In c (comps o) -> is_bf g f = true -> ~ In f (named fs) ->
              flags c f = (false, true, false).
Proof.
  intros H c f Hc Hbf Hn. destruct (construct_comps _ _ _ _ _ _ _ H) as [_ [F [E [_ HU]]]].
  rewrite E in Hc. apply in_map_iff in Hc. destruct Hc as [c0 [<- Hc]].
  rewrite (HU _ _ Hn), (init_comps _ _ _ _ Hc), init_flags, Hbf. reflexivity.
Qed.

Lemma internal_inv g cs : Inv g cs -> Inv g (internal_to_dirichlet g cs).
Proof.
  unfold internal_to_dirichlet. pose proof (fun f => proj1 (in_seq (nf g) 0 f)) as Hl.
  revert cs Hl. induction (seq 0 (nf g)) as [|f l IH]; intros cs Hl Hi; [exact Hi|].
  cbn [fold_left]. apply IH; [intros; apply Hl; right; assumption|].
  destruct (t_frac (tag g f)) eqn:Hf; [|exact Hi]. apply Inv_map; [|exact Hi].
  intros c. apply assign_wf. unfold is_bf.
  rewrite (proj2 (Nat.ltb_lt _ _)), Hf, orb_true_r by (apply Hl; left; reflexivity). reflexivity.
Qed.

Lemma map_nth_inv g F cs i :
  (forall c, wfcomp g c -> wfcomp g (F c)) -> Inv g cs -> Inv g (map_nth F cs i).
Proof.
  intros HF. revert i. induction cs as [|a r IH]; intros [|i] Hi; cbn; auto;
    inversion Hi; subst; constructor; auto. apply IH; assumption.
Qed.

(* the manual per-component assignment is only meaningful on boundary faces *)
Definition op_ok (g : grid) (p : op) : Prop :=
  match p with OpUser _ f _ => is_bf g f = true | _ => True end.

Lemma step_inv g o p : op_ok g p -> Inv g (comps o) -> Inv g (comps (fst (step assign g o p))).
Proof.
  intros Hok Hi. destruct p as [fs cd| |c f t|]; cbn [step].
  - destruct (vectorial o); [|exact Hi].
    pose proof (set_faces_inv g false (comps o) fs cd Hi) as H.
    destruct (set_faces assign false g (comps o) fs cd) as [cs r]. exact H.
  - destruct (vectorial o); [|exact Hi]. apply internal_inv, Hi.
  - destruct (_ && _); [|exact Hi]. apply map_nth_inv; [|exact Hi].
    intros c0. apply assign_wf, Hok.
  - exact Hi.
Qed.

Theorem history_partition g : forall ps o,
    Forall (op_ok g) ps -> Inv g (comps o) ->
    Forall (fun ox => Inv g (comps (fst ox))) (run assign g o ps).
Proof.
  induction ps as [|p r IH]; intros o Hok Hi; [constructor|]. inversion Hok; subst.
  cbn [run]. pose proof (step_inv g o p H1 Hi) as Hs.
  destruct (step assign g o p) as [o' x]. constructor; [exact Hs|]. apply IH; assumption.
Qed.
