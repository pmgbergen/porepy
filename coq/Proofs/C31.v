(* C31 — proofs about the predicate models: is_ccw_polygon, is_ccw_polyline, half spaces,
   collinearity, and point_in_polygon (finite-domain comparison with the crossing-number
   test; points to the left of every edge). *)
From Coq Require Import List QArith Qabs Bool ZArith Arith Lia Lqa.
Import ListNotations.
From PP Require Import Model.C28 Model.C31 Proofs.C28.
Open Scope Q_scope.

Lemma filter_length_le : forall {A} (f : A -> bool) l, (length (filter f l) <= length l)%nat.
Proof. intros A f l. induction l as [|x l IH]; cbn; [|destruct (f x); cbn]; lia. Qed.

Lemma filter_length_all : forall {A} (f : A -> bool) l,
  length (filter f l) = length l <-> forallb f l = true.
Proof.
  intros A f l. induction l as [|x l IH]; cbn; [tauto|].
  pose proof (filter_length_le f l). destruct (f x); cbn.
  - rewrite <- IH. lia.
  - split; [lia|discriminate].
Qed.

Lemma fold_count : forall {A} (f : A -> bool) l acc,
  fold_left (fun acc x => if f x then S acc else acc) l acc
  = (acc + length (filter f l))%nat.
Proof.
  intros A f l. induction l as [|x l IH]; intro acc; cbn; [lia|].
  rewrite IH. destruct (f x); cbn; lia.
Qed.

Lemma existsb_false : forall {A} (f : A -> bool) l,
  (forall x, In x l -> f x = false) -> existsb f l = false.
Proof.
  intros A f l H. destruct (existsb f l) eqn:E; [|reflexivity].
  apply existsb_exists in E. destruct E as (x & Hin & Hx). rewrite (H x Hin) in Hx. discriminate.
Qed.

Lemma combine_map : forall {A B} (f : A -> B) l l',
  combine (map f l) (map f l') = map (fun ab => (f (fst ab), f (snd ab))) (combine l l').
Proof.
  intros A B f l. induction l as [|x l IH]; intros [|y l']; cbn; try reflexivity.
  rewrite IH. reflexivity.
Qed.

Lemma in_combine_some : forall {A B} (l : list A) (l' : list B) x,
  length l = length l' -> In x l -> exists y, In (x, y) (combine l l').
Proof.
  intros A B l. induction l as [|a l IH]; intros [|b l'] x HL Hin; try contradiction; try discriminate.
  destruct Hin as [-> | Hin]; [exists b; left; reflexivity|].
  destruct (IH l' x ltac:(cbn in HL; lia) Hin) as [y Hy]. exists y. right. exact Hy.
Qed.

Lemma roll1_map : forall {A B} (f : A -> B) l, roll1 (map f l) = map f (roll1 l).
Proof. intros A B f [|x l]; cbn; [|rewrite map_app]; reflexivity. Qed.

Lemma roll1_length : forall {A} (l : list A), length (roll1 l) = length l.
Proof. intros A [|x l]; cbn; [|rewrite app_length; cbn; lia]; reflexivity. Qed.

Lemma existsb_roll1 : forall {A} (f : A -> bool) l, existsb f (roll1 l) = existsb f l.
Proof.
  intros A f [|x l]; cbn; [reflexivity|].
  rewrite existsb_app. cbn. rewrite orb_false_r. apply orb_comm.
Qed.

Definition zsum (l : list Z) : Z := fold_right Z.add 0%Z l.

Lemma zsum_nonneg : forall l, Forall (fun z => 0 <= z)%Z l ->
  (0 <= zsum l)%Z /\ (zsum l = 0%Z -> Forall (fun z => z = 0%Z) l).
Proof.
  unfold zsum. induction 1 as [|z l Hz _ [IH1 IH2]]; cbn [fold_right]; [split; [lia|constructor]|].
  split; [lia|]. intro E. constructor; [lia|apply IH2; lia].
Qed.

(* twice the signed area (shoelace), same cyclic indexing as the code *)
Fixpoint area2_sum (first : v2) (l : list v2) : Q :=
  match l with
  | [] => 0
  | p :: r =>
      let q := match r with [] => first | q :: _ => q end in
      (fst p * snd q - fst q * snd p) + area2_sum first r
  end.

Definition area2 (poly : list v2) : Q :=
  match poly with [] => 0 | p :: _ => area2_sum p poly end.

(* the two sums telescope against each other *)
Lemma ccw_tele : forall first r p,
  ccw_sum first (p :: r) + area2_sum first (p :: r)
  == fst first * snd first - fst p * snd p.
Proof.
  intros first r. induction r as [|q r IH]; intro p.
  - cbn. ring.
  - specialize (IH q).
    change (ccw_sum first (p :: q :: r))
      with ((snd q + snd p) * (fst q - fst p) + ccw_sum first (q :: r)).
    change (area2_sum first (p :: q :: r))
      with ((fst p * snd q - fst q * snd p) + area2_sum first (q :: r)).
    lra.
Qed.

Lemma ccw_value_area : forall poly, ccw_value poly == - area2 poly.
Proof.
  intros [|p r]; [reflexivity|]. unfold ccw_value, area2.
  pose proof (ccw_tele p r p). lra.
Qed.

Lemma ccw_iff_area_positive : forall poly, is_ccw_polygon poly = true <-> 0 < area2 poly.
Proof.
  intro poly. unfold is_ccw_polygon. rewrite qltb_true, ccw_value_area. lra.
Qed.

Lemma polyline_spec : forall tol default p1 p2 p3,
  0 <= tol ->
  (tol < cross3 p1 p2 p3 -> is_ccw_polyline tol default p1 p2 p3 = true) /\
  (cross3 p1 p2 p3 < - tol -> is_ccw_polyline tol default p1 p2 p3 = false) /\
  (Qabs (cross3 p1 p2 p3) <= tol -> is_ccw_polyline tol default p1 p2 p3 = default).
Proof.
  intros tol default p1 p2 p3 Ht. unfold is_ccw_polyline. cbv zeta.
  set (c := cross3 p1 p2 p3). split; [|split]; intro H.
  - apply qltb_true in H. rewrite H. reflexivity.
  - rewrite (proj2 (qltb_false tol c)) by lra.
    apply qltb_true in H. rewrite H. reflexivity.
  - destruct (proj1 (Qabs_Qle_condition c tol) H) as [H1 H2].
    rewrite (proj2 (qltb_false tol c) H2), (proj2 (qltb_false c (- tol)) H1).
    apply Qle_bool_iff in H. rewrite H. reflexivity.
Qed.

Lemma half_space_spec : forall ns x0s pts,
  length ns = length x0s ->
  half_space_int ns x0s pts
  = HOk (map (fun p => forallb (fun nx => in_half (fst nx) (snd nx) p) (combine ns x0s)) pts).
Proof.
  intros ns x0s pts HL. unfold half_space_int. rewrite HL, Nat.eqb_refl. cbn [negb].
  f_equal. apply map_ext. intro p. rewrite fold_count. cbn [Nat.add].
  replace (length x0s) with (length (combine ns x0s)) by (rewrite combine_length; lia).
  apply eq_true_iff_eq. rewrite Nat.eqb_eq. apply filter_length_all.
Qed.

Lemma half_space_member : forall ns x0s pts i p,
  length ns = length x0s -> nth_error pts i = Some p ->
  match half_space_int ns x0s pts with
  | HOk bs => nth_error bs i = Some true <->
              (forall n x0, In (n, x0) (combine ns x0s) -> dot3 (sub3 p x0) n <= 0)
  | HErr _ => False
  end.
Proof.
  intros ns x0s pts i p HL Hp. rewrite (half_space_spec ns x0s pts HL).
  rewrite nth_error_map, Hp. cbn [option_map]. split.
  - intros [= H] n x0 Hin. rewrite forallb_forall in H.
    apply Qle_bool_iff. exact (H (n, x0) Hin).
  - intro H. f_equal. apply forallb_forall. intros [n x0] Hin.
    apply Qle_bool_iff. exact (H n x0 Hin).
Qed.

Lemma half_space_shape_error : forall ns x0s pts,
  length ns <> length x0s -> half_space_int ns x0s pts = HErr ValueErr.
Proof.
  intros ns x0s pts H. unfold half_space_int. apply Nat.eqb_neq in H. rewrite H. reflexivity.
Qed.

Lemma qmax_ge_l : forall x y, x <= qmax x y.
Proof. intros x y. destruct (qmax_cases x y) as [[L ->] | [L ->]]; lra. Qed.

Lemma max_sqdist_from_ge : forall p l acc, acc <= max_sqdist_from p l acc.
Proof.
  intros p l. induction l as [|q r IH]; intro acc; cbn [max_sqdist_from]; [lra|].
  eapply Qle_trans; [apply (qmax_ge_l acc)|apply IH].
Qed.

Lemma max_sqdist_ge : forall l acc, acc <= max_sqdist l acc.
Proof.
  intro l. induction l as [|p r IH]; intro acc; cbn [max_sqdist]; [lra|].
  eapply Qle_trans; [apply (max_sqdist_from_ge p r acc)|apply IH].
Qed.

Definition zero3 (v : v3) : Prop := let '(a, b, c) := v in a == 0 /\ b == 0 /\ c == 0.

(* exactly collinear point sets are accepted for every tolerance; an accepted set has
   every tested cross product within the (squared) tolerance *)
Lemma collinear_spec : forall tol p0 p1 q rest,
  let pts := p0 :: p1 :: q :: rest in
  ((forall p, In p (q :: rest) -> zero3 (crs3 (sub3 p p0) (sub3 p1 p0))) ->
   points_are_collinear tol pts = true) /\
  (points_are_collinear tol pts = true ->
   forall p, In p (q :: rest) ->
     let c := crs3 (sub3 p p0) (sub3 p1 p0) in
     dot3 c c <= tol * tol * max_sqdist pts 1).
Proof.
  intros tol p0 p1 q rest pts. unfold points_are_collinear, pts.
  rewrite forallb_forall. split; intros H p Hin; specialize (H p Hin).
  - apply Qle_bool_iff.
    pose proof (max_sqdist_ge (p0 :: p1 :: q :: rest) 1).
    destruct (crs3 (sub3 p p0) (sub3 p1 p0)) as [[a b] c]. destruct H as (Ha & Hb & Hc).
    unfold dot3. rewrite Ha, Hb, Hc. nra.
  - apply Qle_bool_iff in H. exact H.
Qed.

Lemma collinear_few : forall tol pts, (length pts <= 2)%nat -> points_are_collinear tol pts = true.
Proof.
  intros tol [|a [|b [|c r]]] H; cbn in *; try reflexivity. lia.
Qed.

(* the answer without the caller's default: None on the branches that return it *)
Definition pip_opt (poly : list v2) (p : v2) : option bool :=
  let rel := map (fun v => (fst v - fst p, snd v - snd p)) poly in
  let nxt := roll1 rel in
  if existsb is_zero2 rel || existsb is_zero2 nxt || on_active_edge rel nxt then None
  else Some (negb (Z.eqb (wind2 rel nxt) 0)).

Lemma pip_opt_spec : forall default poly p,
  point_in_polygon default poly p
  = match pip_opt poly p with None => default | Some b => b end.
Proof.
  intros default poly p. unfold point_in_polygon, pip_opt. cbv zeta.
  destruct (existsb _ _ || existsb _ _); [reflexivity|].
  cbn [orb]. destruct (on_active_edge _ _); reflexivity.
Qed.

Fixpoint edges_from (first : v2) (l : list v2) : list (v2 * v2) :=
  match l with
  | [] => []
  | p :: r => (p, match r with [] => first | q :: _ => q end) :: edges_from first r
  end.
Definition edges (poly : list v2) : list (v2 * v2) :=
  match poly with [] => [] | p :: _ => edges_from p poly end.

Definition on_seg_b (p : v2) (e : v2 * v2) : bool :=
  let '(a, b) := e in
  Qeq_bool (cross3 a b p) 0
  && Qle_bool (qmin (fst a) (fst b)) (fst p) && Qle_bool (fst p) (qmax (fst a) (fst b))
  && Qle_bool (qmin (snd a) (snd b)) (snd p) && Qle_bool (snd p) (qmax (snd a) (snd b)).

(* the horizontal ray from p to +infinity crosses the edge (half-open rule) *)
Definition ray_crosses (p : v2) (e : v2 * v2) : bool :=
  let '(a, b) := e in
  negb (Bool.eqb (qltb (snd p) (snd a)) (qltb (snd p) (snd b)))
  && qltb (fst p) (fst a + (snd p - snd a) / (snd b - snd a) * (fst b - fst a)).

(* None: on the boundary; Some b: inside iff the number of crossings is odd *)
Definition pip_ref (poly : list v2) (p : v2) : option bool :=
  if existsb (on_seg_b p) (edges poly) then None
  else Some (fold_left (fun acc e => xorb acc (ray_crosses p e)) (edges poly) false).

Definition zrange (lo : Z) (n : nat) : list Z := map (fun i => (lo + Z.of_nat i)%Z) (seq 0 n).

Lemma in_zrange : forall lo n x, (lo <= x < lo + Z.of_nat n)%Z -> In x (zrange lo n).
Proof.
  intros lo n x H. apply in_map_iff. exists (Z.to_nat (x - lo)). split; [lia|].
  apply in_seq. lia.
Qed.

Definition zq (xy : Z * Z) : v2 := (inject_Z (fst xy), inject_Z (snd xy)).

Definition box : list (Z * Z) := list_prod (zrange (-2) 11) (zrange (-2) 11).

(* both tests give the same answer, boundary included, on every point of the box *)
Definition agree_on_box (poly : list v2) : Prop :=
  map (fun xy => pip_opt poly (zq xy)) box = map (fun xy => pip_ref poly (zq xy)) box.

Lemma agree_on_box_lift : forall poly,
  agree_on_box poly ->
  forall (x y : Z) (default : bool), (-2 <= x <= 8)%Z -> (-2 <= y <= 8)%Z ->
    point_in_polygon default poly (inject_Z x, inject_Z y)
    = match pip_ref poly (inject_Z x, inject_Z y) with None => default | Some b => b end.
Proof.
  intros poly H x y default Hx Hy. rewrite pip_opt_spec.
  change (inject_Z x, inject_Z y) with (zq (x, y)).
  rewrite (proj1 map_ext_in_iff H (x, y)); [reflexivity|].
  apply in_prod; apply in_zrange; lia.
Qed.

Definition poly_L : list v2 := [(0, 0); (4, 0); (4, 4); (2, 4); (2, 2); (0, 2)].
Definition poly_U : list v2 := [(0, 0); (6, 0); (6, 4); (4, 4); (4, 2); (2, 2); (2, 4); (0, 4)].
Definition poly_comb : list v2 :=
  [(0, 0); (6, 0); (6, 3); (5, 3); (5, 1); (4, 1); (4, 3); (3, 3); (3, 1); (2, 1); (2, 3); (0, 3)].
Definition poly_zig : list v2 := [(0, 0); (2, 2); (4, 0); (6, 2); (6, 4); (4, 2); (2, 4); (0, 2)].
Definition poly_arrow_cw : list v2 := [(3, 5); (6, 0); (3, 1); (0, 0)].

Definition poly_spiral : list v2 :=
  [(0, 0); (8, 0); (8, 8); (0, 8); (0, 2); (5, 2); (5, 5); (3, 5); (3, 4); (4, 4); (4, 3); (1, 3);
   (1, 7); (7, 7); (7, 1); (0, 1)].
Definition poly_star : list v2 :=
  [(4, 8); (3, 5); (0, 5); (2, 3); (1, 0); (4, 2); (7, 0); (6, 3); (8, 5); (5, 5)].

Lemma pip_boxes :
  Forall agree_on_box [poly_L; poly_U; poly_comb; poly_zig; poly_arrow_cw; poly_spiral; poly_star].
Proof. repeat (apply Forall_cons; [vm_compute; reflexivity|]). apply Forall_nil. Qed.

(* the witness of the repaired defect: (3,2) is inside the L although it lies on the
   extension of the far edge (2,2)-(0,2) *)
Lemma pip_L_far_edge : point_in_polygon false poly_L (3, 2) = true /\ pip_ref poly_L (3, 2) = Some true.
Proof. split; vm_compute; reflexivity. Qed.

Lemma qsgn_spec : forall x,
  (0 < x /\ qsgn x = 1%Z) \/ (x < 0 /\ qsgn x = (-1)%Z) \/ (x == 0 /\ qsgn x = 0%Z).
Proof.
  intro x. unfold qsgn.
  destruct (qltb 0 x) eqn:E1; [apply qltb_true in E1; auto|].
  destruct (qltb x 0) eqn:E2; [apply qltb_true in E2; auto|].
  apply qltb_false in E1, E2. right. right. split; [lra|reflexivity].
Qed.

Lemma qsgn_iff : forall x,
  (qsgn x = 1%Z <-> 0 < x) /\ (qsgn x = (-1)%Z <-> x < 0) /\ (qsgn x = 0%Z <-> x == 0).
Proof.
  intro x. destruct (qsgn_spec x) as [[H ->] | [[H ->] | [H ->]]];
    repeat split; intro; try discriminate; try lra; reflexivity.
Qed.

Definition lex_pos (v : v2) : Prop := 0 < fst v \/ (fst v == 0 /\ 0 < snd v).
Definition lex_neg (v : v2) : Prop := fst v < 0 \/ (fst v == 0 /\ snd v < 0).

Lemma is_zero2_true : forall v, is_zero2 v = true <-> fst v == 0 /\ snd v == 0.
Proof. intro v. unfold is_zero2. rewrite andb_true_iff, !Qeq_bool_iff. tauto. Qed.

Lemma vertex_sgn_spec : forall v,
  (lex_pos v /\ vertex_sgn v = 1%Z) \/ (lex_neg v /\ vertex_sgn v = (-1)%Z) \/
  (is_zero2 v = true /\ vertex_sgn v = 0%Z).
Proof.
  intro v. unfold vertex_sgn, lex_pos, lex_neg. rewrite is_zero2_true.
  destruct (qsgn_spec (fst v)) as [[H ->] | [[H ->] | [H ->]]]; cbn [Z.eqb]; [tauto|tauto|].
  destruct (qsgn_spec (snd v)) as [[K ->] | [[K ->] | [K ->]]]; tauto.
Qed.

Definition shift (p v : v2) : v2 := (fst v - fst p, snd v - snd p).

Definition contrib (vw : v2 * v2) : Z :=
  if Z.eqb (vertex_sgn (snd vw) - vertex_sgn (fst vw)) 0 then 0%Z
  else qsgn (edge_cross (fst vw) (snd vw)).

Definition degenerate (vw : v2 * v2) : bool :=
  Z.eqb (qsgn (edge_cross (fst vw) (snd vw))) 0
  && negb (Z.eqb (vertex_sgn (snd vw) - vertex_sgn (fst vw)) 0).

Lemma wind2_pairs : forall vs ws, wind2 vs ws = zsum (map contrib (combine vs ws)).
Proof.
  induction vs as [|v vs IH]; intros [|w ws]; cbn [wind2 combine map zsum fold_right]; try reflexivity.
  rewrite IH. reflexivity.
Qed.

Lemma active_pairs : forall vs ws, on_active_edge vs ws = existsb degenerate (combine vs ws).
Proof.
  induction vs as [|v vs IH]; intros [|w ws]; cbn [on_active_edge combine existsb]; try reflexivity.
  rewrite IH. reflexivity.
Qed.

(* the answer is decided by three facts about the shifted vertices and their edges *)
Lemma pip_opt_decided : forall poly p b,
  let vs := map (shift p) poly in
  let es := combine vs (roll1 vs) in
  (forall v, In v vs -> is_zero2 v = false) ->
  (forall e, In e es -> degenerate e = false) ->
  (zsum (map contrib es) = 0%Z <-> b = false) ->
  pip_opt poly p = Some b.
Proof.
  intros poly p b vs es HZ HD HW. unfold pip_opt. cbv zeta.
  change (map _ poly) with vs.
  rewrite existsb_roll1, orb_diag, active_pairs, wind2_pairs. change (combine vs (roll1 vs)) with es.
  rewrite (existsb_false _ _ HZ), (existsb_false _ _ HD). cbn [orb]. f_equal.
  destruct (Z.eqb_spec (zsum (map contrib es)) 0) as [E | N], b; cbn; intuition congruence.
Qed.

Lemma shifted_edges : forall p poly,
  combine (map (shift p) poly) (roll1 (map (shift p) poly))
  = map (fun ab => (shift p (fst ab), shift p (snd ab))) (combine poly (roll1 poly)).
Proof. intros p poly. rewrite roll1_map. apply combine_map. Qed.

Lemma cross3_shift : forall a b p, cross3 a b p == edge_cross (shift p a) (shift p b).
Proof. intros a b p. unfold cross3, edge_cross, shift. cbn [fst snd]. ring. Qed.

(* among vectors of one lexicographic sign "strictly counter-clockwise of" is transitive *)
Lemma ccw_trans : forall u v w,
  vertex_sgn v = vertex_sgn u -> vertex_sgn w = vertex_sgn v ->
  0 < edge_cross u v -> 0 < edge_cross v w -> 0 < edge_cross u w.
Proof.
  intros u v w Euv Evw C1 C2.
  assert (Hs : lex_pos u /\ lex_pos v /\ lex_pos w \/ lex_neg u /\ lex_neg v /\ lex_neg w).
  { destruct (vertex_sgn_spec u) as [[Hu Su] | [[Hu Su] | [Hu Su]]],
             (vertex_sgn_spec v) as [[Hv Sv] | [[Hv Sv] | [Hv Sv]]],
             (vertex_sgn_spec w) as [[Hw Sw] | [[Hw Sw] | [Hw Sw]]];
      try congruence; [tauto|tauto|].
    apply is_zero2_true in Hu. destruct Hu as [E1 E2].
    unfold edge_cross in C1. rewrite E1, E2 in C1. lra. }
  destruct u as [ux uy], v as [vx vy], w as [wx wy].
  unfold lex_pos, lex_neg, edge_cross in *. cbn [fst snd] in *.
  assert (I : (ux * wy - uy * wx) * vx
              == (ux * vy - uy * vx) * wx + (vx * wy - vy * wx) * ux) by ring.
  destruct Hs as [(Hu & Hv & Hw) | (Hu & Hv & Hw)];
    destruct Hv as [Hv | [Hv0 Hv]], Hu as [Hu | [Hu0 Hu]], Hw as [Hw | [Hw0 Hw]]; nra.
Qed.

(* along a path of strict left turns on which the lexicographic sign never changes, the
   last vertex is still strictly counter-clockwise of the first *)
Lemma no_turn : forall r u f,
  (forall v w, In (v, w) (combine (u :: r) (r ++ [f])) ->
               0 < edge_cross v w /\ vertex_sgn w = vertex_sgn v) ->
  vertex_sgn f = vertex_sgn u /\ 0 < edge_cross u f.
Proof.
  induction r as [|v r IH]; intros u f H.
  - apply and_comm. apply H. left. reflexivity.
  - destruct (H u v (or_introl eq_refl)) as [C1 S1].
    destruct (IH v f (fun a b Hin => H a b (or_intror Hin))) as [S2 C2].
    split; [congruence|]. exact (ccw_trans u v f S1 S2 C1 C2).
Qed.

Lemma edge_cross_self : forall u, edge_cross u u == 0.
Proof. intro u. unfold edge_cross. ring. Qed.

(* all edges turn left: no vertex vanishes, no edge is degenerate, and the winding sum,
   a sum of non-negative terms, is not 0 — otherwise the sign would never change along the
   closed path, which would then come back strictly counter-clockwise of its start *)
Lemma all_left_closed : forall vs,
  let es := combine vs (roll1 vs) in
  vs <> [] ->
  (forall v w, In (v, w) es -> 0 < edge_cross v w) ->
  (forall v, In v vs -> is_zero2 v = false) /\
  (forall e, In e es -> degenerate e = false) /\
  zsum (map contrib es) <> 0%Z.
Proof.
  intros vs es Hne H.
  assert (NZ : forall v, In v vs -> is_zero2 v = false).
  { intros v Hin. destruct (in_combine_some vs (roll1 vs) v) as [w Hw];
      [symmetry; apply roll1_length|exact Hin|].
    specialize (H v w Hw). destruct (is_zero2 v) eqn:E; [|reflexivity].
    apply is_zero2_true in E. destruct E as [E1 E2].
    unfold edge_cross in H. rewrite E1, E2 in H. lra. }
  assert (Q1 : forall v w, In (v, w) es -> qsgn (edge_cross v w) = 1%Z).
  { intros v w Hin. apply qsgn_iff. exact (H v w Hin). }
  split; [exact NZ|split].
  - intros [v w] Hin. unfold degenerate. cbn [fst snd]. rewrite (Q1 v w Hin). reflexivity.
  - intro Hs. destruct vs as [|u r]; [contradiction|].
    destruct (zsum_nonneg (map contrib es)) as [_ Hz].
    { apply Forall_map, Forall_forall. intros [v w] Hin. unfold contrib. cbn [fst snd].
      rewrite (Q1 v w Hin). destruct (Z.eqb _ 0); lia. }
    specialize (Hz Hs). rewrite Forall_map, Forall_forall in Hz.
    destruct (no_turn r u u) as [_ C].
    { intros v w Hin. split; [exact (H v w Hin)|].
      specialize (Hz (v, w) Hin). unfold contrib in Hz. cbn [fst snd] in Hz.
      rewrite (Q1 v w Hin) in Hz.
      destruct (Z.eqb_spec (vertex_sgn w - vertex_sgn v) 0); [lia|discriminate]. }
    rewrite edge_cross_self in C. lra.
Qed.

(* every point strictly to the left of all (cyclically consecutive) edges — i.e. every
   point strictly inside a convex counter-clockwise polygon — is reported inside, whatever
   the default *)
Lemma pip_opt_all_left : forall poly p,
  poly <> [] ->
  (forall a b, In (a, b) (combine poly (roll1 poly)) -> 0 < cross3 a b p) ->
  pip_opt poly p = Some true.
Proof.
  intros poly p Hne H.
  destruct (all_left_closed (map (shift p) poly)) as (HZ & HD & HW).
  - intro E. apply map_eq_nil in E. contradiction.
  - intros v w Hin. rewrite shifted_edges in Hin. apply in_map_iff in Hin.
    destruct Hin as ([a b] & [= <- <-] & Hin). rewrite <- cross3_shift. exact (H a b Hin).
  - apply (pip_opt_decided poly p true HZ HD). split; [contradiction|discriminate].
Qed.
