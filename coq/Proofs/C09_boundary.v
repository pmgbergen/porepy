(* C09 — the boundary of C09_main: inputs the constructor accepts on which exactly one of
   its explicit guards fails (the refutations are in Props/C09.v).  Witness runs are
   computed in the exact rational instance (vm_compute) and carried to the real instance by
   the transfer theorem, so they are statements about the same function as C09_main. *)
From Coq Require Import List ZArith Bool QArith Qabs Qround Reals Qreals Lra Lia Sorted.
Import ListNotations.
From PP Require Import Model.C09 Model.C09_ext Proofs.C09 Proofs.C09_transfer Proofs.C09_QR.

Local Open Scope R_scope.

Ltac q2r := unfold Q2R; cbn [Qnum Qden]; try rewrite !Rabs_pos_eq by lra; try lra.

Lemma not_sorted3 (t0 a b : R) : ~ a < b -> ~ StronglySorted Rlt [t0; a; b].
Proof.
  intros Hab H. inversion H as [|? ? HS _]; subst. inversion HS as [|? ? _ HF]; subst.
  inversion HF; auto.
Qed.

Lemma run_from_Q (aq : args Q) (sq : list Q) evs cq trq st :
  simulate Q QOps aq sq evs = inl (cq, (trq, st)) ->
  simulate R ROps (hargs Q R Q2R aq) (map Q2R sq) evs
  = inl (hcfg Q R Q2R cq, (map (hentry Q R Q2R) trq, st)) /\
  accepted R (map (hentry Q R Q2R) trq) = map Q2R (accepted Q trq).
Proof.
  intros H. split.
  - rewrite (h_simulate Q R QOps ROps Q2R Q2R_morph), H. reflexivity.
  - apply h_accepted.
Qed.

(* Guard "dt_init <= schedule[1] - schedule[0]":
   schedule [0; 1; 2], dt_init = 3/2 (dt_max = 2): the first step passes the first scheduled
   time, the schedule correction then produces the NEGATIVE step 1 - 3/2 and the clock
   runs backwards: accepted times 3/2, 1. *)
Definition w1_args : args Q :=
  Build_args Q (3 # 2)%Q false (Some ((1 # 10)%Q, 2%Q)) 15 4 7 (7 # 10)%Q (13 # 10)%Q (1 # 2)%Q 10
             (1 # 10000000000)%Q 0%Q.
Definition w1_sched : list Q := [0; 1; 2]%Q.
Definition w1_evs : list event := [Converged 5; Converged 5].

(* Guard "well_separated":
   schedule [0; 1; 51/50; 3/2] with rtol = 1/20: the scheduled times 1 and 51/50 are within
   tolerance of each other.  After landing on 1 the cursor skips to 51/50, takes the
   "already there" early return with the uncorrected step 1, and the next accepted time is 2:
   beyond the final time 3/2, which is never hit. *)
Definition w2_args : args Q :=
  Build_args Q 1%Q false (Some ((1 # 10)%Q, 1%Q)) 15 4 7 (7 # 10)%Q (13 # 10)%Q (1 # 2)%Q 10
             (1 # 20)%Q 0%Q.
Definition w2_sched : list Q := [0; 1; 51 # 50; 3 # 2]%Q.
Definition w2_evs : list event := [Converged 5; Converged 5; Converged 5].

(* Guard "0 < dt_min":
   dt_min_max = (0, 1) with the (accepted) under-relaxation factor 0: after a step that
   needed many iterations dt becomes 0 = dt_min, the clock stops advancing, and the next
   accepted time equals the previous one. *)
Definition w3_args : args Q :=
  Build_args Q (1 # 2)%Q false (Some (0%Q, 1%Q)) 15 4 7 0%Q (13 # 10)%Q (1 # 2)%Q 10
             (1 # 10000000000)%Q 0%Q.
Definition w3_sched : list Q := [0; 1]%Q.
Definition w3_evs : list event := [Converged 9; Converged 9].
