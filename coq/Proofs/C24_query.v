(* C24 — boundaries(), interfaces(dim, codim) and neighboring_subdomains on a container that
   satisfies the invariant. *)
From Coq Require Import List Arith Bool Lia.
Import ListNotations.
From PP Require Import Lib.ListFacts Model.C24 Model.C24_spec Proofs.C24_base Proofs.C24_sort Proofs.C24_inv
  Proofs.C24_step Proofs.C24.

Lemma obs_boundaries g sp d :
  Inv g sp -> (pS sp = [] \/ exists s, In s (pS sp) /\ 0 < fst s) ->
  lists (boundaries g d) (dim_filter d (bgs g)).
Proof.
  intros HI Hcase. destruct (obs_boundary g sp HI) as (Hbg & _ & _ & Hnd & Hown).
  rewrite <- (inv_sds _ _ HI) in *.
  assert (Hb : boundaries g d = argsort (sds g) (dim_filter d (bgs g))).
  { unfold boundaries. destruct (sds g) as [|x r]; [reflexivity|].
    destruct (s2b g) eqn:Eb; [|reflexivity].
    destruct Hcase as [|(s & Hs & Hpos)]; [discriminate|].
    destruct (Hbg s Hs Hpos) as (bg & Hl & _). unfold sd_to_bg in Hl. rewrite Eb in Hl.
    discriminate. }
  rewrite Hb. apply argsort_ok; [apply dim_filter_nodup, Hnd|].
  intros bg Hx. apply dim_filter_incl in Hx. destruct (Hown bg Hx) as (s & Hs & Hl).
  destruct (inv_bi _ _ HI) as (_ & _ & _ & _ & B5). apply B5 in Hl. exists s. split; auto. lia.
Qed.

Lemma obs_boundaries_0d g sp d :
  Inv g sp -> pS sp <> [] -> (forall s, In s (pS sp) -> fst s = 0) ->
  boundaries g d = Err ValueErr.
Proof.
  intros HI Hne H0. unfold boundaries. rewrite (inv_sds _ _ HI).
  destruct (pS sp) as [|x r] eqn:Es; [congruence|].
  destruct (s2b g) as [|[k v] t] eqn:Eb; [reflexivity|]. exfalso.
  assert (Hk : In k (map fst (s2b g))) by (rewrite Eb; left; reflexivity).
  apply (inv_bk _ _ HI) in Hk. rewrite (inv_sds _ _ HI), Es in Hk. destruct Hk as [Hk Hpos].
  specialize (H0 k Hk). lia.
Qed.

Lemma codim_filter_nodup cm c l : NoDup l -> NoDup (codim_filter cm c l).
Proof. destruct c; cbn; auto. apply NoDup_filter. Qed.

Lemma codim_filter_incl cm c l : incl (codim_filter cm c l) l.
Proof. destruct c; cbn; [apply incl_filter | apply incl_refl]. Qed.

Lemma obs_interfaces_cd cm g sp d c :
  Inv g sp ->
  lists (interfaces_cd cm g d c) (codim_filter cm c (dim_filter d (map fst (pI sp)))).
Proof.
  intros HI. unfold interfaces_cd. rewrite <- (inv_intfs _ _ HI).
  apply (argsort_intfs g sp); auto using incl_refl.
  - apply codim_filter_nodup, dim_filter_nodup, (Inv_nd_intfs g sp HI).
  - eapply incl_tran; [apply codim_filter_incl | apply dim_filter_incl].
Qed.

Lemma neigh_raw_rel s (m1 m2 : list (gid * (gid * gid))) :
  map fst m1 = map fst m2 -> NoDup (map fst m1) ->
  (forall i, orel (lookup i m1) (lookup i m2)) -> neigh_raw s m1 = neigh_raw s m2.
Proof.
  revert m2. induction m1 as [|[k [a b]] r IH]; intros [|[k' [c d]] r'] Hk Hn Hrel;
    try discriminate; auto.
  injection Hk as <- Hk. inversion Hn as [|? ? Hnk Hnr]; subst.
  assert (IH' : neigh_raw s r = neigh_raw s r').
  { apply IH; auto. intros i. specialize (Hrel i). cbn in Hrel. gcase k i; auto. subst.
    rewrite !(proj2 (lookup_None _ _)); [exact I | rewrite <- Hk |]; auto. }
  specialize (Hrel k). cbn in Hrel. rewrite geqb_refl in Hrel. cbn. rewrite IH'.
  destruct Hrel as [[E1 E2]|[E1 E2]]; cbn in E1, E2; subst; auto.
  gcase d s; gcase c s; subst; auto.
Qed.

Lemma neigh_raw_In s I x :
  In x (neigh_raw s I) -> exists e, In e I /\ unord (snd e) (s, x).
Proof.
  induction I as [|[j [c d]] r IH]; cbn; [tauto|].
  assert (Hr : In x (neigh_raw s r) ->
               exists e, ((j, (c, d)) = e \/ In e r) /\ unord (snd e) (s, x)).
  { intros H. destruct (IH H) as (e & Hin & Hu). eauto. }
  gcase c s.
  - intros [<-|H]; auto. exists (j, (c, d)). split; auto. left; cbn; auto.
  - gcase d s; auto. intros [<-|H]; auto. exists (j, (c, d)). split; auto. right; cbn; auto.
Qed.

Lemma neigh_raw_nodup s I :
  NoDup (map fst I) ->
  (forall i p j q, In (i, p) I -> In (j, q) I -> unord p q -> i = j) ->
  NoDup (neigh_raw s I).
Proof.
  induction I as [|[i [a b]] r IH]; cbn [neigh_raw map fst]; intros Hn Hu; [constructor|].
  inversion Hn as [|? ? Hi Hr]; subst.
  assert (IH' : NoDup (neigh_raw s r)).
  { apply IH; auto. intros; eapply Hu; eauto; right; auto. }
  (* the other end of (a, b) is no neighbour through a later interface *)
  assert (Hfresh : forall x, unord (a, b) (s, x) -> ~ In x (neigh_raw s r)).
  { intros x Hx Hin. destruct (neigh_raw_In s r x Hin) as ([j q] & Hj & Hq). cbn in Hq.
    assert (i = j).
    { apply (Hu i (a, b) j q); [left | right |]; eauto using unord_trans, unord_sym. }
    subst j. apply Hi, (in_map fst _ _ Hj). }
  gcase a s; [|gcase b s]; auto; constructor; auto; apply Hfresh; [left|right]; cbn; auto.
Qed.

Definition nb_filter (s : gid) (hi lo : bool) (l : list gid) : list gid :=
  if hi then filter (fun x => fst s <? fst x) l
  else if lo then filter (fun x => fst x <? fst s) l else l.

Lemma obs_neighbours g sp s hi lo :
  Inv g sp ->
  (hi && lo = true -> neighbours g s hi lo = Err ValueErr) /\
  (hi && lo = false ->
   lists (neighbours g s hi lo) (nb_filter s hi lo (neigh_raw s (pI sp)))).
Proof.
  intros HI. unfold neighbours. split; intros Hb; rewrite Hb; [reflexivity|].
  assert (Hraw : neigh_raw s (i2s g) = neigh_raw s (pI sp)).
  { symmetry. apply neigh_raw_rel; try apply HI.
    rewrite (inv_keys _ _ HI). symmetry. apply HI. }
  rewrite Hraw.
  assert (Hnd : NoDup (neigh_raw s (pI sp))).
  { apply neigh_raw_nodup; [apply HI|].
    intros i [a b] j [c d] H1 H2 Hu. apply In_lookup in H1, H2; try apply HI.
    destruct (inv_wf _ _ HI i a b H1) as (_ & _ & _ & _ & Huniq). eapply Huniq; eauto. }
  assert (Hin : forall x, In x (neigh_raw s (pI sp)) -> In x (sds g)).
  { intros x Hx. destruct (neigh_raw_In s _ x Hx) as ([j [c d]] & Hj & Hq).
    apply In_lookup in Hj; [|apply HI].
    destruct (inv_wf _ _ HI j c d Hj) as (Hc & Hd & _). rewrite (inv_sds _ _ HI).
    destruct Hq as [[_ E]|[E _]]; cbn in E; subst; auto. }
  (* any selection of the neighbours is sorted by argsort_grids *)
  assert (Hgen : forall f, lists (argsort (sds g) (filter f (neigh_raw s (pI sp))))
                                 (filter f (neigh_raw s (pI sp)))).
  { intros f. apply argsort_ok; [apply NoDup_filter, Hnd|].
    intros x Hx. apply filter_In in Hx. exists x. split; [apply Hin, Hx | lia]. }
  unfold nb_filter. destruct hi; [|destruct lo]; try apply Hgen.
  rewrite <- (filter_all (fun _ => true) (neigh_raw s (pI sp))) by reflexivity. apply Hgen.
Qed.
