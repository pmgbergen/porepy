(* C07 — the two loops of assemble_schur_complement_system (model: schur_blocks) stack
   exactly the rows prim_rows / sec_rows of the full system (Props: C07_blocks; that these
   rows partition the rows of the system is C07_rows_partial, Proofs/C07.v). *)
From Coq Require Import List ZArith Bool Arith Lia Sorted Permutation.
Import ListNotations.
From PP Require Import Model.C05 Proofs.C05_lists Proofs.C05 Model.C06 Proofs.C06 Model.C07
     Proofs.C07.

Lemma dget_app {A} (l1 l2 : list (nat * A)) k :
  dget (l1 ++ l2) k = match dget l1 k with Some v => Some v | None => dget l2 k end.
Proof. induction l1 as [|[a v] r IH]; cbn; auto. now destruct (Nat.eqb a k). Qed.

Lemma dget_keys_none {A} (l : list (nat * A)) k : ~ In k (map fst l) -> dget l k = None.
Proof. apply dget_None. Qed.

(* [f k] holds at most the key k: looking a key up in the concatenation finds its own part *)
Lemma dget_flat_map {A B} (f : nat -> list (nat * A)) (l : list (nat * B)) name :
  (forall k kv, In kv (f k) -> fst kv = k) ->
  NoDup (map fst l) -> In name (map fst l) ->
  dget (flat_map (fun kv => f (fst kv)) l) name = dget (f name) name.
Proof.
  intros Hf. induction l as [|[n o] r IH]; intros Hnd Hin; [destruct Hin|].
  cbn [flat_map fst map] in *. inversion Hnd as [|? ? Hn Hr]; subst. rewrite dget_app.
  assert (Hother : forall k k', k' <> k -> dget (f k') k = None).
  { intros k k' Hk. apply dget_keys_none. intro Hx. apply in_map_iff in Hx.
    destruct Hx as (kv & <- & Hkv). apply Hf in Hkv. congruence. }
  destruct (Nat.eq_dec n name) as [->|E].
  - destruct (dget (f name) name); auto. apply dget_keys_none. intro Hx.
    apply in_map_iff in Hx. destruct Hx as (kv & <- & Hkv). apply in_flat_map in Hkv.
    destruct Hkv as (kv' & H1 & H2). apply Hf in H2. apply Hn. rewrite H2. now apply in_map.
  - rewrite (Hother name n E). destruct Hin as [Hx|Hin]; [congruence|]. now apply IH.
Qed.

Lemma takeL_ok {X} (d : X) (x : list X) : forall idx,
  Forall (fun i => i < length x) idx -> takeL x idx = Some (map (fun i => nth i x d) idx).
Proof.
  induction idx as [|i r IH]; intro H; cbn; auto.
  inversion H as [|? ? Hi Hr]; subst. rewrite (IH Hr).
  destruct (nth_error x i) eqn:E; [now rewrite (nth_error_nth _ _ _ E)|].
  apply nth_error_None in E. lia.
Qed.

Section Blocks.
  Context {V : Type}.
  Variable vzero : V.
  Variable vopp : V -> V.
  Variable eval : nat -> list (@prow V).
  Variable s : st.
  Variables (allcols : list nat) (nall : nat).
  Hypothesis Hall : projection_to s (asm_vars s None) = OProjM allcols nall.

  Let dflt : @prow V := ([], vzero).
  (* a row of A_temp / an entry of b_temp of the inner  assemble(equations=[name])  *)
  Definition Arow (rw : @prow V) : list V := cut vzero allcols (fst rw).
  Definition brow (rw : @prow V) : V := vopp (snd rw).

  Lemma blocks_single es name :
    EInv es -> In name (map fst (equations es)) ->
    blocks_spec es (EList [IName name]) = [(name, None)].
  Proof.
    intros [Hnd _] Hin. apply in_map_iff in Hin. destruct Hin as (kv0 & <- & Hin).
    unfold blocks_spec. cbn [kept last_items].
    rewrite (flat_map_ext _ (fun kv : nat * nat =>
               if Nat.eqb (fst kv) (fst kv0) then [(fst kv, @None (list nat))] else []))
      by (intro kv; rewrite Nat.eqb_sym; now destruct (Nat.eqb (fst kv) (fst kv0))).
    now rewrite (flat_map_filter _ (fun kv => (fst kv, None))), (filter_key_unique fst _ kv0).
  Qed.

  (* the inner call  self.assemble(equations=[name])  returns the whole equation *)
  Lemma assemble_one es name op :
    EInv es -> In (name, op) (equations es) ->
    snd (assemble vzero vopp eval s es true (EList [IName name]) None) =
    AJac (map Arow (eval op)) (map brow (eval op)) (length allcols).
  Proof.
    intros HI Hmem. pose proof (in_map fst _ _ Hmem) as Hname. cbn [fst] in Hname.
    unfold assemble. rewrite (parse_equations_spec es _ HI). cbn [arg_ok forallb item_ok].
    rewrite (proj2 (dhas_In _ _) Hname), (blocks_single es name HI Hname).
    cbn [andb jac_loop]. now rewrite (In_dget _ _ _ (ei_nodup es HI) Hmem), Hall.
  Qed.

  Variable es : est.
  Variable a : eqarg.
  Hypothesis HI : EInv es.
  Hypothesis Hsz : sized eval es.

  (* the rows of one equation that go to the primary block, to the secondary block because
     the primary restriction excludes them, to the secondary block with the whole equation *)
  Definition locP (name : nat) : list nat := local_rows es a name.
  Definition locE (name : nat) : list nat :=
    match kept a name with
    | Some (Some _) => excl_rows (esize es name) (local_rows es a name)
    | _ => []
    end.
  Definition locS (name : nat) : list nat :=
    match kept a name with None => seq 0 (esize es name) | Some _ => [] end.

  Definition nres (l : list (nat * nat)) : nat :=
    length (filter (fun kv => match kept a (fst kv) with
                              | Some (Some _) => true | _ => false end) l).
  Definition nsecq (l : list (nat * nat)) : nat :=
    length (filter (fun kv => match kept a (fst kv) with None => true | _ => false end) l).

  Lemma dget_prim name :
    In name (map fst (equations es)) ->
    dget (blocks_spec es a) name = option_map (sel_of es name) (kept a name).
  Proof.
    intro Hn. unfold blocks_spec.
    rewrite (dget_flat_map (fun k => match kept a k with
                                     | Some m => [(k, sel_of es k m)] | None => [] end)
                           (equations es) name); auto; [| |apply HI].
    - destruct (kept a name); cbn; [rewrite Nat.eqb_refl|]; reflexivity.
    - intros k kv H. destruct (kept a k); [|destruct H]. now destruct H as [<-|[]].
  Qed.

  Lemma dget_excl name gs :
    In name (map fst (equations es)) -> kept a name = Some (Some gs) ->
    dget (excl_spec es a) name =
    Some (Some (excl_rows (esize es name) (local_rows es a name))).
  Proof.
    intros Hn Hk. unfold excl_spec, rowsel.
    rewrite (dget_flat_map
               (fun k => match kept a k with
                         | Some (Some _) => [(k, Some (excl_rows (esize es k) (local_rows es a k)))]
                         | Some None => [(k, None)]
                         | None => [] end) (equations es) name); auto; [| |apply HI].
    - rewrite Hk. cbn. now rewrite Nat.eqb_refl.
    - intros k kv H. destruct (kept a k) as [[g|]|]; [| |destruct H]; now destruct H as [<-|[]].
  Qed.

  Lemma take_rows {X} (f : @prow V -> X) op idx :
    Forall (fun i => i < length (eval op)) idx ->
    takeL (map f (eval op)) idx = Some (map f (map (fun i => nth i (eval op) dflt) idx)).
  Proof.
    intro H. rewrite (takeL_ok (f dflt)) by now rewrite map_length.
    f_equal. rewrite map_map. apply map_ext. intro i. apply map_nth.
  Qed.

  Lemma loop_primary_spec : forall l, incl l (equations es) ->
    forall Ap bp As bs ns,
    loop_primary vzero vopp eval s es l (blocks_spec es a) (excl_spec es a) (Ap, bp, As, bs, ns) =
    inl (Ap ++ map Arow (flat_map (pickl vzero eval locP) l),
         bp ++ map brow (flat_map (pickl vzero eval locP) l),
         As ++ map Arow (flat_map (pickl vzero eval locE) l),
         bs ++ map brow (flat_map (pickl vzero eval locE) l), ns + nres l).
  Proof.
    induction l as [|[name op] r IH]; intros Hin Ap bp As bs ns.
    - cbn. now rewrite !app_nil_r, Nat.add_0_r.
    - apply incl_cons_inv in Hin as [Hmem Hin]. specialize (IH Hin).
      pose proof (in_map fst _ _ Hmem) as Hname. cbn [fst] in Hname.
      pose proof (Hsz name op Hmem) as Hlen.
      destruct (local_rows_bound es a name HI Hname) as [_ Hb]. rewrite <- Hlen in Hb.
      cbn [loop_primary]. rewrite (dget_prim name Hname).
      unfold nres, pickl, locP, locE. cbn [flat_map filter fst snd].
      unfold local_rows in *.
      destruct (kept a name) as [[gs|]|] eqn:Ek; cbn [option_map sel_of map app]; [| |apply IH];
        rewrite (assemble_one es name op HI Hmem).
      + rewrite (take_rows Arow op _ Hb), (take_rows brow op _ Hb), (dget_excl name gs Hname Ek).
        unfold local_rows. rewrite Ek.
        assert (He : Forall (fun i => i < length (eval op))
                            (excl_rows (esize es name) (restrict_img (img_of es name) gs)))
          by (rewrite Hlen; apply excl_rows_bound).
        rewrite (take_rows Arow op _ He), (take_rows brow op _ He), IH.
        unfold nres, pickl, locP, locE, local_rows. cbn [length].
        now rewrite !map_app, <- !app_assoc, Nat.add_succ_r.
      + rewrite IH. unfold nres, pickl, locP, locE, local_rows.
        rewrite <- Hlen, map_nth_seq. now rewrite !map_app, <- !app_assoc.
  Qed.

  Lemma loop_secondary_spec : forall l, incl l (equations es) ->
    forall Ap bp As bs ns,
    loop_secondary vzero vopp eval s es l (blocks_spec es a) (Ap, bp, As, bs, ns) =
    inl (Ap, bp, As ++ map Arow (flat_map (pickl vzero eval locS) l),
         bs ++ map brow (flat_map (pickl vzero eval locS) l), ns + nsecq l).
  Proof.
    induction l as [|[name op] r IH]; intros Hin Ap bp As bs ns.
    - cbn. now rewrite !app_nil_r, Nat.add_0_r.
    - apply incl_cons_inv in Hin as [Hmem Hin]. specialize (IH Hin).
      pose proof (in_map fst _ _ Hmem) as Hname. cbn [fst] in Hname.
      cbn [loop_secondary]. rewrite (dget_prim name Hname).
      unfold nsecq, pickl, locS. cbn [flat_map filter fst snd].
      destruct (kept a name) as [m|] eqn:Ek; cbn [option_map map app]; [apply IH|].
      rewrite (assemble_one es name op HI Hmem), IH.
      unfold nsecq, pickl, locS. rewrite <- (Hsz name op Hmem), map_nth_seq. cbn [length].
      now rewrite !map_app, <- !app_assoc, Nat.add_succ_r.
  Qed.

  Lemma glob_E l off : glob_from es locE l off = excl_from es a l off.
  Proof.
    revert off. induction l as [|[n o] r IH]; intro off; cbn [glob_from excl_from]; auto.
    rewrite IH. f_equal. unfold locE. now destruct (kept a n) as [[g|]|].
  Qed.

  Lemma glob_S l off : glob_from es locS l off = sec_from es a l off.
  Proof.
    revert off. induction l as [|[n o] r IH]; intro off; cbn [glob_from sec_from]; auto.
    rewrite IH. f_equal. unfold locS. destruct (kept a n); [reflexivity|].
    now rewrite map_add_seq, Nat.add_0_r.
  Qed.

  Lemma locs_inside :
    inside es locP (equations es) /\ inside es locE (equations es) /\
    inside es locS (equations es).
  Proof.
    repeat split; apply Forall_forall; intros [name op] Hmem; cbn [fst].
    - apply (local_rows_bound es a name HI), (in_map fst _ _ Hmem).
    - unfold locE. destruct (kept a name) as [[g|]|]; try constructor. apply excl_rows_bound.
    - unfold locS. destruct (kept a name); [constructor|].
      apply Forall_forall. intros i Hi. now apply in_seq in Hi.
  Qed.

  Definition selA (rows : list nat) : list (list V) :=
    map (fun i => Arow (nth i (full eval es) dflt)) rows.
  Definition selb (rows : list nat) : list V :=
    map (fun i => brow (nth i (full eval es) dflt)) rows.

  Lemma selA_length rows : length (selA rows) = length rows.
  Proof. apply map_length. Qed.

  (* both loops together: primary block = rows prim_rows, secondary block = rows sec_rows *)
  Theorem loops_spec :
    exists acc1,
      loop_primary vzero vopp eval s es (equations es) (blocks_spec es a) (excl_spec es a)
                   ([], [], [], [], 0) = inl acc1 /\
      loop_secondary vzero vopp eval s es (equations es) (blocks_spec es a) acc1 =
      inl (selA (prim_rows es a), selb (prim_rows es a),
           selA (sec_rows es a), selb (sec_rows es a),
           nres (equations es) + nsecq (equations es)).
  Proof.
    eexists. split; [apply loop_primary_spec, incl_refl|].
    rewrite loop_secondary_spec by apply incl_refl. cbn [app].
    destruct locs_inside as (HP & HE & HS).
    rewrite !(glob_sel vzero eval es _ _ [] (sized_equations eval es Hsz)) by assumption.
    cbn [length app]. unfold locP at 1 2. rewrite <- rows_from_glob, glob_E, glob_S.
    unfold selA, selb, prim_rows, sec_rows, rows_spec. now rewrite !map_map, !map_app.
  Qed.
End Blocks.

(* assemble_schur_complement_system: the four blocks and the two right-hand sides are the
   rows prim_rows / sec_rows of the full system, cut to the primary / secondary columns *)
Theorem schur_blocks_spec {V : Type} (vzero : V) (vopp : V -> V) (eval : nat -> list (@prow V))
        (s : st) (es : est) (pe : eqarg) (pv : refs) allcols nall colsp colss :
  EInv es -> sized eval es -> arg_ok es pe = true -> restricted_nonempty es pe ->
  projection_to s (asm_vars s None) = OProjM allcols nall ->
  @proj_cols s (parse s pv) = inl colsp ->
  @proj_cols s (filter (fun id => negb (memb id (parse s pv))) (map vid (vars s))) = inl colss ->
  blocks_spec es pe <> [] -> colsp <> [] -> colss <> [] ->
  nres pe (equations es) + nsecq pe (equations es) <> 0 ->
  length (sec_rows es pe) = length colss ->
  let AP := selA vzero eval allcols es (prim_rows es pe) in
  let AS := selA vzero eval allcols es (sec_rows es pe) in
  schur_blocks vzero vopp eval s es pe pv =
  SOk (map (cut vzero colsp) AP) (map (cut vzero colss) AP)
      (map (cut vzero colsp) AS) (map (cut vzero colss) AS)
      (selb vzero vopp eval es (prim_rows es pe)) (selb vzero vopp eval es (sec_rows es pe))
      colsp colss.
Proof.
  intros HI Hsz Hok Hne Hall Hcp Hcs Hprim Hp Hs Hns Hsq AP AS.
  unfold schur_blocks.
  rewrite (parse_equations_spec es pe HI), Hok, (complement_spec es pe HI Hne), Hcp, Hcs.
  destruct (loops_spec vzero vopp eval s allcols nall Hall es pe HI Hsz) as (acc1 & -> & ->).
  assert (Hz : forall A (l : list A), l <> [] -> (length l =? 0) = false) by now intros A [|].
  rewrite !Hz by assumption.
  destruct (nres pe (equations es) + nsecq pe (equations es)); [congruence|].
  now rewrite selA_length, Hsq, Nat.eqb_refl.
Qed.
