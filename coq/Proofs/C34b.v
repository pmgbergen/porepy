(* C34 (second part) — proofs for ismember_columns and intersect_sets. *)
From Coq Require Import List ZArith Bool Arith Lia Permutation Sorted.
Import ListNotations.
From PP Require Model.C34.
From PP Require Import Lib.ListFacts Model.C46 Proofs.C46 Model.C34b.

Lemma Forall2_map_r {A B} (R : A -> B -> Prop) (G : A -> B) : forall l,
    (forall x, In x l -> R x (G x)) -> Forall2 R l (map G l).
Proof.
  induction l as [|x r IH]; intros H; cbn [map]; constructor.
  - apply H. now left.
  - apply IH. intros y Hy. apply H. now right.
Qed.

Lemma existsb_nth_iff {A} (f : A -> bool) l d :
  existsb f l = true <-> exists j, j < length l /\ f (nth j l d) = true.
Proof.
  rewrite existsb_exists. split.
  - intros [x [Hx Hf]]. destruct (In_nth l x d Hx) as [j [Hj E]]. exists j. rewrite E. tauto.
  - intros [j [Hj Hf]]. exists (nth j l d). split; [apply nth_In, Hj|exact Hf].
Qed.

Lemma existsb_eqb_In i l : existsb (Nat.eqb i) l = true <-> In i l.
Proof.
  rewrite existsb_exists. split; [intros [x [Hx E]]; apply Nat.eqb_eq in E; congruence|].
  intros H. exists i. split; [exact H|apply Nat.eqb_refl].
Qed.

Lemma idx_inj (u : list coord) x y :
  In x u -> In y u -> index_of x u = index_of y u -> x = y.
Proof.
  intros Hx Hy E. rewrite <- (nth_index_of x u [] Hx), <- (nth_index_of y u [] Hy), E.
  reflexivity.
Qed.

Lemma existsb_key (idx : coord -> nat) x : forall l,
    (forall y, In y l -> idx x = idx y -> x = y) ->
    existsb (Nat.eqb (idx x)) (map idx l) = existsb (ceqb x) l.
Proof.
  induction l as [|y r IH]; intros Hinj; [reflexivity|]. cbn [map existsb].
  rewrite IH by (intros z Hz; apply Hinj; now right). f_equal.
  destruct (ceqbP x y) as [<-|Hn]; [apply Nat.eqb_refl|].
  apply Nat.eqb_neq. intros E. apply Hn, Hinj; [now left|exact E].
Qed.

Lemma ssl_spec v : forall l, StronglySorted le l -> In v l ->
    ssl l v < length l /\ nth (ssl l v) l 0 = v.
Proof.
  induction l as [|x r IH]; intros Hs Hin; [contradiction|].
  apply StronglySorted_inv in Hs as [Hr Hx]. cbn [ssl].
  destruct (Nat.ltb_spec x v) as [Hlt|Hge]; cbn [length nth].
  - destruct Hin as [->|Hin]; [lia|]. destruct (IH Hr Hin). split; [lia|assumption].
  - split; [lia|]. destruct Hin as [->|Hin]; [reflexivity|].
    rewrite Forall_forall in Hx. specialize (Hx v Hin). lia.
Qed.

Definition sort_contract (ind_b sort_ind : list nat) : Prop :=
  Permutation sort_ind (seq 0 (length ind_b)) /\
  StronglySorted le (map (fun j => nth j ind_b 0) sort_ind).

Lemma search_back ind_b sort_ind v :
  sort_contract ind_b sort_ind -> In v ind_b ->
  let k := nth (ssl (map (fun j => nth j ind_b 0) sort_ind) v) sort_ind 0 in
  k < length ind_b /\ nth k ind_b 0 = v.
Proof.
  intros [Hperm Hsorted] Hv. destruct (perm_seq_facts _ _ Hperm) as (_ & _ & Hall).
  set (sorted := map _ sort_ind) in *.
  assert (Hin : In v sorted).
  { destruct (In_nth ind_b v 0 Hv) as (j & Hj & <-).
    apply (in_map (fun j => nth j ind_b 0)), Hall, Hj. }
  destruct (ssl_spec v sorted Hsorted Hin) as [Hp E]. unfold sorted in Hp. rewrite map_length in Hp.
  split; [apply Hall, nth_In, Hp|].
  rewrite <- E at 2. symmetry. apply (nth_map_lt (fun j => nth j ind_b 0)), Hp.
Qed.

(* ismember_columns on the keys of the columns: all that is used of np.unique's inverse is
   that it tells the columns in play apart.  The index vector is [pos] of every member column
   of A, and [pos] of a column of B points at an equal column of B. *)
Theorem ismember_keys (idx : coord -> nat) (A B : list coord) sort_ind :
  (forall x y, In x (A ++ B) -> In y (A ++ B) -> idx x = idx y -> x = y) ->
  sort_contract (map idx B) sort_ind ->
  let ind_b := map idx B in
  let ismem := map (fun k => existsb (Nat.eqb k) ind_b) (map idx A) in
  let sorted := map (fun j => nth j ind_b 0) sort_ind in
  let pos := fun x => nth (ssl sorted (idx x)) sort_ind 0 in
  ismem = map (fun x => existsb (ceqb x) B) A /\
  map (fun p => nth p sort_ind 0) (map (ssl sorted) (mask (map idx A) ismem))
  = map pos (filter (fun x => existsb (ceqb x) B) A) /\
  forall x, In x B -> pos x < length B /\ nth (pos x) B [] = x.
Proof.
  intros Hinj Hc ind_b ismem sorted pos.
  assert (Hmem : forall x, In x A -> existsb (Nat.eqb (idx x)) ind_b = existsb (ceqb x) B).
  { intros x Hx. apply existsb_key. intros y Hy. apply Hinj; apply in_or_app; auto. }
  split; [unfold ismem; rewrite map_map; apply map_ext_in, Hmem|]. split.
  - unfold ismem. rewrite (map_map idx (fun k => existsb (Nat.eqb k) ind_b) A), mask_map_map.
    rewrite (filter_ext_in _ _ A Hmem), !map_map. reflexivity.
  - intros x Hx. destruct (search_back _ _ (idx x) Hc (in_map idx B x Hx)) as [Hk Hv].
    rewrite map_length in Hk. split; [exact Hk|].
    rewrite (nth_map_lt idx B _ []) in Hv by exact Hk.
    apply Hinj; [apply in_or_app; right; apply nth_In, Hk|apply in_or_app; now right|exact Hv].
Qed.

(* np.unique of an index vector: sorted, same members *)
Lemma uins_In x z : forall l, In z (uins x l) <-> z = x \/ In z l.
Proof.
  induction l as [|y r IH]; cbn [uins In]; [intuition|].
  destruct (Nat.ltb_spec x y); [cbn [In]; intuition|].
  destruct (Nat.eqb_spec x y) as [->|Hn]; cbn [In]; [intuition|]. rewrite IH. intuition.
Qed.

Lemma usort_In z : forall l, In z (usort l) <-> In z l.
Proof.
  induction l as [|x r IH]; cbn [usort In]; [tauto|]. rewrite uins_In, IH. intuition.
Qed.

Lemma uins_sorted x : forall l, StronglySorted lt l -> StronglySorted lt (uins x l).
Proof.
  induction l as [|y r IH]; intros Hs; cbn [uins]; [repeat constructor|].
  destruct (Nat.ltb_spec x y) as [Hlt|Hge]; [|destruct (Nat.eqb_spec x y) as [->|Hn]; [exact Hs|]];
    apply StronglySorted_inv in Hs as [Hr Hy]; rewrite Forall_forall in Hy.
  - repeat constructor; [exact Hr|apply Forall_forall, Hy|exact Hlt|].
    apply Forall_forall. intros z Hz. specialize (Hy z Hz). lia.
  - constructor; [apply IH, Hr|]. apply Forall_forall. intros z Hz.
    apply uins_In in Hz as [->|Hz]; [lia|apply Hy, Hz].
Qed.

Lemma usort_sorted : forall l, StronglySorted lt (usort l).
Proof. induction l as [|x r IH]; cbn [usort]; [constructor|]. apply uins_sorted, IH. Qed.

Lemma find_within_In tol2 p : forall b j,
    In j (find_within tol2 p b) <-> j < length b /\ within tol2 p (nth j b []) = true.
Proof.
  induction b as [|q r IH]; intros j; cbn [find_within length].
  - split; [contradiction|lia].
  - rewrite in_app_iff, in_map_iff. destruct j as [|j]; cbn [nth].
    + destruct (within tol2 p q); cbn [In]; split; try (intros [_ [=]]); auto with arith.
      all: intros [H|(x & [=] & _)]; tauto.
    + rewrite <- Nat.succ_lt_mono, <- IH. split; [|eauto].
      intros [H|(x & [= ->] & Hx)]; [|exact Hx].
      destruct (within tol2 p q); [destruct H as [[=]|[]]|destruct H].
Qed.

Lemma find_within_NoDup tol2 p : forall b, NoDup (find_within tol2 p b).
Proof.
  induction b as [|q r IH]; cbn [find_within]; [constructor|].
  apply (FinFun.Injective_map_NoDup Nat.succ_inj) in IH.
  destruct (within tol2 p q); cbn [app]; [|exact IH]. constructor; [|exact IH].
  rewrite in_map_iff. intros (x & [=] & _).
Qed.

(* contract of the ball query: one duplicate-free list per column of a, containing
   exactly the columns of b within the tolerance *)
Definition query_contract (tol2 : Z) (query : list coord -> list coord -> list (list nat))
           (a b : list coord) : Prop :=
  length (query a b) = length a /\
  forall i, i < length a ->
    NoDup (nth i (query a b) []) /\
    forall j, In j (nth i (query a b) []) <->
              j < length b /\ within tol2 (nth i a []) (nth j b []) = true.

(* two columns within tol of p are within 2 tol of each other *)
Lemma dist2_parallelogram (p : coord) : forall q q',
    length p = length q -> length p = length q' ->
    (Model.C34.dist2 q q' <= 2 * Model.C34.dist2 p q + 2 * Model.C34.dist2 p q')%Z.
Proof.
  induction p as [|x r IH]; intros [|y s] [|y' s'] H1 H2; try discriminate;
    cbn [Model.C34.dist2]; try lia.
  specialize (IH s s' (eq_add_S _ _ H1) (eq_add_S _ _ H2)).
  pose proof (Z.square_nonneg ((x - y) + (x - y'))). lia.
Qed.
