(* C38 — proofs about PP.Model.C38: the cell ids of all blocks are a permutation of 0..N-1
   (cell_blocks_perm), so scattering what was gathered through them gives the values back
   (scatter_gather); the latest pvd entry; the time history written and read back. *)
From Coq Require Import List ZArith Bool Arith Lia Permutation Sorted.
Import ListNotations.
From PP Require Import Lib.ListFacts Model.C38.

Lemma filter_or_disjoint {B} (p q : B -> bool) (l : list B) :
  (forall x, In x l -> p x = true -> q x = false) ->
  Permutation (filter (fun x => p x || q x) l) (filter p l ++ filter q l).
Proof.
  induction l as [|x l IH]; intro H; [constructor|].
  assert (IH' := IH (fun y Hy => H y (or_intror Hy))).
  cbn [filter]. destruct (p x) eqn:Ep.
  - rewrite (H x (or_introl eq_refl) Ep). cbn [orb app]. constructor. exact IH'.
  - destruct (q x); cbn [orb]; [|exact IH'].
    apply Permutation_cons_app. exact IH'.
Qed.

Lemma partition_by_keys {B} (k : B -> Z) (l : list B) (ts : list Z) :
  NoDup ts ->
  Permutation (concat (map (fun t => filter (fun x => Z.eqb (k x) t) l) ts))
              (filter (fun x => existsb (Z.eqb (k x)) ts) l).
Proof.
  intro Hnd. induction Hnd as [|t ts Hnot Hnd IH].
  - cbn. induction l; [constructor|assumption].
  - cbn [map concat existsb].
    eapply Permutation_trans; [apply Permutation_app_head; exact IH|].
    apply Permutation_sym. apply filter_or_disjoint.
    intros x _ Hx. apply Z.eqb_eq in Hx.
    destruct (existsb (Z.eqb (k x)) ts) eqn:E; [|reflexivity].
    apply existsb_exists in E as (y & Hy & Hxy). apply Z.eqb_eq in Hxy.
    exfalso. apply Hnot. rewrite <- Hx, Hxy. exact Hy.
Qed.

Lemma filter_none {B} (p : B -> bool) (l : list B) :
  (forall x, In x l -> p x = false) -> filter p l = [].
Proof.
  induction l as [|x l IH]; intro H; [reflexivity|].
  cbn [filter]. rewrite (H x (or_introl eq_refl)). apply IH.
  intros y Hy. apply H. right. exact Hy.
Qed.

Lemma sorted_NoDup l : StronglySorted Z.lt l -> NoDup l.
Proof.
  induction 1 as [|x l Hs IH Hall]; constructor; [|exact IH].
  intro Hin. rewrite Forall_forall in Hall. specialize (Hall x Hin). lia.
Qed.

Lemma ins_In t l x : In x (ins t l) <-> t = x \/ In x l.
Proof.
  induction l as [|y l IH]; cbn [ins]; [reflexivity|].
  destruct (t <? y)%Z; [reflexivity|].
  destruct (Z.eqb_spec t y) as [->|_]; cbn [In]; [|rewrite IH]; clear IH; tauto.
Qed.

Lemma ins_sorted t l : StronglySorted Z.lt l -> StronglySorted Z.lt (ins t l).
Proof.
  induction l as [|y l IH]; intro H; cbn [ins].
  - constructor; constructor.
  - inversion H as [|? ? Hs Hall]; subst.
    destruct (t <? y)%Z eqn:E1.
    + apply Z.ltb_lt in E1. constructor; [exact H|].
      constructor; [exact E1|]. eapply Forall_impl; [|exact Hall]. intros; lia.
    + destruct (t =? y)%Z eqn:E2; [exact H|].
      apply Z.ltb_ge in E1. apply Z.eqb_neq in E2.
      constructor; [apply IH; exact Hs|].
      apply Forall_forall. intros x Hx. apply ins_In in Hx as [<-|Hx]; [lia|].
      rewrite Forall_forall in Hall. apply Hall. exact Hx.
Qed.

Lemma types_of_sorted g : StronglySorted Z.lt (types_of g).
Proof. induction g; cbn; [constructor|apply ins_sorted; assumption]. Qed.

Lemma types_of_In g t : In t (types_of g) <-> In t g.
Proof.
  induction g as [|x g IH]; cbn [types_of fold_right]; [reflexivity|].
  fold (types_of g). rewrite ins_In, IH. reflexivity.
Qed.

Definition ids_of (bl : list (Z * list nat)) : list nat := concat (map snd bl).

Lemma add_block_perm bl t cs : Permutation (ids_of (add_block bl t cs)) (ids_of bl ++ cs).
Proof.
  unfold ids_of. induction bl as [|[t' l] bl IH]; cbn [add_block].
  - cbn. rewrite app_nil_r. apply Permutation_refl.
  - destruct (Z.eqb t t'); cbn [map snd concat].
    + rewrite <- !app_assoc. apply Permutation_app_head. apply Permutation_app_comm.
    + rewrite <- app_assoc. apply Permutation_app_head. exact IH.
Qed.

Lemma add_types_perm g off ts : forall bl,
  Permutation
    (ids_of (fold_left (fun b t => add_block b t (cells_of_type g t off)) ts bl))
    (ids_of bl ++ concat (map (fun t => cells_of_type g t off) ts)).
Proof.
  induction ts as [|t ts IH]; intro bl; cbn [fold_left map concat].
  - rewrite app_nil_r. apply Permutation_refl.
  - eapply Permutation_trans; [apply IH|].
    rewrite app_assoc. apply Permutation_app_tail. apply add_block_perm.
Qed.

Lemma types_partition g :
  Permutation
    (concat (map (fun t => filter (fun i => Z.eqb (nth i g 0%Z) t) (seq 0 (length g))) (types_of g)))
    (seq 0 (length g)).
Proof.
  eapply Permutation_trans;
    [apply (partition_by_keys (fun i => nth i g 0%Z)), sorted_NoDup, types_of_sorted|].
  rewrite filter_all; [reflexivity|]. intros i Hi. apply in_seq in Hi.
  apply existsb_exists. exists (nth i g 0%Z). split; [|apply Z.eqb_refl].
  apply types_of_In, nth_In. lia.
Qed.

Lemma add_grid_perm bl g off :
  Permutation (ids_of (add_grid bl g off)) (ids_of bl ++ seq off (length g)).
Proof.
  unfold add_grid. eapply Permutation_trans; [apply add_types_perm|].
  apply Permutation_app_head.
  pose proof (Permutation_map (fun i => i + off) (types_partition g)) as P.
  rewrite concat_map, map_map, (map_ext _ _ (fun i => Nat.add_comm i off)), map_add_seq, Nat.add_0_r in P.
  exact P.
Qed.

Definition total (grids : list (list Z)) : nat := length (concat grids).

Lemma cell_blocks_perm grids : forall bl off,
  Permutation (ids_of bl) (seq 0 off) ->
  Permutation (ids_of (cell_blocks bl grids off)) (seq 0 (off + total grids)).
Proof.
  induction grids as [|g grids IH]; intros bl off H; cbn [cell_blocks].
  - unfold total. cbn. rewrite Nat.add_0_r. exact H.
  - unfold total. cbn [concat]. rewrite app_length, Nat.add_assoc. apply IH.
    eapply Permutation_trans; [apply add_grid_perm|].
    rewrite seq_app. apply Permutation_app_tail. exact H.
Qed.

Lemma cell_ids_perm grids : Permutation (concat (cell_ids grids)) (seq 0 (total grids)).
Proof. apply (cell_blocks_perm grids [] 0). constructor. Qed.

Lemma ins_block_perm b l : Permutation (ins_block b l) (b :: l).
Proof.
  induction l as [|x l IH]; cbn [ins_block]; [apply Permutation_refl|].
  destruct (fst b <=? fst x)%Z; [apply Permutation_refl|].
  eapply Permutation_trans; [apply perm_skip; exact IH|]. apply perm_swap.
Qed.

Lemma sort_blocks_perm l : Permutation (sort_blocks l) l.
Proof.
  induction l as [|b l IH]; [constructor|]. cbn [sort_blocks fold_right].
  eapply Permutation_trans; [apply ins_block_perm|]. apply perm_skip. exact IH.
Qed.

Lemma ids_of_perm a b : Permutation a b -> Permutation (ids_of a) (ids_of b).
Proof.
  unfold ids_of. induction 1 as [| x l l' H IH | x y l | l l' l'' H1 IH1 H2 IH2].
  - constructor.
  - cbn [map concat]. apply Permutation_app_head. exact IH.
  - cbn [map concat]. rewrite !app_assoc. apply Permutation_app_tail. apply Permutation_app_comm.
  - eapply Permutation_trans; eassumption.
Qed.

Lemma cell_ids_3d_perm grids : Permutation (concat (cell_ids_3d grids)) (seq 0 (total grids)).
Proof.
  eapply Permutation_trans; [|apply cell_ids_perm].
  apply (ids_of_perm _ _ (sort_blocks_perm (cell_blocks [] grids 0))).
Qed.

Lemma ins_block_sorted b l :
  StronglySorted Z.le (map fst l) -> StronglySorted Z.le (map fst (ins_block b l)).
Proof.
  induction l as [|x l IH]; intro H; cbn [ins_block map] in *; [repeat constructor|].
  inversion H as [|? ? Hs Hall]; subst. destruct (fst b <=? fst x)%Z eqn:E; cbn [map].
  - apply Z.leb_le in E. constructor; [exact H|]. constructor; [exact E|].
    eapply Forall_impl; [|exact Hall]. intros; lia.
  - apply Z.leb_gt in E. constructor; [apply IH, Hs|].
    apply Forall_map, Forall_forall. intros y Hy.
    apply (Permutation_in _ (ins_block_perm b l)) in Hy. destruct Hy as [<-|Hy]; [lia|].
    rewrite Forall_map, Forall_forall in Hall. apply Hall, Hy.
Qed.

Lemma sort_blocks_sorted l : StronglySorted Z.le (map fst (sort_blocks l)).
Proof.
  unfold sort_blocks. induction l as [|b l IH]; cbn [fold_right map];
    [constructor | apply ins_block_sorted, IH].
Qed.

Section Field.
  Variable A : Type.
  Variable d : A.

  Lemma upd_length l i (v : A) : length (upd A l i v) = length l.
  Proof. revert i. induction l; intros [|i]; cbn; auto. Qed.

  Lemma upd_nth l i (v : A) k :
    nth k (upd A l i v) d = if (k =? i) && (i <? length l) then v else nth k l d.
  Proof.
    revert i k. induction l as [|x l IH]; intros i k.
    - cbn [upd length]. destruct i; rewrite andb_false_r; reflexivity.
    - destruct i as [|i]; destruct k as [|k]; cbn [upd nth length]; try reflexivity.
      rewrite IH. reflexivity.
  Qed.

  Lemma scatter_length ids : forall acc vals, length (scatter A acc ids vals) = length acc.
  Proof.
    unfold scatter. induction ids as [|i ids IH]; intros acc [|v vals]; cbn [combine fold_left];
      rewrite ?IH, ?upd_length; reflexivity.
  Qed.

  Lemma scatter_nth (data : list A) ids : forall acc k,
    nth k (scatter A acc ids (map (fun i => nth i data d) ids)) d =
    if existsb (Nat.eqb k) ids && (k <? length acc) then nth k data d else nth k acc d.
  Proof.
    unfold scatter. induction ids as [|i ids IH]; intros acc k; cbn [map combine fold_left existsb];
      [reflexivity|].
    cbn [fst snd]. rewrite IH, upd_length, upd_nth. destruct (Nat.eqb_spec k i) as [->|]; [|reflexivity].
    destruct (existsb _ ids), (i <? length acc); reflexivity.
  Qed.

  Lemma concat_export ids (values : list A) :
    concat (export_blocks A d ids values) = map (fun i => nth i values d) (concat ids).
  Proof. unfold export_blocks. rewrite concat_map. reflexivity. Qed.

  Lemma chop_concat (ls : list (list A)) : chop A (map (@length A) ls) (concat ls) = ls.
  Proof.
    induction ls as [|a ls IH]; [reflexivity|].
    cbn [map concat chop]. rewrite firstn_app, Nat.sub_diag, firstn_all, firstn_O, app_nil_r.
    rewrite skipn_app, Nat.sub_diag, skipn_all. cbn [skipn app]. rewrite IH. reflexivity.
  Qed.

  Lemma scatter_gather (values garbage : list A) (ids : list nat) :
    Permutation ids (seq 0 (length values)) -> length garbage = length values ->
    scatter A garbage ids (map (fun i => nth i values d) ids) = values.
  Proof.
    intros Hp Hg. apply (nth_ext _ _ d d); [rewrite scatter_length; exact Hg|].
    intros k Hk. rewrite scatter_length in Hk. rewrite scatter_nth.
    rewrite (proj2 (Nat.ltb_lt _ _) Hk), andb_true_r.
    replace (existsb (Nat.eqb k) ids) with true; [reflexivity|].
    symmetry. apply existsb_exists. exists k. split; [|apply Nat.eqb_refl].
    apply (Permutation_in _ (Permutation_sym Hp)). apply in_seq. lia.
  Qed.

  Theorem roundtrip_ids_id (garbage : list A) (ids : list (list nat)) (per_entity : list (list A)) :
    Permutation (concat ids) (seq 0 (length (concat per_entity))) ->
    length garbage = length (concat per_entity) ->
    roundtrip_ids A d garbage ids per_entity = per_entity.
  Proof.
    intros Hp Hg. unfold roundtrip_ids, import_blocks. rewrite concat_export.
    rewrite scatter_gather by assumption. apply chop_concat.
  Qed.

End Field.

Lemma latest_spec l :
  match latest l with
  | None => l = []
  | Some m => In m l /\ Forall (fun x => (x <= m)%Z) l
  end.
Proof.
  induction l as [|x l IH]; cbn [latest]; [reflexivity|].
  destruct (latest l) as [m|].
  - destruct IH as [Hin Hall]. destruct (m <=? x)%Z eqn:E.
    + apply Z.leb_le in E. split; [left; reflexivity|].
      constructor; [lia|]. eapply Forall_impl; [|exact Hall]. intros a Ha; cbn beta in *; lia.
    + apply Z.leb_gt in E. split; [right; exact Hin|]. constructor; [lia|exact Hall].
  - subst l. split; [left; reflexivity|]. constructor; [lia|constructor].
Qed.

Lemma filter_same {F} (t : Z) (l : list F) :
  map snd (filter (fun e => Z.eqb (fst e) t) (map (fun g => (t, g)) l)) = l.
Proof.
  induction l as [|g l IH]; [reflexivity|].
  cbn [map filter fst]. rewrite Z.eqb_refl. cbn [map snd]. f_equal. exact IH.
Qed.

Definition max_suffix {F} (suffix : F -> Z) (fs : list F) : Z :=
  match fs with
  | f :: r => fold_right (fun g m => Z.max (suffix g) m) (suffix f) r
  | [] => 0%Z
  end.

Theorem restart_latest {F} (suffix : F -> Z) (entries : list (Z * F)) :
  entries <> [] ->
  exists m,
    restart_files suffix entries
    = Some (max_suffix suffix (map snd (filter (fun e => Z.eqb (fst e) m) entries)),
            map snd (filter (fun e => Z.eqb (fst e) m) entries)) /\
    In m (map fst entries) /\ Forall (fun e => (fst e <= m)%Z) entries.
Proof.
  intro Hne. unfold restart_files. pose proof (latest_spec (map fst entries)) as H.
  destruct (latest (map fst entries)) as [m|].
  - destruct H as [Hin Hall]. exists m. split; [reflexivity|]. split; [exact Hin|].
    rewrite Forall_map in Hall. exact Hall.
  - destruct entries; [contradiction|discriminate].
Qed.

(* when the most recent export was written at a time larger than all earlier ones, the
   files imported are exactly its files and the index returned is their suffix, whatever
   the times are (they need not be the step indices) *)
Theorem restart_most_recent {F} (suffix : F -> Z) (older : list (Z * F)) (t : Z)
        (f : F) (last : list F) :
  Forall (fun e => (fst e < t)%Z) older ->
  restart_files suffix (older ++ map (fun g => (t, g)) (f :: last))
  = Some (max_suffix suffix (f :: last), f :: last).
Proof.
  intros Hold. set (entries := older ++ map (fun g => (t, g)) (f :: last)).
  destruct (restart_latest suffix entries) as (m & -> & Hin & Hall); [destruct older; discriminate|].
  rewrite Forall_forall in Hold, Hall.
  assert (m = t) as ->.
  { apply Z.le_antisymm.
    - apply in_map_iff in Hin as (e & <- & He). apply in_app_or in He as [He|He].
      + apply Z.lt_le_incl, Hold, He.
      + apply in_map_iff in He as (g & <- & _). apply Z.le_refl.
    - apply (Hall (t, f)), in_or_app. right. left. reflexivity. }
  unfold entries. rewrite filter_app, map_app, filter_same.
  rewrite (filter_none _ older); [reflexivity|].
  intros e He. apply Z.eqb_neq, Z.lt_neq, Hold, He.
Qed.

Section Time.
  Variable V T : Type.
  Variable print : V -> T.
  Variable parse : T -> V.
  Variable v0 : V.
  Hypothesis parse_print : forall v, parse (print v) = v.

  Notation tm := (tm V).

  Definition wstep (sf : tm * option (list T * list T)) (th : V * V) :=
    (fst (write_time V T print (set_td V (fst sf) th)),
     Some (snd (write_time V T print (set_td V (fst sf) th)))).

  Lemma run_writes_lists steps : forall sf : tm * option (list T * list T),
    exported_times (fst (fold_left wstep steps sf)) = exported_times (fst sf) ++ map fst steps /\
    exported_dt (fst (fold_left wstep steps sf)) = exported_dt (fst sf) ++ map snd steps.
  Proof.
    induction steps as [|th steps IH]; intros sf; cbn [fold_left map]; [rewrite !app_nil_r; auto|].
    destruct (IH (wstep sf th)) as [-> ->]. cbn. rewrite <- !app_assoc. auto.
  Qed.

  Lemma map_parse_print l : map parse (map print l) = l.
  Proof. rewrite map_map. rewrite <- (map_id l) at 2. apply map_ext. exact parse_print. Qed.

  (* the file left on disk after any non-empty run of writes, loaded by a fresh time
     manager, gives back the whole history *)
  Theorem time_roundtrip (steps : list (V * V)) (s0 s1 : tm) :
    steps <> [] -> exported_times s0 = [] -> exported_dt s0 = [] ->
    exists file,
      snd (run_writes V T print s0 steps) = Some file /\
      exported_times (load_time V T parse s1 file) = map fst steps /\
      exported_dt (load_time V T parse s1 file) = map snd steps.
  Proof.
    (* the file is the dump made by the last write *)
    intros Hne H0 H0'. destruct (exists_last Hne) as [l [th ->]].
    unfold run_writes. fold wstep. rewrite fold_left_app.
    destruct (run_writes_lists l (s0, None)) as [E1 E2]. cbn [fst] in E1, E2.
    rewrite H0 in E1. rewrite H0' in E2.
    eexists. split; [reflexivity|]. cbn. rewrite E1, E2, !map_parse_print, !map_app. auto.
  Qed.

  (* restoring at index i (python indexing, -1 = most recent) *)
  Theorem time_restore (s : tm) (i : Z) :
    length (exported_times s) = length (exported_dt s) ->
    (- Z.of_nat (length (exported_times s)) <= i < Z.of_nat (length (exported_times s)))%Z ->
    let k := if (0 <=? i)%Z then Z.to_nat i
             else Z.to_nat (Z.of_nat (length (exported_times s)) + i) in
    exists s',
      set_from_exported V v0 s i = Some s' /\
      time s' = nth k (exported_times s) v0 /\ dt s' = nth k (exported_dt s) v0 /\
      exported_times s' = firstn k (exported_times s) /\
      exported_dt s' = firstn k (exported_dt s).
  Proof.
    intros Hlen Hi. unfold set_from_exported, py_index, py_upto. rewrite <- Hlen.
    destruct (0 <=? i)%Z eqn:E.
    - apply Z.leb_le in E. rewrite (proj2 (Z.ltb_lt _ _)) by lia. eexists. repeat split.
    - apply Z.leb_gt in E. rewrite (proj2 (Z.leb_le _ _)) by lia. eexists. repeat split.
  Qed.
End Time.
