(* C36 — proofs about the ArraySlicer model.  A well-formed slicer with distinct range indices
   turns its operand into [sliced] (scatter after gather: slice_rows_eq), and that is its matrix
   applied row by row (wf_slicer, denote_spec, apply_is_matrix, transpose_denote); on the heap
   of slicers a call changes only what it allocates (section Frame: run_frame, extends_keeps)
   and an object acts by the fuel-free equation apply_top_eq, so chains and pending operands
   compose (appended_pair, matmul_step, rop_step, chain_general, chain_plain). *)
From Coq Require Import List ZArith Bool Arith Lia.
Import ListNotations.
From PP Require Import Lib.ListFacts Model.C36.

Lemma nth_error_lt {A} (l : list A) i : i < length l -> exists a, nth_error l i = Some a.
Proof.
  intros Hi. destruct (nth_error l i) as [a|] eqn:E; [eauto|].
  apply nth_error_None in E. lia.
Qed.

Lemma nth_error_snoc {A} (l : list A) a : nth_error (l ++ [a]) (length l) = Some a.
Proof. rewrite nth_error_app2, Nat.sub_diag by lia. reflexivity. Qed.

Lemma Forall2_rev {A B} (R : A -> B -> Prop) l1 l2 :
  Forall2 R l1 l2 -> Forall2 R (rev l1) (rev l2).
Proof.
  induction 1 as [|a b l1 l2 Hab _ IH]; cbn; [constructor|].
  apply Forall2_app; [exact IH|]. constructor; [exact Hab|constructor].
Qed.

Lemma forallb_ltb l n : Forall (fun i => i < n) l -> forallb (fun r => r <? n) l = true.
Proof.
  intros H. apply forallb_forall. intros i Hi. apply Nat.ltb_lt.
  rewrite Forall_forall in H. auto.
Qed.

Lemma map_repeat {A B} (f : A -> B) x n : map f (repeat x n) = repeat (f x) n.
Proof. induction n as [|n IH]; cbn; [reflexivity|]. f_equal. exact IH. Qed.

Section RowLemmas.
  Variable E : Type.
  Implicit Types (l out x : list E) (z : E).

  Lemma upd_length l i v : length (upd l i v) = length l.
  Proof. revert i; induction l as [|a r IH]; intros [|i]; cbn; auto. Qed.

  Lemma nth_upd_eq l i v z : i < length l -> nth i (upd l i v) z = v.
  Proof.
    revert i; induction l as [|a r IH]; intros [|i] H; cbn in *; try lia; auto.
    apply IH. lia.
  Qed.

  Lemma nth_upd_neq l i j v z : i <> j -> nth j (upd l i v) z = nth j l z.
  Proof.
    revert i j; induction l as [|a r IH]; intros [|i] [|j] H; cbn; try reflexivity; try lia.
    apply IH. lia.
  Qed.

  Lemma upd_Forall (P : E -> Prop) l i v : Forall P l -> P v -> Forall P (upd l i v).
  Proof.
    intros Hl Hv. revert i. induction Hl as [|a r Ha Hr IH]; intros [|i]; cbn; constructor; auto.
  Qed.

  Lemma scatter_length out idx vals : length (scatter out idx vals) = length out.
  Proof.
    revert out vals; induction idx as [|i ir IH]; intros out [|v vr]; cbn; auto.
    rewrite IH. apply upd_length.
  Qed.

  Lemma scatter_notin out idx vals i z :
    ~ In i idx -> nth i (scatter out idx vals) z = nth i out z.
  Proof.
    revert out vals; induction idx as [|a ir IH]; intros out [|v vr] Hn; cbn; auto.
    rewrite IH by (intros H; apply Hn; right; exact H).
    apply nth_upd_neq. intros ->. apply Hn. left. reflexivity.
  Qed.

  Lemma scatter_nodup idx : forall out vals k z,
      NoDup idx -> length idx = length vals -> k < length idx ->
      nth k idx 0 < length out ->
      nth (nth k idx 0) (scatter out idx vals) z = nth k vals z.
  Proof.
    induction idx as [|a ir IH]; intros out vals k z Hnd Hlen Hk Hb; cbn in Hk; [lia|].
    destruct vals as [|v vr]; [discriminate|]. inversion Hnd as [|? ? Hna Hnd']; subst.
    destruct k as [|k]; cbn [nth scatter].
    - rewrite scatter_notin by exact Hna. apply nth_upd_eq. exact Hb.
    - apply IH; [assumption | cbn in Hlen; lia | lia | rewrite upd_length; exact Hb].
  Qed.

  Lemma scatter_Forall (P : E -> Prop) out idx vals :
    Forall P out -> Forall P vals -> Forall P (scatter out idx vals).
  Proof.
    intros Ho Hv. revert out idx Ho. induction Hv as [|v vr Hv _ IH]; intros out [|i ir] Ho; cbn; auto.
    apply IH, upd_Forall; assumption.
  Qed.

  Lemma scatter_S z ps : forall out cs, scatter (z :: out) (map S ps) cs = z :: scatter out ps cs.
  Proof.
    induction ps as [|p ps IH]; intros out cs; [reflexivity|].
    destruct cs as [|c cs]; [reflexivity|]. cbn [map scatter upd]. apply IH.
  Qed.

  Lemma scatter_seq z vals n : length vals = n -> scatter (repeat z n) (seq 0 n) vals = vals.
  Proof.
    intros <-. induction vals as [|v vals IH]; [reflexivity|].
    cbn [length seq repeat scatter upd]. rewrite <- seq_shift, scatter_S, IH. reflexivity.
  Qed.

  Lemma gather_all x idx z :
    Forall (fun i => i < length x) idx -> gather x idx = Some (map (fun i => nth i x z) idx).
  Proof.
    induction 1 as [|i r Hi _ IH]; cbn; [reflexivity|].
    rewrite IH. destruct (nth_error x i) as [a|] eqn:Hn.
    - rewrite (nth_error_nth _ _ z Hn). reflexivity.
    - apply nth_error_None in Hn. lia.
  Qed.
End RowLemmas.

Lemma upd_map {E F} (f : E -> F) : forall l i v, map f (upd l i v) = upd (map f l) i (f v).
Proof. induction l as [|a r IH]; intros [|i] v; cbn; try reflexivity. f_equal. apply IH. Qed.

Lemma scatter_map {E F} (f : E -> F) : forall idx out vals,
    map f (scatter out idx vals) = scatter (map f out) idx (map f vals).
Proof.
  induction idx as [|i idx IH]; intros out vals; [reflexivity|].
  destruct vals as [|v vals]; [reflexivity|]. cbn [scatter map]. rewrite IH, upd_map. reflexivity.
Qed.

Lemma has_dup_false l : NoDup l -> has_dup l = false.
Proof.
  induction 1 as [|a r Hn _ IH]; cbn; [reflexivity|]. rewrite IH, orb_false_r.
  destruct (existsb (Nat.eqb a) r) eqn:He; [|reflexivity].
  apply existsb_exists in He. destruct He as [b [Hb Hab]]. apply Nat.eqb_eq in Hab. subst.
  contradiction.
Qed.

Definition wf_slicer (s : slicer) : Prop :=
  length (dom s) = length (rng s) /\
  Forall (fun i => i < dsize s) (dom s) /\
  Forall (fun i => i < rsize s) (rng s) /\
  (onto s = true -> rng s = seq 0 (length (dom s)) /\ rsize s = length (dom s)).

Lemma build_length nr ncol f : length (build nr ncol f) = nr.
Proof. unfold build. rewrite map_length, seq_length. reflexivity. Qed.

Lemma build_row nr ncol f i : i < nr -> nth i (build nr ncol f) [] = map (f i) (seq 0 ncol).
Proof. intros Hi. unfold build. rewrite nth_map_seq by exact Hi. reflexivity. Qed.

Lemma mentry_build nr ncol f i j : i < nr -> j < ncol -> mentry (build nr ncol f) i j = f i j.
Proof.
  intros Hi Hj. unfold mentry. rewrite build_row by exact Hi. apply nth_map_seq. exact Hj.
Qed.

Lemma build_ext nr ncol f g :
  (forall i j, i < nr -> j < ncol -> f i j = g i j) -> build nr ncol f = build nr ncol g.
Proof.
  intros H. unfold build. apply map_ext_in. intros i Hi. apply in_seq in Hi.
  apply map_ext_in. intros j Hj. apply in_seq in Hj. apply H; lia.
Qed.

Lemma existsb_combine_notin (g : nat * nat -> bool) i r d :
  ~ In i r -> existsb (fun p => (fst p =? i) && g p) (combine r d) = false.
Proof.
  intros Hn. apply not_true_iff_false. rewrite existsb_exists. intros [[a b] [Hin H]].
  apply andb_prop, proj1, Nat.eqb_eq in H. cbn in H. subst a. exact (Hn (in_combine_l _ _ _ _ Hin)).
Qed.

Lemma existsb_combine_nodup r : forall d k j,
    NoDup r -> length r = length d -> k < length r ->
    existsb (fun p => (fst p =? nth k r 0) && (snd p =? j)) (combine r d) = (nth k d 0 =? j).
Proof.
  induction r as [|a r IH]; intros d k j Hnd Hl Hk; cbn in Hk; [lia|].
  destruct d as [|b d]; [discriminate|]. inversion Hnd as [|? ? Hna Hnd']; subst.
  destruct k as [|k]; cbn [nth combine existsb fst snd].
  - rewrite Nat.eqb_refl. cbn [andb].
    rewrite (existsb_combine_notin (fun p => snd p =? j)) by exact Hna. apply orb_false_r.
  - replace (a =? nth k r 0) with false.
    + cbn [andb orb]. apply IH; [assumption | cbn in Hl; lia | lia].
    + symmetry. apply Nat.eqb_neq. intros ->. apply Hna. apply nth_In. lia.
Qed.

Lemma dot_zero n x : dot (repeat 0%Z n) x = 0%Z.
Proof.
  revert x; induction n as [|n IH]; intros [|b x]; cbn [repeat dot]; try reflexivity.
  rewrite IH. lia.
Qed.

Lemma dot_pick x : forall d, d < length x ->
  dot (map (fun j => if j =? d then 1%Z else 0%Z) (seq 0 (length x))) x = nth d x 0%Z.
Proof.
  induction x as [|a x IH]; intros d Hd; cbn [length] in *; [lia|].
  cbn [seq map dot]. rewrite <- seq_shift, map_map. destruct d as [|d]; cbn [Nat.eqb nth].
  - rewrite map_const, dot_zero. lia.
  - rewrite IH by lia. lia.
Qed.

Lemma col_nth c X d : nth d (col c X) 0%Z = nth c (nth d X []) 0%Z.
Proof.
  unfold col. rewrite <- (map_nth (fun row => nth c row 0%Z) X [] d).
  destruct c; reflexivity.
Qed.

Lemma matvec_length M x : length (matvec M x) = length M.
Proof. apply map_length. Qed.

Lemma matmul_length M nc X : length (matmul M nc X) = length M.
Proof. apply map_length. Qed.

Lemma matmul_rect M nc X : Forall (fun r => length r = nc) (matmul M nc X).
Proof.
  apply Forall_map, Forall_forall. intros r _. rewrite map_length. apply seq_length.
Qed.

Lemma dense_row_nil nc : dense_row nc [] = repeat 0%Z nc.
Proof. unfold dense_row. cbn. rewrite map_const, seq_length. reflexivity. Qed.

Lemma dense_row_length nc r : length (dense_row nc r) = nc.
Proof. unfold dense_row. rewrite map_length, seq_length. reflexivity. Qed.

Lemma to_dense_rect nc rows : Forall (fun r => length r = nc) (to_dense nc rows).
Proof. apply Forall_map, Forall_forall. intros r _. apply dense_row_length. Qed.

Section Slicing.
  Variable s : slicer.
  Hypothesis (Hwf : wf_slicer s) (Hnd : NoDup (rng s)).

  (* rows domain[k] of x written to rows range[k] of zeros *)
  Definition sliced {E} (z : E) (x : list E) : list E :=
    scatter (repeat z (rsize s)) (rng s) (map (fun i => nth i x z) (dom s)).

  Lemma sliced_length {E} (z : E) x : length (sliced z x) = rsize s.
  Proof. unfold sliced. rewrite scatter_length. apply repeat_length. Qed.

  Lemma sliced_map {E F} (f : E -> F) z x : map f (sliced z x) = sliced (f z) (map f x).
  Proof.
    unfold sliced. rewrite scatter_map, map_repeat, map_map. f_equal.
    apply map_ext. intros i. symmetry. apply map_nth.
  Qed.

  (* on an operand of domain_size rows _slice_vector does not raise, and its onto fast path
     returns what the general path would *)
  Lemma slice_rows_eq {E} (z : E) x : length x = dsize s -> slice_rows s z x = Ok (sliced z x).
  Proof.
    intros Hx. destruct Hwf as [Hl [Hd [Hr Ho]]]. unfold slice_rows, bcast, sliced.
    rewrite (gather_all E x (dom s) z) by (rewrite Hx; exact Hd).
    destruct (onto s).
    - destruct (Ho eq_refl) as [-> ->]. rewrite scatter_seq by apply map_length. reflexivity.
    - rewrite map_length, Hl, Nat.eqb_refl, (forallb_ltb _ _ Hr). reflexivity.
  Qed.

  (* with distinct range indices _slice_matrix is _slice_vector on the stored rows *)
  Lemma slice_csr_rows x : length x = dsize s -> slice_csr s x = @slice_rows crow s [] x.
  Proof.
    intros Hx. destruct Hwf as [Hl [Hd [Hr _]]]. unfold slice_csr, slice_rows, bcast.
    rewrite (gather_all _ x (dom s) []) by (rewrite Hx; exact Hd).
    destruct (onto s); [reflexivity|].
    rewrite (forallb_ltb _ _ Hr), map_length, Hl, Nat.eqb_refl, (has_dup_false _ Hnd). reflexivity.
  Qed.

  Lemma sliced_hit {E} (z : E) x k :
    k < length (rng s) -> nth (nth k (rng s) 0) (sliced z x) z = nth (nth k (dom s) 0) x z.
  Proof.
    intros Hk. destruct Hwf as [Hl [_ [Hr _]]]. rewrite Forall_forall in Hr. unfold sliced.
    rewrite scatter_nodup.
    - apply (nth_map_lt (fun i => nth i x z)). lia.
    - exact Hnd.
    - rewrite map_length. lia.
    - exact Hk.
    - rewrite repeat_length. apply Hr, nth_In, Hk.
  Qed.

  Lemma sliced_miss {E} (z : E) x i : ~ In i (rng s) -> nth i (sliced z x) z = z.
  Proof. intros Hn. unfold sliced. rewrite scatter_notin by exact Hn. apply nth_repeat. Qed.

  Lemma denote_row_hit k :
    k < length (rng s) ->
    nth (nth k (rng s) 0) (denote s) []
    = map (fun j => if j =? nth k (dom s) 0 then 1%Z else 0%Z) (seq 0 (dsize s)).
  Proof.
    intros Hk. destruct Hwf as [Hl [_ [Hr _]]]. rewrite Forall_forall in Hr.
    unfold denote. rewrite build_row by (apply Hr, nth_In, Hk).
    apply map_ext. intros j. unfold entry.
    rewrite existsb_combine_nodup, (Nat.eqb_sym j) by (auto; lia). reflexivity.
  Qed.

  Lemma denote_row_miss i :
    i < rsize s -> ~ In i (rng s) -> nth i (denote s) [] = repeat 0%Z (dsize s).
  Proof.
    intros Hi Hn. unfold denote. rewrite build_row by exact Hi.
    rewrite <- (seq_length (dsize s) 0) at 2. rewrite <- map_const.
    apply map_ext. intros j. unfold entry.
    rewrite (existsb_combine_notin (fun p => snd p =? j)) by exact Hn. reflexivity.
  Qed.

  (* hence whatever is computed row by row from the matrix, by an [F] that reads row d of the
     operand off e_d and the zero element off the zero row, is the sliced operand *)
  Lemma denote_spec {E} (F : list Z -> E) z x :
    (forall d, d < dsize s ->
               F (map (fun j => if j =? d then 1%Z else 0%Z) (seq 0 (dsize s))) = nth d x z) ->
    F (repeat 0%Z (dsize s)) = z ->
    sliced z x = map F (denote s).
  Proof.
    intros Hhit Hmiss. destruct Hwf as [Hl [Hd _]]. rewrite Forall_forall in Hd.
    assert (Hlen : length (denote s) = rsize s) by apply build_length.
    apply (nth_ext _ _ z z); [rewrite map_length, sliced_length; auto|].
    intros i Hi. rewrite sliced_length in Hi.
    rewrite (nth_map_lt _ _ _ []) by (rewrite Hlen; exact Hi).
    destruct (in_dec Nat.eq_dec i (rng s)) as [Hin|Hn].
    - destruct (In_nth _ _ 0 Hin) as [k [Hk <-]].
      rewrite sliced_hit, denote_row_hit by exact Hk. symmetry. apply Hhit, Hd, nth_In. lia.
    - rewrite sliced_miss, denote_row_miss by assumption. auto.
  Qed.

  Lemma sliced_vector v : length v = dsize s -> sliced 0%Z v = matvec (denote s) v.
  Proof.
    intros Hv. apply (denote_spec (fun row => dot row v)).
    - intros d Hd. rewrite <- Hv in *. apply dot_pick. exact Hd.
    - apply dot_zero.
  Qed.

  Lemma sliced_array nc X :
    length X = dsize s -> Forall (fun r => length r = nc) X ->
    sliced (repeat 0%Z nc) X = matmul (denote s) nc X.
  Proof.
    intros Hx Hrect.
    apply (denote_spec (fun row => map (fun c => dot row (col c X)) (seq 0 nc))).
    - intros d Hd. rewrite <- Hx in *.
      assert (Hrow : length (nth d X (repeat 0%Z nc)) = nc).
      { rewrite Forall_forall in Hrect. apply Hrect, nth_In, Hd. }
      rewrite <- (map_nth_seq (nth d X _) 0%Z), Hrow. apply map_ext. intros c.
      replace (length X) with (length (col c X)) by apply map_length.
      rewrite dot_pick, col_nth by (unfold col; rewrite map_length; exact Hd).
      f_equal. apply nth_indep. exact Hd.
    - rewrite (map_ext _ (fun _ => 0%Z)) by (intros; apply dot_zero).
      rewrite map_const, seq_length. reflexivity.
  Qed.

  (* the stored rows are moved as they are: densifying commutes with slicing (sliced_map),
     which leaves the array case *)
  Lemma sliced_sparse nc rows :
    length rows = dsize s ->
    to_dense nc (sliced [] rows) = matmul (denote s) nc (to_dense nc rows).
  Proof.
    intros Hx. unfold to_dense. rewrite sliced_map, dense_row_nil.
    apply sliced_array; [rewrite map_length; exact Hx | apply to_dense_rect].
  Qed.
End Slicing.

Definition vfits (n : nat) (x : value) : Prop :=
  match x with
  | VVec v => length v = n
  | VArr nc rows => length rows = n /\ Forall (fun r => length r = nc) rows
  | VCsr nc rows => length rows = n
  | VAd v nc jac => length v = n /\ length jac = n
  | VNum _ => True
  end.

Definition not_num (x : value) : Prop := match x with VNum _ => False | _ => True end.

Lemma dense_irrel a b x : not_num x -> dense a x = dense b x.
Proof. destruct x; cbn; intros H; try reflexivity. contradiction. Qed.

Theorem apply_is_matrix s x :
  wf_slicer s -> NoDup (rng s) -> vfits (dsize s) x ->
  exists y, slice s x = Ok y /\ not_num y /\ vfits (rsize s) y /\
            forall n, dense n y = mat_apply (denote s) (dense (dsize s) x).
Proof.
  intros Hwf Hnd Hfit.
  destruct x as [v|nc rows|nc rows|v nc jac|c]; cbn [slice vfits] in *.
  - rewrite slice_rows_eq, sliced_vector by assumption. eexists. repeat split.
    cbn. rewrite matvec_length. apply build_length.
  - destruct Hfit as [Hx Hrect]. rewrite slice_rows_eq, sliced_array by assumption.
    eexists. repeat split.
    + rewrite matmul_length. apply build_length.
    + apply matmul_rect.
  - rewrite slice_csr_rows, slice_rows_eq by assumption.
    eexists. repeat split; [apply sliced_length|].
    intros n. cbn [dense mat_apply]. rewrite sliced_sparse by assumption. reflexivity.
  - destruct Hfit as [Hv Hj].
    rewrite slice_rows_eq, sliced_vector, slice_csr_rows, slice_rows_eq by assumption.
    eexists. repeat split; [rewrite matvec_length; apply build_length | apply sliced_length |].
    intros n. cbn [dense mat_apply]. rewrite sliced_sparse by assumption. reflexivity.
  - rewrite slice_rows_eq, sliced_vector by (assumption || apply repeat_length).
    eexists. repeat split. cbn. rewrite matvec_length. apply build_length.
Qed.

Lemma existsb_combine_swap a : forall b i j,
    existsb (fun p => (fst p =? i) && (snd p =? j)) (combine a b)
    = existsb (fun p => (fst p =? j) && (snd p =? i)) (combine b a).
Proof.
  induction a as [|x a IH]; intros [|y b] i j; cbn; try reflexivity.
  rewrite IH. rewrite (andb_comm (x =? i)). reflexivity.
Qed.

Theorem transpose_denote s :
  denote (transpose s) = mtranspose (rsize s) (dsize s) (denote s).
Proof.
  apply build_ext. intros i j Hi Hj. unfold denote. rewrite mentry_build by assumption.
  apply (f_equal (fun b : bool => if b then 1%Z else 0%Z)), existsb_combine_swap.
Qed.

Lemma transpose_wf s : wf_slicer s -> wf_slicer (transpose s).
Proof.
  intros [Hl [Hd [Hr Ho]]]. unfold wf_slicer. cbn [dom rng rsize dsize onto transpose].
  repeat split; auto; discriminate.
Qed.

Lemma max_seq n : forall s, fold_right Nat.max 0 (seq s (S n)) = s + n.
Proof.
  induction n as [|n IH]; intros s; [cbn; lia|].
  change (seq s (S (S n))) with (s :: seq (S s) (S n)). cbn [fold_right]. rewrite IH. lia.
Qed.

Lemma maxp1_seq n r : maxp1 (seq 0 n) = Some r -> r = n.
Proof.
  destruct n as [|n]; [discriminate|]. unfold maxp1. rewrite max_seq. cbn [seq].
  intros [= <-]. reflexivity.
Qed.

(* the onto fast path is taken only for  ArraySlicer(domain_indices=d)  without a range size *)
Lemma construct_inv d r rs ds s :
  construct d r rs ds = Ok s ->
  pend s = [] /\ (onto s = true -> rng s = seq 0 (length (dom s)) /\ rsize s = length (dom s)).
Proof.
  unfold construct.
  destruct d as [d0|], r as [r0|]; try discriminate;
    (destruct (match rs with Some n => Some n | None => _ end) as [rsz|] eqn:Hrs; [|discriminate]);
    (destruct (match ds with Some n => Some n | None => _ end) as [dsz|]; [|discriminate]);
    intros [= <-]; (split; [reflexivity|]); cbn; try discriminate.
  destruct rs; [discriminate|]. intros _. split; [reflexivity|]. exact (maxp1_seq _ _ Hrs).
Qed.

Lemma slice_with_pend s o p x : slice (with_pend (copy s) o p) x = slice s x.
Proof. destruct s; reflexivity. Qed.

Lemma slice_copy s x : slice (copy s) x = slice s x.
Proof. destruct s; reflexivity. Qed.

Lemma bind_assoc {A B C} (r : res A) (f : A -> res B) (g : B -> res C) :
  bind (bind r f) g = bind r (fun a => bind (f a) g).
Proof. destruct r; reflexivity. Qed.

Lemma bind_ext {A B} (r : res A) (f g : A -> res B) :
  (forall a, f a = g a) -> bind r f = bind r g.
Proof. intros H. destruct r; cbn; auto. Qed.

Lemma bind_ok {A} (r : res A) : bind r (fun a => Ok a) = r.
Proof. destruct r; reflexivity. Qed.

Definition closed (h : heap) : Prop :=
  forall i s j p, nth_error h i = Some s -> In (OSlicer j, p) (pend s) -> j < i.

Lemma closed_nil : closed [].
Proof. intros i s j p H. destruct i; discriminate. Qed.

Lemma closed_snoc h s :
  closed h -> (forall j p, In (OSlicer j, p) (pend s) -> j < length h) -> closed (h ++ [s]).
Proof.
  intros Hc Hs i s' j p Hn Hp.
  destruct (Nat.lt_ge_cases i (length h)) as [Hlt|Hge].
  - rewrite nth_error_app1 in Hn by exact Hlt. eapply Hc; eassumption.
  - rewrite nth_error_app2 in Hn by exact Hge.
    destruct (i - length h) as [|[|k]] eqn:Hk; cbn in Hn; try discriminate.
    inversion Hn; subst s'. specialize (Hs j p Hp). lia.
Qed.

Lemma closed_lt h i s j p :
  closed h -> nth_error h i = Some s -> In (OSlicer j, p) (pend s) -> j < i /\ i < length h.
Proof.
  intros Hc Hn Hp. split; [eapply Hc; eassumption|]. apply nth_error_Some. congruence.
Qed.

(* a concrete heap is checked by evaluation *)
Definition closedb (h : heap) : bool :=
  forallb (fun i => match nth_error h i with
                    | Some s => forallb (fun op => match fst op with OSlicer j => j <? i | _ => true end)
                                        (pend s)
                    | None => true
                    end) (seq 0 (length h)).

Lemma closedb_sound h : closedb h = true -> closed h.
Proof.
  intros H i s j p Hn Hp. unfold closedb in H. rewrite forallb_forall in H.
  assert (Hi : i < length h) by (apply nth_error_Some; congruence).
  specialize (H i (proj2 (in_seq _ _ _) (conj (Nat.le_0_l i) Hi))).
  rewrite Hn, forallb_forall in H. apply Nat.ltb_lt, (H _ Hp).
Qed.

Section Frame.
  Variable ext_scalar : pop -> Z -> value -> res value.
  Variable ext_mat : pop -> nat -> list crow -> value -> res value.
  Variable ext_ad : pop -> list Z -> nat -> list crow -> value -> res value.
  Notation apply := (apply ext_scalar ext_mat ext_ad).
  Notation step := (step ext_scalar ext_mat ext_ad).
  Notation run := (run ext_scalar ext_mat ext_ad).
  Notation run_pend := (run_pend ext_scalar ext_mat ext_ad).
  Notation pend_step := (pend_step ext_scalar ext_mat ext_ad).

  (* S_i @ x as the statement SApply evaluates it *)
  Definition apply_top (h : heap) (i : nat) (x : value) : res value :=
    apply (S (length h)) h i x.

  Lemma run_pend_app ap a b y : run_pend ap (a ++ b) y = bind (run_pend ap a y) (run_pend ap b).
  Proof.
    revert y; induction a as [|[o p] a IH]; intros y; cbn [C36.run_pend app]; [reflexivity|].
    rewrite bind_assoc. apply bind_ext. intros z. apply IH.
  Qed.

  Lemma run_pend_ext ap1 ap2 l :
    (forall j p y, In (OSlicer j, p) l -> ap1 j y = ap2 j y) ->
    forall y, run_pend ap1 l y = run_pend ap2 l y.
  Proof.
    induction l as [|[o p] l IH]; intros H y; cbn [C36.run_pend]; [reflexivity|].
    assert (Hs : pend_step ap1 o p y = pend_step ap2 o p y).
    { destruct o as [c|nc rows|j|v nc jac]; cbn [C36.pend_step]; try reflexivity.
      destruct p; try reflexivity. apply (H j PMatmul). left. reflexivity. }
    rewrite Hs. apply bind_ext. intros z. apply IH. intros j q w Hin. apply (H j q). right. exact Hin.
  Qed.

  (* an object's action depends neither on later objects nor on the fuel beyond its id: the
     fuel [S (length h)] of [apply_top] is never exhausted on a closed heap *)
  Lemma apply_fuel h k : closed h -> forall f1 f2 i x,
      i < length h -> i < f1 -> i < f2 -> apply f1 (h ++ k) i x = apply f2 h i x.
  Proof.
    intros Hc. induction f1 as [|f1 IH]; intros [|f2] i x Hi H1 H2; try lia.
    cbn [C36.apply]. rewrite nth_error_app1 by exact Hi.
    destruct (nth_error h i) as [s|] eqn:Hn; [|reflexivity].
    apply bind_ext. intros y. apply run_pend_ext. intros j p z Hin.
    destruct (closed_lt h i s j p Hc Hn Hin). apply IH; lia.
  Qed.

  Lemma apply_top_ext h k i x :
    closed h -> i < length h -> apply_top (h ++ k) i x = apply_top h i x.
  Proof. intros Hc Hi. apply apply_fuel; [exact Hc | exact Hi | rewrite app_length; lia | lia]. Qed.

  Lemma with_pend_closed h sj o p j :
    closed h -> nth_error h j = Some sj ->
    (forall id, o = OSlicer id -> id < length h) ->
    forall j' p', In (OSlicer j', p') (pend (with_pend (copy sj) o p)) -> j' < length h.
  Proof.
    intros Hc Hj Ho j' p' Hin. cbn [pend with_pend copy] in Hin. apply in_app_or in Hin.
    destruct Hin as [Hin|[Heq|[]]].
    - destruct (closed_lt h j sj j' p' Hc Hj Hin). lia.
    - inversion Heq; subst. apply Ho. reflexivity.
  Qed.

  Definition extends (h h' : heap) : Prop := exists k, h' = h ++ k /\ closed h'.

  Lemma extends_refl h : closed h -> extends h h.
  Proof. exists []. rewrite app_nil_r. auto. Qed.

  Lemma extends_alloc h s :
    closed h -> (forall j p, In (OSlicer j, p) (pend s) -> j < length h) ->
    extends h (fst (alloc h s)).
  Proof. exists [s]. split; [reflexivity|]. apply closed_snoc; assumption. Qed.

  Lemma extends_trans h1 h2 h3 : extends h1 h2 -> extends h2 h3 -> extends h1 h3.
  Proof. intros [k1 [-> _]] [k2 [-> C]]. exists (k1 ++ k2). rewrite app_assoc. auto. Qed.

  Lemma step_frame h st : closed h -> extends h (fst (step h st)).
  Proof.
    intros Hc. destruct st as [d r rs ds|i|i|i j|o p j|i x]; cbn [C36.step].
    - destruct (construct d r rs ds) as [s|e] eqn:Hs; [|apply extends_refl, Hc].
      apply extends_alloc; [exact Hc|]. rewrite (proj1 (construct_inv _ _ _ _ _ Hs)). intros j p [].
    - destruct (nth_error h i) as [s|]; [|apply extends_refl, Hc].
      apply extends_alloc; [exact Hc|]. intros j p [].
    - destruct (nth_error h i) as [s|] eqn:Hn; [|apply extends_refl, Hc].
      apply extends_alloc; [exact Hc|]. intros j p Hp. destruct (closed_lt h i s j p Hc Hn Hp). lia.
    - destruct (nth_error h i) as [si|] eqn:Hi, (nth_error h j) as [sj|] eqn:Hj;
        try apply extends_refl, Hc.
      apply extends_alloc, (with_pend_closed h sj _ _ j Hc Hj); [exact Hc|].
      intros id [= <-]. apply nth_error_Some. congruence.
    - destruct o as [c|nc rows|id|v nc jac], (nth_error h j) as [sj|] eqn:Hj;
        try apply extends_refl, Hc;
        (apply extends_alloc, (with_pend_closed h sj _ _ j Hc Hj); [exact Hc|discriminate]).
    - destruct (apply (S (length h)) h i x); apply extends_refl, Hc.
  Qed.

  Lemma run_cons_fst h st prog : fst (run h (st :: prog)) = fst (run (fst (step h st)) prog).
  Proof. cbn [C36.run]. destruct (step h st) as [h1 o]. cbn [fst]. destruct (run h1 prog). reflexivity. Qed.

  Lemma run_frame prog : forall h, closed h -> extends h (fst (run h prog)).
  Proof.
    induction prog as [|st r IH]; intros h Hc; [apply extends_refl, Hc|].
    pose proof (step_frame h st Hc) as E1. rewrite run_cons_fst.
    apply (extends_trans _ _ _ E1), IH. destruct E1 as [k [_ C]]. exact C.
  Qed.

  (* REUSE: whatever is appended after an object exists, the object and its action stay *)
  Lemma extends_keeps h h' i x :
    closed h -> extends h h' -> i < length h ->
    nth_error h' i = nth_error h i /\ apply_top h' i x = apply_top h i x.
  Proof.
    intros Hc [k [-> _]] Hi. split; [apply nth_error_app1, Hi | apply apply_top_ext; assumption].
  Qed.

  Lemma step_apply h i x :
    snd (step h (SApply i x)) = match apply_top h i x with Ok v => OVal v | Err e => OErr e end.
  Proof. cbn [C36.step]. unfold apply_top. destruct (apply (S (length h)) h i x); reflexivity. Qed.

  Lemma apply_top_unfold h i s x :
    nth_error h i = Some s ->
    apply_top h i x = bind (slice s x) (run_pend (apply (length h) h) (pend s)).
  Proof. intros Hn. unfold apply_top. cbn [C36.apply]. rewrite Hn. reflexivity. Qed.

  (* on a closed heap the fuel disappears: the pending pairs call the objects themselves *)
  Lemma apply_top_eq h i s x :
    closed h -> nth_error h i = Some s ->
    apply_top h i x = bind (slice s x) (run_pend (apply_top h) (pend s)).
  Proof.
    intros Hc Hn. rewrite (apply_top_unfold h i s x Hn). apply bind_ext. intros y.
    apply run_pend_ext. intros j p z Hin. destruct (closed_lt h i s j p Hc Hn Hin) as [Hj Hi].
    pose proof (apply_fuel h [] Hc (length h) (S (length h)) j z) as E. rewrite app_nil_r in E.
    apply E; lia.
  Qed.

  Definition ext_op (o : operand) (p : pop) (y : value) : res value :=
    pend_step (fun _ _ => Err Unmodelled) o p y.

  (* appending one pending pair to a copy of S_j: first everything S_j does (its own
     pending pairs included), then the new pair *)
  Lemma appended_pair h j sj o p :
    closed h -> nth_error h j = Some sj ->
    (forall id, o = OSlicer id -> id < length h) ->
    let new := with_pend (copy sj) o p in
    closed (h ++ [new]) /\
    forall x, apply_top (h ++ [new]) (length h) x
              = bind (apply_top h j x) (pend_step (fun i y => apply_top h i y) o p).
  Proof.
    intros Hc Hj Ho new.
    pose proof (with_pend_closed h sj o p j Hc Hj Ho) as Hb. fold new in Hb.
    pose proof (closed_snoc h new Hc Hb) as Hc'. split; [exact Hc'|]. intros x.
    rewrite (apply_top_eq _ _ new x Hc' (nth_error_snoc h new)), (apply_top_eq h j sj x Hc Hj).
    unfold new at 1. rewrite slice_with_pend, bind_assoc. apply bind_ext. intros y.
    (* the pairs of the new object refer to objects of h, which act as before *)
    rewrite (run_pend_ext _ (apply_top h) (pend new))
      by (intros k q z Hin; apply apply_top_ext; [exact Hc | exact (Hb k q Hin)]).
    cbn [pend new with_pend copy]. rewrite run_pend_app. apply bind_ext. intros z.
    cbn [C36.run_pend]. apply bind_ok.
  Qed.

  (* S_i @ S_j : a new object that does S_j (all of it), then S_i (all of it) — no guard *)
  Lemma matmul_step h i j :
    closed h -> i < length h -> j < length h ->
    exists s, step h (SMatSS i j) = (h ++ [s], ONew (length h)) /\ closed (h ++ [s]) /\
              forall x, apply_top (h ++ [s]) (length h) x = bind (apply_top h j x) (apply_top h i).
  Proof.
    intros Hc Hi Hj. destruct (nth_error_lt h i Hi) as [si Hsi], (nth_error_lt h j Hj) as [sj Hsj].
    cbn [C36.step]. rewrite Hsi, Hsj. eexists. split; [reflexivity|].
    apply (appended_pair h j sj (OSlicer i) PMatmul Hc Hsj). intros id [= <-]. exact Hi.
  Qed.

  (* A op S_j : a new object that does S_j (all of it), then A op _ — no guard *)
  Lemma rop_step h o p j sj :
    closed h -> (forall id, o <> OSlicer id) -> nth_error h j = Some sj ->
    exists s, step h (SROp o p j) = (h ++ [s], ONew (length h)) /\
              forall x, apply_top (h ++ [s]) (length h) x = bind (apply_top h j x) (ext_op o p).
  Proof.
    intros Hc Ho Hj. cbn [C36.step].
    assert (Hns : forall id, o = OSlicer id -> id < length h) by (intros id ->; edestruct Ho; reflexivity).
    destruct o as [c|nc rows|id|v nc jac]; [| |edestruct Ho; reflexivity|];
      rewrite Hj; (eexists; split; [reflexivity|]);
      exact (proj2 (appended_pair h j sj _ p Hc Hj Hns)).
  Qed.

  Fixpoint run_slices (ss : list slicer) (x : value) : res value :=
    match ss with
    | [] => Ok x
    | s :: r => bind (slice s x) (run_slices r)
    end.

  Lemma run_slices_app a b x : run_slices (a ++ b) x = bind (run_slices a x) (run_slices b).
  Proof.
    revert x; induction a as [|s a IH]; intros x; cbn [run_slices app]; [reflexivity|].
    rewrite bind_assoc. apply bind_ext. intros y. apply IH.
  Qed.

  Fixpoint run_objs (h : heap) (ids : list nat) (x : value) : res value :=
    match ids with
    | [] => Ok x
    | i :: r => bind (apply_top h i x) (run_objs h r)
    end.

  Lemma run_objs_app h a b x : run_objs h (a ++ b) x = bind (run_objs h a x) (run_objs h b).
  Proof.
    revert x; induction a as [|s a IH]; intros x; cbn [run_objs app]; [reflexivity|].
    rewrite bind_assoc. apply bind_ext. intros y. apply IH.
  Qed.

  Lemma run_objs_ext h k ids x :
    closed h -> Forall (fun i => i < length h) ids -> run_objs (h ++ k) ids x = run_objs h ids x.
  Proof.
    intros Hc HF. revert x. induction HF as [|i r Hi _ IH]; intros x; cbn [run_objs]; [reflexivity|].
    rewrite apply_top_ext by assumption. apply bind_ext. intros y. apply IH.
  Qed.

  (* python evaluates  S_cur @ S_j1 @ S_j2 @ ...  from the left: each @ allocates *)
  Fixpoint chain_prog (cur : nat) (rest : list nat) (nxt : nat) : list stmt :=
    match rest with
    | [] => []
    | j :: r => SMatSS cur j :: chain_prog nxt r (S nxt)
    end.

  Definition chain_top (cur : nat) (rest : list nat) (nxt : nat) : nat :=
    match rest with [] => cur | _ => nxt + length rest - 1 end.

  Lemma chain_top_cons cur j r nxt : chain_top cur (j :: r) nxt = chain_top nxt r (S nxt).
  Proof. destruct r; cbn [chain_top length]; lia. Qed.

  (* ANY objects (with or without pending pairs of their own) *)
  Theorem chain_general rest : forall h cur x,
      closed h -> cur < length h -> Forall (fun j => j < length h) rest ->
      let h' := fst (run h (chain_prog cur rest (length h))) in
      apply_top h' (chain_top cur rest (length h)) x =
      bind (run_objs h (rev rest) x) (apply_top h cur).
  Proof.
    induction rest as [|j r IH]; intros h cur x Hc Hcur HF; [reflexivity|].
    inversion HF as [|? ? Hj HF']; subst.
    (* the first @ allocates object [length h], which does S_j and then S_cur *)
    destruct (matmul_step h cur j Hc Hcur Hj) as [s [Hk [C1 Hm]]].
    assert (L1 : length (h ++ [s]) = S (length h)) by (rewrite app_length; cbn; lia).
    cbn [chain_prog]. cbn zeta. rewrite run_cons_fst, Hk, chain_top_cons, <- L1. cbn [fst].
    rewrite IH; [| exact C1 | lia | eapply Forall_impl; [|exact HF']; cbn beta; lia].
    cbn [rev]. rewrite run_objs_app, bind_assoc, run_objs_ext by (exact Hc || apply Forall_rev, HF').
    apply bind_ext. intros y. cbn [run_objs]. rewrite bind_assoc, Hm. reflexivity.
  Qed.

  Lemma apply_top_plain h i s x :
    nth_error h i = Some s -> pend s = [] -> apply_top h i x = slice s x.
  Proof. intros Hn Hp. rewrite (apply_top_unfold h i s x Hn), Hp. apply bind_ok. Qed.

  Lemma run_objs_plain h ids ss x :
    Forall2 (fun j s => nth_error h j = Some s /\ pend s = []) ids ss ->
    run_objs h ids x = run_slices ss x.
  Proof.
    intros HF. revert x. induction HF as [|j s ids ss [Hj Hp] _ IH]; intros x; [reflexivity|].
    cbn [run_objs run_slices]. rewrite (apply_top_plain h j s x Hj Hp).
    apply bind_ext. intros y. apply IH.
  Qed.
End Frame.

Fixpoint chain_ok (ss : list slicer) (n : nat) : Prop :=
  match ss with
  | [] => True
  | s :: r => wf_slicer s /\ NoDup (rng s) /\ dsize s = n /\ chain_ok r (rsize s)
  end.

Definition out_size (ss : list slicer) (n : nat) : nat := fold_left (fun _ s => rsize s) ss n.

Lemma run_slices_matrix ss : forall n x,
    chain_ok ss n -> vfits n x ->
    exists y, run_slices ss x = Ok y /\ vfits (out_size ss n) y /\
              dense (out_size ss n) y
              = fold_left (fun acc s => mat_apply (denote s) acc) ss (dense n x).
Proof.
  induction ss as [|s r IH]; intros n x Hok Hfit.
  - exists x. cbn. auto.
  - destruct Hok as [Hwf [Hnd [<- Hr]]].
    destruct (apply_is_matrix s x Hwf Hnd Hfit) as [y1 [Hy1 [_ [Hf1 Hd1]]]].
    destruct (IH (rsize s) y1 Hr Hf1) as [y [Hy [Hf Hd]]].
    exists y. cbn [run_slices out_size fold_left]. rewrite Hy1, <- (Hd1 (rsize s)). auto.
Qed.

Section Main.
  Variable ext_scalar : pop -> Z -> value -> res value.
  Variable ext_mat : pop -> nat -> list crow -> value -> res value.
  Variable ext_ad : pop -> list Z -> nat -> list crow -> value -> res value.

  (* the pending pairs of the leftmost chain member, when none of them is a slicer:
     plain numpy / scipy / AdArray arithmetic applied innermost first *)
  Definition tail_op (sc : slicer) (y : value) : res value :=
    run_pend ext_scalar ext_mat ext_ad (fun _ _ => Err Unmodelled) (pend sc) y.

  Lemma apply_top_tail h i s x :
    nth_error h i = Some s -> (forall j p, ~ In (OSlicer j, p) (pend s)) ->
    apply_top ext_scalar ext_mat ext_ad h i x = bind (slice s x) (tail_op s).
  Proof.
    intros Hn Hns. rewrite (apply_top_unfold _ _ _ h i s x Hn). apply bind_ext. intros y.
    apply run_pend_ext. intros j p z Hin. destruct (Hns j p Hin).
  Qed.

  (* a chain over plain slicers, led by an object without slicer operands: the slicers one
     after the other (S_cur last), then the pending pairs of S_cur *)
  Lemma chain_plain h cur sc rest ss x :
    closed h -> nth_error h cur = Some sc -> (forall j p, ~ In (OSlicer j, p) (pend sc)) ->
    Forall2 (fun j s => nth_error h j = Some s /\ pend s = []) rest ss ->
    apply_top ext_scalar ext_mat ext_ad
              (fst (run ext_scalar ext_mat ext_ad h (chain_prog cur rest (length h))))
              (chain_top cur rest (length h)) x
    = bind (run_slices (rev (sc :: ss)) x) (tail_op sc).
  Proof.
    intros Hc Hcur Hns HF.
    assert (Hlt : cur < length h) by (apply nth_error_Some; congruence).
    assert (Hrest : Forall (fun j => j < length h) rest).
    { clear -HF. induction HF as [|j s r ss [Hj _] _ IH]; constructor; [|exact IH].
      apply nth_error_Some. congruence. }
    rewrite (chain_general _ _ _ rest h cur x Hc Hlt Hrest).
    rewrite (run_objs_plain _ _ _ h (rev rest) (rev ss) x (Forall2_rev _ _ _ HF)).
    cbn [rev]. rewrite run_slices_app, bind_assoc. apply bind_ext. intros y.
    rewrite (apply_top_tail h cur sc y Hcur Hns). cbn [run_slices]. rewrite bind_assoc. reflexivity.
  Qed.
End Main.

(* for the original in-place  S0 @ S1  (it changes what S1 does afterwards) *)
Definition S_10 := mkS [1; 0] [0; 1] 2 2 true false [].
Definition S_02 := mkS [0; 2] [0; 1] 2 3 true false [].

(* for copy-and-overwrite (the code between the two repairs):  X @ (Y @ S)  loses Y *)
Definition P_201 := mkS [2; 0; 1] [0; 1; 2] 3 3 false false [].
Definition P_102 := mkS [1; 0; 2] [0; 1; 2] 3 3 false false [].
Definition P_021 := mkS [0; 2; 1] [0; 1; 2] 3 3 false false [].
