(* C06 (second part) — the indices reported after a Schur assembly are the indices the plain
   restricted assembly of the primary equations reports ([schur_step_indices]); update_equation
   is remove + set; [EInv] over histories that contain both. *)
From Coq Require Import List ZArith Bool Arith Lia Sorted Permutation.
Import ListNotations.
From PP Require Import Model.C05 Proofs.C05_lists Proofs.C05 Model.C06 Proofs.C06 Model.C07
     Proofs.C07 Proofs.C07_blocks Model.C06_schur.

Section SchurIndexProofs.
  Context {V : Type}.
  Variable vzero : V.
  Variable vopp : V -> V.
  Variable eval : nat -> list (@prow V).

  Lemma sidx_loop_spec es a : EInv es -> sized eval es ->
    forall l, incl l (equations es) ->
    forall st acc, NoDup (map fst acc ++ map fst l) ->
    sidx_loop eval l (blocks_spec es a) st acc = acc ++ ind_from es a l st.
  Proof.
    intros HI Hsz. induction l as [|[name op] r IH]; intros Hin st acc Hnd.
    - cbn. now rewrite app_nil_r.
    - apply incl_cons_inv in Hin as [Hmem Hin]. specialize (IH Hin).
      cbn [sidx_loop ind_from]. rewrite (dget_prim es a HI name (in_map fst _ _ Hmem)).
      destruct (kept a name) as [m|] eqn:Ek; cbn [option_map];
        [|apply IH; exact (NoDup_remove_1 _ _ _ Hnd)].
      replace (match sel_of es name m with Some ip => length ip | None => length (eval op) end)
        with (length (local_rows es a name)).
      + destruct (dset_fresh acc name (seq st (length (local_rows es a name))) _ Hnd)
          as [-> Hnd'].
        rewrite IH by exact Hnd'. now rewrite <- app_assoc.
      + unfold local_rows. rewrite Ek. destruct m as [gs|]; cbn [sel_of]; auto.
        now rewrite (Hsz name op Hmem), seq_length.
  Qed.

  Theorem schur_indices_spec es a :
    EInv es -> sized eval es -> schur_indices eval es (blocks_spec es a) = ind_spec es a.
  Proof.
    intros HI Hsz. exact (sidx_loop_spec es a HI Hsz (equations es) (incl_refl _) 0 []
                            (ei_nodup es HI)).
  Qed.

  (* a successful Schur assembly reports what assemble(equations=primary_equations) reports *)
  Theorem schur_step_indices s es pe pv es' :
    EInv es -> sized eval es ->
    schur_step vzero vopp eval s es pe pv = (es', XDone) ->
    arg_ok es pe = true /\ aei es' = ind_spec es pe /\
    equations es' = equations es /\ comp es' = comp es.
  Proof.
    intros HI Hsz. unfold schur_step. rewrite (parse_equations_spec es pe HI).
    destruct (arg_ok es pe); [|discriminate].
    destruct (complement es (blocks_spec es pe)); [|discriminate].
    destruct (@proj_cols s (parse s pv)); [|discriminate].
    destruct (Nat.eqb (length (blocks_spec es pe)) 0); [discriminate|].
    destruct (Nat.eqb (length l0) 0); [discriminate|].
    destruct (@proj_cols s _); [|discriminate].
    destruct (Nat.eqb (length l1) 0); [discriminate|].
    destruct (schur_blocks vzero vopp eval s es pe pv).
    - intros [= <-]. cbn. now rewrite (schur_indices_spec es pe HI Hsz).
    - destruct (failing_single eval es (blocks_spec es pe) l); discriminate.
  Qed.
End SchurIndexProofs.

Lemma update_equation_EInv g es name op grids info :
  EInv es -> EInv (fst (update_equation g es name op grids info)).
Proof.
  intro HI. unfold update_equation.
  destruct (match grids with Some gs => Some gs
                        | None => option_map (map fst) (dget (comp es) name) end); auto.
  destruct (match info with Some i => Some i | None => dget (sinfo es) name end); auto.
  pose proof (remove_equation_EInv es name HI) as Hr.
  destruct (remove_equation es name) as [es1 [e|]]; auto. now apply set_equation_EInv.
Qed.

(* a successful update = remove + set: the equation moves to the end of the insertion order
   and gets the image set_equation stores for the (given or previous) grids and size info *)
Theorem update_equation_layout g es name op grids info es' :
  update_equation g es name op grids info = (es', None) ->
  exists gs i,
    (match grids with Some x => Some x | None => option_map (map fst) (dget (comp es) name) end)
      = Some gs /\
    (match info with Some x => Some x | None => dget (sinfo es) name end) = Some i /\
    equations es' = ddel (equations es) name ++ [(name, op)] /\
    img_of es' name = img_spec g i (filter (fun d => domin d gs) (grid_order g)) 0.
Proof.
  unfold update_equation.
  destruct (match grids with Some gs => Some gs
                        | None => option_map (map fst) (dget (comp es) name) end) as [gs|];
    [|discriminate].
  destruct (match info with Some i => Some i | None => dget (sinfo es) name end) as [i|];
    [|discriminate].
  destruct (remove_equation es name) as [es1 [e|]] eqn:Er; [discriminate|].
  intro Hs. exists gs, i. destruct (set_equation_layout g es1 name op gs i es' Hs) as (H1 & H2 & _).
  repeat split; auto. rewrite H2. f_equal.
  unfold remove_equation in Er. destruct (dhas (equations es) name); [|discriminate].
  now destruct (dhas (comp es) name); injection Er as <-.
Qed.

Section SHistories.
  Context {V : Type}.
  Variable vzero : V.
  Variable vopp : V -> V.
  Variable eval : nat -> list (@prow V).

  Lemma schur_step_keeps s es pe pv :
    equations (fst (schur_step vzero vopp eval s es pe pv)) = equations es /\
    comp (fst (schur_step vzero vopp eval s es pe pv)) = comp es.
  Proof.
    unfold schur_step.
    destruct (parse_equations es pe); auto. destruct (complement es l); auto.
    destruct (@proj_cols s (parse s pv)); auto.
    destruct (Nat.eqb (length l) 0); auto. destruct (Nat.eqb (length l1) 0); auto.
    destruct (@proj_cols s _); auto. destruct (Nat.eqb (length l2) 0); auto.
    destruct (schur_blocks vzero vopp eval s es pe pv); auto.
    destruct (failing_single eval es l l0); auto.
  Qed.

  Lemma sstep_EInv g s es o : EInv es -> EInv (fst (sstep vzero vopp eval g s es o)).
  Proof.
    intro HI. destruct o as [o|pe pv|name op grids info]; cbn [sstep].
    - now apply estep_EInv.
    - exact (EInv_keeps _ _ (schur_step_keeps s es pe pv) HI).
    - pose proof (update_equation_EInv g es name op grids info HI).
      now destruct (update_equation g es name op grids info) as [es' [e|]].
  Qed.

  Lemma srun_EInv g s : forall ops es, EInv es -> EInv (fst (srun vzero vopp eval g s es ops)).
  Proof.
    induction ops as [|o r IH]; intros es HI; cbn [srun]; auto.
    pose proof (sstep_EInv g s es o HI) as H.
    destruct (sstep vzero vopp eval g s es o) as [es' x]. specialize (IH es' H).
    now destruct (srun vzero vopp eval g s es' r).
  Qed.

  Definition sfinal (g : mdgrid) (s : st) (ops : list sop) : est :=
    fst (srun vzero vopp eval g s einit ops).

  Theorem sfinal_EInv g s ops : EInv (sfinal g s ops).
  Proof. apply srun_EInv, EInv_init. Qed.

  (* C06_parse and C06_schur_indices over histories that also contain update_equation and
     Schur assemblies *)
  Theorem thm_parse_s g s ops a :
    let es := sfinal g s ops in
    parse_equations es a = if arg_ok es a then inl (blocks_spec es a) else inr ValueErr.
  Proof. apply parse_equations_spec, sfinal_EInv. Qed.

  Theorem thm_schur_indices_s g s ops pe pv es' :
    let es := sfinal g s ops in
    sized eval es ->
    schur_step vzero vopp eval s es pe pv = (es', XDone) ->
    arg_ok es pe = true /\ aei es' = ind_spec es pe.
  Proof.
    intros es Hsz H.
    destruct (schur_step_indices vzero vopp eval s es pe pv es' (sfinal_EInv g s ops) Hsz H).
    tauto.
  Qed.
End SHistories.

(* the size hypothesis of the slice theorems as a decidable check (evaluated by the tie
   on the final state of every generated history) *)
Definition sizedb {V : Type} (eval : nat -> list (@prow V)) (es : est) : bool :=
  forallb (fun kv => Nat.eqb (length (eval (snd kv))) (esize es (fst kv))) (equations es).

Theorem sizedb_sound {V : Type} (eval : nat -> list (@prow V)) (es : est) :
  sizedb eval es = true <-> sized eval es.
Proof.
  unfold sizedb, sized. rewrite forallb_forall. setoid_rewrite Nat.eqb_eq.
  split; [intros H name op|intros H [name op]]; apply H.
Qed.

Definition sized_final (g : mdgrid) (vops : list op) (t : evtab) (ops : list sop) : bool :=
  let s := final g vops in
  let n := num_dofs s in
  sizedb (eval_of n t) (sfinal 0%Z Z.opp (eval_of n t) g s ops).
