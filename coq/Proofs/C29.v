(* C29 — proofs about the splitting model (PP.Model.C29), part 1: list utilities (indexing,
   np.unique, argsort, consecutive pairs, edge uniquification), the points of one line
   through their parameter along a segment (section Line) and sub-segments of one line,
   greedy point uniquification under the "equal or at least tol apart" guard, and chains:
   the points recorded for one segment, sorted by their parameter on it; the children of
   the segment are the consecutive pairs of its chain, that is the intervals between
   neighbouring parameters (child_par). *)
From Coq Require Import List QArith Qabs Bool Arith ZArith Lia Lqa Permutation Sorted.
Import ListNotations.
From PP Require Import Lib.ListFacts Model.C28 Proofs.C28 Model.C29.
Open Scope Q_scope.

Lemma in_indexed_from : forall {A} (l : list A) s k x,
  In (k, x) (indexed_from s l) <-> exists i, k = (s + i)%nat /\ nth_error l i = Some x.
Proof.
  induction l as [|y r IH]; intros s k x; cbn [indexed_from In].
  - split; [intros []|intros [[|i] [_ H]]; discriminate].
  - rewrite IH. split.
    + intros [E|[i [-> H]]]; [inversion E; subst; exists 0%nat|exists (S i)]; split; trivial; lia.
    + intros [[|i] [-> H]]; [left; inversion H; f_equal; lia|right; exists i; split; [lia|exact H]].
Qed.

Lemma in_indexed : forall {A} (l : list A) k x,
  In (k, x) (indexed l) <-> nth_error l k = Some x.
Proof.
  intros A l k x. unfold indexed. rewrite in_indexed_from.
  split; [intros [i [-> H]]; exact H|intro H; exists k; split; [reflexivity|exact H]].
Qed.

Lemma indexed_fun : forall {A} (l : list A) k x y,
  In (k, x) (indexed l) -> In (k, y) (indexed l) -> x = y.
Proof.
  intros A l k x y H1 H2. apply in_indexed in H1, H2. congruence.
Qed.

Lemma uins_in : forall x l y, In y (uins x l) <-> In y (x :: l).
Proof.
  intros x l y. induction l as [|z r IH]; cbn [uins]; [reflexivity|].
  destruct (x <? z)%nat; [reflexivity|]. destruct (Nat.eqb_spec x z) as [->|_].
  - cbn. tauto.
  - cbn [In]. rewrite IH. cbn. tauto.
Qed.

Lemma usort_in : forall l y, In y (usort l) <-> In y l.
Proof.
  induction l as [|x r IH]; intro y; cbn [usort fold_right]; [tauto|].
  fold (usort r). rewrite uins_in. cbn [In]. rewrite IH. reflexivity.
Qed.

Lemma uins_sorted : forall x l, StronglySorted lt l -> StronglySorted lt (uins x l).
Proof.
  intros x l S. induction S as [|z r S IH F]; cbn [uins].
  - constructor; constructor.
  - destruct (x <? z)%nat eqn:E1.
    + apply Nat.ltb_lt in E1. constructor; [constructor; assumption|].
      constructor; [exact E1|]. eapply Forall_impl; [|exact F]. intros a Ha. cbn in Ha. lia.
    + apply Nat.ltb_ge in E1. destruct (x =? z)%nat eqn:E2.
      * constructor; assumption.
      * apply Nat.eqb_neq in E2. constructor; [exact IH|].
        apply Forall_forall. intros a Ha. apply uins_in in Ha. destruct Ha as [<-|Ha].
        -- lia.
        -- rewrite Forall_forall in F. apply F. exact Ha.
Qed.

Lemma usort_sorted : forall l, StronglySorted lt (usort l).
Proof.
  induction l as [|x r IH]; cbn [usort fold_right]; [constructor|].
  apply uins_sorted. exact IH.
Qed.

Lemma qins_perm : forall key x l, Permutation (qins key x l) (x :: l).
Proof.
  intros key x l. induction l as [|y r IH]; cbn [qins]; [apply Permutation_refl|].
  destruct (Qle_bool (key x) (key y)); [apply Permutation_refl|].
  eapply perm_trans; [apply perm_skip; exact IH|apply perm_swap].
Qed.

Lemma qsort_perm : forall key l, Permutation (qsort key l) l.
Proof.
  intros key l. induction l as [|x r IH]; cbn [qsort fold_right]; [constructor|].
  fold (qsort key r). eapply perm_trans; [apply qins_perm|]. apply perm_skip. exact IH.
Qed.

Lemma qsort_in : forall key l y, In y (qsort key l) <-> In y l.
Proof.
  intros key l y. split; intro H.
  - eapply Permutation_in; [apply qsort_perm|exact H].
  - eapply Permutation_in; [apply Permutation_sym; apply qsort_perm|exact H].
Qed.

Definition kle (key : nat -> Q) (a b : nat) : Prop := key a <= key b.

Lemma qins_sorted : forall key x l,
  StronglySorted (kle key) l -> StronglySorted (kle key) (qins key x l).
Proof.
  intros key x l S. induction S as [|y r S IH F]; cbn [qins].
  - constructor; constructor.
  - destruct (Qle_bool (key x) (key y)) eqn:E.
    + apply Qle_bool_iff in E. constructor; [constructor; assumption|].
      constructor; [exact E|]. eapply Forall_impl; [|exact F].
      intros a Ha. unfold kle in *. lra.
    + apply qleb_false in E. constructor; [exact IH|].
      apply Forall_forall. intros a Ha.
      eapply Permutation_in in Ha; [|apply qins_perm]. destruct Ha as [<-|Ha].
      * unfold kle. lra.
      * rewrite Forall_forall in F. apply F. exact Ha.
Qed.

Lemma qsort_sorted : forall key l, StronglySorted (kle key) (qsort key l).
Proof.
  intros key l. induction l as [|x r IH]; cbn [qsort fold_right]; [constructor|].
  apply qins_sorted. exact IH.
Qed.

Lemma ssorted_impl : forall {A} (R R' : A -> A -> Prop) l,
  StronglySorted R l -> NoDup l ->
  (forall a b, In a l -> In b l -> a <> b -> R a b -> R' a b) ->
  StronglySorted R' l.
Proof.
  intros A R R' l S. induction S as [|x r S IH F]; intros ND H; constructor.
  - inversion ND; subst. apply IH; [assumption|]. intros a b Ha Hb. apply H; right; assumption.
  - inversion ND as [|? ? Nx _]; subst. rewrite Forall_forall in *. intros b Hb.
    apply H; [left; reflexivity|right; exact Hb|intros ->; contradiction|apply F, Hb].
Qed.

Lemma cpairs_in : forall {A} (l : list A) a b, In (a, b) (cpairs l) -> In a l /\ In b l.
Proof.
  induction l as [|x r IH]; intros a b H; cbn [cpairs] in H; [destruct H|].
  destruct r as [|y r']; [destruct H|].
  destruct H as [E|H].
  - inversion E; subst. split; [left; reflexivity|right; left; reflexivity].
  - apply IH in H. destruct H. split; right; assumption.
Qed.

Lemma same_key_refl : forall c, same_key c c = true.
Proof. intro c. unfold same_key. rewrite !Nat.eqb_refl. reflexivity. Qed.

Lemma same_key_iff : forall c d, same_key c d = true <-> cA c = cA d /\ cB c = cB d.
Proof.
  intros c d. unfold same_key. rewrite andb_true_iff, !Nat.eqb_eq. tauto.
Qed.

Lemma dedup_in : forall l c, In c (dedup l) -> In c l.
Proof.
  induction l as [|x r IH]; intros c H; cbn [dedup] in H; [destruct H|].
  destruct H as [->|H]; [left; reflexivity|]. apply filter_In in H. right. apply IH. apply H.
Qed.

Lemma dedup_cover : forall l c, In c l -> exists d, In d (dedup l) /\ same_key d c = true.
Proof.
  induction l as [|x r IH]; intros c H; [destruct H|]. cbn [dedup].
  destruct H as [->|H].
  - exists c. split; [left; reflexivity|apply same_key_refl].
  - destruct (IH c H) as [d [Hd K]].
    destruct (same_key x d) eqn:E.
    + exists x. split; [left; reflexivity|].
      apply same_key_iff in E. apply same_key_iff in K. apply same_key_iff.
      destruct E, K. split; congruence.
    + exists d. split; [|exact K]. right. apply filter_In. split; [exact Hd|].
      rewrite E. reflexivity.
Qed.

Lemma fop_filter : forall {A} (R : A -> A -> Prop) f l,
  ForallOrdPairs R l -> ForallOrdPairs R (filter f l).
Proof.
  intros A R f l H. induction H as [|x r F H IH]; cbn [filter]; [constructor|].
  destruct (f x); [|exact IH]. constructor; [|exact IH].
  rewrite Forall_forall in *. intros y Hy. apply filter_In in Hy. apply F. apply Hy.
Qed.

Lemma dedup_distinct : forall l, ForallOrdPairs (fun c d => same_key c d = false) (dedup l).
Proof.
  induction l as [|x r IH]; cbn [dedup]; constructor.
  - apply Forall_forall. intros d Hd. apply filter_In in Hd. destruct Hd as [_ Hd].
    destruct (same_key x d); [discriminate|reflexivity].
  - apply fop_filter. exact IH.
Qed.

Lemma fop_map : forall {A B} (f : A -> B) (R : B -> B -> Prop) l,
  ForallOrdPairs (fun a b => R (f a) (f b)) l -> ForallOrdPairs R (map f l).
Proof.
  intros A B f R l H. induction H as [|x r F H IH]; cbn [map]; constructor; [|exact IH].
  rewrite Forall_forall in *. intros y Hy. apply in_map_iff in Hy.
  destruct Hy as [a [<- Ha]]. apply F. exact Ha.
Qed.

Lemma fop_impl_in : forall {A} (R R' : A -> A -> Prop) l,
  ForallOrdPairs R l -> (forall a b, In a l -> In b l -> R a b -> R' a b) ->
  ForallOrdPairs R' l.
Proof.
  intros A R R' l H. induction H as [|x r F H IH]; intro K; constructor.
  - rewrite Forall_forall in *. intros y Hy. apply K; [left; reflexivity|right; exact Hy|].
    apply F. exact Hy.
  - apply IH. intros a b Ha Hb. apply K; right; assumption.
Qed.

Lemma fop_indexed : forall {A} (R : nat * A -> nat * A -> Prop) (l : list A),
  (forall i x j y, In (i, x) (indexed l) -> In (j, y) (indexed l) -> (i < j)%nat ->
                   R (i, x) (j, y)) ->
  ForallOrdPairs R (indexed l).
Proof.
  intros A R l. unfold indexed. generalize 0%nat.
  induction l as [|x r IH]; intros s H; cbn [indexed_from]; constructor.
  - apply Forall_forall. intros [j y] Hj. destruct (proj1 (in_indexed_from _ _ _ _) Hj) as [i [Ej _]].
    apply H; [left; reflexivity|right; exact Hj|lia].
  - apply IH. intros i a j b Hi Hj L. apply H; [right; exact Hi|right; exact Hj|exact L].
Qed.

Lemma sep2d_eq : forall tol a b c d, sep2d tol a b c d = separated tol a b c d.
Proof. reflexivity. Qed.

Lemma peqb_iff : forall p q, peqb p q = true <-> peq p q.
Proof.
  intros p q. unfold peqb, peq. rewrite andb_true_iff, !Qeq_bool_iff. tauto.
Qed.

Lemma peq_dec : forall p q : pt2, {peq p q} + {~ peq p q}.
Proof.
  intros p q. destruct (peqb p q) eqn:E; [left; apply peqb_iff; exact E|right].
  intro H. apply peqb_iff in H. congruence.
Qed.

Lemma sq_pos : forall x : Q, ~ x == 0 -> 0 < x * x.
Proof.
  intros x N. destruct (Qlt_le_dec 0 x) as [H|H]; [nra|].
  destruct (Qlt_le_dec x 0) as [H'|H']; [nra|]. exfalso. apply N. lra.
Qed.

Lemma nrm2_pos : forall s e, ~ peq s e -> 0 < nrm2 (sub2 e s).
Proof.
  intros s e N. unfold nrm2, sub2. cbn [fst snd].
  pose proof (sq_nonneg (fst e - fst s)). pose proof (sq_nonneg (snd e - snd s)).
  destruct (Qeq_dec (fst e - fst s) 0) as [E1|E1]; [|pose proof (sq_pos _ E1); lra].
  destruct (Qeq_dec (snd e - snd s) 0) as [E2|E2]; [|pose proof (sq_pos _ E2); lra].
  exfalso. apply N. split; lra.
Qed.

Definition par (s e q : pt2) : Q :=
  ((fst q - fst s) * (fst e - fst s) + (snd q - snd s) * (snd e - snd s)) / nrm2 (sub2 e s).

Lemma par_of_at : forall s e q t, ~ peq s e -> at_par s e q t -> par s e q == t.
Proof.
  intros s e q t N [Hx Hy]. pose proof (nrm2_pos s e N) as P.
  unfold par. rewrite Hx, Hy. unfold nrm2, sub2 in *. cbn [fst snd] in *.
  field. lra.
Qed.

Lemma par_peq : forall s e q q', peq q q' -> par s e q == par s e q'.
Proof.
  intros s e q q' [H1 H2]. unfold par. rewrite H1, H2. reflexivity.
Qed.

Lemma dist2_at : forall s e q st t, at_par s e q t -> peq st s ->
  dist2 q st == t * t * nrm2 (sub2 e s).
Proof.
  intros s e q st t [Hx Hy] [S1 S2]. unfold dist2, nrm2, sub2. cbn [fst snd].
  rewrite Hx, Hy, S1, S2. ring.
Qed.

Lemma sq_mono_inv : forall ta tb n : Q, 0 <= ta -> 0 <= tb -> 0 < n ->
  ta * ta * n <= tb * tb * n -> ta <= tb.
Proof.
  intros ta tb n A B N H. destruct (Qlt_le_dec tb ta) as [L|L]; [|exact L].
  exfalso. assert (tb * tb < ta * ta) by nra. nra.
Qed.

(* On the line through s and e a point is given by its parameter: equal points are equal
   parameters, a sub-segment is an interval of parameters. *)
Section Line.
  Variables s e : pt2.
  Hypothesis N : ~ peq s e.

  Definition on_line (q : pt2) : Prop := at_par s e q (par s e q).

  Lemma line_at : forall q t, at_par s e q t -> on_line q /\ par s e q == t.
  Proof.
    intros q t H. pose proof (par_of_at s e q t N H) as E. split; [|exact E].
    apply (at_par_eq s e q t); [symmetry; exact E|exact H].
  Qed.

  Lemma line_point : forall t, exists q, on_line q /\ par s e q == t.
  Proof.
    intro t. exists (fst s + t * (fst e - fst s), snd s + t * (snd e - snd s)).
    apply line_at. split; reflexivity.
  Qed.

  Lemma line_start : on_line s /\ par s e s == 0.
  Proof. apply line_at, at_par_0. Qed.

  Lemma line_end : on_line e /\ par s e e == 1.
  Proof. apply line_at, at_par_1. Qed.

  Lemma line_seg : forall q, on_seg q s e -> on_line q /\ 0 <= par s e q <= 1.
  Proof.
    intros q (t & T0 & T1 & H). destruct (line_at q t H) as [A E]. split; [exact A|lra].
  Qed.

  Lemma line_peq : forall p q, on_line p -> on_line q -> (peq p q <-> par s e p == par s e q).
  Proof.
    intros p q P Q. split; [apply par_peq|apply (at_par_peq s e p q _ _ P Q)].
  Qed.

  Lemma line_between : forall a b p, on_line a -> on_line b ->
    (on_seg p a b <->
     on_line p /\ (par s e a <= par s e p <= par s e b \/ par s e b <= par s e p <= par s e a)).
  Proof.
    intros a b p A B. rewrite (on_seg_line s e a b p _ _ A B). split.
    - intros (t & P & H). destruct (line_at p t P) as [P' E]. split; [exact P'|lra].
    - intros [P H]. exists (par s e p). split; [exact P|exact H].
  Qed.
End Line.

Lemma endpoint_in_sub : forall s e q1 q2 r, ~ peq s e ->
  on_seg q1 s e -> on_seg q2 s e -> (peq r s \/ peq r e) -> on_seg r q1 q2 ->
  peq r q1 \/ peq r q2.
Proof.
  intros s e q1 q2 r N O1 O2 Hr Or.
  destruct (line_seg s e N q1 O1) as [A1 ?], (line_seg s e N q2 O2) as [A2 ?].
  apply (line_between s e N q1 q2 r A1 A2) in Or. destruct Or as [Ar B].
  rewrite (line_peq s e r q1 Ar A1), (line_peq s e r q2 Ar A2).
  destruct (line_start s e N) as [_ E0], (line_end s e N) as [_ E1].
  destruct Hr as [P|P]; apply (par_peq s e) in P; lra.
Qed.

Lemma interval_share : forall a b c d t : Q,
  a <= t <= b \/ b <= t <= a -> c <= t <= d \/ d <= t <= c ->
  ~ t == a -> ~ t == b -> ~ t == c -> ~ t == d ->
  exists t', ~ t' == t /\ (a <= t' <= b \/ b <= t' <= a) /\ (c <= t' <= d \/ d <= t' <= c).
Proof.
  intros a b c d t B1 B2 Na Nb Nc Nd.
  (* a value just above t, below the upper ends of both intervals *)
  set (h := qmin (qmax a b) (qmax c d)).
  assert (Hh : t < h /\ (h <= a \/ h <= b) /\ (h <= c \/ h <= d)).
  { rewrite <- !le_qmax_iff. unfold h. split.
    - apply Qnot_le_lt. rewrite qmin_le_iff, !qmax_le_iff. lra.
    - split; apply qmin_le_iff; [left|right]; apply Qle_refl. }
  exists ((t + h) * (1 # 2)). lra.
Qed.

Lemma two_overlaps_share : forall s e q1 q2 w1 w2 r, ~ peq s e ->
  on_seg q1 s e -> on_seg q2 s e -> on_seg w1 s e -> on_seg w2 s e ->
  on_seg r q1 q2 -> on_seg r w1 w2 ->
  ~ peq r q1 -> ~ peq r q2 -> ~ peq r w1 -> ~ peq r w2 ->
  exists p', on_seg p' q1 q2 /\ on_seg p' w1 w2 /\ ~ peq p' r.
Proof.
  intros s e q1 q2 w1 w2 r N Oq1 Oq2 Ow1 Ow2 Rq Rw N1 N2 N3 N4.
  destruct (line_seg s e N q1 Oq1) as [Q1 _], (line_seg s e N q2 Oq2) as [Q2 _].
  destruct (line_seg s e N w1 Ow1) as [W1 _], (line_seg s e N w2 Ow2) as [W2 _].
  pose proof (fun p => line_between s e N q1 q2 p Q1 Q2) as Lq.
  pose proof (fun p => line_between s e N w1 w2 p W1 W2) as Lw.
  apply Lq in Rq. destruct Rq as [R Bq]. apply Lw in Rw. destruct Rw as [_ Bw].
  rewrite (line_peq s e r _ R Q1) in N1. rewrite (line_peq s e r _ R Q2) in N2.
  rewrite (line_peq s e r _ R W1) in N3. rewrite (line_peq s e r _ R W2) in N4.
  destruct (interval_share _ _ _ _ _ Bq Bw N1 N2 N3 N4) as (t' & Nt & Bq' & Bw').
  destruct (line_point s e N t') as (p' & P & E).
  exists p'. rewrite Lq, Lw, (line_peq s e p' r P R), E.
  exact (conj (conj P Bq') (conj (conj P Bw') Nt)).
Qed.

Lemma mutual_containment : forall a1 b1 a2 b2, ~ peq a2 b2 ->
  on_seg a1 a2 b2 -> on_seg b1 a2 b2 -> on_seg a2 a1 b1 -> on_seg b2 a1 b1 ->
  (peq a1 a2 /\ peq b1 b2) \/ (peq a1 b2 /\ peq b1 a2).
Proof.
  intros a1 b1 a2 b2 N O1 O2 O3 O4.
  destruct (line_seg a2 b2 N a1 O1) as [A ?], (line_seg a2 b2 N b1 O2) as [B ?].
  destruct (line_start a2 b2 N) as [S0 E0], (line_end a2 b2 N) as [S1 E1].
  apply (line_between a2 b2 N a1 b1 _ A B) in O3, O4.
  rewrite (line_peq a2 b2 a1 a2 A S0), (line_peq a2 b2 b1 b2 B S1),
          (line_peq a2 b2 a1 b2 A S1), (line_peq a2 b2 b1 a2 B S0). lra.
Qed.

Lemma close_iff : forall tol a b, close tol a b = true <-> dist2 a b < tol * tol.
Proof. intros. unfold close. apply qltb_true. Qed.

Lemma dist2_peq0 : forall a b, peq a b -> dist2 a b == 0.
Proof.
  intros a b [H1 H2]. unfold dist2, nrm2, sub2. cbn [fst snd]. rewrite H1, H2. ring.
Qed.

Lemma close_peq : forall tol a b, 0 < tol -> peq a b -> close tol a b = true.
Proof.
  intros tol a b T P. apply close_iff. rewrite (dist2_peq0 a b P). nra.
Qed.

Section Uniq.
  Variable tol : Q.
  Hypothesis tol_pos : 0 < tol.

  Lemma idx_spec : forall U p,
    (exists u, In u U /\ close tol p u = true) ->
    (idx tol U p < length U)%nat /\ close tol p (upt U (idx tol U p)) = true.
  Proof.
    induction U as [|v r IH]; intros p [u [Hu C]]; [destruct Hu|].
    cbn [idx]. destruct (close tol p v) eqn:E.
    - split; [cbn; lia|]. unfold upt. cbn. exact E.
    - destruct Hu as [<-|Hu]; [congruence|].
      destruct (IH p) as [L C']; [exists u; split; assumption|].
      split; [cbn; lia|]. unfold upt in *. cbn. exact C'.
  Qed.

  (* kept points are pairwise not close (later against earlier) *)
  Definition pw (U : list pt2) : Prop :=
    forall i j, (i < j)%nat -> (j < length U)%nat -> close tol (upt U j) (upt U i) = false.

  Lemma step_in : forall U q u,
    In u (uniq_step tol U q) <-> In u U \/ (existsb (close tol q) U = false /\ u = q).
  Proof.
    intros U q u. unfold uniq_step. destruct (existsb (close tol q) U).
    - split; [tauto|intros [H|[E _]]; [exact H|discriminate]].
    - rewrite in_app_iff. cbn. split; [intros [H|[<-|[]]]|intros [H|[_ ->]]]; auto.
  Qed.

  Lemma step_close : forall U q, exists u, In u (uniq_step tol U q) /\ close tol q u = true.
  Proof.
    intros U q. destruct (existsb (close tol q) U) eqn:E.
    - apply existsb_exists in E. destruct E as [u [Hu C]]. exists u. rewrite step_in. tauto.
    - exists q. rewrite step_in. split; [tauto|apply close_peq; [exact tol_pos|apply peq_refl]].
  Qed.

  Lemma step_pw : forall U q, pw U -> pw (uniq_step tol U q).
  Proof.
    intros U q P. unfold uniq_step. destruct (existsb (close tol q) U) eqn:E; [exact P|].
    intros i j Lij Lj. rewrite app_length in Lj. cbn in Lj.
    unfold upt. destruct (Nat.eq_dec j (length U)) as [->|Nj].
    - rewrite app_nth2, Nat.sub_diag, app_nth1 by lia. cbn [nth].
      apply not_true_iff_false. intro C. apply not_true_iff_false in E. apply E.
      apply existsb_exists. exists (nth i U pdef). split; [apply nth_In; lia|exact C].
    - rewrite !app_nth1 by lia. apply P; lia.
  Qed.

  Lemma uniq_inv : forall l,
    pw (uniqU tol l) /\ (forall u, In u (uniqU tol l) -> In u l) /\
    (forall p, In p l -> exists u, In u (uniqU tol l) /\ close tol p u = true).
  Proof.
    induction l as [|q l (P & Sub & Cov)] using rev_ind.
    - split; [intros i j _ H; cbn in H; lia|]. split; intros u [].
    - unfold uniqU. rewrite fold_left_app. cbn [fold_left]. fold (uniqU tol l).
      split; [apply step_pw, P|]. split.
      + intros u Hu. apply step_in in Hu. rewrite in_app_iff. cbn.
        destruct Hu as [H|[_ ->]]; auto.
      + intros p Hp. apply in_app_iff in Hp. destruct Hp as [Hp|[<-|[]]]; [|apply step_close].
        destruct (Cov p Hp) as (u & Hu & Cu). exists u. split; [apply step_in; left; exact Hu|exact Cu].
  Qed.

  Variable l : list pt2.
  Hypothesis sep : sep_pts tol l = true.

  Lemma sep_close_peq : forall p q, In p l -> In q l -> close tol p q = true -> peq p q.
  Proof.
    intros p q Hp Hq C. unfold sep_pts in sep. rewrite forallb_forall in sep.
    specialize (sep p Hp). rewrite forallb_forall in sep. specialize (sep q Hq).
    unfold eq_or_far in sep. rewrite C in sep. cbn in sep. rewrite orb_false_r in sep.
    apply peqb_iff. exact sep.
  Qed.

  Let U := uniqU tol l.

  (* every input point is represented by a kept point with the same coordinates *)
  Lemma rep_peq : forall p, In p l ->
    (idx tol U p < length U)%nat /\ peq (upt U (idx tol U p)) p.
  Proof.
    intros p Hp. destruct (uniq_inv l) as (_ & Sub & Cov).
    destruct (idx_spec U p (Cov p Hp)) as [L C]. split; [exact L|].
    apply peq_sym. apply sep_close_peq; [exact Hp| |exact C].
    apply Sub. apply nth_In. exact L.
  Qed.

  (* kept points have pairwise different coordinates *)
  Lemma U_inj : forall i j, (i < length U)%nat -> (j < length U)%nat ->
    peq (upt U i) (upt U j) -> i = j.
  Proof.
    destruct (uniq_inv l) as [P _]. fold U in P.
    assert (K : forall i j, (i < j)%nat -> (j < length U)%nat -> ~ peq (upt U i) (upt U j)).
    { intros i j Lij Lj E. specialize (P i j Lij Lj).
      rewrite (close_peq tol _ _ tol_pos (peq_sym _ _ E)) in P. discriminate. }
    intros i j Li Lj E. destruct (Nat.lt_trichotomy i j) as [H|[H|H]]; [|exact H|].
    - exfalso. apply (K i j H Lj E).
    - exfalso. apply (K j i H Li). apply peq_sym. exact E.
  Qed.
End Uniq.

Definition klt (key : nat -> Q) (a b : nat) : Prop := key a < key b.

Lemma cpairs_adj : forall key l a b,
  StronglySorted (klt key) l -> In (a, b) (cpairs l) ->
  key a < key b /\ forall z, In z l -> key z <= key a \/ key b <= key z.
Proof.
  intros key l a b S. induction S as [|x r S IH F]; intro H; cbn [cpairs] in H; [destruct H|].
  destruct r as [|y r']; [destruct H|]. rewrite Forall_forall in F. unfold klt in F.
  destruct H as [E|H].
  - inversion E; subst. split; [apply F; left; reflexivity|].
    intros z [<-|[<-|Hz]]; [left; lra|right; lra|right].
    inversion S as [|? ? _ F']; subst. rewrite Forall_forall in F'. apply Qlt_le_weak, F', Hz.
  - destruct (IH H) as [Lt Adj]. split; [exact Lt|]. intros z [<-|Hz]; [left|apply Adj, Hz].
    apply cpairs_in in H. apply Qlt_le_weak, F, H.
Qed.

(* discrete intermediate value: a value between the first key and a later one lies between
   two consecutive keys *)
Lemma cpairs_cover : forall (key : nat -> Q) t r x,
  key x <= t -> (exists z, In z r /\ t <= key z) ->
  exists a b, In (a, b) (cpairs (x :: r)) /\ key a <= t <= key b.
Proof.
  intros key t. induction r as [|y r IH]; intros x Lx [z [Hz Lz]]; [destruct Hz|].
  destruct (Qlt_le_dec (key y) t) as [Lt|Le].
  - destruct (IH y) as (a & b & Hab & B); [lra| |exists a, b; split; [right; exact Hab|exact B]].
    exists z. split; [|exact Lz]. destruct Hz as [<-|Hz]; [lra|exact Hz].
  - exists x, y. split; [left; reflexivity|lra].
Qed.

Lemma sorted_cover : forall key l x z t,
  StronglySorted (klt key) l -> In x l -> In z l -> key x <= t <= key z -> key x < key z ->
  exists a b, In (a, b) (cpairs l) /\ key a <= t <= key b.
Proof.
  intros key [|y r] x z t S Hx Hz B Lt; [destruct Hx|]. inversion S as [|? ? _ F]; subst.
  rewrite Forall_forall in F. unfold klt in F. apply cpairs_cover.
  - destruct Hx as [->|Hx]; [|specialize (F x Hx)]; lra.
  - exists z. split; [|lra]. destruct Hz as [->|Hz]; [|exact Hz].
    destruct Hx as [->|Hx]; [|specialize (F x Hx)]; lra.
Qed.

(* points (numbered through [pts]) of the segment (s, e), strictly sorted by parameter *)
Definition chain (s e : pt2) (pts : nat -> pt2) (L : list nat) : Prop :=
  ~ peq s e /\ (forall i, In i L -> on_seg (pts i) s e) /\
  StronglySorted (klt (fun i => par s e (pts i))) L.

(* np.argsort by squared distance from the start sorts the points of a segment by their
   parameter *)
Lemma qsort_chain : forall s e st pts l,
  ~ peq s e -> peq st s -> (forall i, In i l -> on_seg (pts i) s e) -> NoDup l ->
  (forall i j, In i l -> In j l -> peq (pts i) (pts j) -> i = j) ->
  chain s e pts (qsort (fun i => dist2 (pts i) st) l).
Proof.
  intros s e st pts l N Ps On ND Inj.
  split; [exact N|]. split; [intros i Hi; apply On; apply qsort_in in Hi; exact Hi|].
  eapply ssorted_impl; [apply qsort_sorted| |].
  - eapply Permutation_NoDup; [apply Permutation_sym, qsort_perm|exact ND].
  - intros a b Ha Hb Nab R. apply qsort_in in Ha, Hb. unfold kle, klt in *.
    destruct (line_seg s e N _ (On a Ha)) as [Aat [A0 _]], (line_seg s e N _ (On b Hb)) as [Bat [B0 _]].
    rewrite (dist2_at s e _ _ _ Aat Ps), (dist2_at s e _ _ _ Bat Ps) in R.
    pose proof (sq_mono_inv _ _ _ A0 B0 (nrm2_pos s e N) R) as Le.
    destruct (Qlt_le_dec (par s e (pts a)) (par s e (pts b))) as [Lt|Ge]; [exact Lt|].
    exfalso. apply Nab, (Inj a b Ha Hb), (line_peq s e _ _ Aat Bat). lra.
Qed.

Section Chain.
  Variables (s e : pt2) (pts : nat -> pt2) (L : list nat).
  Hypothesis C : chain s e pts L.
  Let tp (i : nat) : Q := par s e (pts i).

  Lemma chain_at : forall i, In i L -> on_line s e (pts i) /\ 0 <= tp i <= 1.
  Proof. intros i Hi. pose proof C as (N & On & _). exact (line_seg s e N (pts i) (On i Hi)). Qed.

  Lemma chain_point : forall i p, In i L -> on_line s e p -> (peq p (pts i) <-> par s e p == tp i).
  Proof. intros i p Hi P. apply (line_peq s e p (pts i) P), chain_at, Hi. Qed.

  Lemma child_par : forall a b, In (a, b) (cpairs L) ->
    In a L /\ In b L /\ tp a < tp b /\ (forall z, In z L -> tp z <= tp a \/ tp b <= tp z) /\
    forall p, on_seg p (pts a) (pts b) <-> on_line s e p /\ tp a <= par s e p <= tp b.
  Proof.
    intros a b H. pose proof C as (N & _ & Srt). destruct (cpairs_in _ _ _ H) as [Ha Hb].
    destruct (cpairs_adj tp L a b Srt H) as [Lt Adj].
    split; [exact Ha|]. split; [exact Hb|]. split; [exact Lt|]. split; [exact Adj|]. intro p.
    rewrite (line_between s e N _ _ p (proj1 (chain_at a Ha)) (proj1 (chain_at b Hb))).
    fold (tp a) (tp b). split; intros [P B]; (split; [exact P|lra]).
  Qed.

  Lemma child_on_parent : forall a b p, In (a, b) (cpairs L) -> on_seg p (pts a) (pts b) ->
    on_seg p s e.
  Proof.
    intros a b p Hab O. destruct (cpairs_in _ _ _ Hab) as [Ha Hb]. pose proof C as (_ & On & _).
    apply (on_seg_convex p (pts a) (pts b)); auto.
  Qed.

  Lemma child_proper : forall a b, In (a, b) (cpairs L) -> ~ peq (pts a) (pts b).
  Proof.
    intros a b Hab E. destruct (child_par a b Hab) as (_ & _ & Lt & _). unfold tp in Lt.
    rewrite (par_peq s e _ _ E) in Lt. lra.
  Qed.

  Lemma member_end : forall a b z p, In (a, b) (cpairs L) -> In z L -> peq p (pts z) ->
    on_seg p (pts a) (pts b) -> peq p (pts a) \/ peq p (pts b).
  Proof.
    intros a b z p Hab Hz Pz O. destruct (child_par a b Hab) as (Ha & Hb & _ & Adj & K).
    apply K in O. destruct O as [P B]. rewrite (chain_point a p Ha P), (chain_point b p Hb P).
    apply (chain_point z p Hz P) in Pz. destruct (Adj z Hz); lra.
  Qed.

  Lemma same_chain_nc : forall a1 b1 a2 b2 p,
    In (a1, b1) (cpairs L) -> In (a2, b2) (cpairs L) ->
    ~ (peq (pts a1) (pts a2) /\ peq (pts b1) (pts b2)) ->
    on_seg p (pts a1) (pts b1) -> on_seg p (pts a2) (pts b2) ->
    (peq p (pts a1) \/ peq p (pts b1)) /\ (peq p (pts a2) \/ peq p (pts b2)).
  Proof.
    intros a1 b1 a2 b2 p H1 H2 Ne O1 O2.
    destruct (child_par a1 b1 H1) as (Ha1 & Hb1 & ? & Adj1 & K1).
    destruct (child_par a2 b2 H2) as (Ha2 & Hb2 & ? & Adj2 & K2).
    apply K1 in O1. apply K2 in O2. destruct O1 as [P ?], O2 as [_ ?].
    rewrite (chain_point a1 p Ha1 P), (chain_point b1 p Hb1 P),
            (chain_point a2 p Ha2 P), (chain_point b2 p Hb2 P).
    rewrite (chain_point a2 _ Ha2 (proj1 (chain_at a1 Ha1))),
            (chain_point b2 _ Hb2 (proj1 (chain_at b1 Hb1))) in Ne. fold (tp a1) (tp b1) in Ne.
    pose proof (Adj1 a2 Ha2). pose proof (Adj1 b2 Hb2).
    pose proof (Adj2 a1 Ha1). pose proof (Adj2 b1 Hb1). lra.
  Qed.

  Lemma chain_covers : forall is_ ie p, In is_ L -> In ie L -> peq (pts is_) s -> peq (pts ie) e ->
    on_seg p s e -> exists a b, In (a, b) (cpairs L) /\ on_seg p (pts a) (pts b).
  Proof.
    intros is_ ie p His Hie Ps Pe Op. pose proof C as (N & _ & Srt).
    destruct (line_seg s e N p Op) as [P B].
    apply (par_peq s e) in Ps, Pe. fold (tp is_) in Ps. fold (tp ie) in Pe.
    rewrite (proj2 (line_start s e N)) in Ps. rewrite (proj2 (line_end s e N)) in Pe.
    destruct (sorted_cover tp L is_ ie (par s e p) Srt His Hie) as (a & b & Hab & B'); [lra..|].
    exists a, b. split; [exact Hab|]. apply (child_par a b Hab). split; [exact P|exact B'].
  Qed.

  (* no chain point lies strictly inside a child.  So a child lies within the span of two
     chain points when it shares with it a point other than the two *)
  Lemma child_within : forall a b z1 z2 p,
    In (a, b) (cpairs L) -> In z1 L -> In z2 L ->
    on_seg p (pts a) (pts b) -> on_seg p (pts z1) (pts z2) ->
    ~ peq p (pts z1) -> ~ peq p (pts z2) ->
    on_seg (pts a) (pts z1) (pts z2) /\ on_seg (pts b) (pts z1) (pts z2).
  Proof.
    intros a b z1 z2 p Hab Hz1 Hz2 O Oz. pose proof C as (N & _).
    destruct (child_par a b Hab) as (Ha & Hb & ? & Adj & K). apply K in O. destruct O as [P ?].
    pose proof (fun q => line_between s e N (pts z1) (pts z2) q
                           (proj1 (chain_at z1 Hz1)) (proj1 (chain_at z2 Hz2))) as Kz.
    apply Kz in Oz. destruct Oz as [_ Bz]. rewrite !Kz.
    rewrite (chain_point z1 p Hz1 P), (chain_point z2 p Hz2 P).
    pose proof (Adj z1 Hz1). pose proof (Adj z2 Hz2). unfold tp in *. intros N1 N2.
    split; (split; [apply chain_at; assumption|lra]).
  Qed.
End Chain.
