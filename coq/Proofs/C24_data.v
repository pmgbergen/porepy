(* C24 — data dictionaries: after any history every present subdomain / interface has a
   dictionary of its own, created by the container, and replacement hands the old grid's
   dictionary on to the new grid. *)
From Coq Require Import List Arith Bool Lia.
Import ListNotations.
From PP Require Import Model.C24 Model.C24_spec Model.C24_data Proofs.C24_base Proofs.C24_sort
  Proofs.C24_inv Proofs.C24_step Proofs.C24.

(* every key has a dictionary created before [n]; no two keys share one *)
Definition tok_ok (keys : list gid) (m : list (gid * nat)) (n : nat) : Prop :=
  (forall k, In k keys -> exists t, lookup k m = Some t /\ t < n) /\
  (forall k k' t, In k keys -> In k' keys -> lookup k m = Some t -> lookup k' m = Some t -> k = k').

Definition DInv (d : dat) (sp : spec) : Prop :=
  tok_ok (pS sp) (vS d) (nd d) /\ tok_ok (map fst (pI sp)) (vI d) (nd d).

Lemma tok_ok_mono keys keys' m n n' :
  tok_ok keys m n -> n <= n' -> incl keys' keys -> tok_ok keys' m n'.
Proof.
  intros [H1 H2] Hn Hsub. split.
  - intros k Hk. destruct (H1 k (Hsub k Hk)) as (t & Ht & Hlt). exists t. split; auto. lia.
  - intros k k' t Hk Hk'. apply H2; auto.
Qed.

Lemma tok_ok_dset keys m n k t :
  tok_ok keys m n -> ~ In k keys -> t < n -> (forall j, In j keys -> lookup j m <> Some t) ->
  tok_ok (keys ++ [k]) (dset k t m) n.
Proof.
  intros [H1 H2] Hk Ht Hfree.
  assert (Hold : forall j, In j (keys ++ [k]) -> k <> j -> In j keys).
  { intros j Hj Hkj. apply in_app_iff in Hj. destruct Hj as [Hj|[<-|[]]]; [auto | contradiction]. }
  split.
  - intros j Hj. rewrite lookup_dset. gcase k j; eauto.
  - intros j j' t' Hj Hj'. rewrite !lookup_dset.
    gcase k j; gcase k j'; intros L1 L2; try congruence.
    + injection L1 as <-. destruct (Hfree j' (Hold j' Hj' E0) L2).
    + injection L2 as <-. destruct (Hfree j (Hold j Hj E) L1).
    + apply (H2 j j' t'); auto.
Qed.

Lemma tok_ok_set keys m n k :
  tok_ok keys m n -> ~ In k keys -> tok_ok (keys ++ [k]) (dset k n m) (S n).
Proof.
  intros H Hk. apply tok_ok_dset; auto.
  - eapply tok_ok_mono; [exact H | lia | apply incl_refl].
  - intros j Hj Hl. destruct (proj1 H j Hj) as (t & Ht & Hlt). rewrite Hl in Ht.
    injection Ht as <-. lia.
Qed.

Lemma tok_ok_alloc ks : forall keys m n,
  tok_ok keys m n -> NoDup ks -> (forall k, In k ks -> ~ In k keys) ->
  tok_ok (keys ++ ks) (fst (alloc ks m n)) (snd (alloc ks m n)).
Proof.
  induction ks as [|k r IH]; intros keys m n H Hn Hd; cbn [alloc fst snd].
  - rewrite app_nil_r. exact H.
  - destruct (fresh_snoc keys k r Hn Hd) as (Hk & Hr & Hd').
    rewrite (app_assoc keys [k] r : keys ++ k :: r = _).
    apply IH; auto. apply tok_ok_set; auto.
Qed.

Lemma alloc_n ks : forall m n, n <= snd (alloc ks m n).
Proof.
  induction ks as [|k r IH]; intros m n; cbn; [lia|]. specialize (IH (dset k n m) (S n)). lia.
Qed.

Lemma lookup_copy o n m t j :
  lookup o m = Some t -> lookup j (copy o n m) = if geqb n j then Some t else lookup j m.
Proof. intros H. unfold copy. rewrite H. apply lookup_dset. Qed.

Lemma tok_ok_copy keys m nn o n :
  tok_ok keys m nn -> In o keys -> ~ In n keys ->
  tok_ok (filter (fun x => neqb x o) keys ++ [n]) (copy o n m) nn.
Proof.
  intros H Ho Hn. destruct (proj1 H o Ho) as (t & Ht & Hlt). unfold copy. rewrite Ht.
  apply tok_ok_dset; auto.
  - eapply tok_ok_mono; [exact H | lia | apply incl_filter].
  - rewrite in_filter_neq. tauto.
  - intros j Hj Hl. apply in_filter_neq in Hj. destruct Hj as [Hj Hjo].
    apply Hjo, (proj2 H j o t); auto.
Qed.

Lemma replace_oneD_vS g d o n :
  mem o (sds g) = true ->
  vS (replace_oneD g d o n) = copy o n (vS d) /\ vI (replace_oneD g d o n) = vI d /\
  nd (replace_oneD g d o n) = nd d.
Proof.
  intros H. unfold replace_oneD. rewrite H. cbn [negb].
  destruct (replace_one g o n) as [g' [|e]]; [|cbn; auto].
  destruct (0 <? gdim o); [|cbn; auto].
  destruct (lookup o (s2b g)); cbn; auto.
Qed.

Lemma stepD_replace sm : forall g d sp,
  Inv g sp -> DInv d sp -> ok_replace (pS sp) sm = true ->
  DInv (replace_allD g d sm) (fold_left (fun sp e => s_replace1 sp (fst e) (snd e)) sm sp).
Proof.
  induction sm as [|[o n] r IH]; intros g d sp HI HD Hok; cbn [replace_allD fold_left]; auto.
  cbn [ok_replace] in Hok. rewrite !andb_true_iff in Hok.
  destruct Hok as (((H1 & H2) & H3) & H4).
  pose proof H1 as Hm. rewrite <- (inv_sds _ _ HI) in Hm.
  apply mem_In in H1. apply negb_true_iff, mem_nIn in H2. apply Nat.eqb_eq in H3.
  destruct (step_replace_one g sp o n HI H1 H2 H3) as (g1 & -> & HI1).
  cbn [fst snd]. apply IH; auto.
  destruct (replace_oneD_vS g d o n Hm) as (E1 & E2 & E3).
  destruct HD as [DS DI]. unfold DInv. rewrite E1, E2, E3. cbn [s_replace1 pS pI]. split.
  - apply tok_ok_copy; auto.
  - rewrite ren_entry_keys. exact DI.
Qed.

Lemma stepD_ok g d sp o :
  Inv g sp -> DInv d sp -> okb sp o = true -> DInv (stepD g d o) (sstep sp o).
Proof.
  intros HI [DS DI] Hok. destruct o as [l|i a b|s|im sm].
  - destruct (step_add g sp l HI Hok) as (g' & Hs & _). unfold stepD. rewrite Hs.
    cbn [okb] in Hok. apply andb_true_iff in Hok. destruct Hok as [Hnd Hfr].
    apply nodupb_NoDup in Hnd.
    pose proof (tok_ok_alloc l (pS sp) (vS d) (nd d) DS Hnd) as HA.
    pose proof (alloc_n l (vS d) (nd d)) as Hk.
    destruct (alloc l (vS d) (nd d)) as [m k].
    pose proof (alloc_n (new_bgs g' l) (vB d) k) as Hk2.
    destruct (alloc (new_bgs g' l) (vB d) k) as [mb k2]. cbn [fst snd] in *.
    split; cbn [vS vI nd sstep pS pI].
    + eapply tok_ok_mono; [apply HA | exact Hk2 | apply incl_refl].
      intros x Hx. rewrite forallb_forall in Hfr. apply mem_nIn, negb_true_iff, Hfr, Hx.
    + eapply tok_ok_mono; [exact DI | lia | apply incl_refl].
  - destruct (step_intf g sp i a b HI Hok) as (g' & Hs & _). unfold stepD. rewrite Hs.
    cbn [okb] in Hok. rewrite !andb_true_iff in Hok.
    destruct Hok as ((((((Hi & _) & _) & _) & _) & _) & _).
    apply negb_true_iff, mem_nIn in Hi.
    split; cbn [vS vI nd sstep pS pI].
    + eapply tok_ok_mono; [exact DS | lia | apply incl_refl].
    + rewrite map_app. apply tok_ok_set; auto.
  - split; cbn [stepD sstep pS pI].
    + eapply tok_ok_mono; [exact DS | lia | apply incl_filter].
    + eapply tok_ok_mono; [exact DI | lia | apply incl_map, incl_filter].
  - cbn [stepD sstep]. apply stepD_replace; auto. split; auto.
Qed.

Lemma stepD_rej g d sp o e :
  Inv g sp -> rejb sp o = Some e -> stepD g d o = d.
Proof.
  intros HI Hr. pose proof (step_rej g sp o e HI Hr) as Hs.
  destruct o as [l|i a b|s|im sm]; unfold stepD; try rewrite Hs; auto.
  destruct sm as [|[o n] r]; [reflexivity|]. cbn [rejb] in Hr. cbn [replace_allD].
  assert (Hm : mem o (sds g) = false).
  { rewrite (inv_sds _ _ HI). destruct (mem o (pS sp)); [discriminate | reflexivity]. }
  rewrite (replace_one_absent g o n Hm). unfold replace_oneD. rewrite Hm. reflexivity.
Qed.

Lemma runD_fst ops : forall g d, fst (runD g d ops) = fst (run g ops).
Proof.
  induction ops as [|o r IH]; intros g d; cbn [runD run]; auto.
  rewrite IH. destruct (step g o) as [g' x]. cbn [fst]. destruct (run g' r). reflexivity.
Qed.

Lemma runD_inv ops : forall g d sp,
  Inv g sp -> DInv d sp -> hist_ok sp ops = true -> DInv (snd (runD g d ops)) (srun sp ops).
Proof.
  induction ops as [|o r IH]; intros g d sp HI HD Hh; cbn [runD srun hist_ok] in *; auto.
  destruct (okb sp o) eqn:Eok.
  - destruct (step_ok g sp o HI Eok) as (g' & Hs & HI'). rewrite Hs.
    apply IH; auto using stepD_ok.
  - destruct (rejb sp o) as [e|] eqn:Er; [|discriminate].
    rewrite (step_rej g sp o e HI Er), (stepD_rej g d sp o e HI Er). auto.
Qed.

Lemma DInv_empty : DInv dempty sempty.
Proof. split; split; cbn; intros; contradiction. Qed.

Definition final_data (ops : list op) : dat := snd (runD empty dempty ops).

Lemma reach_data ops :
  hist_ok sempty ops = true ->
  fst (runD empty dempty ops) = final ops /\ DInv (final_data ops) (present ops).
Proof.
  split; [apply runD_fst | apply runD_inv; auto using Inv_empty, DInv_empty].
Qed.

(* replacing o by n on a container that satisfies the invariant: n gets o's dictionary,
   every other subdomain and every interface keeps its own; the dictionary of o's boundary
   grid is handed on to the boundary grid created for n (numbered nbg) *)
Lemma data_replace g sp d o n :
  Inv g sp -> tok_ok (pS sp) (vS d) (nd d) ->
  In o (pS sp) -> ~ In n (pS sp) -> fst n = fst o ->
  let d' := stepD g d (Replace [] [(o, n)]) in
  lookup n (vS d') = lookup o (vS d) /\
  (forall k, k <> n -> lookup k (vS d') = lookup k (vS d)) /\
  vI d' = vI d /\
  (forall bgo, 0 < fst o -> sd_to_bg g o = Some bgo ->
               vB d' = copy bgo (fst n - 1, nbg g) (vB d)) /\
  (fst o = 0 -> vB d' = vB d).
Proof.
  intros HI DS Ho Hn Hdim. cbv zeta.
  assert (Hm : mem o (sds g) = true) by (apply mem_In; rewrite (inv_sds _ _ HI); auto).
  destruct (step_replace_one g _ o n HI Ho Hn Hdim) as (g1 & Hs & _).
  cbn [stepD replace_allD]. rewrite Hs.
  destruct (replace_oneD_vS g d o n Hm) as (-> & -> & _).
  destruct (proj1 DS o Ho) as (t & Ht & _).
  unfold replace_oneD, sd_to_bg, gdim. rewrite Hm, Hs. cbn [negb].
  repeat split; auto.
  - rewrite (lookup_copy o n _ t), geqb_refl; auto.
  - intros k Hk. rewrite (lookup_copy o n _ t) by auto. apply not_eq_sym, geqb_neq in Hk.
    rewrite Hk. reflexivity.
  - intros bgo Hpos ->. rewrite (proj2 (Nat.ltb_lt _ _) Hpos). reflexivity.
  - intros ->. reflexivity.
Qed.
