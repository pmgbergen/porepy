(* C10 — termination measure of the C09 time loop (exact real arithmetic).  Used by
   Proofs/C10_term.v; imports only the C09 development.

   Every converged step either advances the clock by at least dt_min or lands exactly on the
   scheduled time it was shortened onto (and then aims at the next one), and at most
   recomp_max failed steps fit between two converged ones.  Hence the number of attempted
   time steps of ANY run is bounded by a number that depends only on the configuration. *)
From Coq Require Import List ZArith Bool Arith Lia Reals Lra.
Import ListNotations.
From PP Require Import Model.C09 Proofs.C09_loop Proofs.C09.
Local Open Scope R_scope.

Fixpoint count_conv (tr : list (event * state R * out R)) : nat :=
  match tr with
  | [] => 0
  | (Converged _, _, _) :: r => S (count_conv r)
  | (Failed, _, _) :: r => count_conv r
  end.

Fixpoint count_fail (tr : list (event * state R * out R)) : nat :=
  match tr with
  | [] => 0
  | (Converged _, _, _) :: r => count_fail r
  | (Failed, _, _) :: r => S (count_fail r)
  end.

Section Bound.
  Variable c : cfgR.
  Variable sched : list R.
  Hypothesis Hconst : constant c = false.
  Hypothesis Hmin : 0 < dt_min c.
  Hypothesis Hminmax : dt_min c <= dt_max c.
  Hypothesis Hrtol : 0 <= rtol c.
  Hypothesis Hatol : 0 <= atol c.
  Hypothesis Hlen : (2 <= length sched)%nat.
  Hypothesis Hnn : 0 <= s sched 0.
  Hypothesis Hsep : forall j, (S j <= n sched)%nat ->
                      s sched j + tol c (s sched (S j)) < s sched (S j).

  Notation sn := (s sched (n sched)).
  Notation dm := (dt_min c).

  (* the potential: remaining time, plus dt_min for every scheduled time still ahead *)
  Definition phi (x : stateR) (j : nat) : R := (sn - time x) + (INR (n sched) - INR j) * dm.

  Lemma phi_nonneg x j : Inv c sched x j -> 0 <= phi x j.
  Proof.
    intros (Hj & _ & Hdt & Hle & _). unfold phi.
    pose proof (s_mono_le c sched Hrtol Hatol Hlen Hsep j (n sched) ltac:(lia) ltac:(lia)) as Hs.
    assert (INR j <= INR (n sched)) by (apply le_INR; lia).
    assert (0 <= (INR (n sched) - INR j) * dm) by (apply Rmult_le_pos; lra).
    lra.
  Qed.

  Lemma advance_ge j j' t : advance c sched j j' t -> INR j <= INR j'.
  Proof. intros [->|[-> _]]; [lra|]. rewrite S_INR. lra. Qed.

  Lemma phi_step x j x2 j' :
    Inv c sched x j -> Inv c sched x2 j' -> advance c sched j j' (time x2) ->
    (time x2 = time x -> phi x2 j' <= phi x j) /\
    (time x2 = time x + dt x -> phi x2 j' + dm <= phi x j).
  Proof.
    intros HI HI2 Hadv. unfold phi. pose proof (advance_ge _ _ _ Hadv) as Hge.
    assert ((INR (n sched) - INR j') * dm <= (INR (n sched) - INR j) * dm)
      by (apply Rmult_le_compat_r; lra).
    split; intros Et; rewrite Et; [lra|].
    destruct HI as (Hj & _ & Hdt & Hle & Hab & _ & [Habout|Hlow]); [|lra].
    (* shortened onto s j: the step lands on it and the cursor moves on *)
    specialize (Hab Habout). destruct Hadv as [-> | [-> _]].
    - destruct HI2 as (_ & _ & Hdt2 & Hle2 & _). lra.
    - rewrite S_INR. nra.
  Qed.

  Lemma Run_bound x j tr st :
    Run c sched x j tr st -> (0 <= recomp x <= recomp_max c)%Z ->
    INR (count_conv tr) * dm <= phi x j + dm /\
    (Z.of_nat (count_fail tr)
     <= Z.of_nat (count_conv tr) * recomp_max c + (recomp_max c - recomp x) + 1)%Z.
  Proof.
    by_run; intros Hr; pose proof (phi_nonneg x j HI) as Hphi; cbn [count_conv count_fail];
      try (change (INR 1) with 1; cbn [INR]; split; [lra|lia]);
      destruct (IH ltac:(lia)) as [IH1 IH2];
      destruct (phi_step x j x2 j' HI (Run_Inv c sched _ _ _ _ HR) Hadv) as [Hsame Hpaid].
    - specialize (Hpaid Ht). rewrite S_INR, Hrc in *. split; [lra|nia].
    - specialize (Hsame Ht). rewrite Hrc in IH2. split; [lra|lia].
  Qed.

  Lemma bound evs : forall x j,
      Inv c sched x j -> (0 <= recomp x <= recomp_max c)%Z ->
      INR (count_conv (fst (driveR c sched x evs))) * dm <= phi x j + dm /\
      (Z.of_nat (count_fail (fst (driveR c sched x evs)))
       <= Z.of_nat (count_conv (fst (driveR c sched x evs))) * recomp_max c
          + (recomp_max c - recomp x) + 1)%Z.
  Proof.
    intros x j HI Hrc.
    exact (Run_bound x j _ _ (drive_Run c sched Hconst Hmin Hminmax Hrtol Hatol Hlen Hnn Hsep
                                        evs x j HI) Hrc).
  Qed.
End Bound.
