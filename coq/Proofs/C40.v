(* C40 — proofs about the model PP.Model.C40 (material tensors).  Constructors, copy and
   restriction are treated for any number record; the algebra of rotation holds over ANY
   commutative ring (ring_theory over Leibniz equality; instances: R, Z, ...). *)
From Coq Require Import List ZArith Bool Ring Lia.
Import ListNotations.
From PP Require Import Lib.ListFacts Model.C40.

Lemma nth_error_combine : forall {A B} (a : list A) (b : list B) k,
  nth_error (combine a b) k =
  match nth_error a k, nth_error b k with Some x, Some y => Some (x, y) | _, _ => None end.
Proof.
  induction a as [|x a IH]; intros b k; destruct b as [|y b], k as [|k]; cbn; try reflexivity.
  - now destruct (nth_error a k).
  - apply IH.
Qed.

Lemma Forall2_len : forall {A B} (P : A -> B -> Prop) l m, Forall2 P l m -> length l = length m.
Proof. induction 1; cbn; congruence. Qed.

Lemma map_as_seq : forall {A B} (f : A -> B) l d,
  map f l = map (fun c => f (nth c l d)) (seq 0 (length l)).
Proof. intros A B f l d. now rewrite <- (map_map (fun c => nth c l d) f), map_nth_seq. Qed.

Definition wrap (n c : Z) : Z := if (c <? 0)%Z then (c + n)%Z else c.
Definition in_range (n c : Z) : Prop := (- n <= c < n)%Z.

Lemma in_range_dec : forall n c, in_range n c \/ ~ in_range n c.
Proof. unfold in_range. lia. Qed.

Lemma wrap_range : forall n c, in_range n c <-> (0 <= wrap n c < n)%Z.
Proof. intros n c. unfold in_range, wrap. destruct (Z.ltb_spec c 0); lia. Qed.

Section TakeCells.
  Context {A : Type} (l : list A).
  Let n := Z.of_nat (length l).

  (* one step of numpy's integer indexing: an index in [-n, n) yields its cell, any other
     raises at once *)
  Lemma take_cells_cons : forall c cs,
    (in_range n c -> exists x, nth_error l (Z.to_nat (wrap n c)) = Some x /\
       take_cells l (c :: cs) =
       match take_cells l cs with Ok xs => Ok (x :: xs) | Err e => Err e end) /\
    (~ in_range n c -> take_cells l (c :: cs) = Err IndexErr).
  Proof.
    intros c cs. rewrite wrap_range. cbn [take_cells]. fold n (wrap n c).
    destruct (Z.ltb_spec (wrap n c) 0), (Z.leb_spec n (wrap n c)); cbn [orb];
      (split; [lia || intros _|try lia; reflexivity]).
    destruct (nth_error l (Z.to_nat (wrap n c))) as [x|] eqn:E.
    - exists x. split; [reflexivity|]. now destruct (take_cells l cs).
    - apply nth_error_None in E. lia.
  Qed.

  Lemma take_cells_spec : forall cells r,
    take_cells l cells = Ok r ->
    Forall2 (fun c x => in_range n c /\ nth_error l (Z.to_nat (wrap n c)) = Some x) cells r.
  Proof.
    induction cells as [|c cs IH]; intros r H; [injection H as <-; constructor|].
    destruct (take_cells_cons c cs) as [Hin Hout], (in_range_dec n c) as [Hc|Hc].
    - destruct (Hin Hc) as (x & Ex & E). rewrite E in H.
      destruct (take_cells l cs); [|discriminate]. injection H as <-. auto.
    - rewrite (Hout Hc) in H. discriminate.
  Qed.

  Lemma take_cells_total : forall cells,
    Forall (in_range n) cells -> exists r, take_cells l cells = Ok r.
  Proof.
    induction 1 as [|c cs Hc _ [r Hr]]; [now exists []|].
    destruct (proj1 (take_cells_cons c cs) Hc) as (x & _ & E). rewrite E, Hr. eauto.
  Qed.

  Lemma take_cells_error : forall cells e,
    take_cells l cells = Err e -> e = IndexErr /\ Exists (fun c => ~ in_range n c) cells.
  Proof.
    intros cells e H. split.
    - revert H. induction cells as [|c cs IH]; [discriminate|].
      destruct (take_cells_cons c cs) as [Hin Hout], (in_range_dec n c) as [Hc|Hc].
      + destruct (Hin Hc) as (x & _ & ->). destruct (take_cells l cs); [discriminate|].
        intros [= <-]. now apply IH.
      + rewrite (Hout Hc). now intros [= <-].
    - apply Exists_Forall_neg; [intros; apply in_range_dec|]. intros Hall.
      destruct (take_cells_total cells Hall) as [r Hr]. congruence.
  Qed.

  Lemma take_cells_length : forall cells r, take_cells l cells = Ok r -> length r = length cells.
  Proof. intros cells r H. symmetry. exact (Forall2_len _ _ _ (take_cells_spec _ _ H)). Qed.
End TakeCells.

Lemma take_cells_same_length : forall {A B} (a : list A) (b : list B) cells ra,
  length a = length b -> take_cells a cells = Ok ra -> exists rb, take_cells b cells = Ok rb.
Proof.
  intros A B a b cells ra E H. apply take_cells_total. rewrite <- E.
  apply take_cells_spec in H. induction H as [|c x cs r [Hc _] _ IH]; auto.
Qed.

Lemma take_cells_map : forall {A B} (f : A -> B) l cells,
  take_cells (map f l) cells =
  match take_cells l cells with Ok r => Ok (map f r) | Err e => Err e end.
Proof.
  intros A B f l. induction cells as [|c cs IH]; cbn; [reflexivity|].
  rewrite map_length. destruct (_ || _); [reflexivity|].
  rewrite nth_error_map, IH.
  destruct (nth_error l _); destruct (take_cells l cs); reflexivity.
Qed.

Lemma take_cells_combine : forall {A B} (a : list A) (b : list B) cells ra rb,
  length a = length b ->
  take_cells a cells = Ok ra -> take_cells b cells = Ok rb ->
  take_cells (combine a b) cells = Ok (combine ra rb).
Proof.
  intros A B a b cells ra rb Hl. revert ra rb.
  induction cells as [|c cs IH]; intros ra rb Ha Hb; cbn in *.
  - injection Ha as <-. injection Hb as <-. reflexivity.
  - rewrite combine_length, <- Hl, Nat.min_id. rewrite <- Hl in Hb.
    destruct (_ || _); [discriminate|].
    rewrite nth_error_combine.
    destruct (nth_error a _) as [x|]; destruct (take_cells a cs) as [xs|]; try discriminate.
    destruct (nth_error b _) as [y|]; destruct (take_cells b cs) as [ys|]; try discriminate.
    injection Ha as <-. injection Hb as <-. rewrite (IH xs ys eq_refl eq_refl). reflexivity.
Qed.

Section Entries.
  Context {T : Type}.
  Implicit Types A B : m33 T.

  Lemma get_build : forall (f : idx -> idx -> T) i j, get (build f) i j = f i j.
  Proof. intros f i j. destruct i, j; reflexivity. Qed.

  Lemma build_get : forall A, build (get A) = A.
  Proof. intros [[[[a b] c] [[d e] f]] [[g h] k]]. reflexivity. Qed.

  Lemma m33_ext : forall A B, (forall i j, get A i j = get B i j) -> A = B.
  Proof.
    intros A B H. rewrite <- (build_get A), <- (build_get B). unfold build. now rewrite !H.
  Qed.

  Lemma get_transpose : forall A i j, get (transpose A) i j = get A j i.
  Proof. intros A i j. unfold transpose. now rewrite get_build. Qed.
End Entries.

Section Tensors.
  Context {T : Type} (ops : numops T).
  Local Infix "+" := (add ops).
  Local Infix "*" := (mul ops).
  Local Infix "-" := (sub ops).
  Local Notation dfl o d := (match o with Some a => a | None => d end).

  Definition symm (xx yy zz xy xz yz : T) : m33 T :=
    ((xx, xy, xz), (xy, yy, yz), (xz, yz, zz)).

  (* what the constructor stores for cell c, defaults filled in *)
  Definition cellm (kxx : list T) (kyy kzz kxy kxz kyz : option (list T)) (c : nat) : m33 T :=
    let z := map (mul ops (zero ops)) kxx in
    symm (nthT ops kxx c) (nthT ops (dfl kyy kxx) c) (nthT ops (dfl kzz kxx) c)
         (nthT ops (dfl kxy z) c) (nthT ops (dfl kxz z) c) (nthT ops (dfl kyz z) c).

  (* the 2x2 and 3x3 leading minors of a symmetric matrix, as the constructor writes them *)
  Definition lead2 (m : m33 T) : T := get m I0 I0 * get m I1 I1 - get m I0 I1 * get m I0 I1.
  Definition lead3 (m : m33 T) : T :=
    get m I0 I0 * (get m I1 I1 * get m I2 I2 - get m I1 I2 * get m I1 I2)
    - get m I0 I1 * (get m I0 I1 * get m I2 I2 - get m I0 I2 * get m I1 I2)
    + get m I0 I2 * (get m I0 I1 * get m I1 I2 - get m I0 I2 * get m I1 I1).

  (* the three "positive definite" tests: kxx, then the leading minors of every cell *)
  Definition checked (b : bool) (t : list (m33 T)) : res (list (m33 T)) :=
    if b then Err ValueErr
    else if any_neg ops (map lead2 t) then Err ValueErr
    else if any_neg ops (map lead3 t) then Err ValueErr
    else Ok t.

  Lemma checked_Ok : forall b t t', checked b t = Ok t' -> t' = t.
  Proof.
    intros b t t'. unfold checked.
    destruct b, (any_neg ops (map lead2 t)), (any_neg ops (map lead3 t)); congruence.
  Qed.

  Lemma checked_Err : forall b t e, checked b t = Err e -> e = ValueErr.
  Proof.
    intros b t e. unfold checked.
    destruct b, (any_neg ops (map lead2 t)), (any_neg ops (map lead3 t)); congruence.
  Qed.

  Lemma second_order_checked : forall kxx kyy kzz kxy kxz kyz,
    second_order ops kxx kyy kzz kxy kxz kyz =
    checked (any_neg ops kxx) (map (cellm kxx kyy kzz kxy kxz kyz) (seq 0 (length kxx))).
  Proof. intros. unfold second_order, checked, cellwise. rewrite !map_map. reflexivity. Qed.

  Lemma second_order_error : forall kxx kyy kzz kxy kxz kyz e,
    second_order ops kxx kyy kzz kxy kxz kyz = Err e -> e = ValueErr.
  Proof. intros *. rewrite second_order_checked. apply checked_Err. Qed.

  (* copy reads the lower triangle of every cell and runs the constructor on it *)
  Definition lower (m : m33 T) : m33 T :=
    symm (get m I0 I0) (get m I1 I1) (get m I2 I2) (get m I1 I0) (get m I2 I0) (get m I2 I1).

  Lemma copy2_checked : forall t,
    copy2 ops t = checked (any_neg ops (map (fun m => get m I0 I0) t)) (map lower t).
  Proof.
    intros t. unfold copy2. rewrite second_order_checked, map_length. f_equal.
    set (d := build (fun _ _ => zero ops)). rewrite (map_as_seq lower t d).
    apply map_ext_in. intros c Hc. apply in_seq in Hc. unfold cellm, lower, nthT.
    now rewrite !(nth_map_lt _ t c d) by lia.
  Qed.

  Lemma cellm_xx : forall kxx kyy kzz kxy kxz kyz,
    map (fun c => get (cellm kxx kyy kzz kxy kxz kyz c) I0 I0) (seq 0 (length kxx)) = kxx.
  Proof. intros. exact (map_nth_seq kxx (zero ops)). Qed.

  (* a constructed tensor passes the constructor's tests again and is re-built identically
     (value equality; that the arrays are fresh: C40_heap.v) *)
  Lemma copy_of_constructed : forall kxx kyy kzz kxy kxz kyz t,
    second_order ops kxx kyy kzz kxy kxz kyz = Ok t -> copy2 ops t = Ok t.
  Proof.
    intros * H. rewrite second_order_checked in H. pose proof (checked_Ok _ _ _ H) as ->.
    rewrite copy2_checked, !map_map, cellm_xx. exact H.
  Qed.

  Lemma restrict_of_constructed : forall kxx kyy kzz kxy kxz kyz t cells,
    second_order ops kxx kyy kzz kxy kxz kyz = Ok t ->
    restrict2 ops t cells = take_cells t cells.
  Proof. intros * H. unfold restrict2. now rewrite (copy_of_constructed _ _ _ _ _ _ _ H). Qed.

  Lemma rotate_cells : forall R t,
    length (rotate ops R t) = length t /\
    forall c d, nth c (rotate ops R t) (rot1 ops R d) = rot1 ops R (nth c t d).
  Proof.
    intros R t. unfold rotate. split; [apply map_length|]. intros c d. apply map_nth.
  Qed.

  Local Notation stiff := (fun ml => stiff_cell ops (fst ml) (snd ml)).

  Lemma fourth_order_spec : forall mu la,
    (length mu = length la ->
       fourth_order ops mu la =
       Ok {| t_mu := mu; t_lmbda := la; t_values := map stiff (combine mu la) |}) /\
    (length mu <> length la -> fourth_order ops mu la = Err ValueErr).
  Proof.
    intros mu la. unfold fourth_order. split; intros H.
    - now rewrite H, Nat.eqb_refl.
    - apply Nat.eqb_neq in H. now rewrite H.
  Qed.

  Lemma fourth_order_Ok : forall mu la t,
    fourth_order ops mu la = Ok t ->
    length mu = length la /\
    t = {| t_mu := mu; t_lmbda := la; t_values := map stiff (combine mu la) |}.
  Proof.
    intros mu la t. destruct (fourth_order_spec mu la) as [Hs He].
    destruct (Nat.eq_dec (length mu) (length la)) as [E|E]; [rewrite (Hs E)|rewrite (He E)];
      intros [= <-]. auto.
  Qed.

  Lemma fourth_order_checked_spec : forall mu la : arg T,
    (forall t, fourth_order_checked ops mu la = Ok t ->
       exists dm dl, mu = Arr 1%nat dm /\ la = Arr 1%nat dl /\ length dm = length dl /\
                     fourth_order ops dm dl = Ok t) /\
    (forall e, fourth_order_checked ops mu la = Err e ->
       e = ValueErr /\
       (mu = NotArray \/ la = NotArray \/ (exists n d, mu = Arr n d /\ n <> 1%nat) \/
        (exists n d, la = Arr n d /\ n <> 1%nat) \/
        (exists dm dl, mu = Arr 1%nat dm /\ la = Arr 1%nat dl /\ length dm <> length dl))).
  Proof.
    intros mu la. unfold fourth_order_checked.
    destruct mu as [|nm dm]; [split; [discriminate|intros e [= <-]; auto]|].
    destruct la as [|nl dl]; [split; [discriminate|intros e [= <-]; auto]|].
    destruct (Nat.eqb_spec nm 1%nat) as [->|Em]; cbn [negb].
    2:{ split; [discriminate|]. intros e [= <-]. split; auto. right. right. left. eauto. }
    destruct (Nat.eqb_spec nl 1%nat) as [->|El]; cbn [negb].
    2:{ split; [discriminate|]. intros e [= <-]. split; auto. right. right. right. left. eauto. }
    destruct (fourth_order_spec dm dl) as [Hs He].
    destruct (Nat.eq_dec (length dm) (length dl)) as [E|E]; [rewrite (Hs E)|rewrite (He E)].
    - split; [|discriminate]. intros t <-. exists dm, dl. auto.
    - split; [discriminate|]. intros e [= <-]. split; auto. do 4 right. eauto.
  Qed.

  Lemma stiff_cell_shape : forall mu la,
    length (stiff_cell ops mu la) = 9 /\
    Forall (fun r => length r = 9) (stiff_cell ops mu la) /\
    forall p q, p < 9 -> q < 9 ->
      entry ops (stiff_cell ops mu la) p q = entry ops (stiff_cell ops mu la) q p.
  Proof.
    intros mu la. split; [reflexivity|]. split; [repeat constructor|]. intros p q Hp Hq.
    do 9 (destruct p as [|p]; [do 9 (destruct q as [|q]; [reflexivity|]); lia|]). lia.
  Qed.

  Lemma copy4_of_constructed : forall mu la t,
    fourth_order ops mu la = Ok t -> copy4 ops t = Ok t.
  Proof.
    intros mu la t [E ->]%fourth_order_Ok. unfold copy4. cbn [t_mu t_lmbda t_values].
    now rewrite (proj1 (fourth_order_spec mu la) E).
  Qed.

  Lemma take_cells_values : forall (mu la : list T) cells m l,
    length mu = length la -> take_cells mu cells = Ok m -> take_cells la cells = Ok l ->
    take_cells (map stiff (combine mu la)) cells = Ok (map stiff (combine m l)).
  Proof. intros * E Em El. now rewrite take_cells_map, (take_cells_combine _ _ _ _ _ E Em El). Qed.

  Lemma restrict4_constructed : forall mu la t cells,
    fourth_order ops mu la = Ok t ->
    restrict4 ops t cells =
    match take_cells mu cells with
    | Err e => Err e
    | Ok m => match take_cells la cells with Err e => Err e | Ok l => fourth_order ops m l end
    end.
  Proof.
    intros mu la t cells H. unfold restrict4. rewrite (copy4_of_constructed _ _ _ H).
    apply fourth_order_Ok in H as [E ->]. cbn [t_mu t_lmbda t_values].
    destruct (take_cells mu cells) as [m|] eqn:Em; [|reflexivity].
    destruct (take_cells la cells) as [l|] eqn:El; [|reflexivity].
    rewrite (take_cells_values _ _ _ _ _ E Em El). symmetry. apply fourth_order_spec.
    now rewrite (take_cells_length _ _ _ Em), (take_cells_length _ _ _ El).
  Qed.

  Lemma restrict4_of_constructed : forall mu la t cells t',
    fourth_order ops mu la = Ok t -> restrict4 ops t cells = Ok t' ->
    take_cells mu cells = Ok (t_mu t') /\ take_cells la cells = Ok (t_lmbda t') /\
    take_cells (t_values t) cells = Ok (t_values t') /\
    fourth_order ops (t_mu t') (t_lmbda t') = Ok t'.
  Proof.
    intros mu la t cells t' H Hr. rewrite (restrict4_constructed _ _ _ _ H) in Hr.
    apply fourth_order_Ok in H as [E ->].
    destruct (take_cells mu cells) as [m|] eqn:Em; [|discriminate].
    destruct (take_cells la cells) as [l|] eqn:El; [|discriminate].
    destruct (fourth_order_Ok _ _ _ Hr) as [_ ->]. cbn [t_mu t_lmbda t_values].
    auto using take_cells_values.
  Qed.

  Lemma restrict4_error : forall mu la t cells e,
    fourth_order ops mu la = Ok t -> restrict4 ops t cells = Err e ->
    e = IndexErr /\ Exists (fun c => ~ in_range (Z.of_nat (length mu)) c) cells.
  Proof.
    intros mu la t cells e H Hr. rewrite (restrict4_constructed _ _ _ _ H) in Hr.
    apply fourth_order_Ok in H as [E _].
    destruct (take_cells mu cells) as [m|e1] eqn:Em; [exfalso|].
    - destruct (take_cells_same_length mu la cells m E Em) as [l El]. rewrite El in Hr.
      rewrite (proj1 (fourth_order_spec m l)) in Hr; [discriminate|].
      now rewrite (take_cells_length _ _ _ Em), (take_cells_length _ _ _ El).
    - injection Hr as <-. now apply take_cells_error.
  Qed.

  Lemma take_all_spec : forall (fields : list (list T)) cells fs,
    take_all fields cells = Ok fs ->
    Forall2 (fun f f' => take_cells f cells = Ok f') fields fs.
  Proof.
    induction fields as [|f r IH]; intros cells fs H; cbn in H.
    - injection H as <-. constructor.
    - destruct (take_cells f cells) as [f'|] eqn:Ef; [|discriminate].
      destruct (take_all r cells) as [r'|] eqn:Er; [|discriminate].
      injection H as <-. constructor; auto.
  Qed.

  Lemma fourth_order_x_Ok : forall mu la mats fields t,
    fourth_order_x ops mu la mats fields = Ok t ->
    length mu = length la /\
    x_mu t = mu /\ x_lmbda t = la /\ x_mats t = mats /\ x_fields t = fields.
  Proof.
    intros mu la mats fields t. unfold fourth_order_x.
    destruct (Nat.eqb_spec (length mu) (length la)); [|discriminate]. intros [= <-]. auto.
  Qed.

  Lemma copy4x_of_constructed : forall mu la mats fields t,
    fourth_order_x ops mu la mats fields = Ok t -> copy4x ops t = Ok t.
  Proof.
    intros mu la mats fields t H.
    destruct (fourth_order_x_Ok _ _ _ _ _ H) as (_ & E1 & E2 & E3 & E4).
    unfold copy4x. rewrite E1, E2, E3, E4, H. now destruct t; cbn in *; subst.
  Qed.

  Lemma restrict4x_of_constructed : forall mu la mats fields t cells t',
    fourth_order_x ops mu la mats fields = Ok t -> restrict4x ops t cells = Ok t' ->
    take_cells mu cells = Ok (x_mu t') /\ take_cells la cells = Ok (x_lmbda t') /\
    Forall2 (fun f f' => take_cells f cells = Ok f') fields (x_fields t') /\
    take_cells (x_values t) cells = Ok (x_values t') /\ x_mats t' = mats.
  Proof.
    intros mu la mats fields t cells t' H Hr. unfold restrict4x in Hr.
    rewrite (copy4x_of_constructed _ _ _ _ _ H) in Hr.
    destruct (fourth_order_x_Ok _ _ _ _ _ H) as (_ & <- & <- & <- & <-).
    destruct (take_cells (x_mu t) cells) as [m|]; [|discriminate].
    destruct (take_cells (x_lmbda t) cells) as [l|]; [|discriminate].
    destruct (take_all (x_fields t) cells) as [fs|] eqn:Ef; [|discriminate].
    destruct (take_cells (x_values t) cells) as [v|]; [|discriminate].
    injection Hr as <-. cbn. auto using take_all_spec.
  Qed.
End Tensors.

Section RingProofs.
  Variable T : Type.
  Variables (rO rI : T) (radd rmul rsub : T -> T -> T) (ropp : T -> T).
  Hypothesis Rth : ring_theory rO rI radd rmul rsub ropp eq.
  Add Ring Tring : Rth.
  Variable neg : T -> bool.     (* the test x < 0; nothing is assumed about it *)

  Definition rops : numops T :=
    {| zero := rO; one := rI; add := radd; mul := rmul; sub := rsub; isneg := neg |}.
  Notation ops := rops.

  Definition sym33 (m : m33 T) : Prop := forall i j, get m i j = get m j i.

  Definition cell_matrix (kxx kyy kzz kxy kxz kyz : list T) (c : nat) : m33 T :=
    ((nthT ops kxx c, nthT ops kxy c, nthT ops kxz c),
     (nthT ops kxy c, nthT ops kyy c, nthT ops kyz c),
     (nthT ops kxz c, nthT ops kyz c, nthT ops kzz c)).

  Definition dflt (o : option (list T)) (d : list T) : list T :=
    match o with Some a => a | None => d end.

  Lemma existsb_cellwise_ext : forall n (f g : nat -> T),
    (forall c, c < n -> f c = g c) ->
    any_neg ops (cellwise n f) = any_neg ops (cellwise n g).
  Proof.
    intros n f g H. unfold any_neg, cellwise. f_equal. apply map_ext_in.
    intros c Hc. apply in_seq in Hc. apply H. lia.
  Qed.

  Lemma second_order_ok : forall kxx kyy kzz kxy kxz kyz t,
    second_order ops kxx kyy kzz kxy kxz kyz = Ok t ->
    length t = length kxx /\ Forall sym33 t /\
    let z := map (rmul rO) kxx in
    t = map (cell_matrix kxx (dflt kyy kxx) (dflt kzz kxx) (dflt kxy z) (dflt kxz z)
                         (dflt kyz z)) (seq 0 (length kxx)).
  Proof.
    intros * H. rewrite second_order_checked in H. apply checked_Ok in H as ->.
    split; [now rewrite map_length, seq_length|]. split; [|reflexivity].
    apply Forall_map, Forall_forall. intros c _ i j. destruct i, j; reflexivity.
  Qed.

  Definition orthogonal (R : m33 T) : Prop := mmul ops (transpose R) R = ident ops.

  Section Algebra.
    Local Infix "+" := radd.
    Local Infix "*" := rmul.
    Local Infix "-" := rsub.
    Implicit Types A B C M R K : m33 T.

    (* [ring], once the projections of [rops] are reduced to the ring operations *)
    Ltac ring_ops := cbn [zero one add mul sub rops]; ring.

    Lemma get_mmul : forall A B i j, get (mmul ops A B) i j =
      get A i I0 * get B I0 j + get A i I1 * get B I1 j + get A i I2 * get B I2 j.
    Proof. intros. unfold mmul. now rewrite get_build. Qed.

    Lemma mmul_assoc : forall A B C, mmul ops (mmul ops A B) C = mmul ops A (mmul ops B C).
    Proof. intros. apply m33_ext; intros i j. rewrite !get_mmul. ring. Qed.

    Lemma mmul_ident_l : forall A, mmul ops (ident ops) A = A.
    Proof.
      intros. apply m33_ext; intros i j. rewrite get_mmul. unfold ident. rewrite !get_build.
      destruct i; ring_ops.
    Qed.

    Lemma transpose_mmul : forall A B,
      transpose (mmul ops A B) = mmul ops (transpose B) (transpose A).
    Proof.
      intros. apply m33_ext; intros i j. rewrite get_transpose, !get_mmul, !get_transpose. ring.
    Qed.

    Lemma transpose_transpose : forall A, transpose (transpose A) = A.
    Proof. intros. apply m33_ext; intros i j. now rewrite !get_transpose. Qed.

    Lemma transpose_sym : forall K, sym33 K <-> transpose K = K.
    Proof.
      intros K. split; intros H.
      - apply m33_ext; intros i j. rewrite get_transpose. apply H.
      - intros i j. rewrite <- H at 1. apply get_transpose.
    Qed.

    (* the two tensordot calls compute  R * K^T * R^T  (= R K R^T for symmetric K) *)
    Lemma rot1_formula : forall R K,
      rot1 ops R K = mmul ops (mmul ops R (transpose K)) (transpose R).
    Proof.
      intros. apply m33_ext; intros a i. unfold rot1, sum3.
      rewrite get_build, !get_mmul, !get_transpose. ring_ops.
    Qed.

    Lemma rot1_sym : forall R K, sym33 K ->
      rot1 ops R K = mmul ops (mmul ops R K) (transpose R) /\ sym33 (rot1 ops R K).
    Proof.
      intros R K S. apply transpose_sym in S. rewrite transpose_sym, rot1_formula, S.
      split; [reflexivity|]. now rewrite !transpose_mmul, transpose_transpose, S, mmul_assoc.
    Qed.

    (* trace, second invariant and determinant take the same value on AB and BA, and on a
       matrix and its transpose *)
    Lemma trace_cyc : forall A B, trace ops (mmul ops A B) = trace ops (mmul ops B A).
    Proof. intros. unfold trace. rewrite !get_mmul. ring_ops. Qed.

    Lemma inv2_cyc : forall A B, inv2 ops (mmul ops A B) = inv2 ops (mmul ops B A).
    Proof. intros. unfold inv2. rewrite !get_mmul. ring_ops. Qed.

    Lemma det_mmul : forall A B, det ops (mmul ops A B) = det ops A * det ops B.
    Proof. intros. unfold det. rewrite !get_mmul. ring_ops. Qed.

    Lemma det_cyc : forall A B, det ops (mmul ops A B) = det ops (mmul ops B A).
    Proof. intros. rewrite !det_mmul. ring. Qed.

    Lemma trace_transpose : forall M, trace ops (transpose M) = trace ops M.
    Proof. intros. unfold trace. now rewrite !get_transpose. Qed.

    Lemma inv2_transpose : forall M, inv2 ops (transpose M) = inv2 ops M.
    Proof. intros. unfold inv2. rewrite !get_transpose. ring_ops. Qed.

    Lemma det_transpose : forall M, det ops (transpose M) = det ops M.
    Proof. intros. unfold det. rewrite !get_transpose. ring_ops. Qed.

    (* ... so each of them is unchanged by R . R^T when R^T R = I:
       f (R K^T R^T) = f (R^T R K^T) = f (K^T) = f K *)
    Lemma similarity_invariant : forall f : m33 T -> T,
      (forall A B, f (mmul ops A B) = f (mmul ops B A)) -> (forall M, f (transpose M) = f M) ->
      forall R K, orthogonal R -> f (rot1 ops R K) = f K.
    Proof.
      intros f Hc Ht R K H. rewrite rot1_formula, Hc, <- mmul_assoc, H, mmul_ident_l. apply Ht.
    Qed.

    Lemma charpoly_invariants : forall lam M,
      det ops (lam_minus ops lam M) =
      lam * (lam * lam) - trace ops M * (lam * lam) + inv2 ops M * lam - det ops M.
    Proof. intros. unfold det, trace, inv2, lam_minus. rewrite !get_build. ring_ops. Qed.

    Lemma rot_invariants : forall R K, orthogonal R ->
      trace ops (rot1 ops R K) = trace ops K /\
      det ops (rot1 ops R K) = det ops K /\
      inv2 ops (rot1 ops R K) = inv2 ops K /\
      forall lam, det ops (lam_minus ops lam (rot1 ops R K)) = det ops (lam_minus ops lam K).
    Proof.
      intros R K H.
      pose proof (similarity_invariant _ trace_cyc trace_transpose R K H) as Et.
      pose proof (similarity_invariant _ det_cyc det_transpose R K H) as Ed.
      pose proof (similarity_invariant _ inv2_cyc inv2_transpose R K H) as Ei.
      repeat split; trivial. intros lam. now rewrite !charpoly_invariants, Et, Ed, Ei.
    Qed.
  End Algebra.

  Definition delta (i j : idx) : T :=
    match i, j with I0, I0 | I1, I1 | I2, I2 => rI | _, _ => rO end.
  Definition n_of (i : idx) : nat := match i with I0 => 0 | I1 => 1 | I2 => 2 end.

  (* the 9x9 matrix of a cell is the isotropic stiffness tensor
       C_ijkl = lmbda d_ij d_kl + mu (d_ik d_jl + d_il d_jk),  row 3i+j, column 3k+l *)
  Lemma stiff_cell_formula : forall mu la i j k l,
    entry ops (stiff_cell ops mu la) (3 * n_of i + n_of j) (3 * n_of k + n_of l) =
    radd (rmul la (rmul (delta i j) (delta k l)))
         (rmul mu (radd (rmul (delta i k) (delta j l)) (rmul (delta i l) (delta j k)))).
  Proof.
    intros mu la i j k l. destruct i, j, k, l; lazy; ring.
  Qed.
End RingProofs.
