(* C14 — gluing of sub-discretisations and partial updates, over the reals.
   The local discretisation matrices are arbitrary (local row, global column) -> R
   functions; the kernel's locality is a hypothesis. *)
From Coq Require Import List Arith Bool Lia Reals Lra.
Import ListNotations.
From PP Require Import Lib.ListFacts Model.C14 Proofs.C14_graph.
Local Open Scope R_scope.

Definition lmat := nat -> nat -> R.
Definition part := (subproblem * lmat)%type.

Definition sumR (l : list R) : R := fold_right Rplus 0 l.

(* (face_map . zero_rows_outside(F)(D))[f, c]: local rows k whose global face l2g[k] is f
   and lies in F *)
Definition contrib_from (s : nat) (l2g F : list nat) (D : lmat) (f c : nat) : R :=
  sumR (map (fun kg => if Nat.eqb (snd kg) f && memb (snd kg) F then D (fst kg) c else 0)
            (combine (seq s (length l2g)) l2g)).

Definition contrib (p : part) : lmat :=
  contrib_from 0 (l2g_faces (fst p)) (faces_in_subgrid (fst p)) (snd p).

(* the loop over the subproblems; in the shortcut branch (all faces in this subgrid) the
   local result is added without the identity mappings, otherwise through face_map *)
Definition step (nf : nat) (acc : lmat) (p : part) : lmat :=
  if takes_shortcut nf (fst p) then fun f c => acc f c + contrib p f c
  else fun f c => acc f c + contrib p f c.

(* the loop before the repair: the shortcut REPLACED the running sum *)
Definition step_unrepaired (nf : nat) (acc : lmat) (p : part) : lmat :=
  if takes_shortcut nf (fst p) then contrib p else fun f c => acc f c + contrib p f c.

Definition assemble_unrepaired (nf : nat) (ps : list part) : lmat :=
  fun f c => fold_left (step_unrepaired nf) ps (fun _ _ => 0) f c
             / INR (nth f (num_face_repetitions (map fst ps)) 0%nat).

Definition assemble (nf : nat) (ps : list part) : lmat :=
  fun f c => fold_left (step nf) ps (fun _ _ => 0) f c
             / INR (nth f (num_face_repetitions (map fst ps)) 0%nat).

(* mapping the active-grid result to the full grid, zeroing the rows outside the active
   faces, then storing: update mode replaces the rows of the active faces only *)
Definition to_global (ext_faces active : list nat) (A : lmat) : lmat :=
  contrib_from 0 ext_faces active A.

Definition stored (update : bool) (old glob : lmat) (active : list nat) : lmat :=
  fun f c => if update then (if memb f active then glob f c else old f c) else glob f c.

Lemma contrib_from_cons : forall s g l F D f c,
  contrib_from s (g :: l) F D f c
  = (if Nat.eqb g f && memb g F then D s c else 0) + contrib_from (S s) l F D f c.
Proof. reflexivity. Qed.

Lemma contrib_from_zero : forall l2g s F D f c, ~ In f l2g -> contrib_from s l2g F D f c = 0.
Proof.
  induction l2g as [|g l IH]; intros s F D f c H; [reflexivity|].
  rewrite contrib_from_cons, IH by (intros Hin; apply H; right; exact Hin).
  destruct (Nat.eqb_spec g f) as [E|_]; [destruct H; left; exact E|]. cbn [andb]. lra.
Qed.

Lemma contrib_from_spec : forall (G : lmat) l2g s F D f c, NoDup l2g ->
  (forall j, (j < length l2g)%nat -> In (nth j l2g 0%nat) F -> D (s + j)%nat c = G (nth j l2g 0%nat) c) ->
  contrib_from s l2g F D f c = if memb f l2g && memb f F then G f c else 0.
Proof.
  intros G. induction l2g as [|g l IH]; intros s F D f c ND L; [reflexivity|].
  inversion ND as [|? ? Hg ND']; subst.
  rewrite contrib_from_cons, memb_cons, (Nat.eqb_sym f g).
  destruct (Nat.eqb_spec g f) as [->|E]; cbn [andb orb].
  - (* f is not met again: the list has no repetition *)
    rewrite contrib_from_zero by exact Hg. destruct (memb f F) eqn:MF; [|lra].
    specialize (L 0%nat). cbn [length nth] in L. rewrite Nat.add_0_r in L.
    rewrite L; [lra|lia|apply memb_In, MF].
  - rewrite (IH (S s) F D f c ND'); [lra|].
    intros j Hj. rewrite Nat.add_succ_comm. apply (L (S j)). cbn [length]. lia.
Qed.

Lemma bincount_nth : forall l f, nth f (bincount l) 0%nat = count_occ Nat.eq_dec l f.
Proof.
  intros l f. unfold bincount.
  destruct (le_lt_dec (S (fold_right Nat.max 0%nat l)) f) as [H|H].
  - rewrite nth_overflow by (rewrite map_length, seq_length; exact H).
    symmetry. apply count_occ_not_In. intros Hin. apply max_ge in Hin. lia.
  - apply (nth_map_seq _ 0 _ f 0%nat H).
Qed.

Lemma count_occ_concat : forall (ls : list (list nat)) f,
  count_occ Nat.eq_dec (concat ls) f = fold_right plus 0%nat (map (fun l => count_occ Nat.eq_dec l f) ls).
Proof.
  induction ls as [|l ls IH]; intros f; [reflexivity|].
  cbn [concat map fold_right]. rewrite count_occ_app, IH. reflexivity.
Qed.

Lemma count_occ_nodup : forall l f, NoDup l ->
  count_occ Nat.eq_dec l f = if memb f l then 1%nat else 0%nat.
Proof.
  intros l f ND. destruct (memb f l) eqn:M.
  - apply memb_In in M. apply NoDup_count_occ' with (decA := Nat.eq_dec) in M; assumption.
  - apply count_occ_not_In. intros Hin. apply memb_In in Hin. congruence.
Qed.

Section Glue.
  Variable G : lmat.          (* the one-piece discretisation *)
  Variable nf : nat.

  (* locality of the kernel: on the faces a subproblem is responsible for, its local
     discretisation (columns mapped to the global numbering) equals the global one *)
  Definition local_ok (p : part) : Prop :=
    forall k c, (k < length (l2g_faces (fst p)))%nat ->
      In (nth k (l2g_faces (fst p)) 0%nat) (faces_in_subgrid (fst p)) ->
      snd p k c = G (nth k (l2g_faces (fst p)) 0%nat) c.

  Definition part_ok (p : part) : Prop :=
    NoDup (l2g_faces (fst p)) /\ NoDup (faces_in_subgrid (fst p)) /\
    (forall f, In f (faces_in_subgrid (fst p)) -> In f (l2g_faces (fst p))).

  Lemma contrib_spec : forall p f c, part_ok p -> local_ok p ->
    contrib p f c = if memb f (faces_in_subgrid (fst p)) then G f c else 0.
  Proof.
    intros p f c [ND [_ SUB]] L. unfold contrib.
    rewrite (contrib_from_spec G) by (auto; intros j Hj Hin; apply L; assumption).
    destruct (memb f (faces_in_subgrid (fst p))) eqn:MF; [|rewrite andb_false_r; reflexivity].
    apply memb_In in MF. apply SUB in MF. apply memb_In in MF. rewrite MF. reflexivity.
  Qed.

  Definition hits (f : nat) (ps : list part) : nat :=
    fold_right plus 0%nat (map (fun p => if memb f (faces_in_subgrid (fst p)) then 1%nat else 0%nat) ps).

  Lemma hits_cons : forall f p ps,
    hits f (p :: ps) = ((if memb f (faces_in_subgrid (fst p)) then 1 else 0) + hits f ps)%nat.
  Proof. reflexivity. Qed.

  Lemma hits_pos : forall f p ps,
    In p ps -> In f (faces_in_subgrid (fst p)) -> (0 < hits f ps)%nat.
  Proof.
    intros f p ps Hp Hin. induction ps as [|q ps IH]; [contradiction|]. rewrite hits_cons.
    destruct Hp as [->|Hp]; [rewrite (proj2 (memb_In _ _) Hin)|specialize (IH Hp)]; lia.
  Qed.

  Lemma fold_additive : forall ps acc f c,
    Forall part_ok ps -> Forall local_ok ps ->
    fold_left (step nf) ps acc f c = acc f c + INR (hits f ps) * G f c.
  Proof.
    induction ps as [|p ps IH]; intros acc f c OK LO.
    - cbn. lra.
    - inversion OK as [|? ? OK1 OK2]; subst. inversion LO as [|? ? LO1 LO2]; subst.
      cbn [fold_left]. rewrite IH by assumption.
      assert (E : step nf acc p f c = acc f c + contrib p f c).
      { unfold step. destruct (takes_shortcut nf (fst p)); reflexivity. }
      rewrite E, contrib_spec, hits_cons, plus_INR by assumption.
      destruct (memb f (faces_in_subgrid (fst p))); cbn [INR]; lra.
  Qed.

  Lemma reps_hits : forall ps f, Forall part_ok ps ->
    nth f (num_face_repetitions (map fst ps)) 0%nat = hits f ps.
  Proof.
    intros ps f OK. unfold num_face_repetitions. rewrite bincount_nth, count_occ_concat.
    unfold hits. rewrite !map_map. induction OK as [|p ps [_ [ND _]] OK IH]; [reflexivity|].
    cbn [map fold_right]. rewrite IH. f_equal. apply count_occ_nodup. exact ND.
  Qed.

  (* the glued matrix equals the one-piece discretisation on every face, for any number
     of subproblems and any overlap multiplicities *)
  Theorem split_sum : forall ps,
    Forall part_ok ps -> Forall local_ok ps ->
    (forall f, (f < nf)%nat -> exists p, In p ps /\ In f (faces_in_subgrid (fst p))) ->
    forall f c, (f < nf)%nat -> assemble nf ps f c = G f c.
  Proof.
    intros ps OK LO COV f c Hf. unfold assemble.
    rewrite fold_additive by assumption. rewrite reps_hits by assumption.
    assert (H : (0 < hits f ps)%nat).
    { destruct (COV f Hf) as [p [Hp Hin]]. exact (hits_pos f p ps Hp Hin). }
    assert (HR : INR (hits f ps) <> 0) by (apply not_0_INR; lia).
    field. exact HR.
  Qed.
End Glue.

(* before the repair: the shortcut taken by a later subproblem discarded what was
   accumulated before it *)
Lemma shortcut_overwrites : exists (nf : nat) (ps : list part) (f c : nat),
  Forall (part_ok) ps /\ (f < nf)%nat /\
  assemble_unrepaired nf ps f c <> (fun _ _ => 1) f c /\
  Forall (local_ok (fun _ _ => 1)) ps.
Proof.
  exists 1%nat, [(mksub [0%nat] [] [] [0%nat], fun _ _ => 1); (mksub [0%nat] [] [] [0%nat], fun _ _ => 1)], 0%nat, 0%nat.
  assert (OK : part_ok (mksub [0%nat] [] [] [0%nat], fun _ _ => 1)).
  { unfold part_ok. cbn [fst faces_in_subgrid l2g_faces]. repeat split.
    - constructor; [intros H; inversion H|constructor].
    - constructor; [intros H; inversion H|constructor].
    - auto. }
  split; [|split; [|split]].
  - constructor; [exact OK|constructor; [exact OK|constructor]].
  - lia.
  - unfold assemble_unrepaired. cbn. lra.
  - repeat constructor; intros k c _ _; reflexivity.
Qed.
