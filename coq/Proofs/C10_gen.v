(* C10 — the whole simulation.  iterate_indices / time_step_indices are arbitrary lists whose
   SET is an initial segment 0..m-1 (any order, repetitions; the shift depth is the LENGTH of
   the list, as in the code): prepare_simulation leaves both slots windows over copies of
   the initial values, so Proofs.C10.drive_ok applies.  The index sets 0..d-1 are the special
   case [index_set_seq]. *)
From Coq Require Import List ZArith Bool Arith Lia.
From Coq Require FinFun.
Import ListNotations.
From PP Require Model.C08 Model.C09 Proofs.C08.
From PP Require Import Model.C10 Proofs.C10.

Definition index_set (l : list Z) (m : nat) : Prop :=
  1 <= m /\ Forall (fun i => (0 <= i)%Z) l /\ forall j, In (Z.of_nat j) l <-> j < m.

Lemma index_set_seq d : 1 <= d -> index_set (map Z.of_nat (seq 0 d)) d.
Proof.
  intros Hd. split; [exact Hd|split].
  - apply Forall_forall. intros i Hi. apply in_map_iff in Hi as (j & <- & _). lia.
  - intros j. rewrite in_map_iff. split.
    + intros (k & E & Hk). apply Nat2Z.inj in E. subst k. apply in_seq in Hk. lia.
    + intros Hj. exists j. split; [reflexivity|apply in_seq; lia].
Qed.

Lemma index_set_length l m : index_set l m -> m <= length l.
Proof.
  intros (_ & _ & Hin).
  assert (Hnd : NoDup (map Z.of_nat (seq 0 m))).
  { apply FinFun.Injective_map_NoDup; [intros x y; apply Nat2Z.inj|apply seq_NoDup]. }
  assert (Hincl : incl (map Z.of_nat (seq 0 m)) l).
  { intros z Hz. apply in_map_iff in Hz as (j & <- & Hj). apply in_seq in Hj. apply Hin. lia. }
  pose proof (NoDup_incl_length Hnd Hincl) as H. rewrite map_length, seq_length in H. exact H.
Qed.

Section Init.
  Variable V : Type.
  Variable vadd : V -> V -> V.
  Notation R := (C08.R V).

  Lemma set_slot s i v : (0 <= i)%Z ->
    exists s', C08.step vadd s (C08.OpSet i v) = (s', C08.ODone) /\
               forall j, slot_get s' j = if Nat.eqb (Z.to_nat i) j then Some v else slot_get s j.
  Proof.
    intros Hi. pose proof (fun j => C08.set_is_map_update V vadd s i v j Hi) as Hup.
    cbn [C08.step] in *. destruct (Z.ltb_spec i 0); [lia|]. eexists. split; [reflexivity|].
    exact Hup.
  Qed.

  Definition keyed (s : C08.st V) (P : nat -> Prop) (v : V) : Prop :=
    forall j, (P j -> slot_get s j = Some v) /\ (~ P j -> slot_get s j = None).

  Lemma keyed_ext s P Q v : (forall j, P j <-> Q j) -> keyed s P v -> keyed s Q v.
  Proof. intros HPQ Hk j. rewrite <- HPQ. apply Hk. Qed.

  Lemma set_all_keys v : forall l s P,
      Forall (fun i => (0 <= i)%Z) l -> keyed s P v ->
      exists s', set_all V vadd s l v = (s', None) /\
                 keyed s' (fun j => In (Z.of_nat j) l \/ P j) v.
  Proof.
    induction l as [|i l IH]; intros s P Hl Hk.
    - exists s. split; [reflexivity|]. apply (keyed_ext s P); [cbn; tauto|exact Hk].
    - inversion Hl as [|i' l' Hi Hl']; subst. cbn [set_all].
      destruct (set_slot s i v Hi) as (s1 & -> & H1). cbn [oerr].
      destruct (IH s1 (fun j => i = Z.of_nat j \/ P j) Hl') as (s' & -> & Hk').
      { intros j. rewrite H1. destruct (Nat.eqb_spec (Z.to_nat i) j) as [E|E].
        - split; [reflexivity|]. intros H. destruct H. left. lia.
        - split; intros H; apply Hk; [destruct H; [lia|assumption]|tauto]. }
      exists s'. split; [reflexivity|]. eapply keyed_ext; [|exact Hk'].
      cbn [In]. intros j. tauto.
  Qed.

  Lemma keyed_R d m s P v :
    1 <= m -> m <= d -> (forall j, P j <-> j < m) -> keyed s P v -> R d s (repeat v m).
  Proof.
    intros Hm Hmd HP Hk. destruct s as [dct|]; cbn [C08.R].
    - intros j. rewrite firstn_all2 by (rewrite repeat_length; exact Hmd).
      destruct (Nat.lt_ge_cases j m) as [Hj|Hj].
      + rewrite nth_error_repeat by exact Hj. apply (Hk j), HP, Hj.
      + rewrite (proj2 (nth_error_None _ _)) by (rewrite repeat_length; exact Hj).
        apply (Hk j). rewrite HP. lia.
    - assert (H0 : slot_get None 0 = Some v) by (apply Hk, HP; lia). discriminate H0.
  Qed.

  Lemma init_general iti tsi mI mT v0 :
    index_set iti mI -> index_set tsi mT ->
    exists st, init V vadd iti tsi v0 = (st, None) /\
               R (length iti) (its st) (repeat v0 mI) /\ R (length tsi) (tss st) (repeat v0 mT).
  Proof.
    intros HI HT. pose proof (index_set_length _ _ HI) as HlI.
    pose proof (index_set_length _ _ HT) as HlT.
    destruct HI as (HmI & HnnI & HinI). destruct HT as (HmT & HnnT & HinT).
    unfold init.
    change (C08.step vadd None (C08.OpSet 0 v0)) with (Some [Some v0], @C08.ODone V).
    cbv beta iota.
    change (C08.step vadd (Some [Some v0]) (C08.OpGet 0)) with (Some [Some v0], C08.OVal v0).
    cbv beta iota.
    (* index 0 has been written by initial_condition *)
    destruct (set_all_keys v0 iti (Some [Some v0]) (fun j => j = 0) HnnI) as (s1 & -> & K1).
    { intros [|j]; split; try reflexivity; try congruence. intros _. apply C08.lookup_nil. }
    destruct (set_all_keys v0 tsi None (fun _ => False) HnnT) as (s2 & -> & K2).
    { intros j. split; [contradiction|reflexivity]. }
    eexists. split; [reflexivity|]. cbn [its tss]. split.
    - apply (keyed_R _ mI _ _ _ HmI HlI) in K1; [exact K1|]. intros j. rewrite HinI. lia.
    - apply (keyed_R _ mT _ _ _ HmT HlT) in K2; [exact K2|]. intros j. rewrite HinT. tauto.
  Qed.
End Init.

Section Accepted.
  Variable V : Type.
  Variable vadd : V -> V -> V.
  Variable T : Type.
  Variable v0 : V.
  Notation acc_of := (accepted vadd (T := T) v0).

  Lemma accepted_snoc pre e : acc_of (pre ++ [e]) = accept1 vadd (acc_of pre) e.
  Proof. unfold accepted. rewrite fold_left_app. reflexivity. Qed.

  Lemma accepted_nonempty tr : acc_of tr <> [].
  Proof. apply accepts_nonempty. discriminate. Qed.
End Accepted.

Theorem index_lists_thm :
  forall (V : Type) (vadd : V -> V -> V) (T : Type) (O : C09.numops T)
         (iti tsi : list Z) (mI mT : nat),
    index_set iti mI -> index_set tsi mT ->
    forall (maxit : Z) (v0 : V) (a : C09.args T) (sched : list T)
           (solves : list (list (V * bool * bool)))
           (c : C09.cfg T) (st0 : store V) (tr : list (entry V T)) (sp : stop),
    simulate V vadd T O maxit a sched iti tsi v0 solves = inl (c, st0, (tr, sp)) ->
    (forall e, sp <> RaisedStore e) /\
    (forall pre e post, tr = pre ++ e :: post ->
       (forall x, e_res e <> NErr x) /\ e_res e <> NOut /\
       (forall i, slot_get (tss (e_store e)) i
                  = if i <? length tsi
                    then nth_error (accepted vadd v0 (pre ++ [e]) ++ repeat v0 (mT - 1)) i
                    else None) /\
       (no_exc e = true ->
          slot_get (its (e_store e)) 0 = Some (hd v0 (accepted vadd v0 (pre ++ [e]))))) /\
    (forall i, slot_get (tss (final_store st0 tr)) i
               = if i <? length tsi
                 then nth_error (accepted vadd v0 tr ++ repeat v0 (mT - 1)) i else None) /\
    C09.simulate T O a sched (map ev_of tr) = inl (c, (map clock_of tr, stop_of sp)).
Proof.
  intros V vadd T O iti tsi mI mT HI HT maxit v0 a sched solves c st0 tr sp H.
  pose proof (index_set_length _ _ HI) as HlI. pose proof (index_set_length _ _ HT) as HlT.
  assert (HdI : 1 <= length iti) by (destruct HI; lia).
  assert (HdT : 1 <= length tsi) by (destruct HT; lia).
  unfold simulate, C09.simulate in *.
  destruct (C09.construct T O a sched) as [c'|e]; [|discriminate].
  destruct (init_general V vadd iti tsi mI mT v0 HI HT) as (st & Ei & Ri & Rt).
  rewrite Ei in H. injection H as -> -> Hd.
  set (pad := repeat v0 (mT - 1)).
  assert (HWI : WI V (length iti) st0 v0).
  { destruct HI as (HmI & _). destruct mI as [|m]; [lia|]. exists (repeat v0 m). exact Ri. }
  assert (HWT : WT V (length tsi) pad st0 [v0]).
  { unfold WT, pad. destruct HT as (HmT & _). destruct mT as [|m]; [lia|].
    rewrite Nat.sub_succ, Nat.sub_0_r. exact Rt. }
  destruct (drive_ok V vadd T O (length iti) (length tsi) HdI HdT maxit c sched v0 pad
                     solves _ _ [v0] _ _ ltac:(discriminate) HWI HWT Hd) as (H1 & H3 & H4).
  assert (Hget : forall st' acc, acc <> [] -> WT V (length tsi) pad st' acc -> forall i,
             slot_get (tss st') i
             = if i <? length tsi then nth_error (acc ++ pad) i else None).
  { intros st' acc Hne HW i. apply (R_get V (length tsi) (tss st') (acc ++ pad) i); [|exact HW].
    destruct acc; [congruence|discriminate]. }
  split; [exact H1|split; [|split]].
  - intros pre e post ->.
    apply (trace_ok_app V vadd T (length iti) (length tsi) v0 pad) in H3.
    destruct H3 as [(E1 & E2 & E3 & E4) _].
    rewrite accepted_snoc.
    split; [exact E1|split; [exact E2|split]].
    + apply Hget; [apply accept_nonempty, accepted_nonempty|exact E3].
    + intros Hn. destruct (E4 Hn) as [r HR].
      rewrite (R_get V (length iti) _ _ 0 (not_eq_sym (@nil_cons _ _ _)) HR).
      destruct (length iti); [lia|reflexivity].
  - apply Hget; [apply accepted_nonempty|].
    apply (final_store_WT V vadd T (length iti) (length tsi) v0 pad); assumption.
  - rewrite H4. reflexivity.
Qed.

Theorem index_lists_only_constructor_fails :
  forall (V : Type) (vadd : V -> V -> V) (T : Type) (O : C09.numops T)
         (iti tsi : list Z) (mI mT : nat),
    index_set iti mI -> index_set tsi mT ->
    forall (maxit : Z) (v0 : V) (a : C09.args T) (sched : list T)
           (solves : list (list (V * bool * bool))) (f : failure),
    simulate V vadd T O maxit a sched iti tsi v0 solves = inr f ->
    exists e, f = CtorErr e /\ C09.construct T O a sched = inr e.
Proof.
  intros V vadd T O iti tsi mI mT HI HT maxit v0 a sched solves f H. unfold simulate in H.
  destruct (C09.construct T O a sched) as [c'|e].
  - destruct (init_general V vadd iti tsi mI mT v0 HI HT) as (st & Ei & _). rewrite Ei in H.
    discriminate.
  - injection H as <-. exists e. split; reflexivity.
Qed.

Definition seq_lists_thm V vadd T O dI dT (HdI : 1 <= dI) (HdT : 1 <= dT) :=
  index_lists_thm V vadd T O _ _ dI dT (index_set_seq dI HdI) (index_set_seq dT HdT).

Section Seq.
  Variable V : Type.
  Variable T : Type.
  Variable v0 : V.

  (* with m = d the time-step window is filled by the accepted solutions and v0 *)
  Lemma nth_error_pad d acc i : acc <> [] -> i < d ->
    nth_error (acc ++ repeat v0 (d - 1)) i = Some (nth i acc v0).
  Proof.
    intros Hne Hi. destruct acc as [|p q]; [congruence|].
    rewrite (nth_error_nth' _ v0) by (rewrite app_length, repeat_length; cbn [length]; lia).
    f_equal. destruct (Nat.lt_ge_cases i (length (p :: q))) as [Hlt|Hge].
    - apply app_nth1, Hlt.
    - rewrite app_nth2, (nth_overflow (p :: q)) by exact Hge. apply nth_repeat.
  Qed.

  Lemma no_exc_of (e : entry V T) :
    e_res e = NFail \/ (exists k, e_res e = NConv k) -> (forall x, e_out e <> C09.OErr x) ->
    no_exc e = true.
  Proof.
    intros Hres Hout. unfold no_exc.
    destruct Hres as [-> | [k ->]]; destruct (e_out e); try reflexivity; destruct (Hout _ eq_refl).
  Qed.
End Seq.
