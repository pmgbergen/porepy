(* C27 — lemmas: the conformity flags of MortarProjections and its cached accessors: in every
   call history a call answers with the construction of its own flavour or, on a side
   classified as conforming, with that of the twin flavour (int <-> avg). *)
From Coq Require Import List QArith Bool Arith.
Import ListNotations.
From PP Require Import Model.C27 Model.C27_spec Model.C27_ext.
Local Open Scope nat_scope.

Lemma close1_iff : forall x, close1 x = true <-> within_tol x.
Proof. intros x. apply Qle_bool_iff. Qed.

Lemma all_close1_iff : forall ms, all_close1 ms = true <-> all_within_tol ms.
Proof.
  intros ms. unfold all_close1, all_within_tol. rewrite forallb_forall, Forall_forall.
  split; intros H m Hm; specialize (H m Hm).
  - rewrite forallb_forall in H. apply Forall_forall. intros e He. apply close1_iff. now apply H.
  - rewrite Forall_forall in H. apply forallb_forall. intros e He. apply close1_iff. now apply H.
Qed.

Lemma pkind_eqb_eq : forall a b, pkind_eqb a b = true -> a = b.
Proof. intros [] []; cbn; intros H; try reflexivity; discriminate H. Qed.

Lemma slot_eqb_eq : forall a b, slot_eqb a b = true -> a = b.
Proof.
  intros [] []; cbn; intros H; try reflexivity; try discriminate H.
  f_equal. now apply pkind_eqb_eq.
Qed.

Lemma slot_eqb_refl : forall a, slot_eqb a a = true.
Proof. intros [| | | |[]]; reflexivity. Qed.

Lemma same_slot_cases : forall mp k k',
    slot_of mp k = slot_of mp k' -> k' = k \/ (k' = twin k /\ side_conf mp k = true).
Proof.
  intros mp k k'. unfold slot_of, side_conf.
  destruct (mp_conf_p mp); destruct (mp_conf_s mp); destruct k, k';
    cbn [k_is_primary k_to_mortar twin]; intros H;
    try (left; reflexivity); try discriminate H; right; split; reflexivity.
Qed.

Lemma twin_answer : forall mp k,
    conf_guard mp -> side_conf mp k = true -> answer mp (twin k) = answer mp k.
Proof.
  intros mp k (Hp & Hs). unfold side_conf, answer.
  destruct k; cbn [k_is_primary k_to_mortar twin]; intros H;
    (destruct (Hp H) as (E1 & E2) || destruct (Hs H) as (E1 & E2)); congruence.
Qed.

(* the object with cache c: calls change nothing else *)
Definition with_cache (mp : mproj) (c : list (slot * mat)) : mproj :=
  mkMP (mp_sds mp) (mp_ifs mp) (mp_nd mp) (mp_loc mp) (mp_conf_p mp) (mp_conf_s mp) c.

Definition cache_ok (mp : mproj) (c : list (slot * mat)) : Prop :=
  forall s m, cache_get c s = Some m ->
              exists k0, slot_of mp k0 = s /\ answer mp k0 = Ok m.

Definition own_or_twin (mp : mproj) (k : pkind) (o : res mat) : Prop :=
  o = answer mp k \/ (side_conf mp k = true /\ o = answer mp (twin k)).

Lemma mp_run_spec : forall ks mp c,
    cache_ok mp c -> Forall2 (own_or_twin mp) ks (mp_run (with_cache mp c) ks).
Proof.
  induction ks as [|k ks IH]; intros mp c Hok; [constructor|].
  cbn [mp_run]. unfold mp_call. cbn [with_cache mp_cache mp_sds mp_ifs mp_nd mp_loc].
  change (slot_of (with_cache mp c) k) with (slot_of mp k). fold (answer mp k).
  destruct (cache_get c (slot_of mp k)) as [m|] eqn:Ec.
  - (* a hit: the matrix was stored by an accessor with the same slot *)
    constructor; [|exact (IH mp c Hok)].
    destruct (Hok _ _ Ec) as (k0 & Hs & Ha).
    destruct (same_slot_cases mp k k0 (eq_sym Hs)) as [->|(-> & Hc)];
      [left|right; split; [exact Hc|]]; now symmetry.
  - destruct (answer mp k) as [m|e] eqn:Ea.
    + constructor; [left; now symmetry|]. apply (IH mp ((slot_of mp k, m) :: c)).
      intros s m' Hget. cbn [cache_get] in Hget.
      destruct (slot_eqb (slot_of mp k) s) eqn:Es; [|exact (Hok s m' Hget)].
      apply slot_eqb_eq in Es. injection Hget as <-. now exists k.
    + constructor; [left; now symmetry|exact (IH mp c Hok)].
Qed.

Lemma mp_run_init : forall sds ifs nd loc ks,
    Forall2 (own_or_twin (mp_init sds ifs nd loc)) ks (mp_run (mp_init sds ifs nd loc) ks).
Proof.
  intros. apply (mp_run_spec ks (mp_init sds ifs nd loc) []). intros s m H. discriminate H.
Qed.

(* where the two flavours of a conforming side have the same per-interface matrices, the twin's
   construction is the accessor's own *)
Lemma own_or_twin_guarded : forall mp ks os,
    conf_guard mp -> Forall2 (own_or_twin mp) ks os -> os = map (answer mp) ks.
Proof.
  intros mp ks os Hg H. induction H as [|k o ks os Ho _ IH]; [reflexivity|].
  cbn [map]. f_equal; [|exact IH].
  destruct Ho as [->|(Hc & ->)]; [reflexivity|now apply twin_answer].
Qed.
