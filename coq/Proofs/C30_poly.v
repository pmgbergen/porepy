(* C30 — points_polygon (soundness; optimality relative to the plane / the boundary) and
   segment_set. *)
From Coq Require Import Reals Lra List Bool Arith Lia.
Import ListNotations.
From PP Require Import Model.C32 Model.C30 Proofs.C32 Proofs.C30 Proofs.C30_opt.
Open Scope R_scope.

Lemma nth_error_skipn_add {A} (l : list A) k n : nth_error (skipn k l) n = nth_error l (k + n).
Proof.
  revert l. induction k as [|k IH]; intros l; [reflexivity|].
  destruct l as [|x l]; [destruct n; reflexivity | apply IH].
Qed.

Notation ezR := (ez R RO).

(* m is a multiple of the unit normal n as soon as n is orthogonal to everything m is:
   x = (m.m) n - (m.n) m is orthogonal to m, so n.x = |m x n|^2 = 0 and m = (m.n) n *)
Lemma normal_parallel (m n : V) :
  dotR n n = 1 -> (forall x, dotR m x = 0 -> dotR n x = 0) ->
  forall x, dotR n x = 0 -> dotR m x = 0.
Proof.
  intros Hn H x Hx.
  specialize (H (vsubR (vscaleR (dotR m m) n) (vscaleR (dotR m n) m))).
  rewrite !dot_vsub, !dot_vscale, Hn, (dot_comm n m) in H.
  assert (Hc : crossR m n = zeroR).
  { apply dot_self_zero. rewrite lagrange, Hn. apply H. ring. }
  apply parallel_scale in Hc. apply (f_equal (dotR x)) in Hc.
  rewrite !dot_vscale, Hn, (dot_comm x n), Hx in Hc. rewrite dot_comm. lra.
Qed.

Lemma on_plane_segment (m a b : V) dd s :
  dotR m a = dd -> dotR m b = dd -> dotR m (vaddR a (vscaleR s (vsubR b a))) = dd.
Proof. intros Ha Hb. rewrite dot_vadd, dot_vscale, dot_vsub, Ha, Hb. ring. Qed.

Lemma normsq_split : forall p c y : V,
  normsqR (vsubR p y)
  = normsqR (vsubR p c) + normsqR (vsubR c y) + 2 * dotR (vsubR p c) (vsubR c y).
Proof. intros [[]] [[]] [[]]. coords. Qed.

(* the foot p - z n of the perpendicular from p onto the plane through center with unit
   normal n (the plane m.y = dd) is its point closest to p *)
Lemma foot_closest (m n center p : V) dd :
  dotR n n = 1 -> (forall x, dotR m x = 0 <-> dotR n x = 0) -> dotR m center = dd ->
  let z := dotR n (vsubR p center) in
  let cp := vsubR p (vscaleR z n) in
  dotR m cp = dd /\ z * z = normsqR (vsubR p cp) /\
  forall y, dotR m y = dd -> z * z <= normsqR (vsubR p y).
Proof.
  intros Hn Hmn Hc z cp.
  assert (Hd : vsubR p cp = vscaleR z n) by apply vsub_vsub.
  assert (Hz : z * z = normsqR (vsubR p cp)).
  { rewrite Hd. unfold normsq. rewrite dot_vscale, dot_comm, dot_vscale, Hn. ring. }
  assert (Hp : dotR m cp = dd).
  { unfold cp. rewrite <- (vadd_vsub_vsub center), dot_vadd, Hc. rewrite (proj2 (Hmn _)); [ring|].
    rewrite dot_vsub, dot_vscale, Hn. unfold z. ring. }
  split; [exact Hp|]. split; [exact Hz|]. intros y Hy.
  rewrite Hz, (normsq_split p cp y), Hd, dot_comm, dot_vscale, dot_comm.
  rewrite (proj1 (Hmn (vsubR cp y))) by (rewrite dot_vsub, Hp, Hy; ring).
  pose proof (dot_self_nonneg (vsubR cp y)). unfold normsq. lra.
Qed.

Definition plane_guard (n : V) : Prop := in_band n ezR = false \/ crossR n ezR = zero3 R RO.

Lemma dot_ez : forall v : V, dotR ezR v = vz v.
Proof. intros [[]]. unfold ez. coords. Qed.
Lemma vsub_ez : forall v : V, vsubR v (vscaleR (vz v) ezR) = (vx v, vy v, 0).
Proof. intros [[]]. unfold ez. coords. Qed.

(* for a unit n parallel to e_z, that is n = +-e_z, dropping the third coordinate is the
   orthogonal projection along n *)
Lemma drop_z (n w : V) :
  dotR n n = 1 -> crossR n ezR = zeroR ->
  vz w * vz w = dotR n w * dotR n w /\ (vx w, vy w, 0) = vsubR w (vscaleR (dotR n w) n).
Proof.
  destruct n as [[n0 n1] n2], w as [[w0 w1] w2]. unfold ez. rsimp. intros Hn G.
  injection G as G0 G1 _.
  assert (N0 : n0 = 0) by lra. assert (N1 : n1 = 0) by lra. subst n0 n1.
  destruct (Rmult_integral (n2 - 1) (n2 + 1)) as [N|N];
    [lra | assert (n2 = 1) by lra | assert (n2 = -1) by lra]; subst n2;
    (split; [|apply v3_ext]; lra).
Qed.

(* R^T (x, y, 0), where (x, y, z) = R w, is the orthogonal projection of w along n *)
Lemma back_projection (Rm : M) (n w : V) :
  dotR n n = 1 -> aligns Rm n ezR -> plane_guard n ->
  let pr := mvR Rm w in
  vz pr * vz pr = dotR n w * dotR n w /\
  mvR (mTR Rm) (vx pr, vy pr, 0) = vsubR w (vscaleR (dotR n w) n).
Proof.
  intros Hn (Ho & _ & Hout & Hin) G pr.
  destruct (in_band n ezR) eqn:EB.
  - (* identity; by the guard n = (0, 0, +-1) *)
    destruct (Hin eq_refl) as [-> _]. destruct G as [G|G]; [congruence|].
    subst pr. change (mTR identR) with identR. rewrite !mv_ident. exact (drop_z n w Hn G).
  - specialize (Hout eq_refl).
    assert (Hz : vz pr = dotR n w).
    { rewrite <- (orth_dot Rm n w Ho), Hout. symmetry. apply dot_ez. }
    split; [rewrite Hz; reflexivity|].
    assert (Hback : mvR (mTR Rm) pr = w) by (subst pr; rewrite mv_mm, Ho; apply mv_ident).
    assert (Hn' : mvR (mTR Rm) ezR = n) by (rewrite <- Hout, mv_mm, Ho; apply mv_ident).
    rewrite <- (vsub_ez pr), <- mv_sub, mv_vscale, Hback, Hn', Hz. reflexivity.
Qed.

(* with the start value counted as head of the list: the result is a member and a minimum,
   and no member is an error *)
Lemma argmin_ps_spec (l : list (res (R * V))) : forall best res,
  argmin_ps R RO l best = Ok res ->
  In (Ok res) (Ok best :: l) /\
  Forall (fun x => exists r, x = Ok r /\ fst res <= fst r) (Ok best :: l).
Proof.
  induction l as [|x l IH]; intros best res H; cbn [argmin_ps] in H.
  - injection H as <-. split; [left; reflexivity|].
    constructor; [exists best; split; [reflexivity | lra] | constructor].
  - destruct x as [r|e]; [|discriminate]. cbn [n_ltb RO] in H.
    destruct (IH _ _ H) as [Hin Hall]. inversion Hall as [|? ? (b' & Eb & Hb) Hl]; subst.
    assert (fst res <= fst best /\ fst res <= fst r /\ In (Ok res) (Ok best :: Ok r :: l)).
    { destruct (Rltb_spec (fst r) (fst best)); injection Eb as <-;
        (split; [lra|]; split; [lra|]); destruct Hin as [Hin|Hin]; cbn; auto. }
    split; [tauto|]. repeat constructor; try assumption; eexists; (split; [reflexivity|]); tauto.
Qed.

Lemma in_roll1 {A} (x : A) l : In x (roll1 l) -> In x l.
Proof.
  destruct l as [|y l]; [intros []|]. cbn [roll1]. intros H. apply in_app_or in H as [H|[<-|[]]].
  - right; exact H.
  - left; reflexivity.
Qed.

Lemma edges_on_plane (m : V) dd poly e :
  Forall (fun v => dotR m v = dd) poly -> In e (edges R poly) ->
  dotR m (fst e) = dd /\ dotR m (snd e) = dd.
Proof.
  rewrite Forall_forall. intros Hall He. destruct e as [a b]. unfold edges in He.
  split; apply Hall; [eapply in_combine_l | apply in_roll1; eapply in_combine_r]; exact He.
Qed.

Theorem points_polygon_spec (ptol tol : R) (p : V) (poly : list V) (m : V) (dd : R)
        (d2 : R) (cp : V) (inp : bool) :
  0 < dotR m m -> Forall (fun v => dotR m v = dd) poly ->
  points_polygon R RO ptol tol p poly = Ok (d2, cp, inp) ->
  let center := meanR poly in
  exists n, compute_normal R RO (map (fun v => vsubR v center) poly) ptol = Ok n /\
    dotR n n = 1 /\ (forall x, dotR m x = 0 <-> dotR n x = 0) /\
    (inp = false ->
       dotR m cp = dd /\ d2 = normsqR (vsubR p cp) /\
       (exists e s, In e (edges R poly) /\ 0 <= s <= 1 /\
                    cp = vaddR (fst e) (vscaleR s (vsubR (snd e) (fst e)))) /\
       (forall e t, In e (edges R poly) -> 0 <= t <= 1 ->
          d2 <= normsqR (vsubR p (vaddR (fst e) (vscaleR t (vsubR (snd e) (fst e))))))) /\
    (inp = true -> plane_guard n ->
       dotR m cp = dd /\ d2 = normsqR (vsubR p cp) /\
       cp = vsubR p (vscaleR (dotR n (vsubR p center)) n) /\
       (forall y, dotR m y = dd -> d2 <= normsqR (vsubR p y))).
Proof.
  intros Hm Hall. unfold points_polygon. cbv zeta.
  set (center := meanR poly). set (polyc := map (fun v => vsubR v center) poly).
  destruct (plane_matrix_pts R RO polyc ptol ezR) as [rot|e] eqn:EP; [|discriminate].
  assert (Hne : poly <> []) by (intros ->; discriminate).
  pose proof (mean_on_plane m dd poly Hne Hall) as Hc. fold center in Hc.
  pose proof (centered_perp m center dd poly Hall Hc) as Hallc. fold polyc in Hallc.
  assert (Hez : dotR ezR ezR = 1) by apply dot_ez.
  destruct (plane_matrix_pts_spec polyc ptol ezR m 0 rot Hm Hallc Hez EP) as (n & EN & HA & _).
  destruct (compute_normal_spec polyc ptol m 0 n Hm Hallc EN) as (Hn & Hx & _).
  assert (Hmn : forall x, dotR m x = 0 <-> dotR n x = 0)
    by (intros x; split; [apply Hx | apply (normal_parallel m n Hn Hx)]).
  destruct (negb _); [discriminate|]. intros HEQ.
  exists n. split; [exact EN|]. split; [exact Hn|]. split; [exact Hmn|].
  destruct (point_in_polygon _ _ _ _).
  - (* inside: orthogonal projection *)
    split; [intros ->; discriminate|]. intros _ G.
    change (n_mul R RO) with Rmult in HEQ. change (n_zero R RO) with 0 in HEQ.
    destruct (back_projection rot n (vsubR p center) Hn HA G) as [E1 E2].
    rewrite E1, E2, vadd_vsub_vsub in HEQ.
    destruct (foot_closest m n center p dd Hn Hmn Hc) as (Hp & Hz & Hmin).
    set (z := dotR n (vsubR p center)) in *.
    replace d2 with (z * z) by congruence.
    replace cp with (vsubR p (vscaleR z n)) by congruence. auto.
  - (* outside: minimum over the edges *)
    destruct (map _ (edges R poly)) as [|[r|e] l] eqn:EM; try discriminate.
    destruct (argmin_ps R RO l r) as [[d2' cp']|e] eqn:EA; [|discriminate].
    injection HEQ as <- <- <-. split; [|discriminate]. intros _.
    destruct (argmin_ps_spec l r _ EA) as [Hin Hmin]. rewrite <- EM in Hin, Hmin.
    apply in_map_iff in Hin as (e0 & He0 & Hin0).
    destruct (point_segment_spec p _ _ _ _ He0) as ((s & Hs & ->) & Hd2 & _).
    split; [apply on_plane_segment; apply (edges_on_plane m dd poly e0 Hall Hin0)|].
    split; [exact Hd2|]. split; [exists e0, s; auto|].
    intros e t He Ht. rewrite Forall_map, Forall_forall in Hmin.
    destruct (Hmin e He) as ([d2e cpe] & Ee & Hle).
    destruct (point_segment_spec p _ _ _ _ Ee) as (_ & _ & Hopt).
    specialize (Hopt t Ht). cbn [fst] in Hle. lra.
Qed.

Lemma upper_nth (segs : list (V * V)) : forall i si,
  nth_error segs i = Some si ->
  nth_error (segment_set_upper R RO segs) i
  = Some (seg_seg_set R RO (fst si) (snd si) (skipn (S i) segs)).
Proof.
  induction segs as [|s rest IH]; intros [|i] si H; try discriminate.
  - injection H as <-. reflexivity.
  - exact (IH i si H).
Qed.

Theorem segment_set_spec (segs : list (V * V)) (i j : nat) (si sj : V * V) :
  Forall proper segs -> (i < j)%nat ->
  nth_error segs i = Some si -> nth_error segs j = Some sj ->
  exists d2 p q sc tc,
    sset_entry R RO segs i j = Ok (d2, p) /\ sset_entry R RO segs j i = Ok (d2, q) /\
    0 <= sc <= 1 /\ 0 <= tc <= 1 /\
    p = vaddR (fst si) (vscaleR sc (vsubR (snd si) (fst si))) /\
    q = vaddR (fst sj) (vscaleR tc (vsubR (snd sj) (fst sj))) /\
    d2 = normsqR (vsubR p q) /\
    (off_band R RO (fst si) (snd si) (fst sj) (snd sj) = true ->
     forall s t, 0 <= s <= 1 -> 0 <= t <= 1 ->
       d2 <= normsqR (vsubR (vaddR (fst si) (vscaleR s (vsubR (snd si) (fst si))))
                            (vaddR (fst sj) (vscaleR t (vsubR (snd sj) (fst sj)))))).
Proof.
  intros Hall Hij Hi Hj. rewrite Forall_forall in Hall.
  pose proof (Hall _ (nth_error_In _ _ Hi)) as Hpi.
  pose proof (Hall _ (nth_error_In _ _ Hj)) as Hpj.
  assert (Hjn : nth_error (skipn (S i) segs) (j - i - 1) = Some sj).
  { rewrite nth_error_skipn_add. replace (S i + (j - i - 1))%nat with j by lia. exact Hj. }
  destruct (seg_seg_sound (fst si) (snd si) (fst sj) (snd sj) Hpi Hpj)
    as (d2 & p & q & sc & tc & E & Hsc & Htc & Hp & Hq & Hd).
  exists d2, p, q, sc, tc. unfold sset_entry.
  rewrite (proj2 (Nat.eqb_neq i j)), (proj2 (Nat.eqb_neq j i)), (proj2 (Nat.ltb_lt i j)),
    (proj2 (Nat.ltb_ge j i)) by lia.
  rewrite (upper_nth segs i si Hi). unfold seg_seg_set.
  rewrite (map_nth_error _ _ _ Hjn), E.
  repeat (split; [reflexivity || assumption|]).
  intros Hoff. exact (seg_seg_optimal _ _ _ _ d2 p q sc tc Hpi Hpj Hoff E).
Qed.
