(* C26 — proofs about PP.Model.C26 (mortar projection bookkeeping).  Every sum the properties
   speak of (row, column, per side) selects entries by their indices; such a sum survives
   the summing of duplicates (mcompress_wsum), and for a product, which is a table in the
   sense of Proofs.C33, it is a double sum read row-wise or column-wise (mmul_row_sum,
   mmul_csum). *)
From Coq Require Import List QArith Bool Arith Lia Lqa Permutation.
Import ListNotations.
From PP Require Import Lib.ListFacts Model.C33 Proofs.C33 Model.C26.
Open Scope Q_scope.

(* p selects the rows of one mortar side *)
Definition csum (p : nat -> bool) (a : mat) (j : nat) : Q :=
  qsum (map ewt (filter (fun e => p (erow e) && Nat.eqb (ecol e) j) a)).
Definition rsum (p : nat -> bool) (a : mat) (i : nat) : Q :=
  qsum (map ewt (filter (fun e => Nat.eqb (erow e) i && p (ecol e)) a)).

Definition wsum (p : entry -> bool) (a : mat) : Q := qsum (map ewt (filter p a)).
Definition key_respecting (p : entry -> bool) : Prop :=
  forall e1 e2, erow e1 = erow e2 -> ecol e1 = ecol e2 -> p e1 = p e2.

Lemma mtrans_sum : forall (p : entry -> bool) a,
    qsum (map ewt (filter p (mtrans a))) =
    qsum (map ewt (filter (fun e => p (ecol e, erow e, ewt e)) a)).
Proof. intros. unfold mtrans. rewrite filter_map_swap, map_map. reflexivity. Qed.

Definition transposes_ok (s : mstate) : Prop :=
  m2p_int s = mtrans (p2m_avg s) /\ m2p_avg s = mtrans (p2m_int s) /\
  m2s_int s = mtrans (s2m_avg s) /\ m2s_avg s = mtrans (s2m_int s).

Lemma init_transposes : forall sg np ns ps fdi s,
    init_projections sg np ns ps fdi = inr s -> transposes_ok s.
Proof.
  intros sg np ns ps fdi s H. unfold init_projections in H.
  destruct (if (length sg =? 2)%nat then _ else _) as [e|ts]; [discriminate|].
  destruct (negb _); [discriminate|]. injection H as <-. repeat split.
Qed.

Lemma update_mortar_with_transposes : forall ba bi sd s s',
    update_mortar_with ba bi sd s = inr s' -> transposes_ok s'.
Proof.
  intros ba bi sd s s' H. unfold update_mortar_with in H.
  destruct (check_mappings _); [|discriminate]. injection H as <-. repeat split.
Qed.

Lemma update_secondary_with_transposes : forall ba bi ns s s',
    transposes_ok s -> update_secondary_with ba bi ns s = inr s' -> transposes_ok s'.
Proof.
  intros ba bi ns s s' [T1 [T2 _]] H. unfold update_secondary_with in H.
  destruct (check_mappings _); [|discriminate]. injection H as <-. repeat split; assumption.
Qed.

Lemma step_transposes : forall nrm tol s o s',
    transposes_ok s -> step nrm tol s o = inr s' -> transposes_ok s'.
Proof.
  intros nrm tol s o s' T H. destruct o as [news|g|news|blocks nsec]; cbn [step] in H.
  - unfold update_mortar in H.
    destruct (mortar_blocks _ _ _ _ _); [discriminate|].
    destruct (mortar_blocks _ _ _ _ _); [discriminate|].
    exact (update_mortar_with_transposes _ _ _ _ _ H).
  - unfold update_secondary in H.
    destruct (secondary_blocks _ _ _ _ _); [discriminate|].
    destruct (secondary_blocks _ _ _ _ _); [discriminate|].
    exact (update_secondary_with_transposes _ _ _ _ _ T H).
  - exact (update_mortar_with_transposes _ _ _ _ _ H).
  - exact (update_secondary_with_transposes _ _ _ _ _ T H).
Qed.

Fixpoint last_state (s : mstate) (l : list (merr + mstate)) : merr + mstate :=
  match l with
  | [] => inr s
  | inl e :: _ => inl e
  | inr s' :: r => last_state s' r
  end.

Lemma run_transposes : forall nrm tol ops s s',
    transposes_ok s -> last_state s (run nrm tol s ops) = inr s' -> transposes_ok s'.
Proof.
  induction ops as [|o r IH]; intros s s' T H; cbn [run last_state] in H.
  - injection H as <-. exact T.
  - destruct (step nrm tol s o) as [e|s1] eqn:E; cbn [last_state] in H; [discriminate|].
    exact (IH _ _ (step_transposes _ _ _ _ _ T E) H).
Qed.

Lemma minsert_wsum : forall p e l, key_respecting p ->
    wsum p (minsert e l) == wsum p (e :: l).
Proof.
  intros p e l Hp. unfold wsum. rewrite !qsum_filter. cbn [map]. rewrite qsum_cons.
  induction l as [|y r IH]; cbn [minsert map]; [rewrite qsum_cons; reflexivity|].
  destruct ((erow e =? erow y)%nat && (ecol e =? ecol y)%nat) eqn:K.
  - apply andb_prop in K. destruct K as [K1 K2]. apply Nat.eqb_eq in K1, K2.
    cbn [map]. rewrite !qsum_cons, (Hp e y K1 K2), (Hp (erow y, ecol y, _) y eq_refl eq_refl).
    destruct (p y); [cbn [ewt snd]; rewrite Qred_correct|]; ring.
  - destruct (_ || _); cbn [map]; rewrite !qsum_cons; [reflexivity|]. rewrite IH. ring.
Qed.

Lemma mcompress_wsum : forall p a, key_respecting p -> wsum p (mcompress a) == wsum p a.
Proof.
  intros p a Hp. induction a as [|e a IH]; cbn [mcompress fold_right]; [reflexivity|].
  fold (mcompress a). rewrite (minsert_wsum p e _ Hp). unfold wsum in *. cbn [filter].
  destruct (p e); cbn [map]; rewrite ?qsum_cons, IH; reflexivity.
Qed.

Lemma mmul_table : forall a b,
    mmul a b = table erow ecol (fun x y => erow y =? ecol x)%nat (fun x y => ewt x * ewt y) a b.
Proof. reflexivity. Qed.

(* (A*B) 1 = A (B 1) *)
Lemma mmul_row_sum : forall a b i,
    row_sum (mmul a b) i ==
    qsum (map (fun x => ewt x * row_sum b (ecol x)) (filter (fun x => Nat.eqb (erow x) i) a)).
Proof.
  intros a b i. unfold row_sum at 1.
  rewrite mmul_table, (table_sum _ _ _ _ (fun r _ => r =? i)%nat), qsum_filter.
  apply qsum_map_ext. intros x _. destruct (erow x =? i)%nat.
  - unfold row_sum. rewrite Qmult_comm, <- qsum_map_scale, qsum_filter.
    apply qsum_map_ext. intros y _. rewrite andb_true_r. destruct (_ =? _)%nat; ring.
  - apply qsum_zero. intros y _. rewrite andb_false_r. reflexivity.
Qed.

(* 1_p^T (A*B) = (1_p^T A) B *)
Lemma mmul_csum : forall p a b j,
    csum p (mmul a b) j ==
    qsum (map (fun y => ewt y * csum p a (erow y)) (filter (fun y => Nat.eqb (ecol y) j) b)).
Proof.
  intros p a b j. unfold csum at 1.
  rewrite mmul_table, (table_sum _ _ _ _ (fun r c => p r && (c =? j)%nat)), qsum_swap, qsum_filter.
  apply qsum_map_ext. intros y _. destruct (ecol y =? j)%nat.
  - unfold csum. rewrite Qmult_comm, <- qsum_map_scale, qsum_filter.
    apply qsum_map_ext. intros x _. rewrite andb_true_r, (Nat.eqb_sym (erow y)).
    destruct (p (erow x)), (ecol x =? erow y)%nat; cbn [andb]; ring.
  - apply qsum_zero. intros x _. rewrite !andb_false_r. reflexivity.
Qed.

(* left multiplication by a matrix keeps unit row sums: averaged maps stay averaged *)
Lemma mmul_unit_rows : forall a b i,
    (forall x, In x a -> erow x = i -> row_sum b (ecol x) == 1) ->
    row_sum (mmul a b) i == row_sum a i.
Proof.
  intros a b i H. rewrite mmul_row_sum. apply qsum_map_ext. intros x Hx.
  apply filter_In in Hx. destruct Hx as [Hin Hr]. apply Nat.eqb_eq in Hr.
  rewrite (H x Hin Hr). ring.
Qed.

(* left multiplication by M maps the column sums over the rows p of the product to the
   column sums over the rows q of the factor, when M's column sums over p are the
   indicator of q: integrated maps stay integrated, side by side *)
Lemma mmul_side_cols : forall (p q : nat -> bool) (a b : mat) (j : nat),
    (forall y, In y b -> ecol y = j ->
       csum p a (erow y) == if q (erow y) then 1 else 0) ->
    csum p (mmul a b) j == csum q b j.
Proof.
  intros p q a b j H. rewrite mmul_csum. unfold csum at 2.
  rewrite !qsum_filter. apply qsum_map_ext. intros y Hy.
  destruct (Nat.eqb_spec (ecol y) j) as [E|]; [|rewrite andb_false_r; reflexivity].
  rewrite (H y Hy E). destruct (q (erow y)); cbn [andb]; ring.
Qed.

Lemma key_respecting_idx : forall f : nat -> nat -> bool,
    key_respecting (fun e => f (erow e) (ecol e)).
Proof. intros f e1 e2 -> ->. reflexivity. Qed.

Definition total_cells (gs : list (list cell)) : nat :=
  fold_right (fun g acc => (length g + acc)%nat) 0%nat gs.

(* the side restrictions pick every mortar cell exactly once, side after side: their columns,
   concatenated, are 0, 1, ..., num_cells-1; row r of side k is its r-th cell; all weights 1 *)
Lemma proj_blocks_partition : forall gs counter,
    map ecol (concat (proj_blocks counter gs)) = seq counter (total_cells gs) /\
    Forall (fun e => ewt e = 1) (concat (proj_blocks counter gs)) /\
    map (map erow) (proj_blocks counter gs) = map (fun g => seq 0 (length g)) gs.
Proof.
  induction gs as [|g rest IH]; intros counter; cbn [proj_blocks concat map total_cells fold_right].
  - repeat split; constructor.
  - destruct (IH (counter + length g)%nat) as [I1 [I2 I3]]. repeat split.
    + rewrite map_app, I1, map_map. cbn [ecol fst snd].
      rewrite (map_ext _ _ (fun r => Nat.add_comm r counter)), map_add_seq, Nat.add_0_r.
      symmetry. apply seq_app.
    + apply Forall_app. split; [|exact I2]. apply Forall_map, Forall_forall. reflexivity.
    + rewrite I3, map_map. cbn [erow fst]. rewrite map_id. reflexivity.
Qed.
